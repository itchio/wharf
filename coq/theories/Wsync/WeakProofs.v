(** The weak hash of a block is [WeakSum.weak] of its bytes ([bhash_spec]: the loop wraps at every
    step, [WeakSum.accumulate]), and the rolling update is the weak hash of the shifted window
    ([roll_bhash]: uint32 arithmetic, then modulo 2^16). *)
From Wharf Require Import Base.Prelude Base.WeakSum Wsync.Weak.
From Coq Require Import ZifyBool ZifyNat ZifyN.
Local Open Scope N_scope.

Lemma u32_mod x : u32 x = x mod W32.
Proof. exact (mask32_mod x). Qed.

Lemma modM_mod x : modM x = x mod M16.
Proof. exact (mask16_mod x). Qed.

Lemma bhash_loop_closed l len i a b :
  i + N.of_nat (length l) = len ->
  bhash_loop len i l (a mod W32) (b mod W32) = ((a + sum1 l) mod W32, (b + sum2 l) mod W32).
Proof.
  apply (accumulate (fun len i a b l => bhash_loop len i l a b) (fun x => x mod W32)); [reflexivity|].
  intros. cbn [bhash_loop].
  rewrite !u32_mod, N.add_mod_idemp_r, !N.add_mod_idemp_l by discriminate. reflexivity.
Qed.

Lemma bhash_spec block :
  bhash block = (weak block, sum1 block mod M16, sum2 block mod M16).
Proof.
  unfold bhash. rewrite (bhash_loop_closed block _ 0 0 0), !modM_mod, !mod_two32_two16 by lia. reflexivity.
Qed.

(** the update reduces its operands itself, so they need no bound *)
Theorem roll_bhash (x y : N) (m : list N) :
  let '(_, b1, b2) := bhash (x :: m) in
  roll (N.of_nat (length (x :: m))) x y b1 b2 = bhash (m ++ [y]).
Proof.
  rewrite !bhash_spec. unfold roll. rewrite !u32_mod, !modM_mod, N.mul_mod_idemp_l by discriminate.
  rewrite (sub_add_mod16 _ (sum1 (m ++ [y])) x y), (sub_add_mod16 _ (sum2 (m ++ [y])) _ _).
  - reflexivity.
  - rewrite N.add_mod_idemp_r, sum2_roll by discriminate. reflexivity.
  - rewrite sum1_roll. reflexivity.
Qed.
