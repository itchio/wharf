(** The library built from the signature of the old files.  The contract between library and
    differ: what a reported match means ([lookup_sound]) and which windows are found
    ([lookup_complete]); the lookup that [diff_ops] hands to the differ ([lookup_of]) is sound
    ([lookup_in_sound]) and finds every window that holds a signed block ([lookup_in_block]; at the
    file's own block positions [lookup_in_complete]).  [signed_block] as a slice
    ([file_block_signed], [signed_block_sub]). *)
From Wharf Require Import Base.Prelude Base.BlocksLemmas Wsync.Weak Wsync.Library Wsync.Sign Wsync.Spec Wsync.ApplyProofs.
From Coq Require Import ZifyBool ZifyNat ZifyN.
Local Open Scope N_scope.

(** what the differ needs from the library: a reported match is a signed block, of the
    short-size class of the window, with the content of the window *)
Definition lookup_sound (bs : N) (olds : list (list N)) (src : list N)
           (lookup : N -> N -> N -> N -> option (N * N)) : Prop :=
  forall weak a wlen short f i,
    lookup weak a wlen short = Some (f, i) -> a + wlen <= len src -> wlen <= bs ->
    0 < wlen /\ short = (if wlen <? bs then wlen else 0) /\
    exists old, nth_error olds (N.to_nat f) = Some old /\ bs * i + wlen <= len old /\
                sub old (bs * i) bs = sub src a wlen.

(** every block of the source is found at its own position (a full block, or the short last one) *)
Definition lookup_complete (bs : N) (src : list N) (lookup : N -> N -> N -> N -> option (N * N)) : Prop :=
  forall k wlen,
    0 < wlen -> wlen <= bs -> bs * k + wlen <= len src -> (wlen < bs -> bs * k + wlen = len src) ->
    lookup (weak_of (sub src (bs * k) wlen)) (bs * k) wlen (if wlen <? bs then wlen else 0) <> None.

(** the lookup that [diff_ops] hands to the differ *)
Definition lookup_of {H} (shash : list N -> H) (heqb : H -> H -> bool) (bs : N) (olds : list (list N))
           (src : list N) (pref : option N) : N -> N -> N -> N -> option (N * N) :=
  lookup_in heqb (sign_all shash bs 0 olds) pref (fun a l => shash (sub src a l)).

Lemma blocks_nth {A} (bs : nat) : (0 < bs)%nat -> forall (i : nat) (l : list A) (b : list A),
  nth_error (blocks bs l) i = Some b ->
  b = firstn bs (skipn (i * bs) l) /\ (i * bs < length l)%nat.
Proof.
  intros Hbs i l b. exact (blocks_nth_inv bs Hbs i l b).
Qed.

Lemma file_block_signed bs olds f old k wlen :
  0 < bs -> nth_error olds (N.to_nat f) = Some old ->
  0 < wlen -> wlen <= bs -> bs * k + wlen <= len old -> (wlen < bs -> bs * k + wlen = len old) ->
  signed_block bs olds f k (sub old (bs * k) wlen).
Proof.
  intros Hbs Hf Hw0 Hwbs Hin Hshort. exists old. split; [assumption|].
  assert (Hk : (N.to_nat k * N.to_nat bs < length old)%nat) by (unfold len in Hin; nia).
  pose proof (BlocksLemmas.blocks_nth (N.to_nat bs) ltac:(lia) _ _ Hk) as Hn.
  unfold file_blocks. destruct (blocks (N.to_nat bs) old); [destruct (N.to_nat k); discriminate|].
  rewrite Hn. f_equal. transitivity (sub old (bs * k) bs); [unfold sub; f_equal; f_equal; lia|].
  destruct (N.eq_dec wlen bs) as [->|Hne]; [reflexivity|]. symmetry. apply sub_beyond; lia.
Qed.

Lemma signed_block_sub bs olds f i blk :
  0 < bs -> signed_block bs olds f i blk -> 0 < len blk ->
  exists old, nth_error olds (N.to_nat f) = Some old /\ blk = sub old (bs * i) bs /\ bs * i + len blk <= len old.
Proof.
  intros Hbs (old & Hf & Hblk) Hpos. exists old. split; [assumption|].
  assert (Hreal : nth_error (blocks (N.to_nat bs) old) (N.to_nat i) = Some blk).
  { unfold file_blocks in Hblk. destruct (blocks (N.to_nat bs) old); [|exact Hblk].
    destruct (N.to_nat i) as [|[|k]]; [injection Hblk as <-; discriminate Hpos|discriminate..]. }
  destruct (blocks_nth (N.to_nat bs) ltac:(lia) _ _ _ Hreal) as [Hb Hlt].
  assert (Hsub : blk = sub old (bs * i) bs) by (rewrite Hb; unfold sub; f_equal; f_equal; lia).
  split; [exact Hsub|]. rewrite Hsub, sub_len_min. unfold len. lia.
Qed.

Section Signature.
  Variable H : Type.
  Variable shash : list N -> H.
  Variable bs : N.

  Lemma sign_blocks_iff file : forall bl idx e,
    In e (sign_blocks shash bs file idx bl) <->
    exists j blk, nth_error bl j = Some blk /\ e = hash_block shash bs file (idx + N.of_nat j) blk.
  Proof.
    induction bl as [|b r IH]; intros idx e; cbn [sign_blocks In];
      [split; [contradiction|intros ([] & ? & ? & _); discriminate]|].
    rewrite IH. split.
    - intros [<-|(j & blk & Hn & ->)]; [exists 0%nat, b|exists (S j), blk];
        (split; [assumption||reflexivity|f_equal; lia]).
    - intros ([|j] & blk & Hn & ->);
        [left; injection Hn as ->; f_equal; lia|right; exists j, blk; split; [exact Hn|f_equal; lia]].
  Qed.

  Lemma sign_all_iff : forall olds base e,
    In e (sign_all shash bs base olds) <->
    exists f old i blk, nth_error olds f = Some old /\ nth_error (file_blocks bs old) i = Some blk /\
                        e = hash_block shash bs (base + N.of_nat f) (N.of_nat i) blk.
  Proof.
    induction olds as [|o r IH]; intros base e; cbn [sign_all];
      [split; [contradiction|intros ([] & ? & ? & ? & ? & _); discriminate]|].
    rewrite in_app_iff, IH. unfold sign_file. rewrite sign_blocks_iff. split.
    - intros [(i & blk & Hn & ->)|(f & old & i & blk & Hf & Hn & ->)];
        [exists 0%nat, o, i, blk|exists (S f), old, i, blk];
        (split; [assumption||reflexivity|]); (split; [assumption|f_equal; lia]).
    - intros ([|f] & old & i & blk & Hf & Hn & ->);
        [left; injection Hf as ->; exists i, blk|right; exists f, old, i, blk; split; [exact Hf|]];
        (split; [assumption|f_equal; lia]).
  Qed.
End Signature.

Section LibraryProofs.
  Variable H : Type.
  Variable shash : list N -> H.
  Variable heqb : H -> H -> bool.
  Variable bs : N.
  Hypothesis bs_pos : 0 < bs.
  Hypothesis heqb_sound : forall x y, heqb x y = true -> x = y.

  Lemma find_unique_hash_some hh wlen wh short pref e :
    find_unique_hash heqb hh wlen wh short pref = Some e ->
    wlen <> 0 /\ In e hh /\ eshort e = short /\ estrong e = wh tt.
  Proof.
    unfold find_unique_hash. destruct (wlen =? 0) eqn:Ew; [discriminate|]. apply N.eqb_neq in Ew. intros Hf.
    assert (Hok : In e hh /\ (eshort e =? short) && heqb (estrong e) (wh tt) = true).
    { destruct pref as [p|]; [|exact (find_some _ _ Hf)].
      destruct (find (fun e0 => (efile e0 =? p) && _) hh) eqn:E1; [|exact (find_some _ _ Hf)].
      injection Hf as <-. apply find_some in E1 as [Hin E]. apply andb_true_iff in E. tauto. }
    destruct Hok as [Hin Hok]. apply andb_true_iff in Hok as [Hs Hh]. apply N.eqb_eq in Hs. auto.
  Qed.

  Lemma find_unique_hash_finds hh wlen wh short pref e :
    wlen <> 0 -> In e hh -> eshort e = short -> heqb (estrong e) (wh tt) = true ->
    find_unique_hash heqb hh wlen wh short pref <> None.
  Proof.
    intros Hw Hin Hs Hh. unfold find_unique_hash. apply N.eqb_neq in Hw. rewrite Hw.
    destruct (match pref with Some p => _ | None => None end); [discriminate|].
    destruct (find _ hh) eqn:Ef; [discriminate|].
    pose proof (find_none _ _ Ef e Hin) as Hn. cbv beta in Hn. rewrite Hs, N.eqb_refl, Hh in Hn. discriminate.
  Qed.

  Lemma lookup_in_eq lib pref swin weak a wlen short :
    lookup_in heqb lib pref swin weak a wlen short =
    option_map (fun e => (efile e, eidx e)) (find_unique_hash heqb (hash_lookup lib weak) wlen (fun _ => swin a wlen) short pref).
  Proof.
    unfold lookup_in. destruct (hash_lookup lib weak); [|reflexivity].
    unfold find_unique_hash. destruct (wlen =? 0), pref; reflexivity.
  Qed.

  Variable olds : list (list N).
  Variable src : list N.
  Variable pref : option N.
  Hypothesis Hinj : strong_injective shash bs olds src.

  Theorem lookup_in_sound : lookup_sound bs olds src (lookup_of shash heqb bs olds src pref).
  Proof.
    intros weak a wlen short f i Hl Hin Hwbs. unfold lookup_of in Hl. rewrite lookup_in_eq in Hl.
    destruct (find_unique_hash heqb _ wlen _ short pref) as [e|] eqn:Ef; [|discriminate].
    injection Hl as <- <-.
    destruct (find_unique_hash_some _ _ _ _ _ _ Ef) as (Hw0 & Hine & Hshort & Hstrong).
    apply filter_In in Hine as [Hine _].
    destruct (proj1 (sign_all_iff H shash bs olds 0 e) Hine) as (f & old & i & blk & Hold & Hblk & ->).
    cbn [hash_block efile eidx eshort estrong] in *. fold (len blk) in Hshort.
    assert (Hsig : signed_block bs olds (0 + N.of_nat f) (N.of_nat i) blk)
      by (exists old; replace (N.to_nat (0 + N.of_nat f)) with f by lia; rewrite Nat2N.id; auto).
    assert (Heq : blk = sub src a wlen) by (apply (Hinj _ _ _ _ _ Hsig Hin); exact Hstrong).
    assert (Hlen : len blk = wlen) by (rewrite Heq; apply sub_len; assumption).
    destruct (signed_block_sub bs olds _ _ blk bs_pos Hsig ltac:(lia)) as (old' & Hold' & Hsub & Hle).
    rewrite Hlen in *. split; [lia|]. split; [auto|]. exists old'. rewrite <- Hsub. auto.
  Qed.
End LibraryProofs.

Section LibraryComplete.
  Variable H : Type.
  Variable shash : list N -> H.
  Variable heqb : H -> H -> bool.
  Variable bs : N.
  Hypothesis bs_pos : 0 < bs.
  Hypothesis heqb_refl : forall x, heqb x x = true.

  (** completeness: a window that holds a signed block is found (in the short-size class of
      the block) *)
  Lemma lookup_in_block olds src pref f i blk a :
    signed_block bs olds f i blk -> 0 < len blk -> blk = sub src a (len blk) ->
    lookup_of shash heqb bs olds src pref (weak_of blk) a (len blk) (if len blk <? bs then len blk else 0) <> None.
  Proof.
    intros (old & Hf & Hblk) Hpos Heq.
    set (e0 := hash_block shash bs (0 + N.of_nat (N.to_nat f)) (N.of_nat (N.to_nat i)) blk).
    assert (Hin0 : In e0 (hash_lookup (sign_all shash bs 0 olds) (weak_of blk)))
      by (apply filter_In; split; [apply sign_all_iff; eauto 7|apply N.eqb_refl]).
    unfold lookup_of. rewrite lookup_in_eq.
    pose proof (find_unique_hash_finds H heqb _ (len blk) (fun _ => shash (sub src a (len blk)))
                  (if len blk <? bs then len blk else 0) pref e0 ltac:(lia) Hin0 eq_refl) as Hfind.
    rewrite <- Heq in *. destruct (find_unique_hash _ _ _ _ _ _); [discriminate|].
    exfalso. apply Hfind; [apply heqb_refl|reflexivity].
  Qed.

  Variable olds : list (list N).
  Variable src : list N.
  Variable pref : option N.
  Variable f0 : N.
  Hypothesis Hsrc : nth_error olds (N.to_nat f0) = Some src.

  Theorem lookup_in_complete : lookup_complete bs src (lookup_of shash heqb bs olds src pref).
  Proof.
    intros k wlen Hw0 Hwbs Hin Hshort.
    pose proof (lookup_in_block olds src pref f0 k _ (bs * k) (file_block_signed bs olds f0 src k wlen bs_pos Hsrc Hw0 Hwbs Hin Hshort)) as Hl.
    rewrite (sub_len src (bs * k) wlen Hin) in Hl. auto.
  Qed.
End LibraryComplete.
