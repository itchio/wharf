(** FreshBytes + ReusedBytes = size of the new file: the accounting of pwr's operation writer
    counts exactly the bytes the operations denote when the ranges are in bounds. *)
From Wharf Require Import Base.Prelude Wsync.Account Wsync.Spec Wsync.EditSpec Wsync.ApplyProofs.
From Coq Require Import ZifyBool ZifyNat ZifyN.
Local Open Scope N_scope.

Section AccountProofs.
  Variable bs : N.
  Variable olds : list (list N).
  Variable src : list N.
  Hypothesis bs_pos : 0 < bs.

  Lemma account_op_den o r0 f0 :
    range_ok bs olds o -> data_ok src o ->
    account_op (Z.of_N bs) (sizes_of olds) (r0, f0) (aop_of o) =
    Some (r0 + Z.of_nat (length (den_op bs olds src o)) - Z.of_N (data_len o), f0 + Z.of_N (data_len o))%Z.
  Proof.
    destruct o as [fi i sp|s l]; cbn [aop_of account_op range_ok data_ok den_op data_len].
    - intros (old & Hf & Hsp & Hin) _. unfold sizes_of.
      rewrite (map_nth_error _ _ _ Hf), (range_size bs bs_pos old i sp Hsp Hin), (nth_error_nth _ _ _ Hf).
      f_equal. f_equal; lia.
    - intros _ Hd. pose proof (sub_len src s l Hd) as Hl. unfold len in Hl. f_equal. f_equal. lia.
  Qed.

  Lemma account_den : forall ops r0 f0,
    Forall (range_ok bs olds) ops -> Forall (data_ok src) ops ->
    account (Z.of_N bs) (sizes_of olds) (r0, f0) (map aop_of ops) =
    Some (r0 + Z.of_nat (length (den bs olds src ops)) - Z.of_N (fresh_of ops), f0 + Z.of_N (fresh_of ops))%Z.
  Proof.
    induction ops as [|o rest IH]; intros r0 f0 Hr Hd.
    - cbn. f_equal. f_equal; lia.
    - inversion Hr as [|? ? Ho Hr']; subst. inversion Hd as [|? ? Hdo Hd']; subst.
      cbn [map account fresh_of]. rewrite (account_op_den o r0 f0 Ho Hdo), (IH _ _ Hr' Hd').
      change (den bs olds src (o :: rest)) with (den_op bs olds src o ++ den bs olds src rest).
      rewrite app_length. f_equal. f_equal; lia.
  Qed.
End AccountProofs.

Lemma account_fresh_of bs sizes : forall ops r0 f0 r f,
  account bs sizes (r0, f0) (map aop_of ops) = Some (r, f) -> f = (f0 + Z.of_N (fresh_of ops))%Z.
Proof.
  induction ops as [|o rest IH]; intros r0 f0 r f Ha.
  - cbn in Ha. injection Ha as _ <-. cbn. lia.
  - destruct o as [fi i sp|s l]; cbn [map aop_of account account_op] in Ha.
    + destruct (nth_error sizes (N.to_nat fi)); [|discriminate].
      rewrite (IH _ _ _ _ Ha). cbn [fresh_of data_len]. lia.
    + rewrite (IH _ _ _ _ Ha). cbn [fresh_of data_len]. lia.
Qed.

Lemma fresh_of_ranges ops : Forall is_range_op ops -> fresh_of ops = 0.
Proof. induction 1 as [|[] ? ? ? IH]; [reflexivity|exact IH|contradiction]. Qed.
