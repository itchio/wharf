(** The decision procedure of [EditSpec] for [no_weak_repeat] is sound (the examples of
    [Properties/C08.v] use it).  The C08 edit-bound statements themselves are derived in
    [Properties/C08.v] from [SyncProofs] (loop), [PieceProofs] (pieces, library) and [EditProofs] (edits). *)
From Wharf Require Import Base.Prelude Wsync.Spec Wsync.EditSpec.
From Coq Require Import ZifyBool ZifyNat ZifyN.
Local Open Scope N_scope.

Lemma nwr_b_sound bs src : nwr_b bs src = true -> no_weak_repeat bs src.
Proof.
  unfold nwr_b. rewrite forallb_forall. intros Hall p Hp Heq.
  assert (Hin : In (N.to_nat p) (seq 0 (length src))) by (apply in_seq; unfold len in Hp; lia).
  specialize (Hall _ Hin). cbv zeta in Hall. rewrite N2Nat.id in Hall.
  apply negb_true_iff, andb_false_iff in Hall. destruct Hall as [Hc|Hc].
  - apply N.leb_gt in Hc. lia.
  - apply N.eqb_neq in Hc. contradiction.
Qed.
