(** C08, the edit bound, part 2: a source that is a sequence of pieces (fresh bytes / stretches
    copied from old files).  Every complete block of an old file that lies inside a copied
    stretch is a sync point of the source; a stretch loses less than a block at each end that is
    off the block grid; [SyncProofs.fresh_le_unsynced_core] then bounds the fresh bytes.
    Also: the library finds every window that holds a complete old block ([lookup_in_finds],
    like [LibraryProofs.lookup_in_complete] an instance of [LibraryProofs.lookup_in_block]). *)
From Wharf Require Import Base.Prelude Base.Seg Wsync.Weak Wsync.Library Wsync.Sign Wsync.Spec Wsync.EditSpec Wsync.ApplyProofs Wsync.LibraryProofs Wsync.SyncProofs.
From Coq Require Import ZifyBool ZifyNat ZifyN.
Local Open Scope N_scope.

Lemma sub_app_skip {A} (pre l : list A) d m : sub (pre ++ l) (len pre + d) m = sub l d m.
Proof. unfold len. rewrite !sub_seg, N2Nat.inj_add, Nat2N.id. apply seg_app_r. Qed.

Lemma sub_app_within {A} (l post : list A) d m : d + m <= len l -> sub (l ++ post) d m = sub l d m.
Proof. unfold len. intros Hin. apply seg_app_l. lia. Qed.

Lemma sub_sub {A} (l : list A) o n d m : d + m <= n -> sub (sub l o n) d m = sub l (o + d) m.
Proof. intros Hin. rewrite !sub_seg, seg_seg, N2Nat.inj_add by lia. reflexivity. Qed.

Lemma len_app {A} (a b : list A) : len (a ++ b) = len a + len b.
Proof. unfold len. rewrite app_length. lia. Qed.

Section LibraryFinds.
  Variable H : Type.
  Variable shash : list N -> H.
  Variable heqb : H -> H -> bool.
  Variable bs : N.
  Hypothesis bs_pos : 0 < bs.
  Hypothesis heqb_refl : forall x, heqb x x = true.
  Variable olds : list (list N).
  Variable src : list N.
  Variable pref : option N.

  Theorem lookup_in_finds a :
    old_block_at bs olds src a ->
    lookup_in heqb (sign_all shash bs 0 olds) pref (fun a l => shash (sub src a l))
              (weak_of (sub src a bs)) a bs 0 <> None.
  Proof.
    intros (Hin & f & i & old & Hf & Hfull & Heq).
    pose proof (lookup_in_block H shash heqb bs bs_pos heqb_refl olds src pref f i _ a
                  (file_block_signed bs olds f old i bs bs_pos Hf bs_pos ltac:(lia) ltac:(lia) ltac:(lia))) as Hl.
    rewrite (sub_len old (bs * i) bs) in Hl by lia. rewrite Heq, N.ltb_irrefl in Hl. auto.
  Qed.
End LibraryFinds.

Fixpoint run_syncs (bs q : N) (c : nat) : list N :=
  match c with
  | O => []
  | S c' => q :: run_syncs bs (q + bs) c'
  end.

(** a stretch [old[o, o+n)] placed at offset [a] of the source: the blocks
    [first_blk bs o .. end_blk bs o n - 1] of the old file lie inside it *)
Definition first_blk (bs o : N) : N := (o + bs - 1) / bs.
Definition end_blk (bs o n : N) : N := (o + n) / bs.

Definition copy_syncs (bs a o n : N) : list N :=
  run_syncs bs (a + (bs * first_blk bs o - o)) (N.to_nat (end_blk bs o n - first_blk bs o)).

Definition piece_len (p : piece) : N := match p with PFresh d => len d | PCopy _ _ n => n end.

Fixpoint pieces_len (pl : list piece) : N :=
  match pl with [] => 0 | p :: r => piece_len p + pieces_len r end.

Fixpoint piece_syncs (bs a : N) (pl : list piece) : list N :=
  match pl with
  | [] => []
  | PFresh d :: r => piece_syncs bs (a + len d) r
  | PCopy f o n :: r => copy_syncs bs a o n ++ piece_syncs bs (a + n) r
  end.

Lemma gapped_weaken bs qs : forall lo lo', lo' <= lo -> gapped bs lo qs -> gapped bs lo' qs.
Proof. destruct qs as [|q r]; intros lo lo' Hle Hg; [exact I|]. destruct Hg as [Hq Hg]. split; [lia|exact Hg]. Qed.

Lemma gapped_run bs rest : forall c lo q,
  lo <= q -> gapped bs (q + bs * N.of_nat c) rest -> gapped bs lo (run_syncs bs q c ++ rest).
Proof.
  induction c as [|c IH]; intros lo q Hlo Hg.
  - cbn [run_syncs app]. eapply gapped_weaken; [|exact Hg]. lia.
  - cbn [run_syncs app gapped]. split; [exact Hlo|]. apply IH; [lia|].
    replace (q + bs + bs * N.of_nat c) with (q + bs * N.of_nat (S c)) by lia. exact Hg.
Qed.

Lemma run_syncs_len bs : forall c q, len (run_syncs bs q c) = N.of_nat c.
Proof. induction c as [|c IH]; intros q; [reflexivity|]. unfold len in *. cbn [run_syncs length]. specialize (IH (q + bs)). lia. Qed.

Lemma run_syncs_in bs : forall c q x, In x (run_syncs bs q c) -> exists j, j < N.of_nat c /\ x = q + bs * j.
Proof.
  induction c as [|c IH]; intros q x Hi; [contradiction|].
  cbn [run_syncs] in Hi. destruct Hi as [<-|Hi].
  - exists 0. split; lia.
  - destruct (IH _ _ Hi) as (j & Hj & ->). exists (j + 1). split; lia.
Qed.

Section Pieces.
  Variable bs : N.
  Hypothesis bs_pos : 0 < bs.
  Variable olds : list (list N).

  Lemma misal_le x : misal bs x <= 1.
  Proof. unfold misal. destruct (x mod bs =? 0); lia. Qed.

  Lemma first_blk_eq o : first_blk bs o = o / bs + misal bs o.
  Proof.
    unfold first_blk, misal.
    pose proof (N.div_mod o bs ltac:(lia)) as Hdm. pose proof (N.mod_lt o bs ltac:(lia)) as Hlt.
    set (k := o / bs) in *. set (r := o mod bs) in *. clearbody k r.
    destruct (r =? 0) eqn:E.
    - apply N.eqb_eq in E. symmetry. apply (N.div_unique _ _ _ (bs - 1)); [lia|].
      rewrite N.add_0_r. lia.
    - apply N.eqb_neq in E. symmetry. apply (N.div_unique _ _ _ (r - 1)); [lia|].
      rewrite N.mul_add_distr_l. lia.
  Qed.

  Lemma first_blk_bounds o : o <= bs * first_blk bs o <= o + (bs - 1) * misal bs o.
  Proof.
    rewrite first_blk_eq. unfold misal.
    pose proof (N.div_mod o bs ltac:(lia)) as Hd1. pose proof (N.mod_lt o bs ltac:(lia)) as Hl1.
    rewrite N.mul_add_distr_l. destruct (N.eqb_spec (o mod bs) 0); lia.
  Qed.

  Lemma end_blk_bounds o n : bs * end_blk bs o n <= o + n <= bs * end_blk bs o n + (bs - 1) * misal bs (o + n).
  Proof.
    unfold end_blk, misal.
    pose proof (N.div_mod (o + n) bs ltac:(lia)). pose proof (N.mod_lt (o + n) bs ltac:(lia)).
    destruct (N.eqb_spec ((o + n) mod bs) 0); lia.
  Qed.

  Lemma copy_count o n :
    n <= bs * (end_blk bs o n - first_blk bs o) + (bs - 1) * (misal bs o + misal bs (o + n)).
  Proof.
    pose proof (first_blk_bounds o). pose proof (end_blk_bounds o n).
    destruct (N.le_gt_cases (first_blk bs o) (end_blk bs o n)) as [Hle|Hgt].
    - rewrite N.mul_sub_distr_l. lia.
    - assert (bs * (end_blk bs o n + 1) <= bs * first_blk bs o) by (apply N.mul_le_mono_l; lia).
      replace (end_blk bs o n - first_blk bs o) with 0 by lia. lia.
  Qed.

  Lemma copy_syncs_in a o n x :
    In x (copy_syncs bs a o n) ->
    exists i, o <= bs * i /\ bs * (i + 1) <= o + n /\ x = a + (bs * i - o).
  Proof.
    unfold copy_syncs. intros Hi. destruct (run_syncs_in _ _ _ _ Hi) as (j & Hj & ->).
    pose proof (first_blk_bounds o). pose proof (end_blk_bounds o n).
    exists (first_blk bs o + j).
    assert (bs * (first_blk bs o + j + 1) <= bs * end_blk bs o n) by (apply N.mul_le_mono_l; lia). lia.
  Qed.

  Lemma copy_syncs_gapped a o n rest :
    gapped bs (a + n) rest -> gapped bs a (copy_syncs bs a o n ++ rest).
  Proof.
    intros Hg. unfold copy_syncs.
    pose proof (first_blk_bounds o) as H1. pose proof (end_blk_bounds o n) as H2.
    destruct (N.le_gt_cases (end_blk bs o n) (first_blk bs o)) as [Hle|Hgt].
    - replace (end_blk bs o n - first_blk bs o) with 0 by lia. cbn [N.to_nat run_syncs app].
      eapply gapped_weaken; [|exact Hg]. lia.
    - apply gapped_run; [lia|].
      eapply gapped_weaken; [|exact Hg]. rewrite N2Nat.id, N.mul_sub_distr_l.
      assert (bs * first_blk bs o <= bs * end_blk bs o n) by (apply N.mul_le_mono_l; lia). lia.
  Qed.

  Lemma piece_syncs_gapped : forall pl a, gapped bs a (piece_syncs bs a pl).
  Proof.
    induction pl as [|p r IH]; intros a; [exact I|]. destruct p as [d|f o n]; cbn [piece_syncs].
    - eapply gapped_weaken; [|apply IH]. lia.
    - apply copy_syncs_gapped. apply IH.
  Qed.

  Lemma piece_bytes_len p : piece_ok olds p -> len (piece_bytes olds p) = piece_len p.
  Proof.
    destruct p as [d|f o n]; cbn [piece_ok piece_bytes piece_len]; [reflexivity|].
    intros (old & Hf & Hin). rewrite (nth_error_nth _ _ _ Hf). apply sub_len. exact Hin.
  Qed.

  Lemma flatten_cons p r : flatten olds (p :: r) = piece_bytes olds p ++ flatten olds r.
  Proof. reflexivity. Qed.

  Lemma flatten_app a b : flatten olds (a ++ b) = flatten olds a ++ flatten olds b.
  Proof. unfold flatten. rewrite map_app, concat_app. reflexivity. Qed.

  Lemma flatten_len : forall pl, Forall (piece_ok olds) pl -> len (flatten olds pl) = pieces_len pl.
  Proof.
    induction pl as [|p r IH]; intros Hok; [reflexivity|]. inversion Hok as [|? ? Hp Hr]; subst.
    rewrite flatten_cons, len_app, (piece_bytes_len _ Hp), (IH Hr). reflexivity.
  Qed.

  Lemma piece_syncs_blocks : forall pl pre,
    Forall (piece_ok olds) pl ->
    Forall (old_block_at bs olds (pre ++ flatten olds pl)) (piece_syncs bs (len pre) pl).
  Proof.
    induction pl as [|p r IH]; intros pre Hok; [constructor|]. inversion Hok as [|? ? Hp Hr]; subst.
    destruct p as [d|f o n]; cbn [piece_syncs].
    - rewrite flatten_cons. cbn [piece_bytes]. rewrite app_assoc, <- len_app. apply IH. exact Hr.
    - destruct Hp as (old & Hf & Hin).
      assert (Hbytes : piece_bytes olds (PCopy f o n) = sub old o n) by (cbn [piece_bytes]; rewrite (nth_error_nth _ _ _ Hf); reflexivity).
      assert (Hlen : len (sub old o n) = n) by (apply sub_len; exact Hin).
      rewrite flatten_cons, Hbytes. apply Forall_app. split.
      + rewrite Forall_forall. intros x Hx.
        destruct (copy_syncs_in _ _ _ _ Hx) as (i & Hi1 & Hi2 & ->).
        set (d := bs * i - o). assert (Hd : d + bs <= n) by (unfold d; lia).
        split.
        * rewrite !len_app, Hlen. lia.
        * exists f, i, old. split; [exact Hf|]. split; [lia|].
          rewrite sub_app_skip, sub_app_within by (rewrite Hlen; exact Hd).
          rewrite sub_sub by exact Hd. f_equal. unfold d. lia.
      + rewrite app_assoc. replace (len pre + n) with (len (pre ++ sub old o n)) by (rewrite len_app, Hlen; reflexivity).
        apply IH. exact Hr.
  Qed.

  Lemma piece_syncs_sync_points pl :
    Forall (piece_ok olds) pl -> no_weak_repeat bs (flatten olds pl) ->
    sync_points bs olds (flatten olds pl) (piece_syncs bs 0 pl).
  Proof.
    intros Hok Hnwr. split; [apply piece_syncs_gapped|].
    pose proof (piece_syncs_blocks pl [] Hok) as Hb. cbn [app] in Hb. change (len (@nil N)) with 0 in Hb.
    rewrite Forall_forall in *. intros q Hq. split; [apply Hb; exact Hq|].
    destruct (N.eq_dec q 0) as [->|Hnz]; [left; reflexivity|right].
    destruct (Hb _ Hq) as [Hin _].
    specialize (Hnwr (q - 1) ltac:(lia)). replace (q - 1 + 1) with q in Hnwr by lia. exact Hnwr.
  Qed.

  Lemma piece_syncs_count : forall pl a,
    pieces_len pl <= pieces_fresh pl + bs * len (piece_syncs bs a pl) + (bs - 1) * pieces_cuts bs pl.
  Proof.
    induction pl as [|p r IH]; intros a; [cbn; lia|]. destruct p as [d|f o n].
    - cbn [pieces_len piece_len pieces_fresh piece_fresh piece_syncs pieces_cuts piece_cuts].
      specialize (IH (a + len d)). lia.
    - cbn [pieces_len piece_len pieces_fresh piece_fresh piece_syncs pieces_cuts piece_cuts].
      specialize (IH (a + n)). rewrite len_app. unfold copy_syncs at 1. rewrite run_syncs_len, N2Nat.id.
      pose proof (copy_count o n). lia.
  Qed.
End Pieces.

Section PieceBound.
  Variable H : Type.
  Variable shash : list N -> H.
  Variable heqb : H -> H -> bool.
  Variables (bs maxData : N).
  Variable olds : list (list N).
  Variable pref : option N.
  Hypothesis bs_pos : 0 < bs.
  Hypothesis max_pos : 0 < maxData.
  Hypothesis heqb_spec : forall x y, heqb x y = true <-> x = y.

  Lemma sync_points_syncs src qs :
    sync_points bs olds src qs -> syncs bs src (lookup_of shash heqb bs olds src pref) qs.
  Proof.
    intros [Hg Hall]. split; [exact Hg|].
    rewrite Forall_forall in *. intros q Hq. destruct (Hall _ Hq) as [Hb Hns].
    split; [apply Hb|]. split; [exact Hns|].
    unfold found, lookup_of. apply lookup_in_finds; [assumption| |exact Hb].
    intros x. apply heqb_spec. reflexivity.
  Qed.

  Theorem fresh_le_unsynced_lemma src qs :
    strong_injective shash bs olds src ->
    sync_points bs olds src qs ->
    forall ops, diff_ops shash heqb bs maxData olds src pref = Some ops ->
      fresh_of ops + bs * len qs <= len src + bs.
  Proof.
    intros Hinj Hs ops Hd. unfold diff_ops in Hd.
    eapply (fresh_le_unsynced_core bs maxData olds src (lookup_of shash heqb bs olds src pref) bs_pos max_pos).
    - apply lookup_in_sound; [assumption| |assumption]. intros x y. apply heqb_spec.
    - apply sync_points_syncs. exact Hs.
    - exact Hd.
  Qed.

  Theorem pieces_fresh_bound_lemma pl src :
    Forall (piece_ok olds) pl -> src = flatten olds pl ->
    strong_injective shash bs olds src -> no_weak_repeat bs src ->
    forall ops, diff_ops shash heqb bs maxData olds src pref = Some ops ->
      fresh_of ops <= pieces_fresh pl + (bs - 1) * pieces_cuts bs pl + bs.
  Proof.
    intros Hok -> Hinj Hnwr ops Hd.
    pose proof (fresh_le_unsynced_lemma _ _ Hinj (piece_syncs_sync_points bs bs_pos olds pl Hok Hnwr) ops Hd) as Hf.
    pose proof (piece_syncs_count bs bs_pos pl 0) as Hc.
    rewrite <- (flatten_len olds pl Hok) in Hc. lia.
  Qed.
End PieceBound.
