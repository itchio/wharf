(** C08, the edit bound, part 1: what the loop of [ComputeDiff] does at a window that holds an old
    block.  One more invariant for [DiffProofs.loop_ind], [counted]:
    [fresh bytes so far + bs * (sync points passed) <= start of the pending data].
    A window at a sync point is looked up ([hit_at_sync], from [DiffProofs.hash_ok]) and every range
    found is worth a block ([iter_K], read off [DiffProofs.iter_nonlast], [iter_last]); the last run
    starts less than two blocks before the end.
    Consequences: [no_missed_match_loop] and [fresh_le_unsynced_core] (for every
    list of non-overlapping sync points, fresh bytes + bs * (their number - 1) <= size of the
    source), stated as [no_missed_match] and [fresh_le_unsynced] in Properties/C08.v. *)
From Wharf Require Import Base.Prelude Wsync.Weak Wsync.Diff Wsync.Spec Wsync.EditSpec Wsync.ApplyProofs Wsync.LibraryProofs Wsync.DiffProofs.
From Coq Require Import ZifyBool ZifyNat ZifyN.
Local Open Scope N_scope.


Lemma fresh_of_app a b : fresh_of (a ++ b) = fresh_of a + fresh_of b.
Proof. induction a as [|o a IH]; cbn [app fresh_of]; [reflexivity|rewrite IH; lia]. Qed.

Definition cnt (qs : list N) (p : N) : N := len (filter (fun q => q <? p) qs).

Lemma cnt_cons q qs p : cnt (q :: qs) p = (if q <? p then 1 else 0) + cnt qs p.
Proof. unfold cnt, len. cbn [filter]. destruct (q <? p); cbn [length]; lia. Qed.

Lemma cnt_succ qs p : ~ In p qs -> cnt qs (p + 1) = cnt qs p.
Proof.
  induction qs as [|q qs IH]; intros Hn; [reflexivity|].
  rewrite !cnt_cons. rewrite IH by (intros Hi; apply Hn; right; exact Hi).
  assert (q <> p) by (intros ->; apply Hn; left; reflexivity).
  destruct (q <? p + 1) eqn:E1, (q <? p) eqn:E2; lia.
Qed.

Lemma cnt_below bs qs : forall lo p, gapped bs lo qs -> p <= lo -> cnt qs p = 0.
Proof.
  induction qs as [|q qs IH]; intros lo p Hg Hp; [reflexivity|].
  destruct Hg as [Hq Hg]. rewrite cnt_cons. rewrite (IH _ _ Hg) by lia.
  destruct (q <? p) eqn:E; lia.
Qed.

Lemma cnt_jump bs qs : forall lo p, gapped bs lo qs -> cnt qs (p + bs) <= cnt qs p + 1.
Proof.
  induction qs as [|q qs IH]; intros lo p Hg; [cbn; lia|].
  destruct Hg as [Hq Hg]. rewrite !cnt_cons.
  destruct (q <? p) eqn:E2.
  - specialize (IH _ p Hg). destruct (q <? p + bs) eqn:E1; lia.
  - rewrite (cnt_below bs qs (q + bs) (p + bs) Hg) by lia.
    rewrite (cnt_below bs qs (q + bs) p Hg) by lia.
    destruct (q <? p + bs); lia.
Qed.

Lemma cnt_all qs p : (forall q, In q qs -> q < p) -> cnt qs p = len qs.
Proof.
  induction qs as [|q qs IH]; intros Hall; [reflexivity|].
  rewrite cnt_cons, IH by (intros q' Hi; apply Hall; right; exact Hi).
  assert (q < p) by (apply Hall; left; reflexivity).
  unfold len. cbn [length]. destruct (q <? p) eqn:E; lia.
Qed.

Lemma cnt_jump_mul bs qs lo p : gapped bs lo qs -> bs * cnt qs (p + bs) <= bs * cnt qs p + bs.
Proof. intros Hg. pose proof (cnt_jump bs qs lo p Hg). nia. Qed.

Lemma len_le_cnt_mul bs qs lo p :
  gapped bs lo qs -> (forall q, In q qs -> q < p + bs) -> bs * len qs <= bs * cnt qs p + bs.
Proof. intros Hg Hall. rewrite <- (cnt_all qs (p + bs) Hall). eapply cnt_jump_mul; eassumption. Qed.

Section Sync.
  Variables (bs maxData : N).
  Variable olds : list (list N).
  Variable src : list N.
  Variable lookup : N -> N -> N -> N -> option (N * N).
  Hypothesis bs_pos : 0 < bs.
  Hypothesis max_pos : 0 < maxData.
  Hypothesis Hsound : lookup_sound bs olds src lookup.

  Notation get := (get_of src).
  Notation srcLen := (len src).
  Notation Head := (Head bs maxData olds src).
  Notation Step := (step bs maxData get srcLen lookup).
  Notation Iter := (iter bs maxData get srcLen lookup).
  Notation Refill := (refill bs maxData srcLen).
  Notation wk a := (weak_of (sub src a bs)).

  Lemma fresh_of_push l o : fresh_of (push l o) = fresh_of l + data_len o.
  Proof.
    destruct (push_cases l o) as [[-> _]|(l' & f & i & sp & sp' & -> & -> & ->)]; rewrite !fresh_of_app; cbn; lia.
  Qed.

  Lemma enqueue_fresh e o : wf e -> fresh_of (ops_of (enqueue e o)) = fresh_of (ops_of e) + data_len o.
  Proof.
    intros Hw. destruct (is_empty_data o) eqn:E.
    - destruct o as [|s l]; [discriminate|]. apply N.eqb_eq in E. subst l.
      rewrite (proj2 (enqueue_empty e s (wf_wf0 _ Hw))). destruct (ops_of e); cbn; lia.
    - rewrite (proj2 (enqueue_push e o Hw E)). apply fresh_of_push.
  Qed.

  Lemma emits_fresh e P e' P' :
    wf e -> emits maxData src e P e' P' -> wf e' /\ fresh_of (ops_of e') + P = fresh_of (ops_of e) + P'.
  Proof.
    intros Hw H. induction H as [|e1 P1 n _ [Hw1 IH] Hn _ _]; [auto|].
    assert (Hne : nonempty (OpData P1 n)) by (unfold nonempty; cbn; lia).
    split; [apply (enqueue_push _ _ Hw1 Hne)|]. rewrite (enqueue_fresh _ _ Hw1). cbn [data_len]. lia.
  Qed.

  (** below the pending data, a block per sync point passed was not sent as data *)
  Definition counted (qs : list N) (s : st) : Prop :=
    fresh_of (ops_of (em s)) + bs * cnt qs (pos s) <= pend s.

  (** sync points, as the loop sees them: non-overlapping full windows that are not skipped and
      that the library finds *)
  Definition found (q : N) : Prop := lookup (wk q) q bs 0 <> None.

  Definition syncs (qs : list N) : Prop :=
    gapped bs 0 qs /\ Forall (fun q => q + bs <= srcLen /\ not_skipped bs src q /\ found q) qs.

  (** the shortcut [β == oldβ] does not fire at a window that is not skipped *)
  Lemma hit_at_sync s q :
    hash_ok bs src s -> pos s = q -> q + bs <= srcLen -> not_skipped bs src q -> found q ->
    (if rolling s && (wk q =? beta s) then None else lookup (wk q) q bs 0) <> None.
  Proof.
    intros Hh Hq Hin Hns Hf. destruct (rolling s) eqn:Hro; cbn [andb]; [|exact Hf].
    destruct (Hh Hro) as (Hp1 & Hb & _). rewrite Hq in *.
    destruct Hns as [->|Hne]; [lia|].
    assert (Hbeta : beta s = wk (q - 1)).
    { rewrite <- sub_get by lia. unfold weak_of. rewrite <- Hb. reflexivity. }
    rewrite Hbeta. replace (wk q =? wk (q - 1)) with false; [exact Hf|].
    symmetry. apply N.eqb_neq. congruence.
  Qed.

  (** one iteration keeps [counted]; the last run gives the bound *)
  Lemma iter_K qs s :
    syncs qs -> Head s -> counted qs s ->
    if lastRun (Refill s) then fresh_of (ops_of (em (Iter s))) + bs * len qs <= srcLen + bs
    else counted qs (Iter s).
  Proof.
    intros [Hg Hqs] HH Hc. rewrite Forall_forall in Hqs. pose proof (proj1 (Head_EInv _ _ _ _ _ HH)) as Hw.
    apply (iter_step bs maxData olds src lookup bs_pos max_pos Hsound (counted qs)
             (fun s' => fresh_of (ops_of (em s')) + bs * len qs <= srcLen + bs) s HH); unfold counted in *; cbv zeta.
    - (* a range goes out; at most one sync point lies in the window *)
      intros s' f i e1 _ _ _ _ -> -> He ->. destruct (emits_fresh _ _ _ _ Hw He) as [Hw1 Hf].
      rewrite (enqueue_fresh _ _ Hw1). cbn [data_len]. pose proof (cnt_jump_mul bs qs 0 (pos s) Hg). lia.
    - (* no range: the window is not at a sync point *)
      intros s' _ Ehit _ _ -> He.
      assert (Hnin : ~ In (pos s) qs).
      { intros Hq. destruct (Hqs _ Hq) as (Hq1 & Hq2 & Hq3). exact (hit_at_sync s _ (h_hash _ _ _ _ _ HH) eq_refl Hq1 Hq2 Hq3 Ehit). }
      rewrite (cnt_succ qs _ Hnin). destruct (emits_fresh _ _ _ _ Hw He). lia.
    - (* the last run starts less than two blocks before the end, and sends at most what is left *)
      intros s' last Ht1 Ht2 _ Hi.
      assert (Hall : forall q, In q qs -> q < pos s + bs) by (intros q Hq; destruct (Hqs _ Hq); lia).
      pose proof (len_le_cnt_mul bs qs 0 _ Hg Hall).
      enough (fresh_of (ops_of (em s')) + pend s <= fresh_of (ops_of (em s)) + srcLen) by lia.
      destruct last as [[f i]|].
      + destruct Hi as (Hend & e1 & He & ->). destruct (emits_fresh _ _ _ _ Hw He) as [Hw1 Hf].
        rewrite (enqueue_fresh _ _ Hw1). cbn [data_len]. lia.
      + destruct Hi as (e2 & He & [->| ->]); destruct (emits_fresh _ _ _ _ Hw He) as [Hw2 Hf];
          rewrite ?(enqueue_fresh _ _ Hw2); cbn [data_len]; lia.
  Qed.

  (** every list of sync points but one is worth a block: fresh bytes + bs * (number of sync points - 1) <= size *)
  Theorem fresh_le_unsynced_core qs :
    syncs qs ->
    forall ops, compute_diff bs maxData get srcLen lookup = Some ops ->
      fresh_of ops + bs * len qs <= srcLen + bs.
  Proof.
    intros Hs ops Hc.
    destruct (diff_ind bs maxData olds src lookup bs_pos max_pos Hsound (counted qs)
                (fun ops => fresh_of ops + bs * len qs <= srcLen + bs)) as (ops' & Hc' & _ & Hf).
    - unfold counted. cbn. rewrite (cnt_below bs qs 0 0 (proj1 Hs)); lia.
    - intros s. apply iter_K. exact Hs.
    - rewrite Hc in Hc'. injection Hc' as <-. exact Hf.
  Qed.

  Theorem no_missed_match_loop (k : N) :
    let s := N.iter k Step init in
    let p := pos s in
    lastRun s = false -> lastRun (Refill s) = false ->
    not_skipped bs src p -> found p ->
    exists f i e,
      em (Step s) = enqueue e (OpRange f i 1) /\
      pos (Step s) = p + bs /\
      exists old, nth_error olds (N.to_nat f) = Some old /\ bs * i + bs <= len old /\
                  sub old (bs * i) bs = sub src p bs.
  Proof.
    intros s p Hl Hlr Hns Hf. pose proof (Head_all_along bs maxData olds src lookup bs_pos max_pos Hsound k Hl) as HH. fold s in HH.
    unfold step. rewrite Hl.
    destruct (iter_nonlast bs maxData olds src lookup bs_pos max_pos Hsound s HH Hlr) as (_ & Hin & _ & _ & Hi).
    cbv zeta in Hi. fold p in Hin, Hi.
    pose proof (hit_at_sync s p (h_hash _ _ _ _ _ HH) eq_refl Hin Hns Hf) as Hhit.
    destruct (rolling s && (wk p =? beta s)); [congruence|].
    destruct (lookup (wk p) p bs 0) as [[f i]|] eqn:El; [|congruence].
    destruct Hi as (_ & Hp & _ & e & _ & He). exists f, i, e. split; [assumption|]. split; [assumption|].
    destruct (Hsound _ _ _ _ _ _ El ltac:(lia) ltac:(lia)) as (_ & _ & old & Ho & Hlen & Heq). eauto.
  Qed.
End Sync.
