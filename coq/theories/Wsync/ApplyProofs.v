(** [sub] is [Seg.seg] ([sub_seg]), with its length / append / clipping lemmas; a window read through
    [get_of] is a [sub] ([sub_get]).  [den ops], the bytes an operation list denotes: a range denotes
    a slice of the old file that stops at its end, so appending needs no bounds.  In-bounds ranges
    have the size [makeOpsWriter] and [ApplySingleFull] compute ([range_size]), and replaying
    in-bounds operations yields [den] ([apply_ops_den]). *)
From Wharf Require Import Base.Prelude Base.Seg Base.BlockArith Wsync.Diff Wsync.Apply Wsync.Account Wsync.Spec.
From Coq Require Import ZifyBool ZifyNat ZifyN.
Local Open Scope N_scope.

Lemma sub_seg {A} (l : list A) a n : sub l a n = seg l (N.to_nat a) (N.to_nat n).
Proof. reflexivity. Qed.

Lemma sub_len_min {A} (l : list A) a n : len (sub l a n) = N.min n (len l - a).
Proof. unfold len. rewrite sub_seg, seg_length. lia. Qed.

Lemma sub_len {A} (l : list A) a n : a + n <= len l -> len (sub l a n) = n.
Proof. rewrite sub_len_min. lia. Qed.

Lemma sub_nil {A} (l : list A) a : sub l a 0 = [].
Proof. reflexivity. Qed.

Lemma sub_app {A} (l : list A) a n m : sub l a (n + m) = sub l a n ++ sub l (a + n) m.
Proof. rewrite !sub_seg, !N2Nat.inj_add. apply seg_app. Qed.

Lemma sub_zero_all {A} (l : list A) n : len l <= n -> sub l 0 n = l.
Proof. unfold len. intros H. apply seg_all. lia. Qed.

Lemma firstn_sub0 {A} (l : list A) n : firstn (N.to_nat n) l = sub l 0 n.
Proof. reflexivity. Qed.

Lemma sub_beyond {A} (l : list A) a n m : len l <= a + n -> n <= m -> sub l a n = sub l a m.
Proof. unfold len. intros H1 H2. apply seg_clip; lia. Qed.

Lemma window_aux_sub (src : list N) (k : nat) : forall a : N,
  (N.to_nat a + k <= length src)%nat ->
  Weak.window_aux (get_of src) a k = firstn k (skipn (N.to_nat a) src).
Proof.
  induction k as [|k IH]; intros a H; [reflexivity|].
  cbn [Weak.window_aux]. rewrite IH by lia.
  replace (N.to_nat (a + 1)) with (S (N.to_nat a)) by lia.
  symmetry. apply seg_cons, nth_error_nth'. lia.
Qed.

Lemma sub_get (src : list N) a n : a + n <= len src -> Weak.window (get_of src) a n = sub src a n.
Proof.
  unfold Weak.window, sub, len. intros H. apply window_aux_sub. lia.
Qed.

Section Den.
  Variable bs : N.
  Variable olds : list (list N).
  Variable src : list N.

  Definition den_op (o : op) : list N :=
    match o with
    | OpData s l => sub src s l
    | OpRange f i sp => sub (nth (N.to_nat f) olds []) (bs * i) (bs * sp)
    end.

  Definition den (ops : list op) : list N := concat (map den_op ops).

  Definition data_ok (o : op) : Prop :=
    match o with OpData s l => s + l <= len src | OpRange _ _ _ => True end.

  Lemma den_app a b : den (a ++ b) = den a ++ den b.
  Proof. unfold den. rewrite map_app, concat_app. reflexivity. Qed.

  Hypothesis bs_pos : 0 < bs.

  (** the product form of "in bounds": the last addressed block starts inside the file *)
  Lemma num_blocks_spec (old : list N) i sp :
    1 <= sp -> (i + sp <= num_blocks bs old <-> bs * (i + sp - 1) < len old).
  Proof.
    intros Hsp. rewrite <- (count_lt_N bs (len old) (i + sp - 1) bs_pos). unfold num_blocks. lia.
  Qed.

  (** the bytes of an in-bounds range, as [makeOpsWriter] and [ApplySingleFull] compute them: whole
      blocks and the size of the last one *)
  Lemma range_size (old : list N) i sp :
    1 <= sp -> i + sp <= num_blocks bs old ->
    (Z.of_N bs * (Z.of_N sp - 1) + compute_block_size (Z.of_N bs) (Z.of_nat (length old)) (Z.of_N i + Z.of_N sp - 1)
     = Z.of_nat (length (sub old (bs * i) (bs * sp))))%Z.
  Proof.
    intros Hsp Hin. apply num_blocks_spec in Hin; [|assumption].
    unfold sub, compute_block_size, len in *. rewrite firstn_length, skipn_length, block_size_rem by nia. nia.
  Qed.

  Lemma apply_range_den f i sp old :
    nth_error olds (N.to_nat f) = Some old -> 1 <= sp -> i + sp <= num_blocks bs old ->
    apply_op bs olds (CRange f i sp) = Some (den_op (OpRange f i sp)).
  Proof.
    intros Hf Hsp Hin. cbn [apply_op den_op]. rewrite Hf, (nth_error_nth _ _ _ Hf). f_equal.
    replace (op_size bs _ _ _) with (Z.of_nat (length (sub old (bs * i) (bs * sp)))).
    - rewrite Nat2Z.id. unfold sub. rewrite firstn_length, <- firstn_firstn, firstn_all. reflexivity.
    - rewrite <- (range_size old i sp Hsp Hin). unfold op_size, compute_block_size.
      replace (Z.of_N i + (Z.of_N sp - 1) + 1)%Z with (Z.of_N i + Z.of_N sp - 1 + 1)%Z by ring. ring.
  Qed.

  Lemma apply_ops_den (ops : list op) :
    Forall (range_ok bs olds) ops -> apply_ops bs olds (map (conc src) ops) = Some (den ops).
  Proof.
    induction ops as [|o r IH]; intros Hr; [reflexivity|].
    inversion Hr as [|? ? Ho Hr']; subst.
    cbn [map apply_ops]. rewrite (IH Hr').
    destruct o as [f i sp|s l].
    - destruct Ho as (old & Hf & Hsp & Hin).
      cbn [conc]. rewrite (apply_range_den _ _ _ _ Hf Hsp Hin). reflexivity.
    - reflexivity.
  Qed.
End Den.
