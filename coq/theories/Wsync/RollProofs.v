(** One rolling step of [ComputeDiff]'s hash block is correct: if the state carries the weak hash
    of the window that starts one byte earlier, [hash_step] computes the weak hash of the current
    window (per-step preservation of "rolling => (beta, beta1, beta2) = bhash(window)"). *)
From Wharf Require Import Base.Prelude Wsync.Weak Wsync.Diff Wsync.WeakProofs.
From Coq Require Import ZifyBool ZifyNat ZifyN.
Local Open Scope N_scope.

Lemma window_aux_snoc get : forall k a,
  window_aux get a (S k) = window_aux get a k ++ [get (a + N.of_nat k)].
Proof.
  induction k as [|k IH]; intros a.
  - cbn [window_aux app]. rewrite N.add_0_r. reflexivity.
  - change (window_aux get a (S (S k))) with (get a :: window_aux get (a + 1) (S k)).
    rewrite IH. cbn [window_aux app]. do 3 f_equal. f_equal. lia.
Qed.

Lemma window_aux_length get : forall k a, length (window_aux get a k) = k.
Proof. induction k as [|k IH]; intros a; cbn [window_aux length]; [reflexivity|rewrite IH; reflexivity]. Qed.

Lemma roll_window get a n :
  0 < n ->
  let '(_, b1, b2) := bhash (window get a n) in
  roll n (get a) (get (a + n)) b1 b2 = bhash (window get (a + 1) n).
Proof.
  intros Hn. unfold window. destruct (N.to_nat n) as [|k] eqn:Ek; [lia|].
  rewrite (window_aux_snoc get k (a + 1)). replace (a + 1 + N.of_nat k) with (a + n) by lia.
  pose proof (roll_bhash (get a) (get (a + n)) (window_aux get (a + 1) k)) as H.
  cbn [length] in H. rewrite window_aux_length in H. replace (N.of_nat (S k)) with n in H by lia. exact H.
Qed.

Lemma hash_step_rolls_correctly bs get (s : st) :
  0 < bs ->
  rolling s = true -> 1 <= base s + sumTail s -> sumTail s + bs <= validTo s ->
  (beta s, beta1 s, beta2 s) = bhash (window get (base s + sumTail s - 1) bs) ->
  aPop s = get (base s + sumTail s - 1) ->
  let s' := fst (hash_step bs get s) in
  (beta s', beta1 s', beta2 s') = bhash (window get (base s + sumTail s) bs).
Proof.
  intros bs_pos Hro Hpos Hfull Hh Hpop s'. unfold s', hash_step.
  assert (Hsh : sum_head bs s = sumTail s + bs) by (unfold sum_head; lia).
  rewrite Hsh, Hro. replace (sumTail s <? sumTail s + bs) with true by lia.
  cbn [andb]. replace (sumTail s + bs - sumTail s) with bs by lia.
  pose proof (roll_window get (base s + sumTail s - 1) bs bs_pos) as Hr. rewrite <- Hh in Hr.
  replace (base s + sumTail s - 1 + 1) with (base s + sumTail s) in Hr by lia.
  replace (base s + (sumTail s + bs) - 1) with (base s + sumTail s - 1 + bs) by lia.
  rewrite Hpop, Hr. destruct (bhash (window get (base s + sumTail s) bs)) as [[be b1] b2]. reflexivity.
Qed.
