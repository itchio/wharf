(** C08: a source whose content equals an old file yields block ranges only (no data bytes).
    A further invariant for [DiffProofs.diff_ind]: no pending data, no rolling, window starts on
    block boundaries of the source. *)
From Wharf Require Import Base.Prelude Wsync.Weak Wsync.Diff Wsync.Spec Wsync.ApplyProofs Wsync.LibraryProofs Wsync.DiffProofs.
From Coq Require Import ZifyBool ZifyNat ZifyN.
Local Open Scope N_scope.

Section Identical.
  Variables (bs maxData : N).
  Variable olds : list (list N).
  Variable src : list N.
  Variable lookup : N -> N -> N -> N -> option (N * N).
  Hypothesis bs_pos : 0 < bs.
  Hypothesis max_pos : 0 < maxData.
  Hypothesis Hsound : lookup_sound bs olds src lookup.

  Hypothesis Hcomplete : lookup_complete bs src lookup.

  Notation get := (get_of src).
  Notation srcLen := (len src).
  Notation Head := (Head bs maxData olds src).
  Notation Refill := (refill bs maxData srcLen).
  Notation Iter := (iter bs maxData get srcLen lookup).

  (** the further invariant: nothing pending, nothing read ahead, not rolling, the window on a block
      boundary of the source, ranges only so far *)
  Record JX (s : st) : Prop := {
    j_dt : pend s = pos s;
    j_vt : top s = pos s;
    j_ro : rolling s = false;
    j_pos : exists k, pos s = bs * k;
    j_rng : Forall is_range_op (ops_of (em s))
  }.

  Definition only_ranges (l : list op) : Prop :=
    Forall is_range_op l \/ (srcLen = 0 /\ l = [OpData 0 0]).

  Lemma iter_JX s :
    Head s -> JX s -> if lastRun (Refill s) then only_ranges (ops_of (em (Iter s))) else JX (Iter s).
  Proof.
    intros HH [Jdt Jvt Jro (k & Jpos) Jrng]. destruct (Head_EInv _ _ _ _ _ HH) as [Hw [Hden _ _ _]].
    pose proof (Head_le _ _ _ _ _ HH) as Hle. rewrite Jdt, Jvt, Jpos in Hle.
    assert (Hrange : forall f i, Forall is_range_op (ops_of (enqueue (em s) (OpRange f i 1)))).
    { intros f i. rewrite (proj2 (enqueue_push _ (OpRange f i 1) Hw eq_refl)). apply Forall_push; [intros; exact I|assumption|exact I]. }
    apply (iter_step bs maxData olds src lookup bs_pos max_pos Hsound JX (fun s' => only_ranges (ops_of (em s'))) s HH);
      cbv zeta; rewrite ?Jdt, ?Jvt, ?Jpos, ?Jro; cbn [andb].
    - (* a full block of the source goes out as a range *)
      intros s' f i e1 Hin _ Htop Hro Hp HP He Hem. apply emits_same in He. subst e1.
      rewrite (proj2 (N.ltb_lt _ _) (N.lt_add_pos_r _ _ bs_pos)) in Htop.
      split; [congruence|congruence|assumption|exists (k + 1); rewrite Hp; lia|rewrite Hem; apply Hrange].
    - (* ... and it is always found *)
      intros s' Hin Ehit. pose proof (Hcomplete k bs bs_pos (N.le_refl bs) Hin (fun H => False_ind _ (N.lt_irrefl _ H))) as Hc.
      rewrite N.ltb_irrefl in Hc. contradiction.
    - intros s' last _ Hlt Hhit Hi. rewrite (Hhit eq_refl) in Hi. clear Hhit.
      set (w := N.min bs (srcLen - bs * k)) in *. replace (srcLen - bs * k) with w in Hi by lia.
      destruct (lookup _ _ w w) as [[f i]|] eqn:El.
      + (* what is left of the source is found *)
        destruct Hi as (_ & e1 & He & ->). apply emits_same in He. subst e1. left. apply Hrange.
      + (* it is not: nothing is left, the trailing data is empty *)
        assert (Hw0 : w = 0).
        { destruct (N.eq_dec w 0) as [|Hw0]; [assumption|exfalso].
          pose proof (Hcomplete k w ltac:(lia) ltac:(lia) ltac:(lia) ltac:(lia)) as Hc.
          replace (w <? bs) with true in Hc by lia. congruence. }
        destruct Hi as (e2 & He & Hem). replace (bs * k) with srcLen in He by lia. apply emits_same in He. subst e2.
        destruct Hem as [->| ->]; [left; assumption|].
        destruct (enqueue_empty (em s) srcLen (wf_wf0 _ Hw)) as [_ ->].
        destruct (ops_of (em s)); [right|left; assumption].
        assert (Hl : len (sub src 0 (pend s)) = pend s) by (apply sub_len; lia). rewrite <- Hden in Hl. cbn in Hl.
        split; [|f_equal; f_equal]; lia.
  Qed.

  Theorem identical_ops :
    forall ops, compute_diff bs maxData get srcLen lookup = Some ops -> only_ranges ops.
  Proof.
    intros ops Hc.
    destruct (diff_ind bs maxData olds src lookup bs_pos max_pos Hsound JX only_ranges) as (ops' & Hc' & _ & Ho).
    - split; cbn; try reflexivity; [exists 0; lia|constructor].
    - exact iter_JX.
    - rewrite Hc in Hc'. injection Hc' as <-. exact Ho.
  Qed.
End Identical.
