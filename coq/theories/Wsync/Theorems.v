(** What C11 says about [diff_ops] (signature of the old files + library + differ) in one
    statement, [diff_ops_spec], from [DiffProofs.diff_ind] and [LibraryProofs.lookup_in_sound];
    the theorems of [Properties/C11.v] are its parts. *)
From Wharf Require Import Base.Prelude Base.ListLemmas Wsync.Diff Wsync.Spec Wsync.ApplyProofs Wsync.DiffProofs Wsync.LibraryProofs.
From Coq Require Import ZifyBool ZifyNat ZifyN.
Local Open Scope N_scope.

(* [ListLemmas.nlist_eqb_eq], left to right, as [hypotheses_inhabited] (Properties/C11.v) and
   Exec/C08Edits.v cite it, and its other direction *)
Lemma nlist_eqb_sound (a b : list N) : nlist_eqb a b = true -> a = b.
Proof. apply ListLemmas.nlist_eqb_eq. Qed.

Lemma nlist_eqb_refl (a : list N) : nlist_eqb a a = true.
Proof. exact (ListLemmas.nlist_eqb_refl a). Qed.

Lemma id_strong_injective bs olds src : strong_injective (fun b : list N => b) bs olds src.
Proof. intros f i blk a l _ _ E. exact E. Qed.

Section Final.
  Variable H : Type.
  Variable shash : list N -> H.
  Variable heqb : H -> H -> bool.
  Variables (bs maxData : N) (olds : list (list N)) (src : list N) (pref : option N).
  Hypothesis bs_pos : 0 < bs.
  Hypothesis max_pos : 0 < maxData.
  Hypothesis heqb_sound : forall x y, heqb x y = true -> x = y.
  Hypothesis Hinj : strong_injective shash bs olds src.

  Lemma diff_ops_spec :
    exists ops, diff_ops shash heqb bs maxData olds src pref = Some ops /\
      den bs olds src ops = src /\
      Forall (range_ok bs olds) ops /\ Forall (data_ok src) ops /\
      no_adjacent_mergeable ops /\ Forall (fun o => is_empty_data o = false) (tl ops) /\
      Forall (fun o => data_len o <= maxData) ops.
  Proof.
    destruct (diff_ind bs maxData olds src _ bs_pos max_pos (lookup_in_sound H shash heqb bs bs_pos heqb_sound olds src pref Hinj)
                (fun _ => True) (fun _ => True) I) as (ops & Hd & (Hden & Hok & Hm & He) & _).
    { intros s _ _. destruct (lastRun _); exact I. }
    exists ops. repeat split; try assumption; (eapply Forall_impl; [|exact Hok]); intros o (H1 & H2 & H3); assumption.
  Qed.

  Lemma diff_ops_props ops :
    diff_ops shash heqb bs maxData olds src pref = Some ops ->
    den bs olds src ops = src /\
    Forall (range_ok bs olds) ops /\ Forall (data_ok src) ops /\
    no_adjacent_mergeable ops /\ Forall (fun o => is_empty_data o = false) (tl ops) /\
    Forall (fun o => data_len o <= maxData) ops.
  Proof. destruct diff_ops_spec as (ops' & -> & Hp). intros [= <-]. exact Hp. Qed.

  Lemma diff_total_lemma : diff_ops shash heqb bs maxData olds src pref <> None.
  Proof. destruct diff_ops_spec as (ops & Hd & _). rewrite Hd. discriminate. Qed.
End Final.
