(** C08, the edit bound, part 3: localized edits.  A file obtained from an old file by [k] edits
    (applied one after the other) is a sequence of pieces with at most [2k + 1] stretch ends off
    the block grid (each edit cuts the sequence in at most two places; the old file itself ends
    off the grid at most once) and at most as many fresh bytes as the edits introduce.
    With [PieceProofs.pieces_fresh_bound_lemma]: fresh <= introduced + (2k+1) * (bs-1) + bs
    ([edits_fresh_sharp]). *)
From Wharf Require Import Base.Prelude Base.BlocksLemmas Base.Seg Wsync.Spec Wsync.EditSpec Wsync.ApplyProofs Wsync.PieceProofs.
From Coq Require Import ZifyBool ZifyNat ZifyN.
Local Open Scope N_scope.

Definition ptake (n : N) (p : piece) : piece :=
  match p with
  | PFresh d => PFresh (sub d 0 n)
  | PCopy f o _ => PCopy f o n
  end.

Definition pdrop (n : N) (p : piece) : piece :=
  match p with
  | PFresh d => PFresh (sub d n (len d))
  | PCopy f o m => PCopy f (o + n) (m - n)
  end.

Fixpoint pl_take (n : N) (pl : list piece) : list piece :=
  match pl with
  | [] => []
  | p :: r => if n <=? piece_len p then [ptake n p] else p :: pl_take (n - piece_len p) r
  end.

Fixpoint pl_drop (n : N) (pl : list piece) : list piece :=
  match pl with
  | [] => []
  | p :: r => if n <? piece_len p then pdrop n p :: r else pl_drop (n - piece_len p) r
  end.

(** every edit replaces a stretch [l[a, b)] by some bytes [ins] *)
Definition edit_parts (e : edit) (n : N) : N * list N * N :=
  match e with
  | Overwrite a d => (a, sub d 0 (ow_len n a d), a + ow_len n a d)
  | Insert a d => (a, d, a)
  | Delete a k => (a, [], a + k)
  end.

Definition edit_pieces (e : edit) (pl : list piece) : list piece :=
  let '(a, ins, b) := edit_parts e (pieces_len pl) in pl_take a pl ++ PFresh ins :: pl_drop b pl.

Lemma apply_edit_parts e l :
  let '(a, ins, b) := edit_parts e (len l) in
  apply_edit e l = sub l 0 a ++ ins ++ sub l b (len l) /\ introduced e l = len ins /\ a <= b.
Proof. destruct e; cbn; rewrite ?sub_len_min; unfold ow_len; repeat split; lia. Qed.

Lemma sub_tail_more {A} (l : list A) a n : len l <= n -> sub l a n = skipn (N.to_nat a) l.
Proof. unfold len. intros Hn. apply seg_tail. lia. Qed.

Section Cut.
  Variable bs : N.
  Hypothesis bs_pos : 0 < bs.
  Variable olds : list (list N).

  Lemma ptake_spec n p : n <= piece_len p -> piece_ok olds p ->
    piece_ok olds (ptake n p) /\ piece_bytes olds (ptake n p) = firstn (N.to_nat n) (piece_bytes olds p).
  Proof.
    destruct p as [d|f o m]; cbn [piece_len piece_ok ptake piece_bytes]; [auto|].
    intros Hn (old & Hf & Hin). split; [exists old; split; [exact Hf|lia]|].
    unfold sub. rewrite firstn_firstn. f_equal. lia.
  Qed.

  Lemma pdrop_spec n p : n <= piece_len p -> piece_ok olds p ->
    piece_ok olds (pdrop n p) /\ piece_bytes olds (pdrop n p) = skipn (N.to_nat n) (piece_bytes olds p).
  Proof.
    destruct p as [d|f o m]; cbn [piece_len piece_ok pdrop piece_bytes].
    - intros _ _. split; [exact I|apply sub_tail_more; lia].
    - intros Hn (old & Hf & Hin). split; [exists old; split; [exact Hf|lia]|].
      unfold sub. rewrite skipn_firstn_comm, skipn_skipn_add. f_equal; [lia|]. f_equal. lia.
  Qed.

  Lemma pl_take_spec : forall pl n, Forall (piece_ok olds) pl ->
    Forall (piece_ok olds) (pl_take n pl) /\ flatten olds (pl_take n pl) = firstn (N.to_nat n) (flatten olds pl).
  Proof.
    induction pl as [|p r IH]; intros n Hok; [cbn; rewrite firstn_nil; auto|].
    inversion Hok as [|? ? Hp Hr]; subst.
    pose proof (piece_bytes_len olds p Hp) as Hl. unfold len in Hl.
    cbn [pl_take]. rewrite (flatten_cons olds p r), firstn_app.
    destruct (n <=? piece_len p) eqn:E.
    - apply N.leb_le in E. destruct (ptake_spec n p E Hp) as [Hk Hb]. split; [auto|].
      rewrite flatten_cons, Hb. replace (N.to_nat n - length (piece_bytes olds p))%nat with 0%nat by lia. reflexivity.
    - apply N.leb_gt in E. destruct (IH (n - piece_len p) Hr) as [Hk Hb]. split; [auto|].
      rewrite flatten_cons, Hb, (firstn_all2 (piece_bytes olds p)) by lia. f_equal. f_equal. lia.
  Qed.

  Lemma pl_drop_spec : forall pl n, Forall (piece_ok olds) pl ->
    Forall (piece_ok olds) (pl_drop n pl) /\ flatten olds (pl_drop n pl) = skipn (N.to_nat n) (flatten olds pl).
  Proof.
    induction pl as [|p r IH]; intros n Hok; [cbn; rewrite skipn_nil; auto|].
    inversion Hok as [|? ? Hp Hr]; subst.
    pose proof (piece_bytes_len olds p Hp) as Hl. unfold len in Hl.
    cbn [pl_drop]. rewrite (flatten_cons olds p r), skipn_app.
    destruct (n <? piece_len p) eqn:E.
    - apply N.ltb_lt in E. destruct (pdrop_spec n p ltac:(lia) Hp) as [Hk Hb]. split; [auto|].
      rewrite flatten_cons, Hb. replace (N.to_nat n - length (piece_bytes olds p))%nat with 0%nat by lia. reflexivity.
    - apply N.ltb_ge in E. destruct (IH (n - piece_len p) Hr) as [Hk Hb]. split; [auto|].
      rewrite Hb, (skipn_all2 (piece_bytes olds p)) by lia. cbn [app]. f_equal. lia.
  Qed.

  Lemma pl_drop_count : forall pl n,
    pieces_fresh (pl_drop n pl) <= pieces_fresh pl /\ pieces_cuts bs (pl_drop n pl) <= pieces_cuts bs pl + 1.
  Proof.
    induction pl as [|p r IH]; intros n; [cbn; lia|]. cbn [pl_drop]. destruct (n <? piece_len p) eqn:E.
    - apply N.ltb_lt in E. cbn [pieces_fresh pieces_cuts].
      destruct p as [d|f o m]; cbn [pdrop piece_fresh piece_cuts piece_len] in *; [rewrite sub_len_min; lia|].
      replace (o + n + (m - n)) with (o + m) by lia. pose proof (misal_le bs bs_pos (o + n)). lia.
    - specialize (IH (n - piece_len p)). cbn [pieces_fresh pieces_cuts]. lia.
  Qed.

  Lemma take_drop_count : forall pl a b, a <= b ->
    pieces_fresh (pl_take a pl) + pieces_fresh (pl_drop b pl) <= pieces_fresh pl /\
    pieces_cuts bs (pl_take a pl) + pieces_cuts bs (pl_drop b pl) <= pieces_cuts bs pl + 2.
  Proof.
    induction pl as [|p r IH]; intros a b Hab; [cbn; lia|]. cbn [pl_take pl_drop].
    destruct (a <=? piece_len p) eqn:Ea.
    - apply N.leb_le in Ea. destruct (b <? piece_len p) eqn:Eb.
      + apply N.ltb_lt in Eb. cbn [pieces_fresh pieces_cuts].
        destruct p as [d|f o m]; cbn [ptake pdrop piece_fresh piece_cuts piece_len] in *; [rewrite !sub_len_min; lia|].
        replace (o + b + (m - b)) with (o + m) by lia.
        pose proof (misal_le bs bs_pos (o + a)). pose proof (misal_le bs bs_pos (o + b)). lia.
      + pose proof (pl_drop_count r (b - piece_len p)). cbn [pieces_fresh pieces_cuts].
        destruct p as [d|f o m]; cbn [ptake piece_fresh piece_cuts piece_len] in *; [rewrite sub_len_min; lia|].
        pose proof (misal_le bs bs_pos (o + a)). lia.
    - apply N.leb_gt in Ea. replace (b <? piece_len p) with false by lia.
      specialize (IH (a - piece_len p) (b - piece_len p) ltac:(lia)). cbn [pieces_fresh pieces_cuts]. lia.
  Qed.

  Lemma pieces_fresh_app a b : pieces_fresh (a ++ b) = pieces_fresh a + pieces_fresh b.
  Proof. induction a as [|p a IH]; cbn [app pieces_fresh]; [reflexivity|rewrite IH; lia]. Qed.

  Lemma pieces_cuts_app a b : pieces_cuts bs (a ++ b) = pieces_cuts bs a + pieces_cuts bs b.
  Proof. induction a as [|p a IH]; cbn [app pieces_cuts]; [reflexivity|rewrite IH; lia]. Qed.

  Lemma edit_pieces_spec e pl :
    Forall (piece_ok olds) pl ->
    Forall (piece_ok olds) (edit_pieces e pl) /\
    flatten olds (edit_pieces e pl) = apply_edit e (flatten olds pl) /\
    pieces_fresh (edit_pieces e pl) <= pieces_fresh pl + introduced e (flatten olds pl) /\
    pieces_cuts bs (edit_pieces e pl) <= pieces_cuts bs pl + 2.
  Proof.
    intros Hok. pose proof (flatten_len olds pl Hok) as Hlen.
    pose proof (apply_edit_parts e (flatten olds pl)) as Hp. rewrite Hlen in Hp. unfold edit_pieces.
    destruct (edit_parts e (pieces_len pl)) as [[a ins] b]. destruct Hp as (-> & -> & Hab).
    destruct (pl_take_spec pl a Hok) as [Hk1 Hb1], (pl_drop_spec pl b Hok) as [Hk2 Hb2], (take_drop_count pl a b Hab) as [Hf Hc].
    split; [apply Forall_app; split; [assumption|constructor; [exact I|assumption]]|]. split; [|split].
    - rewrite flatten_app, flatten_cons, Hb1, Hb2, <- Hlen, (sub_tail_more _ b) by lia. reflexivity.
    - rewrite pieces_fresh_app. cbn [pieces_fresh piece_fresh]. lia.
    - rewrite pieces_cuts_app. cbn [pieces_cuts piece_cuts]. lia.
  Qed.

  Lemma edits_pieces : forall es pl,
    Forall (piece_ok olds) pl ->
    exists pl',
      Forall (piece_ok olds) pl' /\
      flatten olds pl' = fst (apply_edits es (flatten olds pl)) /\
      pieces_fresh pl' <= pieces_fresh pl + snd (apply_edits es (flatten olds pl)) /\
      pieces_cuts bs pl' <= pieces_cuts bs pl + 2 * len es.
  Proof.
    induction es as [|e es IH]; intros pl Hok.
    - exists pl. cbn [apply_edits fst snd]. repeat split; try assumption; unfold len; cbn [length]; lia.
    - destruct (edit_pieces_spec e pl Hok) as (Hok1 & Hfl1 & Hfr1 & Hc1).
      destruct (IH _ Hok1) as (pl' & Hok' & Hfl' & Hfr' & Hc').
      exists pl'. cbn [apply_edits]. rewrite Hfl1 in Hfl', Hfr'.
      destruct (apply_edits es (apply_edit e (flatten olds pl))) as [l' n']. cbn [fst snd] in *.
      split; [assumption|]. split; [assumption|]. split; [lia|].
      unfold len in *. cbn [length]. lia.
  Qed.

  Lemma whole_file_piece f old :
    nth_error olds (N.to_nat f) = Some old ->
    Forall (piece_ok olds) [PCopy f 0 (len old)] /\ flatten olds [PCopy f 0 (len old)] = old /\
    pieces_fresh [PCopy f 0 (len old)] = 0 /\ pieces_cuts bs [PCopy f 0 (len old)] <= 1.
  Proof.
    intros Hf. split; [|split; [|split]].
    - constructor; [|constructor]. exists old. split; [exact Hf|lia].
    - cbn. rewrite (nth_error_nth _ _ _ Hf), app_nil_r. apply sub_zero_all. lia.
    - reflexivity.
    - cbn [pieces_cuts piece_cuts]. unfold misal at 1. rewrite N.mod_0_l by lia. cbn [N.eqb].
      pose proof (misal_le bs bs_pos (0 + len old)). lia.
  Qed.
End Cut.

Section EditBound.
  Variable H : Type.
  Variable shash : list N -> H.
  Variable heqb : H -> H -> bool.
  Variables (bs maxData : N).
  Variable olds : list (list N).
  Variable pref : option N.
  Hypothesis bs_pos : 0 < bs.
  Hypothesis max_pos : 0 < maxData.
  Hypothesis heqb_spec : forall x y, heqb x y = true <-> x = y.

  (** each of the at most [2k + 1] stretch ends off the grid costs less than a block, and the last
      run one block more *)
  Theorem edits_fresh_sharp (f : N) (old : list N) (es : list edit) (src : list N) (n : N) :
    nth_error olds (N.to_nat f) = Some old ->
    apply_edits es old = (src, n) ->
    strong_injective shash bs olds src -> no_weak_repeat bs src ->
    forall ops, diff_ops shash heqb bs maxData olds src pref = Some ops ->
      fresh_of ops <= n + (2 * len es + 1) * (bs - 1) + bs.
  Proof.
    intros Hf He Hinj Hnwr ops Hd.
    destruct (whole_file_piece bs bs_pos olds f old Hf) as (Hok0 & Hfl0 & Hfr0 & Hc0).
    destruct (edits_pieces bs bs_pos olds es _ Hok0) as (pl & Hok & Hfl & Hfr & Hc).
    rewrite Hfl0, He in Hfl, Hfr. cbn [fst snd] in Hfl, Hfr.
    pose proof (pieces_fresh_bound_lemma H shash heqb bs maxData olds pref bs_pos max_pos heqb_spec
                  pl src Hok (eq_sym Hfl) Hinj Hnwr ops Hd) as Hb.
    assert (Hcuts : (bs - 1) * pieces_cuts bs pl <= (2 * len es + 1) * (bs - 1)) by (rewrite N.mul_comm; apply N.mul_le_mono_r; lia).
    lia.
  Qed.

  Theorem edits_fresh_bound_lemma (f : N) (old : list N) (es : list edit) (src : list N) (n : N) :
    nth_error olds (N.to_nat f) = Some old ->
    apply_edits es old = (src, n) ->
    strong_injective shash bs olds src -> no_weak_repeat bs src ->
    forall ops, diff_ops shash heqb bs maxData olds src pref = Some ops ->
      fresh_of ops <= n + (2 * len es + 2) * bs.
  Proof.
    intros Hf He Hinj Hnwr ops Hd. pose proof (edits_fresh_sharp f old es src n Hf He Hinj Hnwr ops Hd). nia.
  Qed.
End EditBound.
