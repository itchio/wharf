(** Vocabulary of the C08 edit bound: the fresh bytes of an operation list, "no two consecutive
    windows share their weak hash" (the differ's [β == oldβ] shortcut never fires), sync points,
    localized edits (the three kinds of the C08 harness, [c08EditAt], applied one after the
    other, offsets and lengths clipped to the current file), and sources described as a
    sequence of pieces (fresh bytes / a stretch copied from an old file).  Definitions only
    (proofs: [SyncProofs.v], [PieceProofs.v], [EditProofs.v]). *)
From Wharf Require Import Base.Prelude Wsync.Weak Wsync.Diff Wsync.Apply Wsync.Library Wsync.Sign Wsync.Account Wsync.Spec.
Local Open Scope N_scope.

(** the data bytes an operation list carries (what [makeOpsWriter] adds up as FreshBytes) *)
Fixpoint fresh_of (ops : list op) : N :=
  match ops with
  | [] => 0
  | o :: r => data_len o + fresh_of r
  end.

(** the hypothesis on the content: no two consecutive full windows of the source have the same
    weak hash.  ([ComputeDiff] skips the library lookup of a window whose rolled hash equals the
    previous one; on high-entropy data this has probability about 2^-24 per position: the sums of
    the bytes agree only if the byte that leaves equals the byte that enters, the weighted sums then
    with 2^-16.) *)
Definition no_weak_repeat (bs : N) (src : list N) : Prop :=
  forall p, p + 1 + bs <= len src -> weak_of (sub src p bs) <> weak_of (sub src (p + 1) bs).

(** ... decided (for the examples and the executable sweeps; soundness: [C08EditTheorems.nwr_b_sound]) *)
Definition nwr_b (bs : N) (src : list N) : bool :=
  forallb (fun p => let p := N.of_nat p in
                    negb ((p + 1 + bs <=? len src) && (weak_of (sub src p bs) =? weak_of (sub src (p + 1) bs))))
          (seq 0 (length src)).

(** the same, only where it matters: the window at [q] is not skipped *)
Definition not_skipped (bs : N) (src : list N) (q : N) : Prop :=
  q = 0 \/ weak_of (sub src (q - 1) bs) <> weak_of (sub src q bs).

(** the full window of the source at [q] has the content of some complete block of an old file *)
Definition old_block_at (bs : N) (olds : list (list N)) (src : list N) (q : N) : Prop :=
  q + bs <= len src /\
  exists f i old, nth_error olds (N.to_nat f) = Some old /\ bs * (i + 1) <= len old /\
                  sub old (bs * i) bs = sub src q bs.

(** increasing positions, at least [bs] apart, none below [lo]: the windows do not overlap *)
Fixpoint gapped (bs lo : N) (qs : list N) : Prop :=
  match qs with
  | [] => True
  | q :: r => lo <= q /\ gapped bs (q + bs) r
  end.

(** sync points of [src] w.r.t. the old files: non-overlapping windows holding old blocks that the
    differ does not skip *)
Definition sync_points (bs : N) (olds : list (list N)) (src : list N) (qs : list N) : Prop :=
  gapped bs 0 qs /\ Forall (fun q => old_block_at bs olds src q /\ not_skipped bs src q) qs.

(** * localized edits *)

Inductive edit :=
| Overwrite (at_ : N) (data : list N)     (* in place: [data] replaces the bytes from [at_] on (clipped at the end of the file) *)
| Insert (at_ : N) (data : list N)        (* [data] is inserted before offset [at_]; everything behind it shifts *)
| Delete (at_ : N) (n : N).               (* [n] bytes from [at_] on are removed; everything behind shifts *)

(** bytes of [data] that fit when overwriting at [at_] in a file of length [n] *)
Definition ow_len (n at_ : N) (data : list N) : N := N.min (len data) (n - at_).

Definition apply_edit (e : edit) (l : list N) : list N :=
  match e with
  | Overwrite a d => let m := ow_len (len l) a d in sub l 0 a ++ sub d 0 m ++ sub l (a + m) (len l)
  | Insert a d => sub l 0 a ++ d ++ sub l a (len l)
  | Delete a n => sub l 0 a ++ sub l (a + n) (len l)
  end.

(** bytes the edit introduces *)
Definition introduced (e : edit) (l : list N) : N :=
  match e with
  | Overwrite a d => ow_len (len l) a d
  | Insert _ d => len d
  | Delete _ _ => 0
  end.

(** the edits one after the other, each on the result of the previous ones; total of introduced bytes *)
Fixpoint apply_edits (es : list edit) (l : list N) : list N * N :=
  match es with
  | [] => (l, 0)
  | e :: r => let '(l', n) := apply_edits r (apply_edit e l) in (l', introduced e l + n)
  end.

(** * sources as sequences of pieces *)

Inductive piece :=
| PFresh (data : list N)            (* bytes that are not claimed to be anywhere in the old build *)
| PCopy (f off n : N).              (* [olds[f][off, off+n)] *)

Definition piece_ok (olds : list (list N)) (p : piece) : Prop :=
  match p with
  | PFresh _ => True
  | PCopy f o n => exists old, nth_error olds (N.to_nat f) = Some old /\ o + n <= len old
  end.

Definition piece_bytes (olds : list (list N)) (p : piece) : list N :=
  match p with
  | PFresh d => d
  | PCopy f o n => sub (nth (N.to_nat f) olds []) o n
  end.

Definition flatten (olds : list (list N)) (pl : list piece) : list N := concat (map (piece_bytes olds) pl).

Definition piece_fresh (p : piece) : N := match p with PFresh d => len d | PCopy _ _ _ => 0 end.

Fixpoint pieces_fresh (pl : list piece) : N :=
  match pl with [] => 0 | p :: r => piece_fresh p + pieces_fresh r end.

(** 1 when [x] is off the block grid *)
Definition misal (bs x : N) : N := if x mod bs =? 0 then 0 else 1.

(** number of ends of copied stretches that are off the block grid of the old file *)
Definition piece_cuts (bs : N) (p : piece) : N :=
  match p with PFresh _ => 0 | PCopy _ o n => misal bs o + misal bs (o + n) end.

Fixpoint pieces_cuts (bs : N) (pl : list piece) : N :=
  match pl with [] => 0 | p :: r => piece_cuts bs p + pieces_cuts bs r end.
