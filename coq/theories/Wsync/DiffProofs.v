(** Proofs about the [ComputeDiff] model.  What [enqueue] does to the list of operations ([push])
    and what stays true of a list built by [push] ([Good]); data sent off in pieces ([emits]); the
    loop body block by block in the buffer ([refill_spec], [iter_shape]) and then one iteration as
    seen from the source ([iter_nonlast], [iter_last]): only these two open the state.  [Head] holds
    at the head of every iteration, and any further invariant over [pos], [pend], [top], [rolling],
    [em] can be threaded along with it ([loop_ind], [diff_ind]). *)
From Wharf Require Import Base.Prelude Wsync.Weak Wsync.Diff Wsync.Spec Wsync.ApplyProofs Wsync.RollProofs Wsync.LibraryProofs.
From Coq Require Import ZifyBool ZifyNat ZifyN.
Local Open Scope N_scope.

(** offsets in the source: where the window starts, where the data not yet sent off starts, how
    far the source has been read *)
Notation pos s := (base s + sumTail s).
Notation pend s := (base s + dataTail s).
Notation top s := (base s + validTo s).

Definition lastop (l : list op) : option op := hd_error (rev l).

Lemma lastop_snoc l o : lastop (l ++ [o]) = Some o.
Proof. unfold lastop. rewrite rev_app_distr. reflexivity. Qed.

Lemma lastop_nil : lastop [] = None.
Proof. reflexivity. Qed.

Lemma mergeable_span_indep a f i sp sp' : mergeable a (OpRange f i sp) <-> mergeable a (OpRange f i sp').
Proof. destruct a; cbn; tauto. Qed.

Lemma nam_snoc (l : list op) (o : op) :
  no_adjacent_mergeable (l ++ [o]) <->
  no_adjacent_mergeable l /\ match lastop l with Some a => ~ mergeable a o | None => True end.
Proof.
  induction l as [|a [|b l'] IH].
  - cbn. tauto.
  - cbn. tauto.
  - change (lastop (a :: b :: l')) with (hd_error ((rev l' ++ [b]) ++ [a])).
    change (lastop (b :: l')) with (hd_error (rev l' ++ [b])) in IH.
    destruct (rev l'); cbn [app hd_error] in *; cbn [app no_adjacent_mergeable] in *; tauto.
Qed.


(** [enqueue] on the list of operations: a range that continues the last operation extends it *)
Definition push (l : list op) (o : op) : list op :=
  match rev l, o with
  | OpRange pf pi psp :: r, OpRange f i sp =>
      if (pf =? f) && (pi + psp =? i) then rev r ++ [OpRange pf pi (psp + sp)] else l ++ [o]
  | _, _ => l ++ [o]
  end.

Lemma push_cases l o :
  (push l o = l ++ [o] /\ match lastop l with Some a => ~ mergeable a o | None => True end) \/
  (exists l' f i sp sp', l = l' ++ [OpRange f i sp] /\ o = OpRange f (i + sp) sp' /\
                         push l o = l' ++ [OpRange f i (sp + sp')]).
Proof.
  unfold push, lastop. rewrite <- (rev_involutive l). generalize (rev l) as rl. intros rl. rewrite rev_involutive.
  destruct rl as [|[pf pi psp|] r]; cbn [hd_error rev]; [left; split; [reflexivity|exact I]| |left; split; [reflexivity|tauto]].
  destruct o as [f i sp|]; [|left; split; [reflexivity|tauto]].
  destruct ((pf =? f) && (pi + psp =? i)) eqn:E.
  - right. exists (rev r), pf, pi, psp, sp. apply andb_true_iff in E. split; [reflexivity|]. split; [f_equal; lia|reflexivity].
  - left. split; [reflexivity|]. cbn. apply andb_false_iff in E. lia.
Qed.

Lemma Forall_push (Q : op -> Prop) l o :
  (forall f i sp sp', Q (OpRange f i sp) -> Q (OpRange f (i + sp) sp') -> Q (OpRange f i (sp + sp'))) ->
  Forall Q l -> Q o -> Forall Q (push l o).
Proof.
  intros HQ Hl Ho. destruct (push_cases l o) as [[-> _]|(l' & f & i & sp & sp' & -> & -> & ->)].
  - apply Forall_app. auto.
  - apply Forall_app in Hl as [Hl Ha]. apply Forall_app. split; [assumption|].
    constructor; [|constructor]. inversion Ha; subst. auto.
Qed.

Lemma nam_push l o : no_adjacent_mergeable l -> no_adjacent_mergeable (push l o).
Proof.
  intros Hl. destruct (push_cases l o) as [[-> Hm]|(l' & f & i & sp & sp' & -> & -> & ->)].
  - apply nam_snoc. auto.
  - apply nam_snoc in Hl. apply nam_snoc. destruct (lastop l'); [|exact Hl].
    rewrite <- (mergeable_span_indep _ f i sp). exact Hl.
Qed.

Definition ops_of (e : emitter) : list op :=
  rev (out e) ++ match prev e with Some p => [p] | None => [] end.

Definition nonempty (o : op) : Prop := is_empty_data o = false.

(** [sendCount] counts [out], and [prevOp] is never a data operation ... *)
Definition wf0 (e : emitter) : Prop :=
  sent e = len (out e) /\ match prev e with Some (OpData _ _) => False | _ => True end.

(** ... and while the loop runs a range is held back in [prevOp] until something else follows,
    so that [enqueue] sees every pair of ranges that could be merged (after the trailing empty
    data operation has been dropped this is no longer so: [wf0] is what is left) *)
Definition wf (e : emitter) : Prop :=
  sent e = len (out e) /\
  match prev e, out e with Some (OpData _ _), _ | None, OpRange _ _ _ :: _ => False | _, _ => True end.

Lemma wf_wf0 e : wf e -> wf0 e.
Proof. unfold wf, wf0. destruct (prev e) as [[]|]; tauto. Qed.

Lemma len_cons {A} (x : A) l : len (x :: l) = len l + 1.
Proof. unfold len. cbn [length]. lia. Qed.

Lemma send_nonempty e o : nonempty o -> send e o = mkEm (prev e) (sent e + 1) (o :: out e).
Proof. unfold nonempty, send. intros ->. rewrite andb_false_r. reflexivity. Qed.

Lemma enqueue_push e o :
  wf e -> nonempty o -> wf (enqueue e o) /\ ops_of (enqueue e o) = push (ops_of e) o.
Proof.
  destruct e as [p n ou]. unfold wf, ops_of, push. cbn [prev sent out]. intros [-> Hp] Ho.
  destruct p as [[pf pi psp|]|]; [|contradiction|].
  - rewrite rev_app_distr, rev_involutive. cbn [rev app].
    destruct o as [f i sp|s l]; cbn [enqueue prev flush_prev].
    + destruct ((pf =? f) && (pi + psp =? i)); rewrite ?send_nonempty by reflexivity; cbn [set_prev prev sent out rev app]; rewrite ?len_cons; auto.
    + rewrite (send_nonempty _ (OpRange _ _ _)), send_nonempty by (exact Ho || reflexivity). cbn [set_prev prev sent out rev app].
      rewrite !len_cons, app_nil_r. auto.
  - rewrite app_nil_r, rev_involutive.
    destruct o as [f i sp|s l]; cbn [enqueue prev flush_prev]; rewrite ?send_nonempty by exact Ho;
      destruct ou as [|[] ?]; try contradiction; cbn [set_prev prev sent out rev app]; rewrite ?len_cons, ?app_nil_r; auto.
Qed.

Lemma flush_prev_spec e : wf0 e -> wf0 (flush_prev e) /\ prev (flush_prev e) = None /\ rev (out (flush_prev e)) = ops_of e.
Proof.
  destruct e as [[[pf pi psp|]|] n ou]; unfold wf0, ops_of, flush_prev; cbn [prev sent out]; intros [-> Hp]; try contradiction.
  - rewrite send_nonempty by reflexivity. cbn [set_prev prev sent out rev app]. rewrite len_cons. auto.
  - rewrite app_nil_r. auto.
Qed.

Lemma enqueue_empty e s :
  wf0 e -> wf0 (enqueue e (OpData s 0)) /\
  ops_of (enqueue e (OpData s 0)) = match ops_of e with [] => [OpData s 0] | _ => ops_of e end.
Proof.
  intros H. destruct (flush_prev_spec e H) as ([Hs _] & Hn & <-). cbn [enqueue].
  destruct (flush_prev e) as [p n ou]. cbn [prev sent out] in *. subst p n.
  unfold send, wf0, ops_of. cbn [is_empty_data N.eqb prev sent out]. rewrite andb_true_r.
  destruct ou as [|a r].
  - cbn. auto.
  - rewrite len_cons. replace (0 <? len r + 1) with true by lia. cbn [prev sent out]. rewrite app_nil_r, len_cons.
    split; [auto|]. cbn [rev]. destruct (rev r); reflexivity.
Qed.

Section DiffProofs.
  Variables (bs maxData : N).
  Variable olds : list (list N).
  Variable src : list N.
  Variable lookup : N -> N -> N -> N -> option (N * N).
  Hypothesis bs_pos : 0 < bs.
  Hypothesis max_pos : 0 < maxData.

  Notation srcLen := (len src).
  Notation den := (den bs olds src).
  Notation den_op := (den_op bs olds src).

  Definition full_range (o : op) : Prop :=
    match o with
    | OpRange f i sp => exists old, nth_error olds (N.to_nat f) = Some old /\ 1 <= sp /\ bs * (i + sp) <= len old
    | OpData _ _ => False
    end.

  Lemma full_range_ok o : full_range o -> range_ok bs olds o.
  Proof.
    destruct o as [f i sp|]; cbn; [|tauto]. intros (old & Hf & Hsp & Hfull).
    exists old. split; [assumption|]. split; [assumption|].
    apply num_blocks_spec; [assumption|assumption|]. nia.
  Qed.

  Lemma den_snoc l o : den (l ++ [o]) = den l ++ den_op o.
  Proof. rewrite den_app. unfold ApplyProofs.den. cbn [map concat]. rewrite app_nil_r. reflexivity. Qed.

  (** [den_op] of a range is a slice that stops at the end of the file, so this needs no bounds *)
  Lemma den_push l o : den (push l o) = den l ++ den_op o.
  Proof.
    destruct (push_cases l o) as [[-> _]|(l' & f & i & sp & sp' & -> & -> & ->)]; rewrite !den_snoc; [reflexivity|].
    rewrite <- app_assoc. f_equal. cbn [ApplyProofs.den_op]. rewrite !N.mul_add_distr_l. apply sub_app.
  Qed.

  Definition op_ok (o : op) : Prop := range_ok bs olds o /\ data_ok src o /\ data_len o <= maxData.

  Record Good (l : list op) (P : N) : Prop := {
    g_den : den l = sub src 0 P;
    g_ok : Forall op_ok l;
    g_ne : Forall nonempty l;
    g_mrg : no_adjacent_mergeable l
  }.

  Lemma Good_push l P o n :
    Good l P -> op_ok o -> nonempty o -> den_op o = sub src P n -> Good (push l o) (P + n).
  Proof.
    intros [Hd Hk Hn Hm] Ho Hne Hden. split.
    - rewrite den_push, Hd, Hden. symmetry. apply sub_app.
    - apply Forall_push; [|assumption..]. intros f i sp sp' [(old & Hf & Hsp & Hin) _] [(old' & Hf' & Hsp' & Hin') _].
      rewrite Hf in Hf'. injection Hf' as <-.
      split; [|cbn; split; [exact I|lia]]. exists old. split; [assumption|lia].
    - apply Forall_push; [reflexivity|assumption..].
    - apply nam_push. assumption.
  Qed.

  Definition Final (l : list op) : Prop :=
    den l = src /\ Forall op_ok l /\ no_adjacent_mergeable l /\ Forall nonempty (tl l).

  Lemma Good_final l : Good l srcLen -> Final l /\ Final match l with [] => [OpData srcLen 0] | _ => l end.
  Proof.
    intros [Hd Hk Hn Hm]. rewrite sub_zero_all in Hd by lia.
    assert (HF : Final l) by (repeat split; try assumption; destruct l; [constructor|inversion Hn; assumption]).
    split; [assumption|]. destruct l; [|assumption].
    split; [exact Hd|]. split; [|split; constructor]. constructor; [|constructor]. unfold op_ok. cbn. lia.
  Qed.

  Definition EInv (e : emitter) (P : N) : Prop := wf e /\ Good (ops_of e) P.

  Lemma enqueue_EInv e P o n :
    EInv e P -> op_ok o -> nonempty o -> den_op o = sub src P n -> EInv (enqueue e o) (P + n).
  Proof.
    intros [Hw Hg] Ho Hne Hd. destruct (enqueue_push e o Hw Hne) as [Hw' Hp].
    split; [assumption|]. rewrite Hp. apply Good_push; assumption.
  Qed.

  Lemma enqueue_data e P l :
    EInv e P -> 0 < l -> l <= maxData -> P + l <= srcLen -> EInv (enqueue e (OpData P l)) (P + l).
  Proof.
    intros He Hl Hm Hin. apply enqueue_EInv; [assumption| |unfold nonempty; cbn; lia|reflexivity].
    unfold op_ok. cbn. auto.
  Qed.

  Lemma EInv_final e : EInv e srcLen -> wf0 e /\ Final (ops_of e).
  Proof. intros [Hw Hg]. split; [apply wf_wf0; assumption|exact (proj1 (Good_final _ Hg))]. Qed.

  (** the last data operation: possibly empty, then dropped unless it is the first operation *)
  Lemma enqueue_last e P l :
    EInv e P -> l <= maxData -> P + l = srcLen ->
    wf0 (enqueue e (OpData P l)) /\ Final (ops_of (enqueue e (OpData P l))).
  Proof.
    intros He Hl Hend. destruct (N.eq_dec l 0) as [->|Hnz].
    - rewrite N.add_0_r in Hend. subst P. destruct He as [Hw Hg].
      destruct (enqueue_empty e srcLen (wf_wf0 _ Hw)) as [Hw' ->]. split; [assumption|exact (proj2 (Good_final _ Hg))].
    - apply EInv_final. rewrite <- Hend. apply enqueue_data; [assumption|lia..].
  Qed.


  Notation get := (get_of src).
  Notation Refill := (refill bs maxData srcLen).
  Notation Iter := (iter bs maxData get srcLen lookup).
  Notation Step := (step bs maxData get srcLen lookup).

  Ltac proj := cbn [base dataTail dataHead sumTail validTo aPop beta beta1 beta2 rolling lastRun shortSize oof em] in *.

  (** holds at the head of every iteration and, [lastRun] aside, after the refill *)
  Record Buf (s : st) : Prop := {
    i_em : EInv (em s) (base s + dataTail s);
    i_dt : dataTail s <= dataHead s;
    i_dh : dataHead s = sumTail s;
    i_st : sumTail s <= validTo s;
    i_len : base s + validTo s <= srcLen;
    i_max : dataHead s - dataTail s <= maxData;
    i_buf : validTo s <= L bs maxData;
    i_oof : oof s = false
  }.

  Definition Inv (s : st) : Prop := Buf s /\ lastRun s = false.

  Lemma Inv_init : Inv init.
  Proof.
    split; [split|]; cbn; try lia; try reflexivity. repeat split; cbn; try constructor; reflexivity.
  Qed.

  (** [e'] is [e] after the bytes [src[P, P')] have been enqueued as data, in pieces of at most
      [maxData] bytes: what the buffer wrap, the data flush and the trailing data of the last run do *)
  Inductive emits (e : emitter) (P : N) : emitter -> N -> Prop :=
  | emits_refl : emits e P e P
  | emits_data e1 P1 n : emits e P e1 P1 -> 0 < n -> n <= maxData -> P1 + n <= srcLen ->
                         emits e P (enqueue e1 (OpData P1 n)) (P1 + n).

  Lemma emits_trans e P e1 P1 e2 P2 : emits e P e1 P1 -> emits e1 P1 e2 P2 -> emits e P e2 P2.
  Proof. intros H1 H2. induction H2; [assumption|]. constructor; assumption. Qed.

  Lemma emits_EInv e P e' P' : EInv e P -> emits e P e' P' -> EInv e' P'.
  Proof. intros He H. induction H; [assumption|]. apply enqueue_data; assumption. Qed.

  Lemma emits_le e P e' P' : emits e P e' P' -> P <= P'.
  Proof. clear. intros H. induction H; lia. Qed.

  Lemma emits_same e P e' : emits e P e' P -> e' = e.
  Proof. clear. intros H. inversion H as [|e1 P1 n H1]; [reflexivity|]. apply emits_le in H1. lia. Qed.

  Lemma flush_pending e b dt t (c : bool) :
    dt <= t -> t - dt <= maxData -> b + t <= srcLen ->
    let e' := if (dt <? t) && c then enqueue e (OpData (b + dt) (t - dt)) else e in
    let dt' := if (dt <? t) && c then t else dt in
    emits e (b + dt) e' (b + dt').
  Proof.
    intros Hdt Hm Hin. destruct ((dt <? t) && c) eqn:E; cbv zeta; [|constructor].
    apply andb_true_iff in E as [E _]. apply N.ltb_lt in E.
    replace (b + t) with (b + dt + (t - dt)) by lia. constructor; [constructor|lia..].
  Qed.

  (** the trailing data of the last run: pieces of [maxData] bytes, then the rest, as a data
      operation of its own even when it is empty *)
  Lemma last_data_emits b vt : b + vt <= srcLen ->
    forall fuel e dt, dt <= vt -> (N.to_nat ((vt - dt) / maxData) < fuel)%nat ->
    exists e2 e' dt', last_data maxData fuel e b dt vt = (e', dt', false) /\ emits e (b + dt) e2 (b + vt) /\
                      (e' = e2 \/ e' = enqueue e2 (OpData (b + vt) 0)).
  Proof.
    intros Hin. induction fuel as [|k IH]; intros e dt Hdt Hfuel; [exfalso; exact (Nat.nlt_0_r _ Hfuel)|].
    cbn [last_data]. destruct (maxData <? vt - dt) eqn:Ec.
    - apply N.ltb_lt in Ec. destruct (IH (enqueue e (OpData (b + dt) maxData)) (dt + maxData)) as (e2 & e' & dt' & -> & He & Hor); [lia| |].
      + replace (vt - dt) with ((vt - (dt + maxData)) + 1 * maxData) in Hfuel by lia.
        rewrite N.div_add in Hfuel by lia. lia.
      + exists e2, e', dt'. split; [reflexivity|]. split; [|exact Hor]. refine (emits_trans _ _ _ _ _ _ _ He).
        rewrite N.add_assoc. constructor; [constructor|lia..].
    - apply N.ltb_ge in Ec. destruct (N.eq_dec dt vt) as [->|Hne].
      + rewrite N.sub_diag. eexists e, _, vt. split; [reflexivity|]. split; [constructor|auto].
      + eexists _, _, dt. split; [reflexivity|]. split; [|auto].
        replace (b + vt) with (b + dt + (vt - dt)) by lia. constructor; [constructor|lia..].
  Qed.

  (** after "determine if the buffer should be extended": a wrap sends the pending data off and
      moves [base], no position in the source moves; a read happens when less than a block lies
      ahead, brings [min bs (what is left)] bytes, and starts the last run when these are fewer than [bs] *)
  Record Refilled (s s1 : st) : Prop := {
    r_buf : Buf s1;
    r_em : emits (em s) (pend s) (em s1) (pend s1);
    r_pos : pos s1 = pos s;
    r_hash : (aPop s1, beta s1, beta1 s1, beta2 s1, rolling s1) = (aPop s, beta s, beta1 s, beta2 s, rolling s);
    r_nonlast : lastRun s1 = false ->
                sumTail s1 + bs <= validTo s1 /\ pos s + bs <= srcLen /\
                top s1 = (if top s <? pos s + bs then top s + bs else top s) /\ shortSize s1 = shortSize s;
    r_last : lastRun s1 = true ->
             top s < pos s + bs /\ srcLen < top s + bs /\ top s1 = srcLen /\ shortSize s1 = srcLen - top s
  }.

  Lemma refill_spec s : Inv s -> Refilled s (Refill s).
  Proof.
    intros [[Hem Hdt Hdh Hst Hlen Hmax Hbuf Hoof] Hrun].
    destruct s as [b dt dh stl vt ap be b1 b2 ro lr ss oo e]. proj. subst dh lr oo.
    unfold refill. proj. assert (Eref' : (b + vt <? b + stl + bs) = (vt <? stl + bs)) by lia.
    destruct (vt <? stl + bs) eqn:Eref.
    2:{ split; [split|..]; proj; rewrite ?Eref'; try apply emits_refl; try discriminate; auto; try lia. }
    pose proof (flush_pending e b dt stl true Hdt Hmax ltac:(lia)) as Hfl. cbv zeta in Hfl.
    pose proof (emits_EInv _ _ _ _ Hem Hfl) as He1. rewrite andb_true_r in *.
    replace (b + (if dt <? stl then stl else dt)) with (b + stl) in * by (destruct (dt <? stl) eqn:?; lia).
    destruct (L bs maxData <? vt + bs) eqn:Ew; unfold wrap; proj;
      [replace (b + stl + (vt - stl)) with (b + vt) by lia|];
      destruct (N.min bs (srcLen - (b + vt)) <? bs) eqn:En; (split; [split|..]); proj; unfold L in *;
      rewrite ?Eref', ?N.add_0_r; try discriminate; auto; try apply emits_refl; try lia; intros _; repeat split; lia.
  Qed.

  Definition with_hash (s : st) (be b1 b2 : N) : st :=
    mkSt (base s) (dataTail s) (dataHead s) (sumTail s) (validTo s) (aPop s) be b1 b2 true (lastRun s) (shortSize s) (oof s) (em s).

  Definition with_pending (s : st) (dt : N) (e : emitter) : st :=
    mkSt (base s) dt (dataHead s) (sumTail s) (validTo s) (aPop s) (beta s) (beta1 s) (beta2 s) (rolling s) (lastRun s)
         (shortSize s) (oof s) e.

  (** "compute the rolling hash": the state is rolling afterwards, and the lookup is skipped when a
      rolled hash has not changed *)
  Lemma hash_step_shape s :
    exists be b1 b2,
      hash_step bs get s =
        (with_hash s be b1 b2, rolling s && (sumTail s <? sum_head bs s) && (be =? beta s)) /\
      (rolling s && (sumTail s <? sum_head bs s) = false ->
       (be, b1, b2) = bhash (window get (base s + sumTail s) (sum_head bs s - sumTail s))).
  Proof.
    unfold hash_step. destruct (rolling s && (sumTail s <? sum_head bs s)) eqn:E.
    - apply andb_true_iff in E as [-> _]. destruct (roll _ _ _ _ _) as [[be b1] b2].
      exists be, b1, b2. split; [reflexivity|discriminate].
    - destruct (bhash _) as [[be b1] b2]. exists be, b1, b2. split; reflexivity.
  Qed.

  Lemma window_len s : sumTail s <= validTo s -> sum_head bs s - sumTail s = N.min bs (top s - pos s).
  Proof. clear. unfold sum_head. lia. Qed.

  Lemma flush_data_shape s (c : bool) :
    dataTail s <= dataHead s -> dataHead s - dataTail s <= maxData -> base s + dataHead s <= srcLen ->
    exists dt e, flush_data maxData s c = with_pending s dt e /\ emits (em s) (pend s) e (base s + dt) /\
                 dt <= dataHead s /\ dataHead s - dt < maxData /\ (c = true -> dt = dataHead s).
  Proof.
    intros Hdt Hm Hin. pose proof (flush_pending (em s) (base s) _ _ (c || (maxData <=? dataHead s - dataTail s)) Hdt Hm Hin) as He.
    cbv zeta in He. unfold flush_data. destruct ((dataTail s <? dataHead s) && _) eqn:E.
    - eexists _, _. split; [reflexivity|]. split; [exact He|]. lia.
    - exists (dataTail s), (em s). split; [destruct s; reflexivity|]. split; [exact He|]. lia.
  Qed.

  (** an iteration after the refill and the hash: the window is what lies between [pos] and [top], at
      most a block; the pending data, or nothing, is sent off (all of it when a range follows), then
      [advance] *)
  Lemma iter_shape s be b1 b2 skip : Inv s ->
    let s1 := Refill s in
    hash_step bs get s1 = (with_hash s1 be b1 b2, skip) ->
    let hit := if skip then None else lookup be (pos s) (N.min bs (top s1 - pos s)) (shortSize s1) in
    exists dt e,
      Iter s = advance bs maxData get (with_pending (with_hash s1 be b1 b2) dt e) hit /\
      emits (em s) (pend s) e (base s1 + dt) /\ EInv e (base s1 + dt) /\ dt <= sumTail s1 /\ sumTail s1 - dt < maxData /\
      (hit <> None -> base s1 + dt = pos s).
  Proof.
    intros HI s1 Hh hit. destruct (refill_spec s HI) as [[_ Hdt Hdh Hst Hlen Hmax _ _] Hem Hpos _ _ _]. fold s1 in Hdt, Hdh, Hst, Hlen, Hmax, Hem, Hpos.
    unfold iter. fold s1. rewrite Hh. change (sum_head bs (with_hash s1 be b1 b2)) with (sum_head bs s1).
    cbn [with_hash beta base sumTail shortSize]. rewrite (window_len _ Hst), Hpos. fold hit.
    destruct (flush_data_shape (with_hash s1 be b1 b2) (match hit with Some _ => true | None => false end))
      as (dt & e & -> & He & H1 & H2 & H3); [cbn [with_hash dataTail dataHead base]; lia..|].
    cbn [with_hash dataTail dataHead base em] in He, H1, H2, H3. rewrite Hdh in *.
    pose proof (emits_trans _ _ _ _ _ _ Hem He) as He'.
    exists dt, e. split; [reflexivity|]. split; [exact He'|]. split; [exact (emits_EInv _ _ _ _ (i_em _ (proj1 HI)) He')|].
    split; [assumption|]. split; [assumption|]. destruct hit; [intros _; rewrite <- Hpos, H3; reflexivity|congruence].
  Qed.

  Hypothesis Hsound : lookup_sound bs olds src lookup.

  (** a window found in the library is not empty, short only with the matching [shortSize], and goes
      out as a range of one block *)
  Lemma hit_range e be p w ss f i :
    lookup be p w ss = Some (f, i) -> p + w <= srcLen -> w <= bs -> EInv e p ->
    0 < w /\ ss = (if w <? bs then w else 0) /\ EInv (enqueue e (OpRange f i 1)) (p + w).
  Proof.
    intros E H1 H2 He. destruct (Hsound _ _ _ _ _ _ E H1 H2) as (H0 & Hss & old & Hf & Hl & Hb).
    split; [assumption|]. split; [assumption|]. apply (enqueue_EInv _ _ _ _ He); [|reflexivity|].
    - split; [|cbn; split; [exact I|lia]]. exists old. split; [assumption|]. split; [lia|].
      apply num_blocks_spec; [assumption|lia|]. replace (i + 1 - 1) with i by lia. lia.
    - cbn [ApplyProofs.den_op]. rewrite (nth_error_nth _ _ _ Hf), N.mul_1_r. exact Hb.
  Qed.

  Definition Fin (s : st) : Prop := lastRun s = true /\ oof s = false /\ wf0 (em s) /\ Final (ops_of (em s)).

  Notation wk a n := (weak_of (sub src a n)).

  Lemma weak_window a n be b1 b2 : a + n <= srcLen -> (be, b1, b2) = bhash (window get a n) -> be = wk a n.
  Proof. intros H E. unfold weak_of. rewrite <- (sub_get _ _ _ H), <- E. reflexivity. Qed.

  (** the state carries the weak hash of the full window one byte before the current one, and the
      byte that leaves *)
  Definition hash_ok (s : st) : Prop :=
    rolling s = true ->
    1 <= pos s /\ (beta s, beta1 s, beta2 s) = bhash (window get (pos s - 1) bs) /\ aPop s = get (pos s - 1).

  (** all that holds at the head of every iteration, whatever the client: no read has fallen short yet *)
  Record Head (s : st) : Prop := { h_inv : Inv s; h_hash : hash_ok s; h_ss : shortSize s = 0 }.

  Lemma hash_step_full s :
    hash_ok s -> sumTail s + bs <= validTo s -> pos s + bs <= srcLen ->
    exists b1 b2,
      (wk (pos s) bs, b1, b2) = bhash (window get (pos s) bs) /\
      hash_step bs get s = (with_hash s (wk (pos s) bs) b1 b2, rolling s && (wk (pos s) bs =? beta s)).
  Proof.
    intros Hh Hfull Hin.
    assert (Hsh : sum_head bs s = sumTail s + bs) by (unfold sum_head; lia).
    destruct (hash_step_shape s) as (be & b1 & b2 & Hs & Hscratch).
    rewrite Hsh in *. replace (sumTail s <? sumTail s + bs) with true in * by lia. rewrite andb_true_r in *.
    assert (Hb : (be, b1, b2) = bhash (window get (pos s) bs)).
    { destruct (rolling s) eqn:Hro.
      - destruct (Hh Hro) as (Hp1 & Hb & Hpop).
        pose proof (hash_step_rolls_correctly bs get s bs_pos Hro Hp1 Hfull Hb Hpop) as Hr.
        cbv zeta in Hr. rewrite Hs in Hr. exact Hr.
      - specialize (Hscratch eq_refl). replace (sumTail s + bs - sumTail s) with bs in Hscratch by lia. exact Hscratch. }
    pose proof (weak_window _ _ _ _ _ Hin Hb) as ->.
    eauto.
  Qed.

  Lemma Head_EInv s : Head s -> EInv (em s) (pend s).
  Proof. intros [[HB _] _ _]. exact (i_em _ HB). Qed.

  Ltac fields := cbn [advance with_pending with_hash base dataTail dataHead sumTail validTo aPop beta beta1 beta2 rolling
                      lastRun shortSize oof em].

  (** an iteration that is not the last run looks up the full window at [pos], unless its rolled
      hash equals the previous one; a range found goes out behind the pending data and the window
      moves on by a block, otherwise by a byte *)
  Theorem iter_nonlast s : Head s -> lastRun (Refill s) = false ->
    let a := pos s in let s' := Iter s in
    Head s' /\ a + bs <= srcLen /\ beta s' = wk a bs /\
    top s' = (if top s <? a + bs then top s + bs else top s) /\
    match (if rolling s && (wk a bs =? beta s) then None else lookup (wk a bs) a bs 0) with
    | Some (f, i) => rolling s' = false /\ pos s' = a + bs /\ pend s' = a + bs /\
                     exists e1, emits (em s) (pend s) e1 a /\ em s' = enqueue e1 (OpRange f i 1)
    | None => rolling s' = true /\ pos s' = a + 1 /\ emits (em s) (pend s) (em s') (pend s')
    end.
  Proof.
    intros [HI Hh Hss] Hlr. cbv zeta.
    destruct (refill_spec s HI) as [HB1 _ Hpos Hhash Hnl _].
    destruct (Hnl Hlr) as (Hfull & Hin & Htop & Hss1). rewrite Hss in Hss1. clear Hnl.
    assert (Hh1 : hash_ok (Refill s)) by (unfold hash_ok; injection Hhash as -> -> -> -> ->; rewrite Hpos; exact Hh).
    injection Hhash as _ Hbe _ _ Hro.
    destruct (hash_step_full _ Hh1 Hfull) as (c1 & c2 & Hb & Hhs); [rewrite Hpos; exact Hin|].
    destruct (iter_shape s _ _ _ _ HI Hhs) as (dt & e & -> & He & He3 & Hdt & Hmx & Hhit). clear Hhs Hh1 Hh HI.
    rewrite (N.min_l bs) in Hhit |- * by (clear - Hfull Hpos; lia).
    rewrite Hss1, Hro, Hbe, Hpos in Hhit |- *. rewrite Hpos in Hb. clear Hro Hbe.
    destruct (if rolling s && _ then None else _) as [[f i]|] eqn:Eh; fields.
    - destruct (rolling s && _); [discriminate|].
      rewrite (Hhit ltac:(discriminate)) in He, He3. clear Hhit.
      destruct (hit_range _ _ _ _ _ _ _ Eh ltac:(lia) ltac:(lia) He3) as (_ & _ & He'). clear Eh He3 Hb.
      split; [split; [|discriminate|exact Hss1]|].
      { split; [|assumption]. destruct HB1 as [_ _ _ Hst Hlen _ Hbuf Hoof]. clear - Hst Hlen Hbuf Hoof Hfull Hpos He'.
        split; fields; [|lia|reflexivity|lia..|assumption].
        replace (base (Refill s) + (sumTail (Refill s) + bs)) with (pos s + bs) by lia. exact He'. }
      split; [assumption|]. split; [reflexivity|]. split; [assumption|].
      split; [reflexivity|]. split; [lia|]. split; [lia|]. eauto.
    - clear Eh Hhit. rewrite Hlr. fields. split; [split; [| |exact Hss1]|].
      { split; [|reflexivity]. destruct HB1 as [_ _ _ Hst Hlen _ Hbuf Hoof]. clear - Hst Hlen Hbuf Hoof Hfull Hdt Hmx He3 bs_pos.
        split; fields; [exact He3|lia|reflexivity|lia..|assumption]. }
      { intros _. fields. replace (base (Refill s) + (sumTail (Refill s) + 1) - 1) with (pos s) by lia.
        rewrite Hpos, <- Hb. repeat split; lia. }
      split; [assumption|]. split; [reflexivity|]. split; [assumption|]. split; [reflexivity|]. split; [lia|assumption].
  Qed.

  (** the last run starts less than two blocks before the end; what is left of the source is looked
      up once (with the hash of the window unless it was rolled) and goes out as a range, or as data *)
  Theorem iter_last s : Head s -> lastRun (Refill s) = true ->
    let a := pos s in let s' := Iter s in
    top s < a + bs /\ srcLen < top s + bs /\
    let w := N.min bs (srcLen - a) in
    exists hit, (rolling s = false -> hit = lookup (wk a w) a w (srcLen - top s)) /\ Fin s' /\
      match hit with
      | Some (f, i) => a + w = srcLen /\ exists e1, emits (em s) (pend s) e1 a /\ em s' = enqueue e1 (OpRange f i 1)
      | None => exists e2, emits (em s) (pend s) e2 srcLen /\ (em s' = e2 \/ em s' = enqueue e2 (OpData srcLen 0))
      end.
  Proof.
    intros [HI _ _] Hlr. cbv zeta.
    destruct (refill_spec s HI) as [HB1 _ Hpos Hhash _ Hl]. destruct (Hl Hlr) as (Ht1 & Ht2 & Htop & Hss1). clear Hl.
    split; [exact Ht1|]. split; [exact Ht2|]. injection Hhash as _ Hbe _ _ Hro.
    pose proof (i_st _ HB1) as Hst. pose proof (i_oof _ HB1) as Hoof. clear HB1.
    destruct (hash_step_shape (Refill s)) as (be & b1 & b2 & Hhs & Hscr).
    pose proof (i_len _ (proj1 HI)) as Hlen.
    destruct (iter_shape s _ _ _ _ HI Hhs) as (dt & e & -> & He & He3 & Hdt & _ & Hhit). clear Hhs HI.
    pose proof (window_len _ Hst) as Hw. rewrite Htop, Hpos in Hw.
    rewrite Htop, Hss1, Hro, Hbe in Hhit |- *. rewrite Hw, Hro, Hpos in Hscr. clear Hbe.
    remember (N.min bs (srcLen - pos s)) as w eqn:Ew.
    exists (if rolling s && (sumTail (Refill s) <? sum_head bs (Refill s)) && (be =? beta s) then None
            else lookup be (pos s) w (srcLen - top s)). split.
    { intros Hr. rewrite Hr in *. cbn [andb] in *.
      rewrite (weak_window (pos s) w be b1 b2 ltac:(clear - Hst Hpos Htop Ew; lia) (Hscr eq_refl)). reflexivity. }
    clear Hscr Hro. set (skip := _ && (be =? _)) in *. clearbody skip.
    destruct (if skip then None else _) as [[f i]|] eqn:Eh; fields.
    - destruct skip; [discriminate|]. rewrite (Hhit ltac:(discriminate)) in He, He3. clear Hhit.
      destruct (hit_range _ _ _ _ _ _ _ Eh ltac:(lia) ltac:(lia) He3) as (Hw0 & Hsz & He'). clear Eh.
      assert (Hend : pos s + w = srcLen) by (destruct (w <? bs) eqn:Ewb; lia).
      split; [|eauto]. split; [assumption|]. split; [assumption|]. apply EInv_final. rewrite <- Hend. exact He'.
    - clear Eh Hhit Ht1 Ht2 Hlen Hw Ew w. rewrite Hlr.
      destruct (last_data_emits (base (Refill s)) (validTo (Refill s)) ltac:(lia) (S (N.to_nat ((validTo (Refill s) - dt) / maxData))) e dt)
        as (e2 & e' & dt' & -> & He2 & Hor); [lia..|].
      rewrite Htop in He2, Hor. pose proof (emits_EInv _ _ _ _ He3 He2) as HE. apply (emits_trans _ _ _ _ _ _ He) in He2. fields. rewrite Hoof.
      split; [|eauto]. split; [reflexivity|]. split; [reflexivity|]. destruct Hor as [->| ->]; [apply EInv_final; exact HE|].
      apply enqueue_last; [exact HE|lia..].
  Qed.

  (** what a further invariant [I] (end: [F]) has to survive, case by case: a range found, a byte
      step, the last run *)
  Lemma iter_step (I F : st -> Prop) s : Head s ->
    let a := pos s in
    let hit := if rolling s && (wk a bs =? beta s) then None else lookup (wk a bs) a bs 0 in
    (forall s' f i e1, a + bs <= srcLen -> hit = Some (f, i) ->
       top s' = (if top s <? a + bs then top s + bs else top s) -> rolling s' = false ->
       pos s' = a + bs -> pend s' = a + bs -> emits (em s) (pend s) e1 a -> em s' = enqueue e1 (OpRange f i 1) -> I s') ->
    (forall s', a + bs <= srcLen -> hit = None ->
       top s' = (if top s <? a + bs then top s + bs else top s) -> rolling s' = true ->
       pos s' = a + 1 -> emits (em s) (pend s) (em s') (pend s') -> I s') ->
    (forall s' last, top s < a + bs -> srcLen < top s + bs ->
       let w := N.min bs (srcLen - a) in
       (rolling s = false -> last = lookup (wk a w) a w (srcLen - top s)) ->
       match last with
       | Some (f, i) => a + w = srcLen /\ exists e1, emits (em s) (pend s) e1 a /\ em s' = enqueue e1 (OpRange f i 1)
       | None => exists e2, emits (em s) (pend s) e2 srcLen /\ (em s' = e2 \/ em s' = enqueue e2 (OpData srcLen 0))
       end -> F s') ->
    if lastRun (Refill s) then F (Iter s) else I (Iter s).
  Proof.
    intros HH a hit Hrange Hbyte Hlast. destruct (lastRun (Refill s)) eqn:Hlr.
    - destruct (iter_last s HH Hlr) as (H1 & H2 & last & Hl & _ & Hm). exact (Hlast _ last H1 H2 Hl Hm).
    - destruct (iter_nonlast s HH Hlr) as (_ & Hin & _ & Htop & Hm). fold a in Hin, Htop, Hm. fold hit in Hm.
      destruct hit as [[f i]|] eqn:E.
      + destruct Hm as (Hro & Hp & HP & e1 & He & Hem). exact (Hrange _ f i e1 Hin eq_refl Htop Hro Hp HP He Hem).
      + destruct Hm as (Hro & Hp & He). exact (Hbyte _ Hin eq_refl Htop Hro Hp He).
  Qed.

  Lemma Head_le s : Head s -> pend s <= pos s <= top s /\ top s <= srcLen.
  Proof. clear. intros [[[] _] _ _]. lia. Qed.

  Lemma Head_init : Head init.
  Proof. split; [exact Inv_init|discriminate|reflexivity]. Qed.

  (** every iteration that is not the last moves [pos] forward, which is how [run] gets by with
      [srcLen + 2] iterations *)
  Lemma loop_ind (I F : st -> Prop) :
    I init ->
    (forall s, Head s -> I s -> if lastRun (Refill s) then F (Iter s) else I (Iter s)) ->
    forall k : N, let s := N.iter k Step init in
      if lastRun s then Fin s /\ F s else Head s /\ I s /\ k <= pos s.
  Proof.
    intros H0 HS. induction k as [|k IH] using N.peano_ind; cbv zeta in *; [cbn; split; [exact Head_init|split; [exact H0|lia]]|].
    rewrite N.iter_succ. set (s := N.iter k Step init) in *.
    change (Step s) with (if lastRun s then s else Iter s).
    destruct (lastRun s) eqn:El; [rewrite El; exact IH|].
    destruct IH as (HH & Hi & Hk). specialize (HS _ HH Hi). destruct (lastRun (Refill s)) eqn:Hlr.
    - destruct (iter_last s HH Hlr) as (_ & _ & hit & _ & HF & _). rewrite (proj1 HF). auto.
    - destruct (iter_nonlast s HH Hlr) as (HH' & _ & _ & _ & Hc). rewrite (proj2 (h_inv _ HH')).
      split; [assumption|]. split; [assumption|].
      destruct (if rolling s && _ then None else _) as [[f i]|]; lia.
  Qed.

  (** stated as [hash_invariant_all_along] in Properties/C08.v *)
  Lemma Head_all_along (k : N) : let s := N.iter k Step init in lastRun s = false -> Head s.
  Proof.
    intros s Hl.
    pose proof (loop_ind (fun _ => True) (fun _ => True) I
                  (fun s _ _ => if lastRun (Refill s) as b return if b then True else True then I else I) k) as H.
    cbv zeta in H. fold s in H. rewrite Hl in H. tauto.
  Qed.

  (** the operations of the differ, everything C11 says about them, and whatever else the loop keeps *)
  Theorem diff_ind (I : st -> Prop) (F : list op -> Prop) :
    I init ->
    (forall s, Head s -> I s -> if lastRun (Refill s) then F (ops_of (em (Iter s))) else I (Iter s)) ->
    exists ops, compute_diff bs maxData get srcLen lookup = Some ops /\ Final ops /\ F ops.
  Proof.
    intros H0 HS. pose proof (loop_ind I (fun s => F (ops_of (em s))) H0 HS (srcLen + 2)) as H.
    unfold compute_diff, run. cbv zeta in H. destruct (lastRun _).
    - destruct H as [(_ & -> & Hw & HF) HF']. cbn [andb negb]. rewrite (proj2 (proj2 (flush_prev_spec _ Hw))). eauto.
    - destruct H as (HH & _ & Hk). pose proof (Head_le _ HH). lia.
  Qed.
End DiffProofs.
