(** The wire encoding of Overlay/Codec.v is a prefix code: [dec (enc o ++ rest) = Some (o, rest)]
    for every message, which is the hypothesis the C14 theorems make about the encoding. *)
From Wharf Require Import Base.Prelude Overlay.Fast Overlay.FastProofs Overlay.Writer Overlay.Codec.
From Coq Require Import ZifyBool ZifyNat ZifyN.
Local Open Scope N_scope.

Lemma get_uvarint_fuel : forall fuel n shift acc rest,
  n < 128 ^ N.of_nat (S fuel) ->
  get_uvarint (uvarint_fuel fuel n ++ rest) shift acc = Some (acc + N.shiftl n shift, rest).
Proof.
  induction fuel as [|f IH]; intros n shift acc rest Hn; cbn [uvarint_fuel].
  - change (128 ^ N.of_nat 1) with 128 in Hn. cbn [app get_uvarint].
    replace (n <? 128) with true by lia. reflexivity.
  - destruct (N.ltb_spec n 128) as [Hs|Hb]; cbn [app get_uvarint].
    + replace (n <? 128) with true by lia. reflexivity.
    + replace (128 + n mod 128 <? 128) with false by lia.
      replace (128 + n mod 128 - 128) with (n mod 128) by lia. rewrite IH.
      * rewrite !N.shiftl_mul_pow2, N.pow_add_r. change (2 ^ 7) with 128.
        rewrite (N.div_mod n 128) at 3 by discriminate. f_equal. f_equal. ring.
      * replace (N.of_nat (S (S f))) with (N.succ (N.of_nat (S f))) in Hn by lia.
        rewrite N.pow_succ_r' in Hn. apply N.div_lt_upper_bound; [lia|exact Hn].
Qed.

(** [N.size n] bits need at most [N.size n] groups of seven: the fuel [uvarint] takes is enough *)
Lemma uvarint_fuel_enough n : n < 128 ^ N.of_nat (S (N.to_nat (N.size n))).
Proof.
  pose proof (N.size_gt n) as Hs. set (s := N.size n) in *.
  replace (N.of_nat (S (N.to_nat s))) with (s + 1) by lia. change 128 with (2 ^ 7). rewrite <- N.pow_mul_r.
  assert (2 ^ s <= 2 ^ (7 * (s + 1))) by (apply N.pow_le_mono_r; lia). lia.
Qed.

Lemma get_uvarint_enc n rest : get_uvarint (uvarint n ++ rest) 0 0 = Some (n, rest).
Proof.
  unfold uvarint. rewrite get_uvarint_fuel by apply uvarint_fuel_enough. rewrite N.shiftl_0_r. reflexivity.
Qed.

Lemma fields_nil fuel ty ln data : fields fuel [] ty ln data = Some (ty, ln, data).
Proof. destruct fuel; reflexivity. Qed.

(** one field whose value is a varint: tags 8 ([type]) and 16 ([len]) store it, tag 26 ([data])
    takes that many bytes *)
Lemma fields_varint fuel tag v r ty ln data :
  fields (S fuel) (tag :: uvarint v ++ r) ty ln data =
  if tag =? 8 then fields fuel r v ln data
  else if tag =? 16 then fields fuel r ty v data
  else if tag =? 26 then
    (if len (takeN v r) =? v then fields fuel (dropN v r) ty ln (takeN v r) else None)
  else None.
Proof. cbn [fields]. rewrite get_uvarint_enc. reflexivity. Qed.

Lemma uvarint_1 : uvarint 1 = [1].
Proof. reflexivity. Qed.

Theorem dec_enc_real : forall o rest, dec (enc o ++ rest) = Some (o, rest).
Proof.
  intros o rest. unfold dec, enc. cbv zeta. rewrite <- app_assoc, get_uvarint_enc.
  rewrite take_exact, N.eqb_refl, drop_exact.
  destruct o as [n|d|]; cbn [payload].
  - destruct (N.eqb_spec n 0) as [->|Hn]; [reflexivity|].
    rewrite <- (app_nil_r (uvarint n)), fields_varint, fields_nil. reflexivity.
  - change (8 :: 1 :: ?x) with (8 :: uvarint 1 ++ x).
    rewrite fields_varint. cbn [N.eqb Pos.eqb]. destruct d as [|x d]; [reflexivity|].
    rewrite <- (app_nil_r (x :: d)) at 2. rewrite fields_varint. cbn [N.eqb Pos.eqb].
    rewrite take_exact, N.eqb_refl, drop_exact, fields_nil. reflexivity.
  - rewrite <- (app_nil_r (uvarint 2040)), fields_varint, fields_nil. reflexivity.
Qed.
