(** Characterisation of the tail-recursive list functions of Overlay/Fast.v by the standard
    library functions they compute; the characterisations form the rewrite base [fast]. *)
From Wharf Require Import Base.Prelude Base.ListLemmas Overlay.Fast.
From Coq Require Import ZifyBool ZifyNat ZifyN.
Local Open Scope N_scope.

Lemma len_acc_spec {A} (l : list A) : forall acc, len_acc l acc = acc + N.of_nat (length l).
Proof.
  induction l as [|x l IH]; intros acc; cbn [len_acc length].
  - lia.
  - rewrite IH. lia.
Qed.

Lemma len_spec {A} (l : list A) : len l = N.of_nat (length l).
Proof. unfold len. rewrite len_acc_spec. lia. Qed.

Lemma length_acc_spec {A} (l : list A) : forall acc, length_acc l acc = (acc + length l)%nat.
Proof.
  induction l as [|x l IH]; intros acc; cbn [length_acc length].
  - lia.
  - rewrite IH. lia.
Qed.

Lemma length_tr_spec {A} (l : list A) : length_tr l = length l.
Proof. unfold length_tr. rewrite length_acc_spec. lia. Qed.

Lemma app_tr_spec {A} (a b : list A) : app_tr a b = a ++ b.
Proof. unfold app_tr. rewrite !rev_append_rev, app_nil_r, rev_involutive. reflexivity. Qed.

Lemma split_acc_spec {A} (l : list A) :
  forall n acc, split_acc l n acc = (rev (firstn (N.to_nat n) l) ++ acc, skipn (N.to_nat n) l).
Proof.
  induction l as [|x l IH]; intros n acc; cbn [split_acc].
  - rewrite firstn_nil, skipn_nil. reflexivity.
  - destruct (N.eqb_spec n 0) as [->|Hn].
    + reflexivity.
    + rewrite IH. replace (N.to_nat n) with (S (N.to_nat (N.pred n))) by lia.
      cbn [firstn skipn rev]. rewrite <- app_assoc. reflexivity.
Qed.

Lemma takeN_spec {A} (n : N) (l : list A) : takeN n l = firstn (N.to_nat n) l.
Proof.
  unfold takeN. rewrite split_acc_spec. cbn [fst].
  rewrite rev_append_rev, !app_nil_r, rev_involutive. reflexivity.
Qed.

Lemma dropN_spec {A} (n : N) (l : list A) : dropN n l = skipn (N.to_nat n) l.
Proof. unfold dropN. rewrite split_acc_spec. reflexivity. Qed.

Lemma take_like_acc_spec {A B} (d : list B) :
  forall (l acc : list A), take_like_acc d l acc = rev (firstn (length d) l) ++ acc.
Proof.
  induction d as [|y d IH]; intros l acc; cbn [take_like_acc length firstn].
  - reflexivity.
  - destruct l as [|x l]; [reflexivity|]. rewrite IH. cbn [rev]. rewrite <- app_assoc. reflexivity.
Qed.

Lemma take_like_spec {A B} (d : list B) (l : list A) : take_like d l = firstn (length d) l.
Proof.
  unfold take_like. rewrite take_like_acc_spec, rev_append_rev, !app_nil_r, rev_involutive. reflexivity.
Qed.

Lemma drop_like_spec {A B} (d : list B) : forall (l : list A), drop_like d l = skipn (length d) l.
Proof.
  induction d as [|y d IH]; intros l; cbn [drop_like length skipn].
  - reflexivity.
  - destruct l as [|x l]; [reflexivity|]. apply IH.
Qed.

Lemma pos_iter_cons {A} (v : A) (p : positive) :
  forall acc, Pos.iter (cons v) acc p = repeat v (Pos.to_nat p) ++ acc.
Proof.
  intros acc. rewrite Pos2Nat.inj_iter.
  induction (Pos.to_nat p) as [|k IH]; cbn [nat_rect repeat app].
  - reflexivity.
  - cbn. f_equal. exact IH.
Qed.

Lemma repeat_onto_spec {A} (v : A) (n : N) (acc : list A) :
  repeat_onto v n acc = repeat v (N.to_nat n) ++ acc.
Proof.
  destruct n as [|p]; cbn [repeat_onto N.to_nat].
  - reflexivity.
  - apply pos_iter_cons.
Qed.

Lemma concat_rev_spec {A} (chunks : list (list A)) : concat_rev chunks = concat (rev chunks).
Proof.
  unfold concat_rev.
  assert (H : forall acc, fold_left (fun acc ch => app_tr ch acc) chunks acc = concat (rev chunks) ++ acc).
  { induction chunks as [|c cs IH]; intros acc; cbn [fold_left rev concat].
    - reflexivity.
    - rewrite IH, app_tr_spec, concat_app. cbn [concat]. rewrite app_nil_r, <- app_assoc. reflexivity. }
  rewrite H, app_nil_r. reflexivity.
Qed.

#[export] Hint Rewrite @len_spec @takeN_spec @dropN_spec @take_like_spec @drop_like_spec @app_tr_spec
  @repeat_onto_spec @concat_rev_spec @length_tr_spec : fast.

Lemma firstn_exact {A} (a b : list A) n : n = length a -> firstn n (a ++ b) = a.
Proof. intros ->. apply firstn_app_exact. Qed.

Lemma skipn_exact {A} (a b : list A) n : n = length a -> skipn n (a ++ b) = b.
Proof. intros ->. apply skipn_app_exact. Qed.

Lemma take_exact {A} (a b : list A) : takeN (len a) (a ++ b) = a.
Proof. rewrite takeN_spec, len_spec, Nat2N.id. apply firstn_exact. reflexivity. Qed.

Lemma drop_exact {A} (a b : list A) : dropN (len a) (a ++ b) = b.
Proof. rewrite dropN_spec, len_spec, Nat2N.id. apply skipn_exact. reflexivity. Qed.
