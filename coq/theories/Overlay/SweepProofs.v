(** The sweep of Exec/C14Sweep.v checks, case by case, the conclusions of [overlay_correct_lemma]
    (one session) and [overlay_sessions_lemma] (two sessions with stale bytes in between) at the
    real codec.  Both hold for every window size, so the sweep succeeds at every parameter. *)
From Wharf Require Import Base.Prelude Base.ListLemmas Overlay.Writer Overlay.Patch Overlay.Codec
  Overlay.CodecProofs Overlay.SessionProofs Exec.C14Sweep.
Local Open Scope N_scope.

Lemma written_events_for ws flush : written (events_for ws flush) = concat ws.
Proof.
  induction ws as [|w ws IH]; [reflexivity|].
  cbn [events_for flat_map concat app written]. fold (events_for ws flush).
  destruct flush; cbn [app written]; rewrite IH; reflexivity.
Qed.

Section Sweep.
  Variables bs thr : N.
  Hypothesis Hbs : 0 < bs.

  Lemma check_one_true old ws flush : check_one bs thr old ws flush = true.
  Proof.
    unfold check_one.
    destruct (overlay_correct_lemma bs thr enc dec magic Hbs dec_enc_real old (events_for ws flush) [])
      as [Hf Hp].
    rewrite Hf, Hp, written_events_for. apply nlist_eqb_refl.
  Qed.

  Lemma check_split_true old ws k flush : check_split bs thr old ws k flush = true.
  Proof.
    unfold check_split.
    pose proof (overlay_sessions_lemma bs thr enc dec magic Hbs dec_enc_real old
                  [(events_for (firstn k ws) flush, stale_bytes)] (events_for (skipn k ws) flush) []) as H.
    destruct (run_sessions _ _ _ _ _ _ _ _ _ _) as [[f fail] log]. destruct H as [-> ->].
    cbn [map concat fst]. rewrite app_nil_r, !written_events_for, <- concat_app, firstn_skipn.
    apply nlist_eqb_refl.
  Qed.

  Theorem sweep_true n : sweep bs thr n = true.
  Proof.
    unfold sweep, check_new. repeat (apply forallb_forall; intros).
    rewrite !check_one_true. apply forallb_forall. intros. apply check_split_true.
  Qed.
End Sweep.
