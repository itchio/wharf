(** C14 — invariants of the overlay writer model: every call of the processor consumes a prefix
    of what it is handed and emits messages that rebuild exactly that prefix at the cursor;
    the bufio layer feeds the processor every byte exactly once, in order; Flush empties the
    buffer, after which [readOffset] is the number of bytes written to the writer so far. *)
From Wharf Require Import Base.Prelude Base.BlocksLemmas Overlay.Fast Overlay.FastProofs Overlay.Writer Overlay.Patch Overlay.WindowProofs.
From Coq Require Import ZifyBool ZifyNat ZifyN.
Local Open Scope N_scope.

Fixpoint ops_len (ops : list op) : N :=
  match ops with [] => 0 | o :: r => op_len o + ops_len r end.

Lemma ops_len_app a b : ops_len (a ++ b) = ops_len a + ops_len b.
Proof. induction a as [|o a IH]; cbn [ops_len app]; lia. Qed.

Lemma apply_op_len o bf af :
  N.of_nat (length (fst (apply_op o (bf, af)))) = N.of_nat (length bf) + op_len o.
Proof.
  destruct o as [n|d|].
  - rewrite apply_op_skip_gen. cbn [fst op_len]. rewrite !app_length, repeat_length, rev_length, firstn_length. lia.
  - rewrite apply_op_fresh. cbn [fst op_len]. rewrite app_length, rev_length, len_spec. lia.
  - cbn. lia.
Qed.

Lemma apply_ops_len ops : forall bf af,
  N.of_nat (length (fst (apply_ops ops (bf, af)))) = N.of_nat (length bf) + ops_len ops.
Proof.
  induction ops as [|o ops IH]; intros bf af; cbn [apply_ops fold_left ops_len].
  - cbn. lia.
  - fold (apply_ops ops (apply_op o (bf, af))).
    destruct (apply_op o (bf, af)) as [bf' af'] eqn:E. rewrite IH.
    pose proof (apply_op_len o bf af) as H. rewrite E in H. cbn [fst] in H. lia.
Qed.

Lemma window_len (threshold : N) (buf rb : list byte) :
  (length rb <= length buf)%nat -> ops_len (write_window threshold rb buf) = len buf.
Proof.
  intros H1. destruct (window_ok threshold buf rb [] [] H1 (fun _ => eq_refl)) as [Ha _].
  pose proof (apply_ops_len (write_window threshold rb buf) [] (rb ++ [])) as Hl.
  rewrite Ha in Hl. cbn [fst] in Hl. rewrite app_nil_r, rev_length in Hl. rewrite len_spec. cbn [length] in Hl. lia.
Qed.

Section Writer.
  Variables (bufSize threshold : N).
  Variable enc : op -> list byte.
  Variable magic : list byte.
  Hypothesis HbufSize : 0 < bufSize.

  Notation emit := (emit enc).
  Notation proc_write1 := (proc_write1 bufSize threshold enc).
  Notation proc_write_loop := (proc_write_loop bufSize threshold enc).
  Notation proc_write := (proc_write bufSize threshold enc).
  Notation bw_flush := (bw_flush bufSize threshold enc).
  Notation bw_loop := (bw_loop bufSize threshold enc).
  Notation bw_write := (bw_write bufSize threshold enc).
  Notation run_event := (run_event bufSize threshold enc).
  Notation run_events := (run_events bufSize threshold enc).
  Notation finalize := (finalize bufSize threshold enc).

  Definition enc_all (ops : list op) : list byte := concat (map enc ops).

  (** [st'] is [st] after the processor consumed [consumed] and emitted [ops] *)
  Record rel (st st' : wstate) (ops : list op) (consumed : list byte) : Prop := {
    r_rrest : w_rrest st' = skipn (length consumed) (w_rrest st);
    r_roff : w_roff st' = w_roff st + len consumed;
    r_out : w_out st' = rev (map enc ops) ++ w_out st;
    r_ooff : w_ooff st' = w_ooff st + len (enc_all ops);
    r_apply : forall bf, apply_ops ops (bf, w_rrest st) = (rev consumed ++ bf, w_rrest st');
    r_notend : Forall not_end ops
  }.

  Definition core (st : wstate) := (w_rrest st, w_roff st, w_ooff st, w_out st).

  Lemma rel_core_r st st' st'' ops c : core st' = core st'' -> rel st st' ops c -> rel st st'' ops c.
  Proof.
    unfold core. intros H [A1 A2 A3 A4 A5 A6]. injection H as E1 E2 E3 E4.
    constructor; rewrite <- ?E1, <- ?E2, <- ?E3, <- ?E4; assumption.
  Qed.

  Lemma rel_core_l st0 st st' ops c : core st0 = core st -> rel st0 st' ops c -> rel st st' ops c.
  Proof.
    unfold core. intros H [A1 A2 A3 A4 A5 A6]. injection H as E1 E2 E3 E4.
    constructor; rewrite <- ?E1, <- ?E2, <- ?E3, <- ?E4; assumption.
  Qed.

  Lemma rel_refl st : rel st st [] [].
  Proof. constructor; cbn; rewrite ?N.add_0_r; auto. Qed.

  Lemma rel_trans st1 st2 st3 ops1 ops2 c1 c2 :
    rel st1 st2 ops1 c1 -> rel st2 st3 ops2 c2 -> rel st1 st3 (ops1 ++ ops2) (c1 ++ c2).
  Proof.
    intros [A1 A2 A3 A4 A7 A8] [B1 B2 B3 B4 B7 B8].
    constructor.
    - rewrite B1, A1, skipn_skipn_add, app_length. reflexivity.
    - rewrite B2, A2, !len_spec, app_length. lia.
    - rewrite B3, A3, map_app, rev_app_distr, app_assoc. reflexivity.
    - rewrite B4, A4. unfold enc_all. rewrite map_app, concat_app, !len_spec, app_length. lia.
    - intros bf. rewrite apply_ops_app, A7, B7, rev_app_distr, app_assoc. reflexivity.
    - apply Forall_app. split; assumption.
  Qed.

  (** [rel] for the processor, which leaves the bufio fields alone *)
  Definition prel (st st' : wstate) (ops : list op) (consumed : list byte) : Prop :=
    rel st st' ops consumed /\ w_bn st' = w_bn st /\ w_bbuf st' = w_bbuf st.

  Lemma prel_refl st st' : core st = core st' -> w_bn st' = w_bn st -> w_bbuf st' = w_bbuf st -> prel st st' [] [].
  Proof. intros Hc Hn Hb. split; [exact (rel_core_r _ _ _ _ _ Hc (rel_refl st)) | split; assumption]. Qed.

  Lemma prel_trans st1 st2 st3 ops1 ops2 c1 c2 :
    prel st1 st2 ops1 c1 -> prel st2 st3 ops2 c2 -> prel st1 st3 (ops1 ++ ops2) (c1 ++ c2).
  Proof. intros (R1 & N1 & B1) (R2 & N2 & B2). split; [eapply rel_trans; eassumption | split; congruence]. Qed.

  Lemma emit_fold ops : forall st,
    let st' := fold_left emit ops st in
    w_rrest st' = w_rrest st /\ w_roff st' = w_roff st + ops_len ops /\
    w_out st' = rev (map enc ops) ++ w_out st /\ w_ooff st' = w_ooff st + len (enc_all ops) /\
    w_bn st' = w_bn st /\ w_bbuf st' = w_bbuf st /\ w_fail st' = w_fail st.
  Proof.
    induction ops as [|o ops IH]; intros st; cbn [fold_left].
    - cbn. repeat split; lia.
    - destruct (IH (emit st o)) as (H1 & H2 & H3 & H4 & H5 & H6 & H7). cbn zeta.
      rewrite H1, H2, H3, H4, H5, H6, H7. cbn [emit put w_rrest w_roff w_out w_ooff w_bn w_bbuf w_fail Writer.emit].
      cbn [map rev ops_len]. unfold enc_all. cbn [map concat].
      rewrite <- app_assoc. cbn [app]. rewrite !len_spec, app_length. repeat split; lia.
  Qed.

  Lemma proc_write1_ok st buf0 :
    let buf := firstn (N.to_nat (N.min bufSize (len buf0))) buf0 in
    exists ops, prel st (fst (proc_write1 st buf0)) ops buf /\ snd (proc_write1 st buf0) = len buf /\
                w_fail (fst (proc_write1 st buf0)) = w_fail st.
  Proof.
    intros buf. unfold Writer.proc_write1. cbn [fst snd].
    replace (if bufSize <? len buf0 then takeN bufSize buf0 else buf0) with buf.
    2:{ subst buf. rewrite len_spec. destruct (N.ltb_spec bufSize (N.of_nat (length buf0))).
        - rewrite takeN_spec. f_equal. lia.
        - rewrite firstn_all2; [reflexivity|lia]. }
    clearbody buf. autorewrite with fast.
    set (rb := firstn (length buf) (w_rrest st)). set (rest := skipn (length buf) (w_rrest st)).
    set (ops := write_window threshold rb buf).
    assert (H1 : (length rb <= length buf)%nat) by (subst rb; rewrite firstn_length; lia).
    assert (H2 : (length rb < length buf)%nat -> rest = []).
    { subst rb rest. rewrite firstn_length. intros H. apply skipn_all2. lia. }
    pose proof (fun bf => window_ok threshold buf rb rest bf H1 H2) as Hw.
    pose proof (window_len threshold buf rb H1) as Hol. fold ops in Hw, Hol.
    destruct (emit_fold ops (mkW rest (w_roff st) (w_ooff st) (w_out st) (w_bn st) (w_bbuf st) (w_fail st)))
      as (E1 & E2 & E3 & E4 & E5 & E6 & E7). cbn zeta in *.
    exists ops. repeat split; try assumption.
    - rewrite E2, Hol. reflexivity.
    - intros bf. rewrite E1. cbn [w_rrest]. rewrite <- (proj1 (Hw bf)). subst rb rest. rewrite firstn_skipn. reflexivity.
    - exact (proj2 (Hw [])).
  Qed.

  (** the loop of overlayProcessor.Write consumes a prefix of [buf]; with enough fuel it does
      not fail; called with [written = 0] it takes at least one window, and everything when
      there is at most one window *)
  Lemma proc_write_loop_ok : forall fuel st buf written,
    exists ops consumed rest,
      buf = consumed ++ rest /\
      prel st (fst (proc_write_loop fuel st buf written)) ops consumed /\
      snd (proc_write_loop fuel st buf written) = written + len consumed /\
      (len buf <= N.of_nat fuel * bufSize -> w_fail (fst (proc_write_loop fuel st buf written)) = w_fail st) /\
      (written = 0 -> len buf <= N.of_nat fuel * bufSize -> N.min bufSize (len buf) <= len consumed).
  Proof.
    induction fuel as [|f IH]; intros st buf written; cbn [Writer.proc_write_loop];
      destruct (N.ltb_spec written (len buf)) as [Hlt|Hge]; cbn [fst snd].
    (* where the loop body does not run, nothing is consumed *)
    1, 2, 4: exists [], [], buf; rewrite N.add_0_r; split; [reflexivity|]; split; [apply prel_refl; reflexivity|];
      repeat split; cbn; intros; subst; lia || reflexivity.
    destruct (proc_write1_ok st buf) as (ops1 & Hrel1 & Hn1 & Hf1).
    destruct (proc_write1 st buf) as [st1 n1]. cbn [fst snd] in *.
    set (c1 := firstn (N.to_nat (N.min bufSize (len buf))) buf) in *.
    assert (Hc1 : length c1 = N.to_nat (N.min bufSize (len buf))) by (subst c1; rewrite firstn_length, len_spec; lia).
    replace (dropN n1 buf) with (skipn (length c1) buf) by (rewrite dropN_spec, Hn1, len_spec, Nat2N.id; reflexivity).
    destruct (IH st1 (skipn (length c1) buf) (written + n1)) as (ops2 & c2 & rest & Hsplit & Hrel2 & Hw2 & Hfail2 & _).
    exists (ops1 ++ ops2), (c1 ++ c2), rest. split; [|split; [|split; [|split]]].
    - rewrite <- app_assoc, <- Hsplit, Hc1. symmetry. apply firstn_skipn.
    - eapply prel_trans; eassumption.
    - rewrite Hw2, Hn1, !len_spec, app_length. lia.
    - intros Hfuel. rewrite Hfail2, Hf1; [reflexivity|].
      rewrite len_spec, skipn_length, Hc1. rewrite len_spec in *. nia.
    - intros _ _. rewrite !len_spec, app_length, Hc1. rewrite len_spec. lia.
  Qed.

  Lemma loop_fuel x : x <= N.of_nat (S (N.to_nat (x / bufSize))) * bufSize.
  Proof. pose proof (N.div_mod x bufSize ltac:(lia)). pose proof (N.mod_lt x bufSize ltac:(lia)). nia. Qed.

  Lemma proc_write_ok st buf :
    let n := snd (proc_write st buf) in
    N.min bufSize (len buf) <= n <= len buf /\
    w_fail (fst (proc_write st buf)) = w_fail st /\
    exists ops, prel st (fst (proc_write st buf)) ops (takeN n buf).
  Proof.
    unfold Writer.proc_write.
    destruct (proc_write_loop_ok (S (N.to_nat (len buf / bufSize))) st buf 0) as (ops & c & rest & -> & H2 & H3 & H4 & H5).
    specialize (H5 eq_refl (loop_fuel _)). cbn zeta. rewrite H3, N.add_0_l, take_exact.
    split; [rewrite !len_spec, app_length in *; lia |]. split; [exact (H4 (loop_fuel _)) | exists ops; exact H2].
  Qed.

  (** [fed] is everything handed to overlayWriter.Write since [st0]; all of it but the
      buffered tail has been processed *)
  Definition binv (st0 st : wstate) (fed : list byte) : Prop :=
    (exists ops processed, rel st0 st ops processed /\ fed = processed ++ rev (w_bbuf st)) /\
    w_bn st = len (w_bbuf st) /\ w_bn st <= bufSize /\ w_fail st = false.

  Lemma binv_init st0 : w_bn st0 = 0 -> w_bbuf st0 = [] -> w_fail st0 = false -> binv st0 st0 [].
  Proof.
    intros H1 H2 H3. split; [|split; [|split]].
    - exists [], []. split; [apply rel_refl|]. rewrite H2. reflexivity.
    - rewrite H1, H2. reflexivity.
    - lia.
    - exact H3.
  Qed.

  Lemma buffer_append_ok st0 st fed p :
    binv st0 st fed -> len p <= bufSize - w_bn st -> binv st0 (buffer_append st p) (fed ++ p).
  Proof.
    intros ((ops & pr & Hrel & Hfed) & Hbn & Hcap & Hfail) Hp.
    split; [|split; [|split]]; cbn [buffer_append w_bn w_bbuf w_fail].
    - exists ops, pr. split.
      + eapply rel_core_r; [|exact Hrel]. reflexivity.
      + rewrite rev_append_rev, rev_app_distr, rev_involutive, Hfed, app_assoc. reflexivity.
    - rewrite Hbn, !len_spec, rev_append_rev, app_length, rev_length. lia.
    - lia.
    - exact Hfail.
  Qed.

  Lemma binv_empty st0 st fed : binv st0 st fed -> w_bn st = 0 -> w_bbuf st = [].
  Proof.
    intros (_ & Hbn & _) Hz. rewrite Hz, len_spec in Hbn. destruct (w_bbuf st); [reflexivity|cbn in Hbn; lia].
  Qed.

  Lemma binv_proc st0 st fed buf :
    binv st0 st fed -> w_bn st = 0 ->
    let n := snd (proc_write st buf) in
    N.min bufSize (len buf) <= n <= len buf /\
    binv st0 (fst (proc_write st buf)) (fed ++ takeN n buf) /\ w_bn (fst (proc_write st buf)) = 0.
  Proof.
    intros Hinv Hz. pose proof (binv_empty _ _ _ Hinv Hz) as Hb.
    destruct Hinv as ((ops & pr & Hrel & Hfed) & Hbn & Hcap & Hfail).
    destruct (proc_write_ok st buf) as (Hn & Hf & ops2 & Hrel2 & Hbn2 & Hbb2).
    cbn zeta. unfold binv. rewrite Hbn2, Hbb2, Hf. repeat split; try assumption; try apply Hn.
    exists (ops ++ ops2), (pr ++ takeN (snd (proc_write st buf)) buf). split; [eapply rel_trans; eassumption|].
    rewrite Hfed, Hb. cbn [rev]. rewrite !app_nil_r. reflexivity.
  Qed.

  Lemma bw_flush_ok st0 st fed :
    binv st0 st fed -> binv st0 (bw_flush st) fed /\ w_bbuf (bw_flush st) = [] /\ w_bn (bw_flush st) = 0.
  Proof.
    intros Hinv. unfold Writer.bw_flush. destruct (N.eqb_spec (w_bn st) 0) as [Hz|Hnz].
    - split; [exact Hinv | split; [exact (binv_empty _ _ _ Hinv Hz) | exact Hz]].
    - destruct Hinv as ((ops & pr & Hrel & Hfed) & Hbn & Hcap & Hfail). rewrite rev_append_rev, app_nil_r.
      destruct (proc_write_ok st (rev (w_bbuf st))) as (Hn & Hf & ops2 & Hrel2 & _).
      destruct (proc_write st (rev (w_bbuf st))) as [st' n]. cbn [fst snd] in *.
      (* at most one window is handed over, so all of it is taken *)
      assert (En : n = w_bn st) by (rewrite !len_spec, rev_length in *; lia).
      rewrite takeN_spec, En, Hbn, len_spec, Nat2N.id, <- (rev_length (w_bbuf st)), firstn_all in Hrel2.
      split; [|split; reflexivity]. split; [|split; [|split]]; cbn [w_bn w_bbuf w_fail].
      + exists (ops ++ ops2), (pr ++ rev (w_bbuf st)). split.
        * eapply rel_core_r; [|eapply rel_trans; [exact Hrel|exact Hrel2]]. reflexivity.
        * cbn [rev]. rewrite app_nil_r. exact Hfed.
      + reflexivity.
      + lia.
      + rewrite Hf, Hfail. cbn [orb]. apply N.ltb_ge. lia.
  Qed.

  (** bufio.Writer.Write, loop and final copy: one more window of fuel than [p] has when the
      buffer has to be filled and flushed first *)
  Lemma bw_loop_ok st0 : forall fuel st p fed,
    binv st0 st fed ->
    len p + (if w_bn st =? 0 then 0 else bufSize) <= N.of_nat fuel * bufSize ->
    binv st0 (buffer_append (fst (bw_loop fuel st p)) (snd (bw_loop fuel st p))) (fed ++ p).
  Proof.
    induction fuel as [|f IH]; intros st p fed Hinv Hfuel; cbn [Writer.bw_loop];
      (destruct (N.leb_spec (len p) (bufSize - w_bn st)) as [Hfit|Hbig]; cbn [fst snd];
       [apply buffer_append_ok; assumption |]).
    - destruct (w_bn st =? 0); lia.
    - destruct (N.eqb_spec (w_bn st) 0) as [E|E].
      + (* direct write *)
        destruct (binv_proc st0 st fed p Hinv E) as (Hn & Hinv' & Hbn').
        destruct (proc_write st p) as [st' n]. cbn [fst snd] in *.
        replace (fed ++ p) with ((fed ++ takeN n p) ++ dropN n p)
          by (rewrite <- app_assoc, takeN_spec, dropN_spec, firstn_skipn; reflexivity).
        apply IH; [exact Hinv' |].
        rewrite Hbn', len_spec, dropN_spec, skipn_length. rewrite len_spec in *. cbn [N.eqb]. lia.
      + (* fill the buffer, flush *)
        set (n := bufSize - w_bn st).
        assert (Hcap : w_bn st <= bufSize) by apply Hinv.
        assert (Htake : len (takeN n p) <= bufSize - w_bn st) by (rewrite len_spec, takeN_spec, firstn_length; lia).
        destruct (bw_flush_ok st0 _ _ (buffer_append_ok st0 st fed (takeN n p) Hinv Htake)) as (Hinv2 & _ & Hbn2).
        replace (fed ++ p) with ((fed ++ takeN n p) ++ dropN n p)
          by (rewrite <- app_assoc, takeN_spec, dropN_spec, firstn_skipn; reflexivity).
        apply IH; [exact Hinv2 |].
        rewrite Hbn2, len_spec, dropN_spec, skipn_length. rewrite len_spec in Hfuel. cbn [N.eqb]. lia.
  Qed.

  Lemma bw_write_ok st0 st fed p : binv st0 st fed -> binv st0 (bw_write st p) (fed ++ p).
  Proof.
    intros Hinv. unfold Writer.bw_write.
    pose proof (bw_loop_ok st0 (S (S (N.to_nat (len p / bufSize)))) st p fed Hinv) as H.
    destruct (bw_loop _ st p) as [st' p']. apply H.
    pose proof (loop_fuel (len p)). destruct (w_bn st =? 0); lia.
  Qed.

  Lemma run_events_ok st0 evs : forall st fed,
    binv st0 st fed -> binv st0 (run_events st evs) (fed ++ written evs).
  Proof.
    induction evs as [|e evs IH]; intros st fed Hinv; cbn [Writer.run_events fold_left written].
    - rewrite app_nil_r. exact Hinv.
    - fold (run_events (run_event st e) evs). destruct e as [d|]; cbn [Writer.run_event].
      + rewrite app_assoc. apply IH. apply bw_write_ok. exact Hinv.
      + apply IH. apply bw_flush_ok. exact Hinv.
  Qed.

  (** after a Flush everything written so far has been processed: the offsets are exact *)
  Lemma flushed_ok st0 st fed :
    binv st0 st fed ->
    let st' := bw_flush st in
    exists ops, rel st0 st' ops fed /\ w_fail st' = false /\ w_bn st' = 0 /\ w_bbuf st' = [].
  Proof.
    intros Hinv. destruct (bw_flush_ok st0 st fed Hinv) as (((ops & pr & Hrel & Hfed) & _ & _ & Hfail) & Hbb & Hbn).
    exists ops. cbn zeta. rewrite Hbb in Hfed. cbn [rev] in Hfed. rewrite app_nil_r in Hfed. subst pr.
    split; [exact Hrel|split; [exact Hfail|split; assumption]].
  Qed.
End Writer.
