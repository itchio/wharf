(** The wire encoding of overlay messages (wire.WriteMessage of a proto3 OverlayOp): uvarint
    length prefix, then the fields [type] (1, varint), [len] (2, varint), [data] (3, bytes),
    each omitted when it has its default value.  Used to instantiate [enc] / [dec] / [magic]
    for execution, so that overlay offsets of the model equal Go's. *)
From Wharf Require Import Base.Prelude Overlay.Writer.
Local Open Scope N_scope.

Fixpoint uvarint_fuel (fuel : nat) (n : N) : list byte :=
  match fuel with
  | O => [n]
  | S f => if n <? 128 then [n] else (128 + n mod 128) :: uvarint_fuel f (n / 128)
  end.
Definition uvarint (n : N) : list byte := uvarint_fuel (N.to_nat (N.size n)) n.     (* binary.PutUvarint *)

Fixpoint get_uvarint (s : list byte) (shift acc : N) : option (N * list byte) :=   (* binary.ReadUvarint without its overflow checks *)
  match s with
  | [] => None
  | b :: r => if b <? 128 then Some (acc + N.shiftl b shift, r)
              else get_uvarint r (shift + 7) (acc + N.shiftl (b - 128) shift)
  end.

Definition payload (o : op) : list byte :=
  match o with
  | Skip n => if n =? 0 then [] else 16 :: uvarint n
  | Fresh d => 8 :: 1 :: match d with [] => [] | _ => 26 :: uvarint (len d) ++ d end
  | EndMark => 8 :: uvarint 2040
  end.

Definition enc (o : op) : list byte := let p := payload o in uvarint (len p) ++ p.

(** fields of one message; unknown fields are a decoding error of the model (the writer never
    produces them) *)
Fixpoint fields (fuel : nat) (s : list byte) (ty ln : N) (data : list byte) : option (N * N * list byte) :=
  match s with
  | [] => Some (ty, ln, data)
  | tag :: r =>
      match fuel with
      | O => None
      | S f =>
          if tag =? 8 then
            match get_uvarint r 0 0 with Some (v, r') => fields f r' v ln data | None => None end
          else if tag =? 16 then
            match get_uvarint r 0 0 with Some (v, r') => fields f r' ty v data | None => None end
          else if tag =? 26 then
            match get_uvarint r 0 0 with
            | Some (l, r') =>
                let d := takeN l r' in
                if len d =? l then fields f (dropN l r') ty ln d else None
            | None => None
            end
          else None
      end
  end.

Definition dec (s : list byte) : option (op * list byte) :=
  match get_uvarint s 0 0 with
  | None => None
  | Some (l, r) =>
      let body := takeN l r in
      if len body =? l then           (* io.ReadFull *)
        match fields 4 body 0 0 [] with
        | Some (ty, ln, data) =>
            let rest := dropN l r in
            if ty =? 0 then Some (Skip ln, rest)
            else if ty =? 1 then Some (Fresh data, rest)
            else if ty =? 2040 then Some (EndMark, rest)
            else None
        | None => None
        end
      else None
  end.

(** OverlayMagic = 0xFEF6F00, little endian *)
Definition magic : list byte := [0; 111; 239; 15].
