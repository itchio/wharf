(** C14 — sessions and the patch: the overlay file written by any sequence of sessions, each
    resumed from the offsets reported after a Flush and whatever stale bytes follow the saved
    overlay offset, applied to the old file and truncated, is the concatenation of everything
    written. *)
From Wharf Require Import Base.Prelude Base.BlocksLemmas Overlay.Fast Overlay.FastProofs Overlay.Writer Overlay.Patch
  Overlay.WindowProofs Overlay.WriterProofs.
From Coq Require Import ZifyBool ZifyNat ZifyN.
Local Open Scope N_scope.

Lemma write_at_spec file off b :
  write_at file off b =
  firstn (N.to_nat off) file ++ repeat 0 (N.to_nat off - length file) ++ b ++ skipn (N.to_nat off + length b) file.
Proof.
  unfold write_at. autorewrite with fast. rewrite skipn_skipn_add.
  replace (N.to_nat (off - N.of_nat (length file))) with (N.to_nat off - length file)%nat by lia.
  reflexivity.
Qed.

Lemma write_at_prefix file off P tail X :
  file = P ++ tail -> N.to_nat off = length P ->
  write_at file off X = (P ++ X) ++ skipn (length X) tail.
Proof.
  intros -> Hoff. rewrite write_at_spec, Hoff, firstn_exact by reflexivity.
  replace (length P - length (P ++ tail))%nat with O by (rewrite app_length; lia).
  rewrite <- skipn_skipn_add, skipn_exact, <- app_assoc by reflexivity. reflexivity.
Qed.

Lemma write_at_app file off a b :
  write_at file off (a ++ b) =
  firstn (N.to_nat off + length a) (write_at file off a) ++ b ++ skipn (N.to_nat off + length a + length b) file.
Proof.
  rewrite !write_at_spec.
  set (pre := firstn (N.to_nat off) file ++ repeat 0 (N.to_nat off - length file)).
  assert (Hpl : length pre = N.to_nat off).
  { subst pre. rewrite app_length, firstn_length, repeat_length. lia. }
  rewrite !(app_assoc (firstn _ file)). fold pre.
  rewrite (app_assoc pre a). rewrite firstn_exact by (rewrite app_length; lia).
  rewrite app_length, <- !app_assoc, Nat.add_assoc. reflexivity.
Qed.

Section Sessions.
  Variables (bufSize threshold : N).
  Variable enc : op -> list byte.
  Variable dec : list byte -> option (op * list byte).
  Variable magic : list byte.
  Hypothesis HbufSize : 0 < bufSize.
  (** the wire format is a prefix code *)
  Hypothesis dec_enc : forall o rest, dec (enc o ++ rest) = Some (o, rest).

  Notation enc_all := (enc_all enc).
  Notation rel := (rel enc).
  Notation new_writer := (new_writer enc magic).
  Notation bw_flush := (bw_flush bufSize threshold enc).
  Notation run_events := (run_events bufSize threshold enc).
  Notation run_events_log := (run_events_log bufSize threshold enc).
  Notation run_sessions := (run_sessions bufSize threshold enc magic).
  Notation finalize := (finalize bufSize threshold enc).
  Notation patch := (patch dec magic).

  Lemma enc_nonempty o : enc o <> [].
  Proof.
    (* were [enc o] empty, the code word of another message [o'] would also decode as [o] *)
    intros E. pose (o' := match o with EndMark => Skip 0 | _ => EndMark end).
    pose proof (dec_enc o (enc o')) as H1. pose proof (dec_enc o' []) as H2.
    rewrite E in H1. cbn [app] in H1. rewrite app_nil_r in H2. rewrite H1 in H2.
    injection H2 as H2 _. destruct o; discriminate H2.
  Qed.

  Lemma enc_all_cons o ops : enc_all (o :: ops) = enc o ++ enc_all ops.
  Proof. reflexivity. Qed.

  Lemma enc_all_length ops : (length ops <= length (enc_all ops))%nat.
  Proof.
    induction ops as [|o ops IH]; [cbn; lia|].
    rewrite enc_all_cons, app_length. cbn [length].
    pose proof (enc_nonempty o). destruct (enc o); [contradiction|]. cbn [length]. lia.
  Qed.

  Lemma enc_all_app a b : enc_all (a ++ b) = enc_all a ++ enc_all b.
  Proof. unfold WriterProofs.enc_all. rewrite map_app, concat_app. reflexivity. Qed.

  Lemma patch_loop_ops : forall ops fuel c junk,
    Forall not_end ops -> (length ops < fuel)%nat ->
    patch_loop dec fuel (enc_all ops ++ enc EndMark ++ junk) c = POk (rev (fst (apply_ops ops c))).
  Proof.
    induction ops as [|o ops IH]; intros fuel c junk Hne Hfuel.
    - destruct fuel as [|f]; [lia|]. cbn [patch_loop WriterProofs.enc_all map concat app].
      rewrite dec_enc. cbn [apply_ops fold_left]. rewrite rev_append_rev, app_nil_r. reflexivity.
    - destruct fuel as [|f]; [cbn in Hfuel; lia|]. inversion Hne as [|? ? Ho Hne']; subst.
      cbn [patch_loop]. rewrite enc_all_cons, <- app_assoc, dec_enc.
      cbn [apply_ops fold_left]. fold (apply_ops ops (apply_op o c)).
      destruct o as [n|d|]; [| |exfalso; apply Ho; reflexivity];
        apply IH; try assumption; cbn in Hfuel; lia.
  Qed.

  Lemma expect_magic_ok s : expect_magic magic (magic ++ s) = Some s.
  Proof.
    unfold expect_magic. autorewrite with fast.
    rewrite firstn_exact by reflexivity. rewrite (list_eqb_refl N.eqb N.eqb_eq), skipn_exact by reflexivity. reflexivity.
  Qed.

  Lemma patch_ok old ops junk :
    Forall not_end ops ->
    patch old (magic ++ enc_all ops ++ enc EndMark ++ junk) = POk (rev (fst (apply_ops ops ([], old)))).
  Proof.
    intros Hne. unfold Patch.patch. rewrite expect_magic_ok. apply patch_loop_ops; [exact Hne|].
    rewrite length_tr_spec, app_length. pose proof (enc_all_length ops). lia.
  Qed.

  Lemma new_writer_fields old roff ooff :
    let st0 := new_writer old roff ooff in
    w_rrest st0 = skipn (N.to_nat roff) old /\ w_roff st0 = roff /\ w_bn st0 = 0 /\ w_bbuf st0 = [] /\ w_fail st0 = false /\
    ((ooff = 0 /\ w_out st0 = [enc (Skip 0); magic] /\ w_ooff st0 = len magic + len (enc (Skip 0))) \/
     (ooff <> 0 /\ w_out st0 = [] /\ w_ooff st0 = ooff)).
  Proof using Type.
    unfold Writer.new_writer. destruct (N.eqb_spec ooff 0) as [->|Hnz]; cbn; rewrite dropN_spec;
      repeat split; try reflexivity.
    - left. repeat split; reflexivity.
    - right. split; [assumption|split; reflexivity].
  Qed.

  Lemma run_events_log_fst evs : forall st log, fst (fold_left (run_event_log bufSize threshold enc) evs (st, log)) = run_events st evs.
  Proof using Type.
    induction evs as [|e evs IH]; intros st log; cbn [fold_left Writer.run_events].
    - reflexivity.
    - unfold run_event_log at 2. cbn [fst snd]. rewrite IH. reflexivity.
  Qed.

  Lemma session_ok old roff ooff evs :
    let st0 := new_writer old roff ooff in
    let st := bw_flush (run_events st0 evs) in
    exists ops, rel st0 st ops (written evs) /\ w_fail st = false /\ w_bn st = 0 /\ w_bbuf st = [].
  Proof using HbufSize.
    intros st0 st.
    destruct (new_writer_fields old roff ooff) as (_ & _ & Hbn & Hbb & Hf & _). fold st0 in Hbn, Hbb, Hf.
    assert (H0 : binv bufSize enc st0 st0 []) by (apply binv_init; assumption).
    assert (H1 : binv bufSize enc st0 (run_events st0 evs) (written evs)).
    { apply (run_events_ok bufSize threshold enc HbufSize st0 evs st0 [] H0). }
    exact (flushed_ok bufSize threshold enc HbufSize st0 _ _ H1).
  Qed.

  (** what holds when a session is opened at ([roff], [ooff]) over the overlay file [file]:
      [allops] are the messages of the earlier sessions (the header message included), [fed]
      what those sessions were given *)
  Definition pre (old file : list byte) (roff ooff : N) (allops : list op) (fed : list byte) : Prop :=
    apply_ops allops ([], old) = (rev fed, skipn (N.to_nat roff) old) /\
    roff = len fed /\ Forall not_end allops /\
    ((ooff = 0 /\ allops = [] /\ fed = []) \/
     (ooff <> 0 /\ exists tail, file = (magic ++ enc_all allops) ++ tail /\ N.to_nat ooff = length (magic ++ enc_all allops))).

  Lemma apply_skip0 c : apply_op (Skip 0) c = c.
  Proof. destruct c as [bf af]. rewrite apply_op_skip; cbn; [reflexivity|lia]. Qed.

  Lemma rel_session_bytes st0 st ops c : rel st0 st ops c -> session_bytes st = session_bytes st0 ++ enc_all ops.
  Proof using Type.
    intros [_ _ R3 _ _ _]. unfold session_bytes.
    rewrite !concat_rev_spec, R3, rev_app_distr, rev_involutive, concat_app. reflexivity.
  Qed.

  Lemma new_writer_ooff old roff ooff :
    let st0 := new_writer old roff ooff in w_ooff st0 = ooff + len (session_bytes st0).
  Proof using Type.
    clear HbufSize dec_enc dec. unfold Writer.new_writer, session_bytes. rewrite concat_rev_spec.
    destruct (N.eqb_spec ooff 0) as [->|Hnz]; cbn [put w_out w_ooff rev concat app];
      rewrite !len_spec, ?app_length; cbn [length]; lia.
  Qed.

  (** what is in the overlay when a session has been opened from [pre]: [P] was there before
      the opening offset, the writer adds the header when that offset is 0 *)
  Lemma opened old file roff ooff allops fed :
    pre old file roff ooff allops fed ->
    let st0 := new_writer old roff ooff in
    let allops0 := if ooff =? 0 then [Skip 0] else allops in
    exists P tail, file = P ++ tail /\ N.to_nat ooff = length P /\
      P ++ session_bytes st0 = magic ++ enc_all allops0 /\ w_ooff st0 <> 0 /\
      apply_ops allops0 ([], old) = (rev fed, skipn (N.to_nat roff) old) /\ Forall not_end allops0.
  Proof.
    intros (Hap & _ & Hne & [(-> & -> & ->) | (Hnz & tail & Hfile & Hoo)]);
      unfold Writer.new_writer, session_bytes; rewrite concat_rev_spec.
    - exists [], file. cbn [N.eqb put w_out w_ooff rev concat app N.to_nat length apply_ops fold_left].
      rewrite apply_skip0, enc_all_cons, !app_nil_r.
      repeat (split; [reflexivity |]). split; [| split; [exact Hap | repeat constructor; discriminate]].
      pose proof (enc_nonempty (Skip 0)). rewrite !len_spec. destruct (enc (Skip 0)); [contradiction | cbn [length]; lia].
    - rewrite (proj2 (N.eqb_neq _ _) Hnz). exists (magic ++ enc_all allops), tail.
      cbn [w_out w_ooff rev concat]. rewrite app_nil_r. repeat split; assumption.
  Qed.

  Lemma session_lands old file roff ooff allops fed st ops fed_s :
    pre old file roff ooff allops fed ->
    rel (new_writer old roff ooff) st ops fed_s ->
    let allops' := (if ooff =? 0 then [Skip 0] else allops) ++ ops in
    exists tail,
      write_at file ooff (session_bytes st) = (magic ++ enc_all allops') ++ tail /\
      N.to_nat (w_ooff st) = length (magic ++ enc_all allops') /\
      (N.to_nat ooff + length (session_bytes st))%nat = length (magic ++ enc_all allops') /\
      w_ooff st <> 0 /\
      apply_ops allops' ([], old) = (rev (fed ++ fed_s), skipn (N.to_nat (w_roff st)) old) /\
      w_roff st = len (fed ++ fed_s) /\ Forall not_end allops'.
  Proof.
    intros Hpre Hrel. destruct (opened _ _ _ _ _ _ Hpre) as (P & tail & Hfile & Hoo & Hhead & Hnz & Hap & Hne).
    destruct Hpre as (_ & Hroff & _). pose proof (new_writer_ooff old roff ooff) as Hooff.
    pose proof (rel_session_bytes _ _ _ _ Hrel) as Hsb. destruct Hrel as [R1 R2 R3 R4 R5 R6].
    destruct (new_writer_fields old roff ooff) as (Hrr & Hro & _). cbn zeta in *.
    rewrite enc_all_app, app_assoc, <- Hhead, Hsb, <- app_assoc.
    exists (skipn (length (session_bytes (new_writer old roff ooff) ++ enc_all ops)) tail).
    split; [apply write_at_prefix; assumption |].
    rewrite R4, Hooff, R2, Hro, Hroff, !len_spec, !app_length in *.
    repeat (split; [lia |]). split; [| split; [lia | apply Forall_app; split; assumption]].
    rewrite apply_ops_app, Hap, <- Hrr, R5, R1, Hrr, skipn_skipn_add, rev_app_distr.
    f_equal. f_equal. lia.
  Qed.

  (** the overlay cut at the overlay offset reported after a Flush and closed with an end marker
      applies to the old file giving exactly the bytes written so far (whatever sessions came before) *)
  Lemma flushed_prefix_lemma old file roff ooff allops fed evs junk :
    pre old file roff ooff allops fed ->
    let st := bw_flush (run_events (new_writer old roff ooff) evs) in
    patch old (firstn (N.to_nat (w_ooff st)) (write_at file ooff (session_bytes st)) ++ enc EndMark ++ junk)
    = POk (fed ++ written evs).
  Proof.
    intros Hpre. cbn zeta.
    destruct (session_ok old roff ooff evs) as (ops & Hrel & _). cbn zeta in Hrel.
    destruct (session_lands old file roff ooff allops fed _ ops (written evs) Hpre Hrel)
      as (tail & Hfile & Hoo & _ & _ & Hap & _ & Hne).
    rewrite Hfile, Hoo. rewrite firstn_exact by reflexivity. rewrite <- app_assoc.
    rewrite patch_ok by exact Hne. rewrite Hap. cbn [fst]. rewrite rev_involutive. reflexivity.
  Qed.

  (** the last session: Finalize appends the end marker where the flushed overlay ends *)
  Lemma final_session_ok old file roff ooff allops fed evs :
    pre old file roff ooff allops fed ->
    let st := finalize (run_events (new_writer old roff ooff) evs) in
    w_fail st = false /\ patch old (write_at file ooff (session_bytes st)) = POk (fed ++ written evs).
  Proof.
    intros Hpre. cbn zeta. unfold Writer.finalize.
    destruct (session_ok old roff ooff evs) as (ops & Hrel & Hfail & _). cbn zeta in Hrel, Hfail.
    destruct (session_lands old file roff ooff allops fed _ ops (written evs) Hpre Hrel) as (tail & _ & Hoo & Hlen & _).
    rewrite <- Hoo in Hlen.
    set (st := bw_flush (run_events (new_writer old roff ooff) evs)) in *.
    split; [exact Hfail |].
    replace (session_bytes (emit enc st EndMark)) with (session_bytes st ++ enc EndMark).
    - rewrite write_at_app, Hlen. exact (flushed_prefix_lemma old file roff ooff allops fed evs _ Hpre).
    - unfold session_bytes. rewrite !concat_rev_spec. cbn [emit put w_out rev].
      rewrite concat_app. cbn [concat]. rewrite app_nil_r. reflexivity.
  Qed.

  Lemma run_events_log_eq st evs : run_events_log st evs = (run_events st evs, snd (run_events_log st evs)).
  Proof using Type.
    unfold Writer.run_events_log. rewrite <- (run_events_log_fst evs st []). apply surjective_pairing.
  Qed.

  Theorem sessions_ok old : forall ss last file roff ooff allops fed,
    pre old file roff ooff allops fed ->
    let '(f, fail, _) := run_sessions old file roff ooff ss last in
    fail = false /\
    patch old f = POk (fed ++ concat (map (fun s => written (fst s)) ss) ++ written last).
  Proof.
    induction ss as [|[evs stale] ss IH]; intros last file roff ooff allops fed Hpre;
      cbn [Writer.run_sessions]; rewrite run_events_log_eq.
    - exact (final_session_ok old file roff ooff allops fed last Hpre).
    - destruct (session_ok old roff ooff evs) as (ops & Hrel & Hfail & _). cbn zeta in Hrel, Hfail.
      set (st := bw_flush (run_events (new_writer old roff ooff) evs)) in *.
      destruct (session_lands old file roff ooff allops fed st ops (written evs) Hpre Hrel)
        as (tail & Hfile & Hoo & _ & Hnz & Hap & Hro & Hne).
      set (allops' := (if ooff =? 0 then [Skip 0] else allops) ++ ops) in *.
      assert (Hpre' : pre old (app_tr (takeN (w_ooff st) (write_at file ooff (session_bytes st))) stale)
                          (w_roff st) (w_ooff st) allops' (fed ++ written evs)).
      { split; [exact Hap|]. split; [exact Hro|]. split; [exact Hne|]. right. split; [exact Hnz|].
        exists stale. split; [|exact Hoo].
        rewrite app_tr_spec, takeN_spec, Hfile, Hoo. rewrite firstn_exact by reflexivity. reflexivity. }
      specialize (IH last _ _ _ _ _ Hpre'). cbv zeta. fold st.
      destruct (run_sessions old (app_tr (takeN (w_ooff st) (write_at file ooff (session_bytes st))) stale) (w_roff st) (w_ooff st) ss last) as [[f fail] log'].
      destruct IH as [Hf Hp]. split.
      + rewrite Hfail, Hf. reflexivity.
      + rewrite Hp. cbn [map concat fst]. rewrite <- !app_assoc. reflexivity.
  Qed.

  Lemma pre_init old file : pre old file 0 0 [] [].
  Proof.
    split; [reflexivity|]. split; [reflexivity|]. split; [constructor|]. left. repeat split; reflexivity.
  Qed.

  Corollary overlay_sessions_lemma old ss last file0 :
    let '(f, fail, _) := run_sessions old file0 0 0 ss last in
    fail = false /\ patch old f = POk (concat (map (fun s => written (fst s)) ss) ++ written last).
  Proof. exact (sessions_ok old ss last file0 0 0 [] [] (pre_init old file0)). Qed.

  Corollary overlay_correct_lemma old evs file0 :
    let st := finalize (run_events (new_writer old 0 0) evs) in
    w_fail st = false /\ patch old (write_at file0 0 (session_bytes st)) = POk (written evs).
  Proof. exact (final_session_ok old file0 0 0 [] [] evs (pre_init old file0)). Qed.
End Sessions.
