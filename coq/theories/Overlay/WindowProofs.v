(** C14 — the per-window lemma: the messages emitted by [overlayProcessor.write] for one
    window, applied at a cursor standing where the window starts in the old file, produce
    exactly the window and leave the cursor where the window ends; SKIP only ever covers
    bytes that are equal in the old file and in the window.  First what one message does to the
    cursor ([apply_op_fresh], [apply_op_skip]) and [slice_spec]. *)
From Wharf Require Import Base.Prelude Base.BlocksLemmas Overlay.Fast Overlay.FastProofs Overlay.Writer Overlay.Patch.
From Coq Require Import ZifyBool ZifyNat ZifyN.
Local Open Scope N_scope.

Definition not_end (o : op) : Prop := o <> EndMark.

Lemma apply_ops_app a b c : apply_ops (a ++ b) c = apply_ops b (apply_ops a c).
Proof. unfold apply_ops. apply fold_left_app. Qed.

Lemma apply_op_fresh d bf af : apply_op (Fresh d) (bf, af) = (rev d ++ bf, skipn (length d) af).
Proof. cbn [apply_op]. autorewrite with fast. rewrite rev_append_rev. reflexivity. Qed.

(** a SKIP past the end of the file pads with zeros *)
Lemma apply_op_skip_gen n bf af :
  apply_op (Skip n) (bf, af) =
  (repeat 0 (N.to_nat n - length af) ++ rev (firstn (N.to_nat n) af) ++ bf, skipn (N.to_nat n) af).
Proof.
  cbn [apply_op]. autorewrite with fast. rewrite rev_append_rev, firstn_length.
  replace (N.to_nat (n - N.of_nat (Nat.min (N.to_nat n) (length af)))) with (N.to_nat n - length af)%nat by lia.
  reflexivity.
Qed.

Lemma apply_op_skip n bf af :
  (N.to_nat n <= length af)%nat ->
  apply_op (Skip n) (bf, af) = (rev (firstn (N.to_nat n) af) ++ bf, skipn (N.to_nat n) af).
Proof. intros Hn. rewrite apply_op_skip_gen. replace (N.to_nat n - length af)%nat with O by lia. reflexivity. Qed.

Lemma slice_spec {A} (l : list A) a b : slice l a b = firstn (N.to_nat (b - a)) (skipn (N.to_nat a) l).
Proof. unfold slice. autorewrite with fast. reflexivity. Qed.

Section Window.
  Variable threshold : N.
  Variables (buf rbfull rest bf : list byte).
  Hypothesis Hlen : (length rbfull <= length buf)%nat.

  Let full := rbfull ++ rest.

  (** the messages emitted so far rebuild buf[:k] and leave the cursor [k] bytes into the old file *)
  Definition built (k : nat) (acc : list op) : Prop :=
    apply_ops (rev acc) (bf, full) = (rev (firstn k buf) ++ bf, skipn k full) /\ Forall not_end acc.

  Lemma built_fresh lo hi acc :
    built (N.to_nat lo) acc -> lo <= hi -> (N.to_nat hi <= length buf)%nat ->
    built (N.to_nat hi) (if lo <? hi then Fresh (slice buf lo hi) :: acc else acc).
  Proof.
    intros Hb Hle Hhi. destruct (N.ltb_spec lo hi); [| replace hi with lo by lia; exact Hb].
    destruct Hb as [Hops Hne]. split; [|constructor; [discriminate|exact Hne]].
    cbn [rev]. rewrite apply_ops_app, Hops. cbn [apply_ops fold_left].
    rewrite apply_op_fresh, slice_spec, app_assoc, <- rev_app_distr, firstn_add, skipn_skipn_add, firstn_length, skipn_length.
    repeat f_equal; lia.
  Qed.

  (** SKIP stands for bytes that are the same in the old file and in the window *)
  Lemma built_skip k n acc :
    built k acc -> firstn (N.to_nat n) (skipn k full) = firstn (N.to_nat n) (skipn k buf) ->
    (k + N.to_nat n <= length full)%nat -> built (k + N.to_nat n) (Skip n :: acc).
  Proof.
    intros [Hops Hne] He Hn. split; [|constructor; [discriminate|exact Hne]].
    cbn [rev]. rewrite apply_ops_app, Hops. cbn [apply_ops fold_left].
    rewrite apply_op_skip by (rewrite skipn_length; lia).
    rewrite He, app_assoc, <- rev_app_distr, firstn_add, skipn_skipn_add. reflexivity.
  Qed.

  (** what holds between iterations of the scan: [bd]/[rd] are the parts of buf / rbuf already
      seen, they end with the same [same] bytes [e], and the messages emitted so far rebuild
      buf[:lastOp] *)
  Definition inv (bd rd : list byte) (lastOp same : N) (acc : list op) : Prop :=
    exists ba ra e,
      bd = ba ++ e /\ rd = ra ++ e /\ len e = same /\ length ba = length ra /\
      (N.to_nat lastOp <= length ba)%nat /\ built (N.to_nat lastOp) acc.

  Lemma inv_lengths bd rd lastOp same acc : inv bd rd lastOp same acc -> length bd = length rd.
  Proof. intros (ba & ra & e & -> & -> & _ & H & _). rewrite !app_length, H. reflexivity. Qed.

  Lemma inv_reset bd rd x r lastOp same acc :
    inv bd rd lastOp same acc -> inv (bd ++ [x]) (rd ++ [r]) lastOp 0 acc.
  Proof.
    intros Hinv. pose proof (inv_lengths _ _ _ _ _ Hinv) as Hbr.
    destruct Hinv as (ba & ra & e & Hbd & _ & _ & _ & Hlo & Hbuilt).
    exists (bd ++ [x]), (rd ++ [r]), []. rewrite !app_nil_r, !app_length, Hbr.
    repeat (split; [reflexivity|]). split; [|exact Hbuilt]. rewrite <- Hbr, Hbd, app_length. lia.
  Qed.

  Lemma inv_extend bd rd x lastOp same acc :
    inv bd rd lastOp same acc -> inv (bd ++ [x]) (rd ++ [x]) lastOp (same + 1) acc.
  Proof.
    intros (ba & ra & e & -> & -> & He & Hbar & Hlo & Hbuilt).
    exists ba, ra, (e ++ [x]). rewrite !app_assoc. repeat (split; [assumption || reflexivity|]).
    split; [|auto]. rewrite len_spec in *. rewrite app_length. cbn [length]. lia.
  Qed.

  (** the end of a streak: SKIP if it was long enough.  The test is a parameter so that the scan
      body and the epilogue of [write_window], which both write this [if], apply the lemma as it stands *)
  Lemma commit_ok (long : bool) bd rd b rb i lastOp same acc :
    buf = bd ++ b -> rbfull = rd ++ rb -> N.to_nat i = length bd ->
    inv bd rd lastOp same acc ->
    let '(lastOp', acc') := if long then commit buf i lastOp same acc else (lastOp, acc) in
    inv bd rd lastOp' (if long then 0 else same) acc'.
  Proof.
    intros Hb Hr Hi Hinv. destruct long; [| exact Hinv]. pose proof (inv_lengths _ _ _ _ _ Hinv) as Hbr.
    destruct Hinv as (ba & ra & e & Hbd & Hrd & He & Hbar & Hlo & Hbuilt).
    unfold commit. rewrite len_spec in He.
    assert (Hl : length bd = (length ba + length e)%nat) by (rewrite Hbd; apply app_length).
    assert (Hia : N.to_nat (i - same) = length ba) by lia.
    exists bd, rd, []. rewrite !app_nil_r. repeat (split; [assumption || reflexivity || lia|]).
    replace (N.to_nat i) with (N.to_nat (i - same) + N.to_nat same)%nat by lia.
    replace (0 <? i - same - lastOp) with (lastOp <? i - same) by lia. apply built_skip.
    - apply built_fresh; [exact Hbuilt | lia | rewrite Hb, Hbd, !app_length; lia].
    - (* both are [e] *)
      rewrite Hia, Hb, Hbd. unfold full. rewrite Hr, Hrd, <- !app_assoc.
      rewrite (skipn_exact ba), (skipn_exact ra), !firstn_exact by (reflexivity || lia). reflexivity.
    - rewrite Hia. unfold full. rewrite Hr, Hrd, !app_length. lia.
  Qed.

  Lemma scan_ok :
    forall rb b bd rd i lastOp same acc,
      buf = bd ++ b -> rbfull = rd ++ rb -> N.to_nat i = length bd ->
      inv bd rd lastOp same acc ->
      let '(i', lastOp', same', acc') := scan threshold rb b buf i lastOp same acc in
      N.to_nat i' = length rbfull /\ inv (firstn (length rbfull) buf) rbfull lastOp' same' acc'.
  Proof.
    induction rb as [|r rb IH]; intros b bd rd i lastOp same acc Hb Hr Hi Hinv;
      pose proof (inv_lengths _ _ _ _ _ Hinv) as Hbr.
    - cbn [scan]. rewrite app_nil_r in Hr. subst rd.
      split; [lia|]. replace (firstn (length rbfull) buf) with bd; [assumption|].
      rewrite Hb. symmetry. apply firstn_exact. lia.
    - destruct b as [|x b].
      { exfalso. pose proof Hlen as Hl. rewrite Hb, Hr, !app_length in Hl. cbn in Hl. lia. }
      cbn [scan].
      assert (Hb' : buf = (bd ++ [x]) ++ b) by (rewrite <- app_assoc; exact Hb).
      assert (Hr' : rbfull = (rd ++ [r]) ++ rb) by (rewrite <- app_assoc; exact Hr).
      assert (Hi' : N.to_nat (i + 1) = length (bd ++ [x])) by (rewrite app_length; cbn; lia).
      destruct (N.eqb_spec r x) as [->|Hne]; [apply (IH b _ _ _ _ _ _ Hb' Hr' Hi'), inv_extend, Hinv |].
      pose proof (commit_ok (threshold <? same) bd rd (x :: b) (r :: rb) i lastOp same acc Hb Hr Hi Hinv) as Hc.
      destruct (if threshold <? same then commit buf i lastOp same acc else (lastOp, acc)) as [lo ac].
      apply (IH b _ _ _ _ _ _ Hb' Hr' Hi'), (inv_reset _ _ _ _ _ _ _ Hc).
  Qed.

  Hypothesis Heof : (length rbfull < length buf)%nat -> rest = [].

  Theorem window_ok :
    apply_ops (write_window threshold rbfull buf) (bf, full) = (rev buf ++ bf, rest)
    /\ Forall not_end (write_window threshold rbfull buf).
  Proof.
    unfold write_window.
    assert (H0 : inv [] [] 0 0 []).
    { exists [], [], []. repeat split; try reflexivity; try constructor; cbn; lia. }
    pose proof (scan_ok rbfull buf [] [] 0 0 0 [] eq_refl eq_refl eq_refl H0) as Hs.
    destruct (scan threshold rbfull buf buf 0 0 0 []) as [[[i lastOp] same] acc].
    destruct Hs as [Hi Hinv].
    set (bd := firstn (length rbfull) buf) in *.
    assert (Hbdl : N.to_nat i = length bd) by (subst bd; rewrite firstn_length; lia).
    (* did we finish on a same streak? *)
    pose proof (commit_ok (threshold <? same) bd rbfull _ [] i lastOp same acc
                  (eq_sym (firstn_skipn _ buf)) (eq_sym (app_nil_r _)) Hbdl Hinv) as Hc.
    destruct (if threshold <? same then commit buf i lastOp same acc else (lastOp, acc)) as [lo ac].
    destruct Hc as (ba & ra & e & Hbd & _ & _ & _ & Hlo & Hbuilt).
    assert (Hloi : lo <= i) by (apply (f_equal (@length _)) in Hbd; rewrite app_length in Hbd; lia).
    (* anything fresh left, then trailing data *)
    replace (len rbfull) with i by (rewrite len_spec; lia). rewrite len_spec.
    replace (dropN i buf) with (slice buf i (N.of_nat (length buf)))
      by (rewrite slice_spec, dropN_spec; apply firstn_all2; rewrite skipn_length; lia).
    destruct (built_fresh i (N.of_nat (length buf)) _ (built_fresh lo i ac Hbuilt Hloi ltac:(lia)))
      as [Hops Hne]; [lia .. |].
    rewrite Nat2N.id in Hops. split; [| apply Forall_rev, Hne].
    rewrite Hops, firstn_all. f_equal. unfold full.
    destruct (Nat.eq_dec (length rbfull) (length buf)) as [E|E].
    - apply skipn_exact. symmetry. exact E.
    - rewrite (Heof ltac:(lia)). apply skipn_all2. rewrite app_nil_r. exact Hlen.
  Qed.
End Window.
