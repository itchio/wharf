(** [Apply] issuing its reads and seeks on any reader that simulates the plain in-memory one
    computes what Bsdiff/Patch.v defines; lrufile over simplelru is such a reader (LruProofs.v),
    so the patcher's output does not depend on the read cache's geometry. *)
From Coq Require Import ZifyBool ZifyNat ZifyN.
From Wharf Require Import Base.Prelude Bsdiff.Scan Bsdiff.ScanProofs Bsdiff.RoundtripProofs Bsdiff.Patch Bsdiff.Lru Bsdiff.LruProofs Bsdiff.PatchIO.
Local Open Scope Z_scope.

Lemma len_adder : forall a s, len (adder a s) = Z.min (len a) (len s).
Proof. unfold len. induction a as [|x a IH]; intros s; destruct s as [|y s]; cbn [adder length]; try lia. specialize (IH s). lia. Qed.

Lemma adder_app : forall a1 a2 s1 s2, length a1 = length s1 ->
  adder (a1 ++ a2) (s1 ++ s2) = adder a1 s1 ++ adder a2 s2.
Proof.
  induction a1 as [|x a1 IH]; intros a2 s1 s2 H; destruct s1 as [|y s1]; cbn in *; try discriminate; try reflexivity.
  f_equal. apply IH. lia.
Qed.

Section Sim.
  Variable R : Type.
  Variable step : R -> lop -> option (lresult * R).
  Variable bufSize : Z.
  Hypothesis Hbuf : 0 < bufSize.
  Variable file : list byte.
  (** [Rel r cur]: reader state [r] stands for the plain cursor [cur] *)
  Variable Rel : R -> Z -> Prop.
  Hypothesis Hcur : forall r cur, Rel r cur -> 0 <= cur <= len file.
  Hypothesis Hsim : forall r cur op, Rel r cur ->
    exists res r' cur', step r op = Some (res, r') /\ plain_step file cur op = (res, cur') /\ Rel r' cur'.

  Lemma copy_loop_spec : forall fuel r cur add acc,
    Rel r cur -> (length add < fuel)%nat ->
    exists out r', copy_loop R step bufSize fuel r add acc = Some (Some out, r') /\
      if cur + len add <=? len file
      then out = acc ++ adder add (sl file cur (cur + len add)) /\ Rel r' (cur + len add)
      else len out = len acc + (len file - cur).
  Proof.
    induction fuel as [|f IH]; intros r cur add acc HR Hf; [lia|].
    pose proof (Hcur r cur HR) as Hc. cbn [copy_loop]. destruct add as [|a0 add'].
    - exists acc, r. split; [reflexivity|]. replace (cur + len (@nil byte)) with cur by (unfold len; cbn; lia).
      replace (cur <=? len file) with true by lia. cbn [adder]. rewrite app_nil_r. auto.
    - set (add := a0 :: add') in *. set (n := Z.min bufSize (len add)).
      assert (Hn : 1 <= n <= len add) by (subst n add; unfold len; cbn [length]; lia).
      destruct (Hsim r cur (ORead n) HR) as (res & r' & cur' & Es & Ep & HR').
      rewrite Es. rewrite plain_read in Ep by lia. injection Ep as <- <-.
      destruct (cur + n >? len file) eqn:Eover; cbn [N.eqb Pos.eqb].
      + (* short read with io.EOF *)
        eexists _, _; split; [reflexivity|]. replace (cur + len add <=? len file) with false by lia.
        rewrite len_app, len_sl by lia. lia.
      + replace (Z.min (cur + n) (len file)) with (cur + n) in * by lia.
        assert (Hd : len (sl file cur (cur + n)) = n) by (rewrite len_sl; lia).
        destruct (sl file cur (cur + n)) as [|d0 data'] eqn:Ed; [cbn in Hd; lia|]. rewrite <- Ed in *. clear Ed d0 data'.
        replace (length (sl file cur (cur + n))) with (Z.to_nat n) by (unfold len in Hd; lia).
        assert (Hadd' : len (skipn (Z.to_nat n) add) = len add - n) by (rewrite len_skipn; unfold len in *; lia).
        destruct (IH r' (cur + n) (skipn (Z.to_nat n) add) (acc ++ adder (firstn (Z.to_nat n) add) (sl file cur (cur + n))) HR')
          as (out & r2 & E2 & Hout); [unfold len in *; lia|].
        exists out, r2. split; [exact E2|].
        rewrite Hadd' in Hout. replace (cur + n + (len add - n)) with (cur + len add) in Hout by lia.
        destruct (cur + len add <=? len file) eqn:Efit.
        * destruct Hout as [-> HR3]. split; [|exact HR3].
          rewrite <- app_assoc. f_equal. rewrite <- (sl_app file cur (cur + n) (cur + len add)) by lia.
          rewrite <- adder_app by (rewrite firstn_length; unfold len in *; lia). rewrite firstn_skipn. reflexivity.
        * rewrite Hout, len_app, len_adder, len_firstn, len_sl by lia. unfold len in *. lia.
  Qed.

  Lemma apply_ctrl_io_spec : forall r cur off c, Rel r cur ->
    match apply_ctrl file off c with
    | Some res => exists r' cur', apply_ctrl_io R step bufSize r off c = Some (Some res, r') /\ Rel r' cur'
    | None => exists r', apply_ctrl_io R step bufSize r off c = Some (None, r')
    end.
  Proof.
    intros r cur off c HR. unfold apply_ctrl_io.
    destruct (Hsim r cur (OSeek off 0) HR) as (res & r1 & cur1 & Es & Ep & HR1).
    rewrite Es. cbn [plain_step seek_target Z.eqb] in Ep.
    destruct ((off <? 0) || (off >? len file)) eqn:Eoff; injection Ep as <- <-; cbn [N.eqb negb].
    { unfold apply_ctrl. rewrite Eoff. eexists; reflexivity. }
    rewrite apply_ctrl_sl by lia.
    destruct (c_add c) as [|a0 add'] eqn:Eadd.
    - change (len (@nil byte)) with 0. cbn [adder app]. rewrite !Z.add_0_r. replace (off <=? len file) with true by lia. eauto.
    - set (add := a0 :: add') in *.
      destruct (copy_loop_spec (S (length add)) r1 off add [] HR1 ltac:(lia)) as (out & r2 & E2 & Hout). rewrite E2.
      destruct (off + len add <=? len file) eqn:Efit.
      + destruct Hout as [-> HR2]. cbn [app].
        pose proof (len_nonneg _ add). rewrite len_adder, len_sl, Z.min_l, Z.eqb_refl by lia. eauto.
      + destruct (len out =? len add) eqn:El; [unfold len in *; cbn [length] in Hout; lia|]. eauto.
  Qed.

  Lemma apply_series_io_spec : forall cs r cur off, Rel r cur ->
    apply_series_io R step bufSize r off cs = Some (apply_series file off cs).
  Proof.
    induction cs as [|c rest IH]; intros r cur off HR; cbn [apply_series_io apply_series]; [reflexivity|].
    destruct (c_eof c); [reflexivity|].
    pose proof (apply_ctrl_io_spec r cur off c HR) as Hc.
    destruct (apply_ctrl file off c) as [[o off']|].
    - destruct Hc as (r' & cur' & E & HR'). rewrite E. rewrite (IH r' cur' off' HR').
      destruct (apply_series file off' rest) as [[o2 offf]|]; reflexivity.
    - destruct Hc as (r' & E). rewrite E. reflexivity.
  Qed.

  Lemma bspatch_io_spec : forall cs r cur newSize, Rel r cur ->
    bspatch_io R step bufSize r cs newSize = Some (bspatch file cs newSize).
  Proof.
    intros cs r cur newSize HR. unfold bspatch_io, bspatch.
    rewrite (apply_series_io_spec cs r cur 0 HR).
    destruct (apply_series file 0 cs) as [[o off]|]; [|reflexivity].
    destruct (len o =? newSize); reflexivity.
  Qed.
End Sim.
