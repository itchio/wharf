(** Executable search oracle for the correspondence; it instantiates the search hypothesis of
    [bsdiff_roundtrip] (SuffixProofs.[psa_search_in_range]; Properties/C12.v [run_bsd_roundtrip];
    Properties/C07.v [optimize_preserves_instantiated_psa]); the general theorems do not depend
    on it.  A naive suffix array (insertion sort of the suffixes,
    [bytes.Compare] order), Go's binary [search] of bsdiff/math.go, and the partitioned suffix
    array of bsdiff/psa.go ([NewPSA] boundaries, [PSA.search] = best match over the partitions,
    first partition wins ties; empty partitions are skipped as in the repaired code). *)
From Wharf Require Import Base.Prelude Bsdiff.Scan.
Local Open Scope Z_scope.

(** [bytes.Compare a b < 0] *)
Fixpoint bytes_lt (a b : list byte) : bool :=
  match a, b with
  | [], [] => false
  | [], _ :: _ => true
  | _ :: _, [] => false
  | x :: a', y :: b' => if (x <? y)%N then true else if (y <? x)%N then false else bytes_lt a' b'
  end.

Fixpoint matchlen (a b : list byte) : Z :=
  match a, b with
  | x :: a', y :: b' => if (x =? y)%N then 1 + matchlen a' b' else 0
  | _, _ => 0
  end.

Definition suffix (buf : list byte) (i : nat) : list byte := skipn i buf.

Fixpoint insert_suffix (buf : list byte) (i : nat) (sorted : list nat) : list nat :=
  match sorted with
  | [] => [i]
  | j :: r => if bytes_lt (suffix buf i) (suffix buf j) then i :: sorted else j :: insert_suffix buf i r
  end.

Definition suffix_array (buf : list byte) : list nat :=
  fold_right (insert_suffix buf) [] (seq 0 (length buf)).

(** [search(I, obuf, nbuf, st, en)] of math.go *)
Fixpoint go_search (fuel : nat) (sa : list nat) (obuf nbuf : list byte) (st en : nat) : Z * Z :=
  match fuel with
  | O => (0, 0)
  | S f =>
      if (en - st <? 2)%nat then
        let ist := nth st sa O in
        if (length obuf <=? en)%nat then (Z.of_nat ist, matchlen (suffix obuf ist) nbuf)
        else
          let ien := nth en sa O in
          let x := matchlen (suffix obuf ist) nbuf in
          let y := matchlen (suffix obuf ien) nbuf in
          if x >? y then (Z.of_nat ist, x) else (Z.of_nat ien, y)
      else
        let x := (st + (en - st) / 2)%nat in
        if bytes_lt (suffix obuf (nth x sa O)) nbuf
        then go_search f sa obuf nbuf x en
        else go_search f sa obuf nbuf st x
  end.

(** partitions [(start, bytes, suffix array)] with [partitionSize = len(buf) / p], the last one up to the end *)
Fixpoint psa_parts (n : nat) (i : nat) (p size : nat) (buf : list byte) : list (nat * list byte * list nat) :=
  match n with
  | O => []
  | S n' =>
      let st := (i * size)%nat in
      let en := if (S i =? p)%nat then length buf else (S i * size)%nat in
      let part := firstn (en - st) (skipn st buf) in
      (st, part, suffix_array part) :: psa_parts n' (S i) p size buf
  end.

Definition new_psa (p : Z) (buf : list byte) : list (nat * list byte * list nat) :=
  let pn := Z.to_nat p in
  psa_parts pn 0 pn (length buf / pn)%nat buf.

Fixpoint psa_search_parts (parts : list (nat * list byte * list nat)) (nbuf : list byte) (bpos bn : Z) : Z * Z :=
  match parts with
  | [] => (bpos, bn)
  | (st, part, sa) :: r =>
      match part with
      | [] => psa_search_parts r nbuf bpos bn
      | _ =>
          let '(ppos, pn) := go_search (S (length part)) sa part nbuf 0 (length part) in
          if pn >? bn then psa_search_parts r nbuf (ppos + Z.of_nat st) pn
          else psa_search_parts r nbuf bpos bn
      end
  end.

Definition psa_search (parts : list (nat * list byte * list nat)) (nbuf : list byte) : Z * Z :=
  psa_search_parts parts nbuf 0 0.
