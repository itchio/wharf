(** [writeMessages] composed with the patcher: the controls written for matches that tile the
    new file reproduce it when applied to the old file; with ScanProofs.v this gives
    [bsdiff_do_gen_roundtrip] (Properties/C12.v: [bsdiff_roundtrip], [bsdiff_roundtrip_unfixed_partial]).
    Then facts about Bsdiff/Patch.v alone: splitting a series at a saved offset
    ([apply_series_split]); last the two inputs on which the
    unrepaired differ panics. *)
From Coq Require Import ZifyBool ZifyNat ZifyN.
From Wharf Require Import Base.Prelude Bsdiff.Scan Bsdiff.ScanProofs Bsdiff.Patch.
Local Open Scope Z_scope.

Definition bytes_ok (l : list byte) : Prop := Forall (fun b => (b < 256)%N) l.

Lemma add_sub_byte : forall n o, (n < 256)%N -> (o < 256)%N -> add_byte (sub_byte n o) o = n.
Proof.
  intros n o Hn Ho. unfold add_byte, sub_byte.
  rewrite (N.mod_small o 256) by assumption.
  destruct (N.le_gt_cases o n) as [Hle|Hgt].
  - replace (n + 256 - o)%N with ((n - o) + 1 * 256)%N by lia.
    rewrite N.mod_add by lia. rewrite (N.mod_small (n - o)) by lia.
    replace (n - o + o)%N with n by lia. apply N.mod_small; assumption.
  - rewrite (N.mod_small (n + 256 - o)) by lia.
    replace (n + 256 - o + o)%N with (n + 1 * 256)%N by lia.
    rewrite N.mod_add by lia. apply N.mod_small; assumption.
Qed.

Lemma bytes_ok_nth : forall l k, bytes_ok l -> (k < length l)%nat -> (nth k l 0 < 256)%N.
Proof. intros l k H Hk. apply Forall_nth; assumption. Qed.

Lemma apply_ctrl_sl : forall old off c, 0 <= off <= len old ->
  apply_ctrl old off c =
    if off + len (c_add c) <=? len old
    then Some (adder (c_add c) (sl old off (off + len (c_add c))) ++ c_copy c, off + len (c_add c) + c_seek c)
    else None.
Proof.
  intros old off c Ho. unfold apply_ctrl. destruct ((off <? 0) || (off >? len old)) eqn:E; [lia|]. cbv zeta.
  set (add := c_add c). replace (length add) with (Z.to_nat (len add)) by (unfold len; lia).
  rewrite firstn_skipn_sl by (unfold len in *; lia).
  pose proof (len_sl old off (Z.min (off + len add) (len old))) as Hl. unfold len in Hl.
  destruct (off + len add <=? len old) eqn:Efit; destruct (_ <? _)%nat eqn:El; try (unfold len in *; lia); [|reflexivity].
  replace (Z.min (off + len add) (len old)) with (off + len add) by lia. reflexivity.
Qed.

Section Write.
  Variables old new : list byte.
  Hypothesis Hold : bytes_ok old.
  Hypothesis Hnew : bytes_ok new.

  Lemma add_loop_ok : forall n aos ans i a b ea eb,
    a = aos + i -> b = ans + i -> ea = a + Z.of_nat n -> eb = b + Z.of_nat n ->
    0 <= b -> eb <= len new -> 0 <= a -> ea <= len old ->
    ok_with (fun l => length l = n /\ adder l (sl old a ea) = sl new b eb) (add_loop n old new aos ans i).
  Proof.
    induction n as [|n IH]; intros aos ans i a b ea eb -> -> Hea Heb H1 H2 H3 H4; cbn [add_loop].
    - apply ok_ret. rewrite !sl_empty by lia. split; reflexivity.
    - rewrite !getz_nth by lia. cbn [bind].
      eapply ok_bind; [apply (IH aos ans (i + 1) (aos + i + 1) (ans + i + 1) ea eb); lia|]. intros l [Ll Al].
      apply ok_ret. split; [cbn; lia|].
      rewrite (sl_cons old), (sl_cons new) by lia. cbn [adder].
      rewrite add_sub_byte by (apply bytes_ok_nth; (assumption || unfold len in *; lia)).
      f_equal. exact Al.
  Qed.

  Definition match_ok (m : Match) : Prop :=
    0 <= addLength m /\ 0 <= addNewStart m /\ addNewStart m + addLength m <= copyEnd m /\ copyEnd m <= len new /\
    0 <= addOldStart m /\ addOldStart m + addLength m <= len old.

  (** the control of [m] applied at its old start writes [to] *)
  Definition writes (m : Match) (to : list byte) (ac : list byte * list byte) : Prop :=
    forall seek, apply_ctrl old (addOldStart m) (fst ac, snd ac, seek, false)
                 = Some (to, addOldStart m + addLength m + seek).

  Lemma match_payload_ok : forall m, match_ok m ->
    ok_with (writes m (sl new (addNewStart m) (copyEnd m))) (match_payload old new m).
  Proof.
    intros m (H1 & H2 & H3 & H4 & H5 & H6). unfold match_payload.
    destruct (addLength m <? 0) eqn:E; [lia|].
    eapply ok_bind; [apply (add_loop_ok (Z.to_nat (addLength m)) (addOldStart m) (addNewStart m) 0 (addOldStart m) (addNewStart m)
                (addOldStart m + addLength m) (addNewStart m + addLength m)); lia|]. intros a [La Aa].
    rewrite slicez_ok by lia. cbn [bind]. apply ok_ret.
    intros seek. cbn [fst snd]. rewrite apply_ctrl_sl by lia. cbn [c_add c_copy c_seek].
    replace (len a) with (addLength m) by (unfold len; lia).
    replace (_ <=? _) with true by lia. rewrite Aa, sl_app by lia. reflexivity.
  Qed.

  Lemma tiles_head : forall m r start stop,
    tiles (len old) start stop (m :: r) -> 0 <= start -> stop <= len new ->
    ok_with (writes m (sl new start (copyEnd m))) (match_payload old new m) /\
    start <= copyEnd m <= stop /\ tiles (len old) (copyEnd m) stop r.
  Proof.
    intros m r start stop (H1 & H2 & H3 & H4 & H5 & H6) Hs He. pose proof (tiles_le _ _ _ _ H6).
    rewrite <- H1. split; [apply match_payload_ok; unfold match_ok; lia|]. split; [lia|exact H6].
  Qed.

  (** the controls written end with eof and, applied from [off], give [out] *)
  Definition series (off : Z) (out : list byte) (r : list ctrl) : Prop :=
    exists cs, r = cs ++ [ctrl_eof] /\ Forall (fun c => c_eof c = false) cs /\
               exists offf, apply_series old off r = Some (out, offf).

  Lemma write_loop_after : forall ms pm pac pout start stop,
    tiles (len old) start stop ms -> 0 <= start -> stop <= len new -> writes pm pout pac ->
    ok_with (series (addOldStart pm) (pout ++ sl new start stop))
            (write_loop old new (Some (pm, fst pac, snd pac)) ms).
  Proof.
    induction ms as [|m r IH]; intros pm pac pout start stop Ht Hs He Hprev.
    - cbn [tiles] in Ht. subst stop. cbn [write_loop]. apply ok_ret.
      exists [(fst pac, snd pac, 0, false)]. split; [reflexivity|]. split; [repeat constructor|].
      cbn [app apply_series c_eof ctrl_eof]. rewrite Hprev. cbn [c_eof].
      eexists. rewrite sl_empty by lia. rewrite !app_nil_r. reflexivity.
    - destruct (tiles_head m r _ _ Ht Hs He) as (Hm & Hce & Ht').
      cbn [write_loop]. eapply ok_bind; [exact Hm|]. intros [a c] Happ.
      eapply ok_bind; [apply (IH m (a, c) _ (copyEnd m) stop Ht' ltac:(lia) He Happ)|].
      intros rest (cs & -> & Hne & off & Ea). apply ok_ret.
      exists ((fst pac, snd pac, addOldStart m - (addOldStart pm + addLength pm), false) :: cs).
      split; [reflexivity|]. split; [constructor; [reflexivity|assumption]|].
      cbn [app apply_series c_eof]. rewrite Hprev.
      replace (addOldStart pm + addLength pm + (addOldStart m - (addOldStart pm + addLength pm))) with (addOldStart m) by lia.
      cbn [app] in Ea. rewrite Ea. eexists. rewrite sl_app by lia. reflexivity.
  Qed.

  Lemma write_loop_first : forall ms,
    tiles (len old) 0 (len new) ms -> 0 < len new ->
    match ms with m :: _ => addOldStart m = 0 | [] => False end ->
    ok_with (series 0 new) (write_loop old new None ms).
  Proof.
    intros ms Ht Hn Hh. destruct ms as [|m r]; [contradiction|].
    destruct (tiles_head m r _ _ Ht ltac:(lia) ltac:(lia)) as (Hm & Hce & Ht').
    cbn [write_loop]. eapply ok_bind; [exact Hm|]. intros [a c] Happ.
    eapply ok_impl; [apply (write_loop_after r m (a, c) (sl new 0 (copyEnd m)) (copyEnd m) (len new)); (assumption || lia)|].
    intros rs. rewrite Hh, sl_app, sl_full by lia. trivial.
  Qed.
End Write.

Lemma bsdiff_do_gen_roundtrip :
  forall (fixed : bool) (bsz : Z) (search : N -> list byte -> Z * Z) (partitions : Z) (old new : list byte),
    0 < bsz -> 0 <= partitions ->
    (forall bi, search_in_range (len old) (search bi)) ->
    bytes_ok old -> bytes_ok new ->
    (fixed = true \/ new = [] \/ (old <> [] /\ norm_partitions partitions (len old) <= len new)) ->
    exists cs, bsdiff_do_gen fixed bsz search partitions old new = Ok (cs ++ [ctrl_eof]) /\
               Forall (fun c => c_eof c = false) cs /\
               bspatch old (cs ++ [ctrl_eof]) (len new) = Some new.
Proof.
  intros fixed bsz search partitions old new Hb Hp Hr Ho Hn Hguard.
  assert (H : ok_with (series old 0 new) (bsdiff_do_gen fixed bsz search partitions old new)).
  2:{ destruct H as (r & -> & cs & -> & Hne & off & Ea). exists cs. split; [reflexivity|]. split; [exact Hne|].
      unfold bspatch. rewrite Ea, Z.eqb_refl. reflexivity. }
  unfold bsdiff_do_gen.
  destruct (len new =? 0) eqn:E0.
  - assert (new = []) as -> by (destruct new; [reflexivity|unfold len in E0; cbn in E0; lia]).
    apply ok_ret. exists []. split; [reflexivity|]. split; [constructor|]. eexists. reflexivity.
  - assert (Hnl : 0 < len new) by (pose proof (len_nonneg _ new); lia).
    assert (Hnp : 1 <= norm_partitions partitions (len old)).
    { unfold norm_partitions. destruct ((partitions =? 0) || (partitions >=? len old - 1)) eqn:E; lia. }
    assert (Hg : fixed = true \/ (0 < len old /\ norm_partitions partitions (len old) <= len new)).
    { destruct Hguard as [H|[H|[H1 H2]]]; [left; assumption|subst new; cbn in Hnl; lia|].
      right. split; [|assumption]. destruct old; [congruence|unfold len; cbn; lia]. }
    destruct (negb fixed && (len old =? 0)) eqn:E1.
    { destruct Hg as [->|[H _]]; [discriminate|lia]. }
    eapply ok_bind; [apply (block_geometry_ok fixed bsz (len new) (norm_partitions partitions (len old)) Hb Hnl Hnp); tauto|].
    intros [bs nb]. cbv beta iota. intros (Hbs & Hnb & Hgeo).
    eapply ok_bind; [apply (blocks_loop_ok search old new Hr (Z.to_nat nb) 0 bs nb Hbs Hgeo); lia|]. intros ms [Ht Hh].
    replace (Z.min (bs * 0) (len new)) with 0 in Ht by lia.
    apply write_loop_first; try assumption. apply Hh. lia.
Qed.

Lemma apply_series_split : forall old cs k off,
  apply_series old off cs =
  match apply_prefix old off k cs with
  | Some (o1, saved, rest) => match apply_series old saved rest with
                              | Some (o2, offf) => Some (o1 ++ o2, offf)
                              | None => None
                              end
  | None => None
  end.
Proof.
  intros old cs; induction cs as [|c r IH]; intros [|k] off; cbn [apply_prefix].
  1, 3: destruct (apply_series old off _) as [[? ?]|]; reflexivity.
  - reflexivity.
  - cbn [apply_series]. destruct (c_eof c) eqn:Ee; [cbn [apply_series]; rewrite Ee; reflexivity|].
    destruct (apply_ctrl old off c) as [[o off']|]; [|reflexivity]. rewrite (IH k off').
    destruct (apply_prefix old off' k r) as [[[o1 saved] rest]|]; [|reflexivity].
    destruct (apply_series old saved rest) as [[o2 offf]|]; [|reflexivity]. rewrite app_assoc. reflexivity.
Qed.

Definition const_search : N -> list byte -> Z * Z := fun _ _ => (0, 0).

Lemma const_search_in_range : forall L, 0 <= L -> forall bi, search_in_range L (const_search bi).
Proof. intros L HL bi suf. cbn. pose proof (len_nonneg _ suf). lia. Qed.

Lemma unfixed_divide_by_zero :
  bsdiff_do_unfixed 131072 const_search 4 [0;1;2;0;1;2;0;1;2;0;1;2;0;1;2;0]%N [0;1;0]%N = Panic 3.
Proof. vm_compute. reflexivity. Qed.

Lemma unfixed_empty_old :
  bsdiff_do_unfixed 131072 const_search 0 [] [0;1;0]%N = Panic 4.
Proof. vm_compute. reflexivity. Qed.

