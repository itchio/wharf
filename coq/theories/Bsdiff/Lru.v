(** Model of bsdiff/lrufile/lrufile.go: [Read], [Seek], [getChunk], [onEvict] over an abstract
    bounded cache ([simplelru.LRU]: [cget] = Get, [cadd] = Add returning the evicted entry that
    Add hands to the onEvict callback), with the chunk size and the number of entries as
    parameters.  The underlying file is a plain byte string read with full reads.  The slots of
    [storage] keep stale bytes (the code never clears them).  [lru_list] is simplelru itself
    (recency list, most recent first), used to execute the model.  Definitions only. *)
From Wharf Require Import Base.Prelude Bsdiff.Scan.
Local Open Scope Z_scope.

Inductive lop := ORead (n : Z) | OSeek (off whence : Z).
(** status: 0 = nil, 1 = io.EOF, 2 = any other error *)
Inductive lresult := RRead (data : list byte) (st : N) | RSeek (pos : Z) (st : N).

(** the reference: a plain in-memory reader with the same Seek conventions *)
Definition seek_target (size cur off whence : Z) : option Z :=
  if whence =? 0 then Some off
  else if whence =? 1 then Some (cur + off)
  else if whence =? 2 then Some (size + off)
  else None.

Definition plain_step (file : list byte) (cur : Z) (op : lop) : lresult * Z :=
  match op with
  | ORead n =>
      if n <=? 0 then (RRead [] 0, cur)
      else let data := firstn (Z.to_nat n) (skipn (Z.to_nat cur) file) in
           (RRead data (if cur + n >? len file then 1 else 0)%N, cur + len data)
  | OSeek off whence =>
      match seek_target (len file) cur off whence with
      | None => (RSeek cur 2, cur)
      | Some t => if (t <? 0) || (t >? len file) then (RSeek 0 2, 0) else (RSeek t 0, t)
      end
  end.

Fixpoint run_plain_from (file : list byte) (cur : Z) (ops : list lop) : list lresult :=
  match ops with
  | [] => []
  | op :: r => let '(res, cur') := plain_step file cur op in res :: run_plain_from file cur' r
  end.
Definition run_plain (file : list byte) (ops : list lop) : list lresult := run_plain_from file 0 ops.

Fixpoint set_nth {A} (n : nat) (x : A) (l : list A) : list A :=
  match l, n with
  | [], _ => []
  | _ :: r, O => x :: r
  | y :: r, S n' => y :: set_nth n' x r
  end.

(** [for k, v := range lf.allocations { if v < 0 { storageIndex = k; break } }] *)
Fixpoint find_free (allocs : list Z) (k : nat) : option nat :=
  match allocs with
  | [] => None
  | v :: r => if v <? 0 then Some k else find_free r (S k)
  end.

Section LruFile.
  Variable cache : Type.
  Variable cget : cache -> Z -> option Z * cache.
  Variable cadd : cache -> Z -> Z -> cache * option (Z * Z).
  Variable chunkSize : Z.
  Variable file : list byte.

  Record lf := mkLf { lf_offset : Z; lf_storage : list (list byte); lf_allocs : list Z; lf_lru : cache; lf_loads : list Z }.

  Inductive lres (A : Type) := LOk (a : A) | LNoRoom (s : lf) | LPanic.
  Arguments LOk {A} a.
  Arguments LNoRoom {A} s.
  Arguments LPanic {A}.

  (** [onEvict]: [lf.allocations[value.(int)] = -1] *)
  Definition on_evict (ev : option (Z * Z)) (allocs : list Z) : option (list Z) :=
    match ev with
    | None => Some allocs
    | Some (_, v) => if (v <? 0) || (v >=? len allocs) then None else Some (set_nth (Z.to_nat v) (-1) allocs)
    end.

  Definition getChunk (s : lf) (ci : Z) : lres (list byte * lf) :=
    match cget (lf_lru s) ci with
    | (Some v, c') =>
        if (v <? 0) || (v >=? len (lf_storage s)) then LPanic   (* storage[v*chunkSize:(v+1)*chunkSize] *)
        else LOk (nth (Z.to_nat v) (lf_storage s) [], mkLf (lf_offset s) (lf_storage s) (lf_allocs s) c' (lf_loads s))
    | (None, c') =>
        let '(c1, ev1) := cadd c' ci (-1) in
        match on_evict ev1 (lf_allocs s) with
        | None => LPanic
        | Some allocs1 =>
            match find_free allocs1 O with
            | None => LNoRoom (mkLf (lf_offset s) (lf_storage s) allocs1 c1 (lf_loads s))
            | Some k =>
                let '(c2, ev2) := cadd c1 ci (Z.of_nat k) in
                match on_evict ev2 allocs1 with
                | None => LPanic
                | Some allocs2 =>
                    let allocs3 := set_nth k ci allocs2 in
                    let inputOffset := ci * chunkSize in
                    let data := firstn (Z.to_nat chunkSize) (skipn (Z.to_nat inputOffset) file) in
                    let slot := data ++ skipn (length data) (nth k (lf_storage s) []) in
                    LOk (slot, mkLf (lf_offset s) (set_nth k slot (lf_storage s)) allocs3 c2 (lf_loads s ++ [inputOffset]))
                end
            end
        end
    end.

  (** the loop of [Read]; [acc] = bytes copied so far; result: bytes, status *)
  Fixpoint read_loop (fuel : nat) (s : lf) (remaining : Z) (acc : list byte) : lres (list byte * N * lf) :=
    match fuel with
    | O => LPanic
    | S f =>
        if remaining >? 0 then
          let ci := lf_offset s / chunkSize in
          match getChunk s ci with
          | LPanic => LPanic
          | LNoRoom s' => LOk (acc, 2%N, s')
          | LOk (chunk, s') =>
              let size := len file in
              let start := lf_offset s mod chunkSize in
              let end0 := start + remaining in
              let chunkStart := ci * chunkSize in
              let lastChunk := chunkStart + chunkSize >? size in
              let chunkEnd := if lastChunk then size else chunkStart + chunkSize in
              let csz := chunkEnd - chunkStart in
              let '(end1, eof) := if end0 >? csz then (csz, lastChunk) else (end0, false) in
              if (start <? 0) || (start >? end1) || (end1 >? len chunk) then LPanic   (* chunk[start:end] *)
              else
                let piece := firstn (Z.to_nat (end1 - start)) (skipn (Z.to_nat start) chunk) in
                let s'' := mkLf (lf_offset s + len piece) (lf_storage s') (lf_allocs s') (lf_lru s') (lf_loads s') in
                if eof then LOk (acc ++ piece, 1%N, s'')
                else read_loop f s'' (remaining - len piece) (acc ++ piece)
          end
        else LOk (acc, 0%N, s)
    end.

  Definition lf_step (s : lf) (op : lop) : lres (lresult * lf) :=
    match op with
    | ORead n =>
        match read_loop (S (Z.to_nat n)) s n [] with
        | LOk (data, st, s') => LOk (RRead data st, s')
        | LNoRoom s' => LNoRoom s'
        | LPanic => LPanic
        end
    | OSeek off whence =>
        let set o := mkLf o (lf_storage s) (lf_allocs s) (lf_lru s) (lf_loads s) in
        match seek_target (len file) (lf_offset s) off whence with
        | None => LOk (RSeek (lf_offset s) 2, s)
        | Some t => if (t <? 0) || (t >? len file) then LOk (RSeek 0 2, set 0) else LOk (RSeek t 0, set t)
        end
    end.

  (** results so far, final state; [None] = a panic *)
  Fixpoint lf_run (s : lf) (ops : list lop) : option (list lresult * lf) :=
    match ops with
    | [] => Some ([], s)
    | op :: r =>
        match lf_step s op with
        | LOk (res, s') => match lf_run s' r with
                           | Some (rs, sf) => Some (res :: rs, sf)
                           | None => None
                           end
        | _ => None
        end
    end.

  (** state after [New] + [Reset]: nothing allocated, empty cache, offset 0; [stale] = whatever the slots hold *)
  Definition lf_init (cempty : cache) (stale : list (list byte)) : lf :=
    mkLf 0 stale (repeat (-1) (length stale)) cempty [].
End LruFile.

Arguments LOk {cache A} a.
Arguments LNoRoom {cache A} s.
Arguments LPanic {cache A}.

(** simplelru.LRU as a recency list (most recent first); the capacity is the argument [cap] of [ll_add] *)
Definition lru_list := list (Z * Z).

Fixpoint ll_remove (k : Z) (l : lru_list) : lru_list :=
  match l with
  | [] => []
  | (k', v) :: r => if k' =? k then r else (k', v) :: ll_remove k r
  end.

Fixpoint ll_find (k : Z) (l : lru_list) : option Z :=
  match l with
  | [] => None
  | (k', v) :: r => if k' =? k then Some v else ll_find k r
  end.

(** Get: value, entry moved to the front *)
Definition ll_get (l : lru_list) (k : Z) : option Z * lru_list :=
  match ll_find k l with
  | Some v => (Some v, (k, v) :: ll_remove k l)
  | None => (None, l)
  end.

(** Add: existing key: new value, moved to the front, nothing evicted; new key: pushed to the front,
    the oldest entry evicted when the list exceeds the capacity *)
Definition ll_add (cap : nat) (l : lru_list) (k v : Z) : lru_list * option (Z * Z) :=
  match ll_find k l with
  | Some _ => ((k, v) :: ll_remove k l, None)
  | None =>
      let l' := (k, v) :: l in
      if (cap <? length l')%nat
      then (removelast l', Some (last l' (0, 0)))
      else (l', None)
  end.

Definition run_lru (chunkSize : Z) (entries : nat) (file : list byte) (ops : list lop) : option (list lresult * list Z) :=
  let stale := repeat (repeat 0%N (Z.to_nat chunkSize)) entries in
  match lf_run lru_list ll_get (ll_add entries) chunkSize file (lf_init lru_list [] stale) ops with
  | Some (rs, s) => Some (rs, lf_loads lru_list s)
  | None => None
  end.
