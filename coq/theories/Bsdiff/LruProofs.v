(** Proofs about Bsdiff/Lru.v: for any bounded cache that meets the contract below (whatever
    its eviction policy), any chunk size > 0, any stale slot contents and any sequence of reads
    and seeks, [lruFile] returns what a plain in-memory reader returns; in particular the
    "could not find room in lrufile cache" error is unreachable.  simplelru (as the recency
    list [lru_list]) meets the contract. *)
From Coq Require Import ZifyBool ZifyNat ZifyN.
From Wharf Require Import Base.Prelude Bsdiff.Scan Bsdiff.ScanProofs Bsdiff.Lru.
Local Open Scope Z_scope.

Arguments lf_offset {cache} _.
Arguments lf_storage {cache} _.
Arguments lf_allocs {cache} _.
Arguments lf_lru {cache} _.
Arguments lf_loads {cache} _.
Arguments mkLf {cache} _ _ _ _ _.

Lemma set_nth_length : forall A (l : list A) n x, length (set_nth n x l) = length l.
Proof. intros A l; induction l as [|y l IH]; intros n x; destruct n; cbn; try reflexivity. rewrite IH; reflexivity. Qed.

Lemma nth_set_nth_eq : forall A (l : list A) n x d, (n < length l)%nat -> nth n (set_nth n x l) d = x.
Proof. intros A l; induction l as [|y l IH]; intros n x d H; destruct n; cbn in *; try lia; try reflexivity. apply IH; lia. Qed.

Lemma nth_set_nth_neq : forall A (l : list A) n m x d, n <> m -> nth m (set_nth n x l) d = nth m l d.
Proof.
  intros A l; induction l as [|y l IH]; intros n m x d H; destruct n, m; cbn; try reflexivity; try congruence.
  apply IH; congruence.
Qed.

Lemma find_free_spec : forall l k,
  match find_free l k with
  | Some j => (k <= j < k + length l)%nat /\ nth (j - k) l (-1) < 0
  | None => forall j, (j < length l)%nat -> 0 <= nth j l (-1)
  end.
Proof.
  induction l as [|v l IH]; intros k; cbn [find_free length]; [intros j Hj; lia|].
  destruct (v <? 0) eqn:E.
  - rewrite Nat.sub_diag. cbn. lia.
  - specialize (IH (S k)). destruct (find_free l (S k)) as [j|].
    + destruct IH as [H1 H2]. split; [lia|]. replace (j - k)%nat with (S (j - S k)) by lia. exact H2.
    + intros [|j] Hj; cbn; [lia|apply IH; lia].
Qed.

Lemma plain_read : forall file cur n, 0 <= cur <= len file -> 0 < n ->
  plain_step file cur (ORead n) =
    (RRead (sl file cur (Z.min (cur + n) (len file))) (if cur + n >? len file then 1 else 0)%N, Z.min (cur + n) (len file)).
Proof.
  intros file cur n Hc Hn. cbn [plain_step]. replace (n <=? 0) with false by lia. cbv zeta.
  rewrite firstn_skipn_sl, len_sl by lia. f_equal. lia.
Qed.

(** the contract of a bounded cache with at most [cap] entries, over an abstract finite map
    [look] ([card] is sound for counting): Get does not change the map; Add binds the key and
    evicts at most one other entry, which it reports - and none when the key was already bound *)
Section Transparent.
  Variable cache : Type.
  Variable cget : cache -> Z -> option Z * cache.
  Variable cadd : cache -> Z -> Z -> cache * option (Z * Z).
  Variable wf : cache -> Prop.
  Variable look : cache -> Z -> option Z.
  Variable card : cache -> nat.
  Variable cap : nat.

  Definition get_ok : Prop := forall c k, wf c ->
    fst (cget c k) = look c k /\ wf (snd (cget c k)) /\
    (forall k', look (snd (cget c k)) k' = look c k') /\ card (snd (cget c k)) = card c.
  Definition add_ok : Prop := forall c k v, wf c -> (card c <= cap)%nat ->
    wf (fst (cadd c k v)) /\ (card (fst (cadd c k v)) <= cap)%nat /\ look (fst (cadd c k v)) k = Some v /\
    (look c k <> None -> snd (cadd c k v) = None) /\
    match snd (cadd c k v) with
    | None => forall k', k' <> k -> look (fst (cadd c k v)) k' = look c k'
    | Some (k0, v0) => k0 <> k /\ look c k0 = Some v0 /\ look (fst (cadd c k v)) k0 = None /\
                       forall k', k' <> k -> k' <> k0 -> look (fst (cadd c k v)) k' = look c k'
    end.
  Definition count_ok : Prop :=
    forall c ks, wf c -> NoDup ks -> (forall k, In k ks -> look c k <> None) -> (length ks <= card c)%nat.

  Hypothesis H_get : get_ok.
  Hypothesis H_add : add_ok.
  Hypothesis H_pigeon : count_ok.

  Variable chunkSize : Z.
  Hypothesis Hcs : 0 < chunkSize.
  Variable file : list byte.

  Let size := len file.
  Definition chunkdata (k : Z) : list byte := sl file (k * chunkSize) (Z.min (k * chunkSize + chunkSize) size).
  Definition slot_ok (k : Z) (slot : list byte) : Prop := exists stale, slot = chunkdata k ++ stale.

  Lemma len_chunkdata : forall k, 0 <= k -> k * chunkSize <= size ->
    len (chunkdata k) = Z.min (k * chunkSize + chunkSize) size - k * chunkSize.
  Proof. intros k H1 H2. unfold chunkdata. apply len_sl; unfold size in *; nia. Qed.

  Lemma slot_sl : forall k slot a b, slot_ok k slot -> 0 <= k ->
    k * chunkSize <= a -> a <= b -> b <= Z.min (k * chunkSize + chunkSize) size ->
    sl slot (a - k * chunkSize) (b - k * chunkSize) = sl file a b /\ b - k * chunkSize <= len slot.
  Proof.
    intros k slot a b [stale ->] Hk Ha Hab Hb. pose proof (len_chunkdata k Hk ltac:(lia)) as Hl.
    rewrite len_app, sl_app_l by lia. pose proof (len_nonneg _ stale). split; [|lia].
    unfold chunkdata. rewrite sl_sl by (unfold size in *; lia). f_equal; lia.
  Qed.

  (** the cache maps chunks to slots, [allocs] slots to chunks, a bound slot holds its chunk; between
      the two Adds of [getChunk] the key [ex] being added has no slot yet *)
  Definition agree (ex : option Z) (c : cache) (allocs : list Z) (storage : list (list byte)) : Prop :=
    (forall k v, ex <> Some k -> look c k = Some v ->
       0 <= v < Z.of_nat cap /\ nth (Z.to_nat v) allocs (-1) = k /\ 0 <= k /\ k * chunkSize <= size /\
       slot_ok k (nth (Z.to_nat v) storage [])) /\
    (forall j, (j < cap)%nat -> 0 <= nth j allocs (-1) ->
       ex <> Some (nth j allocs (-1)) /\ look c (nth j allocs (-1)) = Some (Z.of_nat j)).

  Record Inv (s : lf cache) : Prop := mkInv {
    inv_wf : wf (lf_lru s);
    inv_card : (card (lf_lru s) <= cap)%nat;
    inv_len_a : length (lf_allocs s) = cap;
    inv_len_s : length (lf_storage s) = cap;
    inv_agree : agree None (lf_lru s) (lf_allocs s) (lf_storage s);
    inv_off : 0 <= lf_offset s <= size
  }.

  Lemma inv_seek : forall s o, Inv s -> 0 <= o <= size ->
    Inv (mkLf o (lf_storage s) (lf_allocs s) (lf_lru s) (lf_loads s)).
  Proof. intros s o [] Ho. constructor; assumption. Qed.

  Lemma agree_ext : forall ex c c' allocs storage, (forall k, ex <> Some k -> look c' k = look c k) ->
    agree ex c allocs storage -> agree ex c' allocs storage.
  Proof.
    intros ex c c' allocs storage E [A1 A2]. split.
    - intros k v Hk. rewrite (E k Hk). now apply A1.
    - intros j Hj Hjn. destruct (A2 j Hj Hjn) as [Hx1 Hx2]. split; [assumption|]. now rewrite E.
  Qed.

  (** Add of a key that has no slot yet: [onEvict] frees the slot of the entry it pushes out *)
  Lemma agree_add : forall c k v allocs storage,
    wf c -> (card c <= cap)%nat -> length allocs = cap -> agree (Some k) c allocs storage ->
    exists allocs', on_evict (snd (cadd c k v)) allocs = Some allocs' /\ length allocs' = cap /\
      agree (Some k) (fst (cadd c k v)) allocs' storage.
  Proof.
    intros c k v allocs storage Hwf Hcard Hlen A. destruct (H_add c k v Hwf Hcard) as (_ & _ & _ & _ & E).
    destruct (cadd c k v) as [c1 [[k0 v0]|]]; cbn [fst snd on_evict] in *.
    2:{ exists allocs. split; [reflexivity|]. split; [assumption|]. apply (agree_ext _ c); [|exact A]. intros k' Hk'. apply E. congruence. }
    destruct A as [A1 A2]. destruct E as (Hk0 & Hl0 & Hn0 & Hoth).
    destruct (A1 k0 v0 ltac:(congruence) Hl0) as (Hv0 & Hav0 & _).
    destruct ((v0 <? 0) || (v0 >=? len allocs)) eqn:G; [unfold len in G; lia|].
    eexists; split; [reflexivity|]. rewrite set_nth_length. split; [assumption|]. split.
    - intros k' v' Hk' Hlk. destruct (Z.eq_dec k' k0) as [->|Hkk]; [congruence|].
      rewrite Hoth in Hlk by congruence. destruct (A1 k' v' Hk' Hlk) as (Hv & Hav & Hrest).
      rewrite nth_set_nth_neq by (intro; assert (v0 = v') by lia; congruence). auto.
    - intros j Hj Hjn. destruct (Nat.eq_dec (Z.to_nat v0) j) as [<-|Hne].
      + rewrite nth_set_nth_eq in Hjn by lia. lia.
      + rewrite nth_set_nth_neq in * by assumption. destruct (A2 j Hj Hjn) as [Hx1 Hx2]. split; [assumption|].
        rewrite Hoth; [assumption|congruence|]. intro Heq. rewrite Heq, Hl0 in Hx2. injection Hx2. lia.
  Qed.

  (** otherwise [k] and the owners of the [cap] slots would be [cap + 1] keys *)
  Lemma free_slot_exists : forall c k allocs storage,
    wf c -> (card c <= cap)%nat -> length allocs = cap -> agree (Some k) c allocs storage -> look c k <> None ->
    exists j, find_free allocs 0 = Some j /\ (j < cap)%nat /\ nth j allocs (-1) < 0.
  Proof.
    intros c k allocs storage Hwf Hcard Hlen [_ A2] Hk.
    pose proof (find_free_spec allocs 0) as Hall. destruct (find_free allocs 0) as [j|].
    - destruct Hall as [Hj Hfree]. rewrite Nat.sub_0_r in Hfree. exists j. repeat split; [lia|assumption].
    - exfalso. rewrite Hlen in Hall.
      assert (Hown : forall j, (j < cap)%nat -> Some k <> Some (nth j allocs (-1)) /\
                                 look c (nth j allocs (-1)) = Some (Z.of_nat j)) by (intros j Hj; auto).
      assert (Hnd : NoDup (k :: allocs)).
      { constructor.
        - intro Hin. destruct (In_nth _ _ (-1) Hin) as (j & Hj & Hnj). rewrite Hlen in Hj.
          destruct (Hown j Hj). congruence.
        - apply (NoDup_nth allocs (-1)). intros i j Hi Hj Heq. rewrite Hlen in Hi, Hj.
          destruct (Hown i Hi) as [_ H1]. destruct (Hown j Hj) as [_ H2]. rewrite Heq, H2 in H1. injection H1. lia. }
      assert (Hbound : forall k', In k' (k :: allocs) -> look c k' <> None).
      { intros k' [<-|Hin]; [assumption|].
        destruct (In_nth _ _ (-1) Hin) as (j & Hj & <-). rewrite Hlen in Hj. destruct (Hown j Hj). congruence. }
      pose proof (H_pigeon c _ Hwf Hnd Hbound) as Hp. cbn [length] in Hp. lia.
  Qed.

  Lemma agree_fill : forall c k j allocs storage slot,
    agree (Some k) c allocs storage -> length allocs = cap -> length storage = cap ->
    (j < cap)%nat -> nth j allocs (-1) < 0 -> look c k = Some (Z.of_nat j) ->
    0 <= k -> k * chunkSize <= size -> slot_ok k slot ->
    agree None c (set_nth j k allocs) (set_nth j slot storage).
  Proof.
    intros c k j allocs storage slot [A1 A2] Hla Hls Hj Hfree Hk Hk0 Hks Hslot. split.
    - intros k' v _ Hlk. destruct (Z.eq_dec k' k) as [->|Hne].
      + rewrite Hk in Hlk. injection Hlk as <-. rewrite Nat2Z.id, !nth_set_nth_eq by lia.
        repeat split; (lia || assumption).
      + destruct (A1 k' v ltac:(congruence) Hlk) as (Hv & Hav & Hrest).
        rewrite !nth_set_nth_neq by (intro; subst j; lia). auto.
    - intros i Hi Hin. split; [discriminate|]. destruct (Nat.eq_dec j i) as [<-|Hne].
      + rewrite nth_set_nth_eq by lia. exact Hk.
      + rewrite nth_set_nth_neq in * by assumption. apply A2; assumption.
  Qed.

  Lemma getChunk_ok : forall s ci, Inv s -> 0 <= ci -> ci * chunkSize <= size ->
    exists chunk s', getChunk cache cget cadd chunkSize file s ci = LOk (chunk, s') /\
                     Inv s' /\ lf_offset s' = lf_offset s /\ slot_ok ci chunk.
  Proof.
    intros s ci [Iwf Icard Ila Ils Iagree Ioff] Hci Hcis. unfold getChunk.
    destruct (H_get (lf_lru s) ci Iwf) as (Hg1 & Hg2 & Hg3 & Hg4).
    destruct (cget (lf_lru s) ci) as [r c'] eqn:Eg. cbn [fst snd] in *.
    apply (agree_ext _ _ c' _ _ (fun k _ => Hg3 k)) in Iagree. rewrite <- Hg4 in Icard.
    destruct r as [v|].
    - rewrite <- Hg3 in Hg1. destruct (proj1 Iagree ci v ltac:(discriminate) (eq_sym Hg1)) as (Hv & _ & _ & _ & Hslot).
      destruct ((v <? 0) || (v >=? len (lf_storage s))) eqn:E; [unfold len in E; lia|].
      eexists _, _; split; [reflexivity|]. split; [constructor; assumption|split; [reflexivity|assumption]].
    - (* miss: Add with no slot yet, which makes room; then Add again with the slot found *)
      assert (A0 : agree (Some ci) c' (lf_allocs s) (lf_storage s)).
      { destruct Iagree as [A1 A2]. split; [intros k v _; apply A1; discriminate|].
        intros j Hj Hjn. destruct (A2 j Hj Hjn) as [_ Hx]. split; [|assumption].
        intro Heq. injection Heq as Heq. rewrite <- Heq, Hg3 in Hx. congruence. }
      destruct (agree_add c' ci (-1) _ _ Hg2 Icard Ila A0) as (allocs1 & Eev & Hla1 & A1).
      destruct (H_add c' ci (-1) Hg2 Icard) as (W1 & C1 & L1 & _).
      destruct (cadd c' ci (-1)) as [c1 ev1]. cbn [fst snd] in *. rewrite Eev.
      destruct (free_slot_exists c1 ci _ _ W1 C1 Hla1 A1 ltac:(congruence)) as (j & Eff & Hj & Hfree). rewrite Eff.
      (* the key is bound now: the second Add pushes nothing out *)
      destruct (H_add c1 ci (Z.of_nat j) W1 C1) as (W2 & C2 & L2 & N2 & E2).
      destruct (cadd c1 ci (Z.of_nat j)) as [c2 ev2]. cbn [fst snd] in *. rewrite N2 in * by congruence. cbn [on_evict].
      rewrite firstn_skipn_sl by (unfold size in *; nia). fold size. fold (chunkdata ci).
      eexists _, _; split; [reflexivity|]. split; [|split; [reflexivity|eexists; reflexivity]].
      constructor; cbn [lf_lru lf_allocs lf_storage lf_offset]; rewrite ?set_nth_length; try assumption.
      apply agree_fill; try assumption; [|eexists; reflexivity].
      apply (agree_ext _ c1); [|exact A1]. intros k Hk. apply E2. congruence.
  Qed.

  (** status of a read of [rem] bytes at [off]: io.EOF exactly when it runs past the end *)
  Definition rst (off rem : Z) : N := if (rem >? 0) && (off + rem >? size) then 1%N else 0%N.

  Lemma read_loop_ok : forall fuel s rem acc,
    Inv s -> 0 <= rem -> (Z.to_nat rem < fuel)%nat ->
    exists s', read_loop cache cget cadd chunkSize file fuel s rem acc =
                 LOk (acc ++ sl file (lf_offset s) (Z.min (lf_offset s + rem) size), rst (lf_offset s) rem, s') /\
               Inv s' /\ lf_offset s' = Z.min (lf_offset s + rem) size.
  Proof.
    induction fuel as [|f IH]; intros s rem acc HI Hrem Hfuel; [lia|].
    pose proof (inv_off s HI) as Hoff. cbn [read_loop]. unfold rst.
    destruct (rem >? 0) eqn:Er.
    2:{ exists s. rewrite sl_empty, app_nil_r by lia. split; [reflexivity|split; [assumption|lia]]. }
    set (off := lf_offset s) in *. set (ci := off / chunkSize).
    replace (off mod chunkSize) with (off - ci * chunkSize) by (subst ci; rewrite Z.mod_eq by lia; ring).
    assert (Hci : 0 <= ci /\ ci * chunkSize <= off < ci * chunkSize + chunkSize) by (subst ci; Z.div_mod_to_equations; nia).
    clearbody ci.
    destruct (getChunk_ok s ci HI) as (chunk & s1 & Eg & HI1 & _ & Hslot); [lia|nia|].
    rewrite Eg. cbv zeta. fold size.
    (* the chunk covers [ci * chunkSize, chunkEnd) of the file; this round copies [off, off') *)
    remember (Z.min (ci * chunkSize + chunkSize) size) as chunkEnd eqn:Hce.
    remember (Z.min (off + rem) chunkEnd) as off' eqn:Hoff'.
    replace (if ci * chunkSize + chunkSize >? size then size else ci * chunkSize + chunkSize) with chunkEnd
      by (destruct (ci * chunkSize + chunkSize >? size) eqn:?; lia).
    replace (if off - ci * chunkSize + rem >? chunkEnd - ci * chunkSize
             then (chunkEnd - ci * chunkSize, ci * chunkSize + chunkSize >? size) else (off - ci * chunkSize + rem, false))
      with (off' - ci * chunkSize, (off + rem >? chunkEnd) && (ci * chunkSize + chunkSize >? size))
      by (destruct (off - ci * chunkSize + rem >? chunkEnd - ci * chunkSize) eqn:?; f_equal; lia).
    destruct (slot_sl ci chunk off off' Hslot) as [Epiece Hfit]; [lia..|].
    destruct ((off - ci * chunkSize <? 0) || (off - ci * chunkSize >? off' - ci * chunkSize) || (off' - ci * chunkSize >? len chunk)) eqn:G; [lia|].
    change (firstn ?n (skipn ?a chunk)) with (sl chunk (off - ci * chunkSize) (off' - ci * chunkSize)). rewrite Epiece.
    rewrite len_sl by (unfold size in *; lia). replace (off + (off' - off)) with off' by lia.
    apply (inv_seek _ off') in HI1; [|lia].
    destruct ((off + rem >? chunkEnd) && (ci * chunkSize + chunkSize >? size)) eqn:Eeof.
    - replace (Z.min (off + rem) size) with off' by lia. replace (off + rem >? size) with true by lia.
      eexists. split; [reflexivity|split; [assumption|reflexivity]].
    - assert (Hprog : off < off' <= off + rem) by lia.
      destruct (IH _ (rem - (off' - off)) (acc ++ sl file off off') HI1) as (s3 & E3 & HI3 & Hoff3); [lia..|].
      rewrite E3. unfold rst. cbn [lf_offset] in *. replace (off' + (rem - (off' - off))) with (off + rem) in * by lia.
      rewrite <- app_assoc, sl_app by lia.
      exists s3. split; [|split; assumption]. do 3 f_equal.
      destruct (rem - (off' - off) >? 0) eqn:?, (off + rem >? size) eqn:?; (reflexivity || lia).
  Qed.

  Lemma lf_step_ok : forall s op, Inv s ->
    exists res s', lf_step cache cget cadd chunkSize file s op = LOk (res, s') /\ Inv s' /\
                   plain_step file (lf_offset s) op = (res, lf_offset s').
  Proof.
    intros s op HI. pose proof (inv_off s HI) as Hoff. destruct op as [n|off whence]; cbn [lf_step].
    - destruct (n <=? 0) eqn:En.
      + cbn [read_loop plain_step]. rewrite En. replace (n >? 0) with false by lia.
        eexists _, _; split; [reflexivity|split; [assumption|reflexivity]].
      + destruct (read_loop_ok (S (Z.to_nat n)) s n [] HI ltac:(lia) ltac:(lia)) as (s' & E & HI' & Hoff').
        rewrite E, plain_read by (unfold size in *; lia). eexists _, _; split; [reflexivity|]. split; [assumption|].
        cbn [app]. fold size. rewrite Hoff'. unfold rst. replace (n >? 0) with true by lia. reflexivity.
    - cbn [plain_step]. fold size. destruct (seek_target size (lf_offset s) off whence) as [t|].
      + destruct ((t <? 0) || (t >? size)) eqn:E; eexists _, _; (split; [reflexivity|]);
          (split; [apply inv_seek; [assumption|lia]|reflexivity]).
      + eexists _, _; split; [reflexivity|split; [assumption|reflexivity]].
  Qed.

  Lemma lf_run_ok : forall ops s, Inv s ->
    exists sf, lf_run cache cget cadd chunkSize file s ops = Some (run_plain_from file (lf_offset s) ops, sf).
  Proof.
    induction ops as [|op r IH]; intros s HI; cbn [lf_run run_plain_from].
    - eexists; reflexivity.
    - destruct (lf_step_ok s op HI) as (res & s' & E & HI' & Hp).
      rewrite E, Hp. destruct (IH s' HI') as (sf & Er). rewrite Er. eexists; reflexivity.
  Qed.

  Lemma lf_init_inv : forall cempty stale,
    wf cempty -> (forall k, look cempty k = None) -> (card cempty <= cap)%nat -> length stale = cap ->
    Inv (lf_init cache cempty stale).
  Proof.
    intros cempty stale Hwf Hlook Hcard Hlen.
    unfold lf_init. constructor; cbn [lf_lru lf_allocs lf_storage lf_offset]; try assumption.
    - rewrite repeat_length. assumption.
    - split.
      + intros k v _ H. rewrite Hlook in H. discriminate.
      + intros j Hj H. rewrite nth_repeat in H. lia.
    - pose proof (len_nonneg _ file). unfold size. lia.
  Qed.
End Transparent.

Definition ll_wf (l : lru_list) : Prop := NoDup (map fst l).
Definition ll_look (l : lru_list) (k : Z) : option Z := ll_find k l.

Lemma ll_find_app : forall a b k,
  ll_find k (a ++ b) = match ll_find k a with Some v => Some v | None => ll_find k b end.
Proof.
  induction a as [|[k' v] a IH]; intros b k; cbn; [reflexivity|]. destruct (k' =? k); [reflexivity|apply IH].
Qed.

Lemma ll_find_none : forall l k, ll_find k l = None <-> ~ In k (map fst l).
Proof.
  induction l as [|[k' v] l IH]; intros k; cbn; [tauto|].
  destruct (k' =? k) eqn:E; [split; [discriminate|intros H; exfalso; apply H; left; lia]|].
  rewrite IH. split; [intros H [H1|H1]; [lia|tauto]|tauto].
Qed.

Lemma ll_find_split : forall l k v, ll_find k l = Some v ->
  exists l1 l2, l = l1 ++ (k, v) :: l2 /\ ll_remove k l = l1 ++ l2.
Proof.
  induction l as [|[k' v'] l IH]; intros k v H; cbn in *; [discriminate|].
  destruct (k' =? k) eqn:E.
  - injection H as ->. assert (k' = k) by lia. subst. exists [], l. split; reflexivity.
  - destruct (IH k v H) as (l1 & l2 & -> & ->). exists ((k', v') :: l1), l2. split; reflexivity.
Qed.

Lemma ll_touch : forall l k v v', ll_wf l -> ll_find k l = Some v ->
  ll_wf ((k, v') :: ll_remove k l) /\ length ((k, v') :: ll_remove k l) = length l /\
  forall k', ll_find k' ((k, v') :: ll_remove k l) = if k =? k' then Some v' else ll_find k' l.
Proof.
  intros l k v v' Hwf E. destruct (ll_find_split l k v E) as (l1 & l2 & -> & ->).
  unfold ll_wf in *. rewrite map_app in Hwf. apply NoDup_remove in Hwf. rewrite <- map_app in Hwf.
  split; [constructor; tauto|]. split; [cbn; rewrite !app_length; cbn; lia|].
  intros k'. cbn [ll_find]. destruct (k =? k') eqn:E2; [reflexivity|].
  rewrite !ll_find_app. cbn [ll_find]. rewrite E2. reflexivity.
Qed.

Lemma ll_get_contract : get_ok lru_list ll_get ll_wf ll_look (@length (Z * Z)).
Proof.
  intros l k Hwf. unfold ll_get, ll_look. destruct (ll_find k l) as [v|] eqn:E; cbn [fst snd].
  - destruct (ll_touch l k v v Hwf E) as (H1 & H2 & H3). repeat split; try assumption.
    intros k'. rewrite H3. destruct (k =? k') eqn:E2; [|reflexivity]. assert (k = k') by lia. congruence.
  - repeat split; assumption.
Qed.

Lemma ll_add_contract : forall cap, (0 < cap)%nat -> add_ok lru_list (ll_add cap) ll_wf ll_look (@length (Z * Z)) cap.
Proof.
  intros cap Hcap l k v Hwf Hlen. unfold ll_add, ll_look.
  destruct (ll_find k l) as [v1|] eqn:E; cbn [fst snd].
  - destruct (ll_touch l k v1 v Hwf E) as (H1 & H2 & H3). rewrite H2, H3, Z.eqb_refl. repeat split; try assumption.
    intros k' Hk'. rewrite H3. replace (k =? k') with false by lia. reflexivity.
  - pose proof (proj1 (ll_find_none l k) E) as Hnotin.
    assert (Hwf' : ll_wf ((k, v) :: l)) by (constructor; assumption).
    destruct (cap <? length ((k, v) :: l))%nat eqn:Eov; cbn [fst snd].
    + destruct (@exists_last _ l) as (l1 & [k0 v0] & ->); [destruct l; cbn in *; [lia|congruence]|].
      rewrite app_comm_cons, removelast_last, last_last.
      unfold ll_wf in *. cbn [map fst] in *. rewrite map_app in *. cbn [map fst] in *.
      rewrite app_length in Hlen. cbn [length] in Hlen.
      assert (Hk0 : k0 <> k) by (intros ->; apply Hnotin, in_or_app; right; left; reflexivity).
      assert (Hn0 : ll_find k0 l1 = None) by (apply ll_find_none; apply NoDup_remove_2 in Hwf; rewrite app_nil_r in Hwf; exact Hwf).
      inversion Hwf' as [|? ? Hn Hnd]; subst. rewrite app_comm_cons in Hwf'.
      apply NoDup_remove_1 in Hwf'. rewrite app_nil_r in Hwf'.
      repeat split; try (cbn [length]; lia); try assumption; try congruence.
      * cbn. rewrite Z.eqb_refl. reflexivity.
      * rewrite ll_find_app, Hn0. cbn. rewrite Z.eqb_refl. reflexivity.
      * cbn. replace (k =? k0) with false by lia. assumption.
      * intros k' Hk' Hk'0. rewrite ll_find_app. cbn. replace (k =? k') with false by lia.
        replace (k0 =? k') with false by lia. destruct (ll_find k' l1); reflexivity.
    + repeat split; try assumption; try congruence; try (cbn in *; lia).
      * cbn. rewrite Z.eqb_refl. reflexivity.
      * intros k' Hk'. cbn. replace (k =? k') with false by lia. reflexivity.
Qed.

Lemma ll_pigeon : count_ok lru_list ll_wf ll_look (@length (Z * Z)).
Proof.
  intros l ks Hwf Hnd Hall. rewrite <- (map_length fst l). apply NoDup_incl_length; [assumption|].
  intros k Hin. destruct (in_dec Z.eq_dec k (map fst l)) as [H|H]; [assumption|].
  apply ll_find_none in H. contradiction (Hall k Hin H).
Qed.

Definition ll_inv (chunkSize : Z) (entries : nat) (file : list byte) : lf lru_list -> Prop :=
  Inv lru_list ll_wf ll_look (@length (Z * Z)) entries chunkSize file.

Lemma ll_init_inv : forall chunkSize entries file stale, length stale = entries ->
  ll_inv chunkSize entries file (lf_init lru_list [] stale).
Proof. intros. apply lf_init_inv; [constructor|reflexivity|cbn; lia|assumption]. Qed.

Section Simplelru.
  Variables (chunkSize : Z) (entries : nat) (file : list byte).
  Hypothesis Hcs : 0 < chunkSize.
  Hypothesis Hen : (0 < entries)%nat.

  Lemma ll_inv_off : forall s, ll_inv chunkSize entries file s -> 0 <= lf_offset s <= len file.
  Proof. intros s HI. exact (inv_off _ _ _ _ _ _ _ _ HI). Qed.

  Lemma ll_step_ok : forall s op, ll_inv chunkSize entries file s ->
    exists res s', lf_step lru_list ll_get (ll_add entries) chunkSize file s op = LOk (res, s') /\
                   ll_inv chunkSize entries file s' /\ plain_step file (lf_offset s) op = (res, lf_offset s').
  Proof.
    intros s op. apply (lf_step_ok lru_list ll_get (ll_add entries));
      [apply ll_get_contract|apply ll_add_contract, Hen|apply ll_pigeon|exact Hcs].
  Qed.

  Lemma ll_run_ok : forall s ops, ll_inv chunkSize entries file s ->
    exists sf, lf_run lru_list ll_get (ll_add entries) chunkSize file s ops = Some (run_plain_from file (lf_offset s) ops, sf).
  Proof.
    intros s ops. apply (lf_run_ok lru_list ll_get (ll_add entries));
      [apply ll_get_contract|apply ll_add_contract, Hen|apply ll_pigeon|exact Hcs].
  Qed.
End Simplelru.

(** the "could not find room in lrufile cache" error (status 2 of a read) never shows up *)
Lemma run_plain_no_internal_error : forall file ops cur data st,
  In (RRead data st) (run_plain_from file cur ops) -> st <> 2%N.
Proof.
  intros file ops; induction ops as [|op r IH]; intros cur data st Hin; cbn in Hin; [tauto|].
  destruct (plain_step file cur op) as [res cur'] eqn:E. destruct Hin as [H|H]; [|eapply IH; eassumption].
  subst res. destruct op as [n|off whence]; cbn in E.
  - destruct (n <=? 0); inversion E; subst; [lia|]. destruct (cur + n >? len file); lia.
  - destruct (seek_target (len file) cur off whence) as [t|]; [destruct ((t <? 0) || (t >? len file))|]; inversion E.
Qed.
