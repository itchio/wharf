(** The executable search used by the correspondence (naive partitioned suffix array + Go's
    binary search, Bsdiff/Suffix.v) answers within the range that [bsdiff_roundtrip] assumes of
    the oracle; hence the executable instance [run_bsd] of Exec/C12.v, which the correspondence
    compares with the code on every run, is covered by the theorem (non-vacuity of the hypothesis
    on the instance that matters). *)
From Coq Require Import ZifyBool ZifyNat ZifyN.
From Wharf Require Import Base.Prelude Bsdiff.Scan Bsdiff.ScanProofs Bsdiff.Suffix.
Local Open Scope Z_scope.

Lemma matchlen_range : forall a b, 0 <= matchlen a b <= len b.
Proof.
  induction a as [|x a IH]; intros b; destruct b as [|y b]; cbn [matchlen]; unfold len in *; cbn [length]; try lia.
  destruct (x =? y)%N; [|lia]. specialize (IH b). lia.
Qed.

Lemma insert_suffix_forall : forall buf (P : nat -> Prop) i l, P i -> Forall P l -> Forall P (insert_suffix buf i l).
Proof.
  intros buf P i l Hi Hl. induction l as [|j r IH]; cbn [insert_suffix].
  - constructor; [assumption|constructor].
  - inversion Hl; subst. destruct (bytes_lt (suffix buf i) (suffix buf j)).
    + constructor; assumption.
    + constructor; [assumption|apply IH; assumption].
Qed.

Lemma suffix_array_bound : forall buf, Forall (fun i => (i < length buf)%nat) (suffix_array buf).
Proof.
  intros buf. unfold suffix_array.
  assert (H : Forall (fun i => (i < length buf)%nat) (seq 0 (length buf))).
  { apply Forall_forall. intros x Hx. apply in_seq in Hx. lia. }
  induction H as [|x l Hx Hl IH]; cbn [fold_right]; [constructor|].
  apply insert_suffix_forall; assumption.
Qed.

Lemma nth_bound : forall (sa : list nat) n k, Forall (fun i => (i < n)%nat) sa -> (nth k sa O <= n)%nat.
Proof.
  intros sa n k H. destruct (Nat.lt_ge_cases k (length sa)) as [Hlt|Hge].
  - rewrite Forall_forall in H. pose proof (H _ (nth_In sa O Hlt)). lia.
  - rewrite nth_overflow by assumption. lia.
Qed.

Lemma go_search_range : forall fuel sa obuf nbuf st en,
  Forall (fun i => (i < length obuf)%nat) sa ->
  0 <= fst (go_search fuel sa obuf nbuf st en) <= len obuf /\ 0 <= snd (go_search fuel sa obuf nbuf st en) <= len nbuf.
Proof.
  intros fuel sa obuf nbuf st en Hsa.
  assert (Hk : forall k, 0 <= Z.of_nat (nth k sa O) <= len obuf /\ 0 <= matchlen (suffix obuf (nth k sa O)) nbuf <= len nbuf).
  { intros k. pose proof (nth_bound sa _ k Hsa). pose proof (matchlen_range (suffix obuf (nth k sa O)) nbuf). unfold len in *. lia. }
  revert st en. induction fuel as [|f IH]; intros st en; cbn [go_search].
  - cbn. pose proof (len_nonneg _ obuf). pose proof (len_nonneg _ nbuf). lia.
  - destruct (en - st <? 2)%nat; cbv zeta.
    + destruct (length obuf <=? en)%nat; [|destruct (_ >? _)]; apply Hk.
    + destruct (bytes_lt _ nbuf); apply IH.
Qed.

Definition part_ok (L : Z) (p : nat * list byte * list nat) : Prop :=
  let '(st, part, sa) := p in (part <> [] -> Z.of_nat st + len part <= L) /\ Forall (fun i => (i < length part)%nat) sa.

Lemma psa_search_parts_range : forall L parts nbuf bpos bn,
  Forall (part_ok L) parts -> 0 <= bpos <= L -> 0 <= bn <= len nbuf ->
  0 <= fst (psa_search_parts parts nbuf bpos bn) <= L /\ 0 <= snd (psa_search_parts parts nbuf bpos bn) <= len nbuf.
Proof.
  intros L parts; induction parts as [|[[st part] sa] r IH]; intros nbuf bpos bn Hok Hp Hn; cbn [psa_search_parts].
  - cbn [fst snd]. lia.
  - inversion Hok as [|? ? H1 H2]; subst. cbn [part_ok] in H1. destruct H1 as [Hst Hsa].
    destruct part as [|b part']; [apply IH; assumption|].
    set (part := b :: part') in *. specialize (Hst ltac:(subst part; congruence)).
    pose proof (go_search_range (S (length part)) sa part nbuf 0 (length part) Hsa) as Hg.
    destruct (go_search (S (length part)) sa part nbuf 0 (length part)) as [ppos pn]. cbn [fst snd] in Hg.
    destruct (pn >? bn); apply IH; try assumption; lia.
Qed.

Lemma psa_parts_ok : forall n i p size buf, Forall (part_ok (len buf)) (psa_parts n i p size buf).
Proof.
  induction n as [|n IH]; intros i p size buf; cbn [psa_parts]; [constructor|].
  constructor; [|apply IH].
  cbn [part_ok]. split; [|apply suffix_array_bound].
  set (st := (i * size)%nat). generalize ((if (S i =? p)%nat then length buf else (S i * size)%nat) - st)%nat as m. intros m Hne.
  assert (st < length buf)%nat.
  { destruct (Nat.lt_ge_cases st (length buf)) as [H|H]; [assumption|]. rewrite skipn_all2 in Hne by assumption. rewrite firstn_nil in Hne. congruence. }
  rewrite len_firstn, skipn_length. unfold len. lia.
Qed.

Lemma psa_search_in_range : forall p old, search_in_range (len old) (psa_search (new_psa p old)).
Proof.
  intros p old suf. unfold psa_search, new_psa.
  apply psa_search_parts_range; [apply psa_parts_ok| |]; pose proof (len_nonneg _ old); pose proof (len_nonneg _ suf); lia.
Qed.
