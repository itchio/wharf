(** Proofs about Bsdiff/Scan.v: under range facts about the search oracle, [analyze_block]
    neither panics nor runs out of fuel and its matches tile the block; the blocks tile the
    new file.  First [ok_with] with its rules and the facts about slices [sl]; the patcher comes in
    RoundtripProofs.v. *)
From Coq Require Import ZifyBool ZifyNat ZifyN.
From Wharf Require Import Base.Prelude Base.Seg Bsdiff.Scan.
Local Open Scope Z_scope.

Lemma len_nonneg : forall A (l : list A), 0 <= len l.
Proof. intros; unfold len; lia. Qed.

Lemma len_app : forall A (a b : list A), len (a ++ b) = len a + len b.
Proof. intros; unfold len; rewrite app_length; lia. Qed.

Lemma len_skipn : forall A (l : list A) n, len (skipn n l) = len l - Z.of_nat (Nat.min n (length l)).
Proof. intros; unfold len; rewrite skipn_length; lia. Qed.

Lemma len_firstn : forall A (l : list A) n, len (firstn n l) = Z.of_nat (Nat.min n (length l)).
Proof. intros; unfold len; rewrite firstn_length; lia. Qed.

Lemma getz_nth : forall l i, 0 <= i < len l -> getz l i = Ok (nth (Z.to_nat i) l 0%N).
Proof.
  intros l i H. unfold getz, len in *. destruct (i <? 0) eqn:E; [lia|].
  rewrite (nth_error_nth' l 0%N) by lia. reflexivity.
Qed.

(** [r] does not panic and its value satisfies [P]: the specification of a composite
    function is composed from those of its parts by [ok_bind] *)
Definition ok_with {A} (P : A -> Prop) (r : res A) : Prop := exists a, r = Ok a /\ P a.

Lemma ok_ret : forall A (P : A -> Prop) a, P a -> ok_with P (Ok a).
Proof. intros A P a H. exists a. split; [reflexivity|exact H]. Qed.

Lemma ok_bind : forall A B (P : A -> Prop) (Q : B -> Prop) r (f : A -> res B),
  ok_with P r -> (forall a, P a -> ok_with Q (f a)) -> ok_with Q (bind r f).
Proof. intros A B P Q r f (a & -> & Ha) Hf. exact (Hf a Ha). Qed.

Lemma ok_impl : forall A (P Q : A -> Prop) r, ok_with P r -> (forall a, P a -> Q a) -> ok_with Q r.
Proof. intros A P Q r (a & E & Ha) H. exists a. split; [exact E|exact (H a Ha)]. Qed.

(** [l[a:b]] without the bounds check; it is what [slicez] returns inside the bounds ([slicez_ok]) *)
Definition sl (l : list byte) (a b : Z) : list byte := seg l (Z.to_nat a) (Z.to_nat (b - a)).

Lemma slicez_ok : forall l a b, 0 <= a -> a <= b -> b <= len l -> slicez l a b = Ok (sl l a b).
Proof.
  intros l a b H1 H2 H3. unfold slicez.
  destruct ((0 <=? a) && (a <=? b) && (b <=? len l)) eqn:E; [reflexivity|lia].
Qed.

Lemma len_sl : forall l a b, 0 <= a -> a <= b -> b <= len l -> len (sl l a b) = b - a.
Proof. intros. unfold sl, len in *. rewrite seg_length. lia. Qed.

Lemma sl_cons : forall l a b, 0 <= a < len l -> a < b -> sl l a b = nth (Z.to_nat a) l 0%N :: sl l (a + 1) b.
Proof.
  intros l a b Ha Hb. unfold sl, len in *.
  replace (Z.to_nat (b - a)) with (S (Z.to_nat (b - (a + 1)))) by lia.
  replace (Z.to_nat (a + 1)) with (S (Z.to_nat a)) by lia. apply seg_cons, nth_error_nth'. lia.
Qed.

Lemma sl_empty : forall l a b, b <= a -> sl l a b = [].
Proof. intros; unfold sl. replace (Z.to_nat (b - a)) with O by lia. reflexivity. Qed.

Lemma sl_app : forall l a b c, 0 <= a -> a <= b -> b <= c -> sl l a b ++ sl l b c = sl l a c.
Proof.
  intros l a b c H1 H2 H3. unfold sl.
  replace (Z.to_nat (c - a)) with (Z.to_nat (b - a) + Z.to_nat (c - b))%nat by lia.
  replace (Z.to_nat b) with (Z.to_nat a + Z.to_nat (b - a))%nat by lia. symmetry. apply seg_app.
Qed.

Lemma sl_full : forall l, sl l 0 (len l) = l.
Proof. intros l. apply seg_all. unfold len. lia. Qed.

Lemma sl_sl : forall l a b c d, 0 <= a -> a <= b -> b <= len l -> 0 <= c -> c <= d -> d <= b - a ->
  sl (sl l a b) c d = sl l (a + c) (a + d).
Proof. intros l a b c d H1 H2 H3 H4 H5 H6. unfold sl. rewrite seg_seg by lia. f_equal; lia. Qed.

Lemma sl_app_l : forall (l r : list byte) a b, 0 <= a -> b <= len l -> sl (l ++ r) a b = sl l a b.
Proof. intros l r a b Ha Hb. apply seg_app_l. unfold len in Hb. lia. Qed.

Lemma firstn_skipn_sl : forall l cur n, 0 <= cur <= len l -> 0 <= n ->
  firstn (Z.to_nat n) (skipn (Z.to_nat cur) l) = sl l cur (Z.min (cur + n) (len l)).
Proof. intros l cur n Hc Hn. unfold sl, len in *. fold (seg l (Z.to_nat cur) (Z.to_nat n)). rewrite seg_min. f_equal. lia. Qed.

Definition search_in_range (obuflen : Z) (srch : list byte -> Z * Z) : Prop :=
  forall suf, 0 <= fst (srch suf) <= obuflen /\ 0 <= snd (srch suf) <= len suf.

(** matches of a scan tile [start, stop) of the new file and stay inside the old file *)
Fixpoint tiles (obuflen start stop : Z) (ms : list Match) : Prop :=
  match ms with
  | [] => start = stop
  | m :: r => addNewStart m = start /\ 0 <= addLength m /\ start + addLength m <= copyEnd m /\
              0 <= addOldStart m /\ addOldStart m + addLength m <= obuflen /\
              tiles obuflen (copyEnd m) stop r
  end.

Lemma tiles_app : forall L a b c m1 m2, tiles L a b m1 -> tiles L b c m2 -> tiles L a c (m1 ++ m2).
Proof.
  intros L a b c m1; revert a. induction m1 as [|m r IH]; intros a m2 H1 H2; cbn in *.
  - subst; assumption.
  - destruct H1 as (?&?&?&?&?&?). repeat split; try assumption. eapply IH; eassumption.
Qed.

Lemma tiles_le : forall L ms a b, tiles L a b ms -> a <= b.
Proof.
  intros L ms; induction ms as [|m r IH]; intros a b H; cbn in H.
  - lia.
  - destruct H as (?&?&?&?&?&H). apply IH in H. lia.
Qed.

Section Block.
  Variable search : list byte -> Z * Z.
  Variables obuf nbuf : list byte.
  Variable offset : Z.
  Hypothesis Hrange : search_in_range (len obuf) search.

  Lemma score_loop_ok : forall n lo scsc os,
    0 <= scsc + lo -> 0 <= scsc -> scsc + Z.of_nat n <= len nbuf ->
    ok_with (fun os' => os <= os') (score_loop obuf nbuf n lo scsc os).
  Proof.
    induction n as [|n IH]; intros lo scsc os H1 H2 H3; cbn [score_loop].
    - apply ok_ret. lia.
    - destruct (scsc + lo <? len obuf) eqn:E; [|apply IH; lia].
      rewrite !getz_nth by lia. cbn [bind].
      eapply ok_impl; [apply IH; lia|]. cbv beta. destruct (_ =? _)%N; lia.
  Qed.

  Definition scan_inv (fuel : nat) (lo scan scsc pos length : Z) : Prop :=
    (Z.to_nat (len nbuf - scan) < fuel)%nat /\
    0 <= scan <= len nbuf /\ 0 <= scan + lo /\ 0 <= scsc + lo /\ 0 <= scsc <= len nbuf /\
    0 <= pos <= len obuf /\ 0 <= length.

  Lemma scan_loop_ok : forall fuel lo scan scsc os pos length,
    scan_inv fuel lo scan scsc pos length ->
    ok_with (fun '(scan', pos', length', os') =>
               scan <= scan' <= len nbuf /\ 0 <= pos' <= len obuf /\ 0 <= length' /\
               (scan' < len nbuf -> scan' + length' <= len nbuf) /\
               (0 <= os -> scan' = scan -> scan' < len nbuf -> 0 < length'))
            (scan_loop search obuf nbuf fuel lo scan scsc os pos length).
  Proof.
    unfold scan_inv.
    induction fuel as [|f IH]; intros lo scan scsc os pos length Hinv; [lia|].
    cbn [scan_loop].
    destruct (scan <? len nbuf) eqn:E; [|apply ok_ret; cbv beta iota; lia].
    pose proof (Hrange (skipn (Z.to_nat scan) nbuf)) as Hr.
    destruct (search (skipn (Z.to_nat scan) nbuf)) as [pos' length'] eqn:Es. cbn [fst snd] in Hr.
    rewrite len_skipn in Hr.
    assert (Hl : 0 <= length' <= len nbuf - scan) by (unfold len in *; lia).
    eapply ok_bind; [apply score_loop_ok; lia|]. cbv beta. intros os1 Ho.
    destruct (((length' =? os1) && negb (length' =? 0)) || (length' >? os1 + 8)) eqn:Eb; [apply ok_ret; cbv beta iota; lia|].
    destruct (scan + lo <? len obuf) eqn:Elo; [rewrite !getz_nth by lia|]; cbn [bind];
      (eapply ok_impl; [apply IH; lia|]); intros [[[s' p'] l'] o']; cbv beta iota; lia.
  Qed.

  Section Extend.
    Variables lastscan lastpos scan pos : Z.
    Hypothesis Hls : 0 <= lastscan <= scan.
    Hypothesis Hs : scan <= len nbuf.
    Hypothesis Hlp : 0 <= lastpos <= len obuf.
    Hypothesis Hp : 0 <= pos <= len obuf.

    Lemma lenf_loop_ok : forall n i s Sf lenf,
      0 <= i -> 0 <= lenf <= scan - lastscan -> lastpos + lenf <= len obuf ->
      ok_with (fun lenf' => 0 <= lenf' <= scan - lastscan /\ lastpos + lenf' <= len obuf)
              (lenf_loop obuf nbuf n lastscan lastpos scan i s Sf lenf).
    Proof.
      induction n as [|n IH]; intros i s Sf lenf H1 H2 H3; cbn [lenf_loop]; [apply ok_ret; lia|].
      destruct ((lastscan + i <? scan) && (lastpos + i <? len obuf)) eqn:E; [|apply ok_ret; lia].
      rewrite !getz_nth by lia. cbn [bind]. cbv zeta. destruct (_ >? _); apply IH; lia.
    Qed.

    Lemma lenb_loop_ok : forall n i s Sb lenb,
      1 <= i -> 0 <= lenb <= scan - lastscan -> lenb <= pos ->
      ok_with (fun lenb' => 0 <= lenb' <= scan - lastscan /\ lenb' <= pos)
              (lenb_loop obuf nbuf n lastscan scan pos i s Sb lenb).
    Proof.
      induction n as [|n IH]; intros i s Sb lenb H1 H2 H3; cbn [lenb_loop]; [apply ok_ret; lia|].
      destruct ((scan >=? lastscan + i) && (pos >=? i)) eqn:E; [|apply ok_ret; lia].
      rewrite !getz_nth by lia. cbn [bind]. cbv zeta. destruct (_ >? _); apply IH; lia.
    Qed.

    Lemma overlap_loop_ok : forall n lenf lenb overlap i s Ss lens,
      overlap = lastscan + lenf - (scan - lenb) ->
      0 <= lenf <= scan - lastscan -> lastpos + lenf <= len obuf ->
      0 <= lenb <= scan - lastscan -> lenb <= pos ->
      0 <= i -> i + Z.of_nat n = overlap -> 0 <= lens <= i ->
      ok_with (fun lens' => 0 <= lens' <= overlap)
              (overlap_loop obuf nbuf n lastscan lastpos scan pos lenf lenb overlap i s Ss lens).
    Proof.
      intros n lenf lenb overlap i s Ss lens Ho H1 H2 H3 H4. revert i s Ss lens.
      induction n as [|n IH]; intros i s Ss lens H5 H6 H7; cbn [overlap_loop]; [apply ok_ret; lia|].
      rewrite !getz_nth by lia. cbn [bind]. cbv zeta. destruct (_ >? Ss); apply IH; lia.
    Qed.

    Lemma extend_ok :
      ok_with (fun '(lenf, lenb) =>
                 0 <= lenf /\ 0 <= lenb /\ lastscan + lenf <= scan - lenb /\ lenb <= pos /\ lastpos + lenf <= len obuf /\
                 (scan = len nbuf -> lenb = 0))
              (extend obuf nbuf lastscan lastpos scan pos).
    Proof.
      unfold extend.
      eapply ok_bind; [apply lenf_loop_ok; lia|]. cbv beta. intros lenf Hf.
      apply ok_bind with (P := fun lenb => 0 <= lenb <= scan - lastscan /\ lenb <= pos /\ (scan = len nbuf -> lenb = 0)).
      { destruct (scan <? len nbuf) eqn:E; [|apply ok_ret; lia].
        eapply ok_impl; [apply lenb_loop_ok; lia|]. cbv beta. lia. }
      cbv beta. intros lenb Hb. destruct (lastscan + lenf >? scan - lenb) eqn:E; [|apply ok_ret; cbv beta iota; lia].
      cbv zeta. eapply ok_bind; [apply overlap_loop_ok; lia|]. cbv beta. intros lens Hl. apply ok_ret. cbv beta iota. lia.
    Qed.
  End Extend.

  (** [scan + length] grows with every round up to [len nbuf]: that bounds the fuel *)
  Definition outer_inv (fuel : nat) (scan pos length lastscan lastpos lo : Z) : Prop :=
    (1 <= fuel)%nat /\
    (scan < len nbuf -> len nbuf - (scan + length) + 2 <= Z.of_nat fuel) /\
    0 <= lastscan <= scan /\ scan <= len nbuf /\ (len nbuf <= scan -> lastscan = len nbuf) /\
    0 <= length /\ (scan < len nbuf -> scan + length <= len nbuf) /\
    0 <= pos <= len obuf /\ 0 <= lastpos <= len obuf /\ 0 <= scan + lo.

  Lemma outer_loop_ok : forall fuel scan pos length lastscan lastpos lo,
    outer_inv fuel scan pos length lastscan lastpos lo ->
    ok_with (fun ms => tiles (len obuf) (lastscan + offset) (len nbuf + offset) ms /\
                       match ms with m :: _ => addOldStart m = lastpos | [] => True end)
            (outer_loop search obuf nbuf offset fuel scan pos length lastscan lastpos lo).
  Proof.
    unfold outer_inv.
    induction fuel as [|f IH]; intros scan pos length lastscan lastpos lo Hinv; [lia|].
    cbn [outer_loop].
    destruct (scan <? len nbuf) eqn:E; [|apply ok_ret; split; [cbn [tiles]; lia|exact I]].
    cbv zeta. eapply ok_bind; [apply scan_loop_ok; unfold scan_inv; lia|].
    intros [[[scan1 pos1] length1] os]. cbv beta iota. intros Hscan.
    destruct (negb (length1 =? os) || (scan1 =? len nbuf)) eqn:Eb; [|apply IH; lia].
    eapply ok_bind; [apply extend_ok; lia|]. intros [lenf lenb]. cbv beta iota. intros Hext.
    eapply ok_bind; [apply IH; lia|]. intros rest [Ht _].
    apply ok_ret. split; [|reflexivity].
    cbn [tiles addNewStart addLength copyEnd addOldStart]. repeat (split; [lia|]). exact Ht.
  Qed.

  Lemma analyze_block_ok :
    ok_with (fun ms => tiles (len obuf) offset (len nbuf + offset) ms /\
                       match ms with m :: _ => addOldStart m = 0 | [] => True end)
            (analyze_block search obuf nbuf offset).
  Proof.
    pose proof (len_nonneg _ obuf) as Ho. pose proof (len_nonneg _ nbuf) as Hn.
    apply (outer_loop_ok (S (S (length nbuf))) 0 0 0 0 0 0). unfold outer_inv, len in *. lia.
  Qed.
End Block.

Lemma block_geometry_ok : forall fixed bsz nbuflen p,
  0 < bsz -> 0 < nbuflen -> 1 <= p -> (fixed = true \/ p <= nbuflen) ->
  ok_with (fun '(bs, nb) => 0 < bs /\ 0 < nb /\ bs * (nb - 1) < nbuflen <= bs * nb)
          (block_geometry fixed bsz nbuflen p).
Proof.
  intros fixed bsz n p Hb Hn Hp Hfix. unfold block_geometry.
  assert (Hgeo : forall bs, 0 < bs -> 0 < (n + bs - 1) / bs /\ bs * ((n + bs - 1) / bs - 1) < n <= bs * ((n + bs - 1) / bs)).
  { intros bs Hbs. Z.div_mod_to_equations. nia. }
  destruct (bsz =? 0) eqn:E0; [lia|].
  destruct ((n + bsz - 1) / bsz <? p) eqn:E1; cbv zeta.
  - set (bs1 := if fixed && (n / p =? 0) then 1 else n / p).
    assert (Hbs1 : 0 < bs1).
    { subst bs1. pose proof (Z.div_pos n p ltac:(lia) ltac:(lia)).
      destruct fixed; cbn [andb].
      - destruct (n / p =? 0) eqn:E2; lia.
      - destruct Hfix as [Hfix|Hfix]; [discriminate|].
        assert (1 <= n / p) by (apply Z.div_le_lower_bound; lia). lia. }
    destruct (bs1 =? 0) eqn:E3; [lia|].
    apply ok_ret. split; [exact Hbs1|exact (Hgeo bs1 Hbs1)].
  - apply ok_ret. split; [exact Hb|exact (Hgeo bsz Hb)].
Qed.

Section Blocks.
  Variable search : N -> list byte -> Z * Z.
  Variables obuf nbuf : list byte.
  Hypothesis Hrange : forall bi, search_in_range (len obuf) (search bi).

  Lemma blocks_loop_ok : forall n bi bs nb,
    0 < bs -> bs * (nb - 1) < len nbuf <= bs * nb -> 0 <= bi -> bi + Z.of_nat n = nb ->
    ok_with (fun ms => tiles (len obuf) (Z.min (bs * bi) (len nbuf)) (len nbuf) ms /\
                       (n <> O -> match ms with m :: _ => addOldStart m = 0 | [] => False end))
            (blocks_loop search n bi bs nb obuf nbuf).
  Proof.
    induction n as [|n IH]; intros bi bs nb Hbs Hgeo Hbi Hn; cbn [blocks_loop].
    - apply ok_ret. split; [cbn [tiles]; nia|congruence].
    - cbv zeta.
      set (boundary := bs * bi).
      set (real := if bi =? nb - 1 then len nbuf - boundary else bs).
      assert (Hb : 0 <= boundary /\ boundary < len nbuf) by (subst boundary; nia).
      assert (Hr : 0 < real /\ boundary + real <= len nbuf /\ boundary + real = Z.min (bs * (bi + 1)) (len nbuf)).
      { subst real boundary. destruct (bi =? nb - 1) eqn:E; nia. }
      rewrite slicez_ok by lia. cbn [bind].
      set (blk := sl nbuf boundary (boundary + real)).
      assert (Hlen : len blk = real) by (subst blk; rewrite len_sl; lia).
      eapply ok_bind; [apply (analyze_block_ok _ _ _ _ (Hrange _))|]. intros ms [Ht Hh].
      eapply ok_bind; [apply (IH (bi + 1) bs nb); lia|]. intros rest [Htr _].
      apply ok_ret. split.
      + eapply tiles_app.
        * fold boundary. rewrite (Z.min_l boundary (len nbuf)) by lia. exact Ht.
        * rewrite Hlen. replace (real + boundary) with (Z.min (bs * (bi + 1)) (len nbuf)) by lia. exact Htr.
      + intros _. destruct ms as [|m r].
        * cbn [tiles] in Ht. lia.
        * cbn [app]. exact Hh.
  Qed.
End Blocks.
