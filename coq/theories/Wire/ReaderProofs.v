(** Lemmas about [Wire/Reader.v]: the reader's offset is always a message boundary, popped
    checkpoints resume exactly at the next unread message for every source behaviour meeting
    the contract [beh_sound], and the three-state save protocol. *)
From Wharf Require Import Base.Prelude Base.ListLemmas Wire.Frame Wire.FrameProofs Wire.Reader.
From Coq Require Import ZifyBool ZifyNat ZifyN.
Local Open Scope N_scope.

(** the contract assumed of a source (codec hypothesis): a checkpoint describes an offset not
    beyond what has been handed out when the read during which it was emitted returns, and a
    fresh source handed that checkpoint restarts at or before the described offset *)
Definition beh_sound (beh : behaviour) : Prop :=
  forall before after sc, beh before after = Some sc -> sc_restart sc <= sc_off sc /\ sc_off sc <= after.

Lemma seek_beh_sound : beh_sound seek_beh.
Proof.
  intros a b sc H. unfold seek_beh in H. destruct (a <? b) eqn:E; [| discriminate].
  inversion H; subst; cbn [sc_restart sc_off]. lia.
Qed.

Lemma last_cons : forall (A : Type) (l : list A) (x d : A), last (x :: l) d = last l x.
Proof.
  induction l as [| y l IH]; intros x d; [reflexivity |].
  change (last (x :: y :: l) d) with (last (y :: l) d). rewrite !IH. reflexivity.
Qed.

Section Protocol.
  Context {M : Type}.
  Variable unmarshal : list byte -> option M.
  Variable beh : behaviour.

  Notation ev := (@ev M).

  Definition coherent (r : reader) : Prop :=
    s_want (r_src r) = match r_save r with Waiting => true | _ => false end.

  Definition pending (r : reader) : nat := match r_save r with Idle => 0 | _ => 1 end.

  Fixpoint pops (tr : list (ev * reader)) : nat :=
    match tr with
    | [] => 0
    | (EvPop (Some _), _) :: t => S (pops t)
    | _ :: t => pops t
    end.

  Fixpoint wants (tr : list (ev * reader)) : nat :=
    match tr with
    | [] => 0
    | (EvWant true, _) :: t => S (wants t)
    | _ :: t => wants t
    end.

  Lemma step_protocol : forall r o r' e,
    coherent r -> step unmarshal beh r o = (r', e) ->
    coherent r' /\
    (pops [(e, r')] + pending r' = wants [(e, r')] + pending r)%nat.
  Proof.
    intros r o r' e Hc Hs. unfold coherent, pending in *. destruct o; cbn [step] in Hs.
    - inversion Hs; subst. unfold want_save. destruct (r_save r) eqn:E; cbn; rewrite ?E; cbn; auto.
    - unfold pop_checkpoint in Hs. destruct (r_save r) eqn:E; inversion Hs; subst; cbn; rewrite ?E; cbn; auto.
    - unfold read_message in Hs.
      destruct (read_one unmarshal (r_cap r) (s_rest (r_src r))) as [[[res c] rest] cap'].
      destruct (s_want (r_src r)) eqn:Ew.
      + destruct (r_save r) eqn:E; try discriminate Hc.
        destruct (beh (s_pos (r_src r)) (s_pos (r_src r) + c)); inversion Hs; subst; cbn; rewrite ?E, ?Ew; cbn; auto.
      + inversion Hs; subst. cbn. destruct (r_save r); cbn; auto; discriminate Hc.
  Qed.

  Lemma run_protocol : forall ops r,
    coherent r ->
    let tr := run unmarshal beh r ops in
    coherent (final r tr) /\ (pops tr + pending (final r tr) = wants tr + pending r)%nat.
  Proof.
    induction ops as [| o ops IH]; intros r Hc; cbn [run]; [split; [exact Hc | reflexivity] |].
    destruct (step unmarshal beh r o) as [r' e] eqn:Hs.
    destruct (step_protocol r o r' e Hc Hs) as [Hc' Hcount]. destruct (IH r' Hc') as [Hcf Hcnt].
    unfold final in *. cbn [map snd]. rewrite last_cons. split; [exact Hcf |].
    destruct e as [[|] | [c|] | res]; cbn [pops wants] in *; lia.
  Qed.

  Lemma run_firstn : forall ops r i, firstn i (run unmarshal beh r ops) = run unmarshal beh r (firstn i ops).
  Proof.
    induction ops as [| o ops IH]; intros r i; destruct i; cbn [run firstn]; try reflexivity.
    destruct (step unmarshal beh r o) as [r' e]. cbn [firstn]. rewrite IH. reflexivity.
  Qed.

End Protocol.

Section Resume.
  Context {M : Type}.
  Variable marshal : M -> list byte.
  Variable unmarshal : list byte -> option M.
  Hypothesis unmarshal_marshal : forall m, unmarshal (marshal m) = Some m.

  Notation stream := (stream marshal).
  Notation fits_msg := (fits_msg marshal).
  Notation ev := (@ev M).

  Definition off_of (done : list M) : N := N.of_nat (length (stream done)).

  Lemma off_of_snoc : forall done m, off_of (done ++ [m]) = off_of done + N.of_nat (length (frame (marshal m))).
  Proof.
    clear unmarshal_marshal. (* [lia] would carry it into the statement *)
    intros done m. unfold off_of. rewrite stream_app, app_length.
    unfold FrameProofs.stream at 2. cbn [map concat]. rewrite app_nil_r. lia.
  Qed.

  (** position invariant: [done] has been read, [todo] is still unread *)
  Definition pinv (done todo : list M) (r : reader) : Prop :=
    s_data (r_src r) = stream (done ++ todo) /\
    s_pos (r_src r) = off_of done /\
    r_off r = off_of done /\
    s_rest (r_src r) = stream todo.

  (** checkpoint invariant: a held source checkpoint obeys the contract w.r.t. the current offset *)
  Definition cinv (done : list M) (r : reader) : Prop :=
    match r_save r with
    | HasSrc => exists sc, r_sc r = Some sc /\ sc_restart sc <= sc_off sc /\ sc_off sc <= off_of done
    | _ => r_sc r = None
    end.

  Lemma pinv_new : forall cap0 msgs, pinv [] msgs (new_reader cap0 (stream msgs)).
  Proof. intros. unfold pinv, new_reader, off_of. cbn. repeat split; reflexivity. Qed.

  Lemma cinv_new : forall cap0 data, cinv [] (new_reader cap0 data).
  Proof. intros. reflexivity. Qed.

  Lemma off_of_mono : forall done m, off_of done <= off_of (done ++ [m]).
  Proof. intros. rewrite off_of_snoc. lia. Qed.

  (** one [ReadMessage], given what [read_one] does with the unread bytes: source position and
      reader offset move by the bytes consumed, and a checkpoint the source hands over
      meanwhile is within the contract for the new offset *)
  Lemma read_message_pinv : forall beh done todo done' todo' r res c cap',
    beh_sound beh -> pinv done todo r -> cinv done r ->
    read_one unmarshal (r_cap r) (stream todo) = (res, c, stream todo', cap') ->
    done ++ todo = done' ++ todo' -> off_of done' = off_of done + c ->
    exists r', read_message unmarshal beh r = (r', res) /\ pinv done' todo' r' /\ cinv done' r'.
  Proof.
    intros beh done todo done' todo' r res c cap' Hb (Hd & Hp & Ho & Hr) Hc Er Hsplit Hoff.
    unfold read_message. rewrite Hr, Er.
    destruct (if s_want (r_src r) then beh (s_pos (r_src r)) (s_pos (r_src r) + c) else None) as [sc |] eqn:Eb;
      eexists; (split; [reflexivity |]);
      (split; [unfold pinv; cbn; rewrite Hd, Hp, Ho, Hsplit, Hoff; repeat split; reflexivity |]);
      unfold cinv in *; cbn.
    - destruct (s_want (r_src r)); [| discriminate]. apply Hb in Eb. exists sc. rewrite Hoff, <- Hp. tauto.
    - destruct (r_save r); try exact Hc. destruct Hc as (sc & E1 & E2 & E3). exists sc. repeat split; auto. lia.
  Qed.

  Lemma read_message_msg : forall beh done m todo r,
    beh_sound beh -> fits_msg m -> pinv done (m :: todo) r -> cinv done r ->
    exists r', read_message unmarshal beh r = (r', ReadOk m) /\
               pinv (done ++ [m]) todo r' /\ cinv (done ++ [m]) r'.
  Proof.
    intros beh done m todo r Hb Hm Hp Hc.
    eapply (read_message_pinv beh done (m :: todo) (done ++ [m]) todo r); try eassumption.
    - exact (read_one_frame marshal unmarshal unmarshal_marshal (r_cap r) m (stream todo) (fits_lt_63 _ Hm)).
    - rewrite <- app_assoc. reflexivity.
    - apply off_of_snoc.
  Qed.

  Lemma read_message_end : forall beh done r,
    beh_sound beh -> pinv done [] r -> cinv done r ->
    exists r', read_message unmarshal beh r = (r', ReadErr EEOF) /\ pinv done [] r' /\ cinv done r'.
  Proof.
    intros beh done r Hb Hp Hc.
    apply (read_message_pinv beh done [] done [] r _ 0 (r_cap r) Hb Hp Hc); [reflexivity | reflexivity | lia].
  Qed.

  (** what a popped checkpoint must look like to be resumable after [done] *)
  Definition good_ckpt (done : list M) (c : msg_ckpt) : Prop :=
    mc_off c = off_of done /\
    exists sc, mc_src c = Some sc /\ sc_restart sc <= sc_off sc /\ sc_off sc <= off_of done.

  Lemma want_save_inv : forall done todo r, pinv done todo r -> cinv done r ->
    pinv done todo (want_save r) /\ cinv done (want_save r).
  Proof.
    intros done todo r Hp Hc. unfold want_save. destruct (r_save r) eqn:E; [| auto | auto].
    split; [exact Hp |]. unfold cinv in *. rewrite E in Hc. cbn. exact Hc.
  Qed.

  Lemma pop_inv : forall done todo r r' c, pinv done todo r -> cinv done r ->
    pop_checkpoint r = (r', c) ->
    pinv done todo r' /\ cinv done r' /\ (forall ck, c = Some ck -> good_ckpt done ck).
  Proof.
    intros done todo r r' c Hp Hc H. unfold pop_checkpoint in H.
    destruct (r_save r) eqn:E; inversion H; subst; try (split; [exact Hp | split; [exact Hc | discriminate]]).
    split; [exact Hp |]. split; [reflexivity |].
    intros ck [= <-]. unfold cinv in Hc. rewrite E in Hc. split; [apply Hp | exact Hc].
  Qed.

  Lemma step_inv : forall beh done todo r o r' e,
    beh_sound beh -> Forall fits_msg todo -> pinv done todo r -> cinv done r ->
    step unmarshal beh r o = (r', e) ->
    exists todo', todo = msgs_of [(e, r')] ++ todo' /\
      pinv (done ++ msgs_of [(e, r')]) todo' r' /\ cinv (done ++ msgs_of [(e, r')]) r' /\
      match e with
      | EvPop (Some c) => good_ckpt done c
      | EvRead (ReadErr er) => todo = [] /\ er = EEOF
      | _ => True
      end.
  Proof.
    intros beh done todo r o r' e Hb Hf Hp Hc Hs. destruct o; cbn [step] in Hs.
    - injection Hs as <- <-. destruct (want_save_inv done todo r Hp Hc). exists todo. rewrite app_nil_r. auto.
    - destruct (pop_checkpoint r) as [r1 c] eqn:Epop. injection Hs as <- <-.
      destruct (pop_inv done todo r r1 c Hp Hc Epop) as (Hp' & Hc' & Hg).
      exists todo. destruct c; cbn [msgs_of app]; rewrite app_nil_r; auto.
    - destruct todo as [| m todo].
      + destruct (read_message_end beh done r Hb Hp Hc) as (r1 & Er & Hp' & Hc').
        rewrite Er in Hs. injection Hs as <- <-. exists []. cbn [msgs_of app]. rewrite app_nil_r. auto.
      + destruct (read_message_msg beh done m todo r Hb (Forall_inv Hf) Hp Hc) as (r1 & Er & Hp' & Hc').
        rewrite Er in Hs. injection Hs as <- <-. exists todo. auto.
  Qed.

  Lemma msgs_of_cons : forall (x : ev * reader) tr, msgs_of (x :: tr) = msgs_of [x] ++ msgs_of tr.
  Proof. intros [[w | c | [m | er]] r] tr; reflexivity. Qed.

  Lemma run_inv : forall beh ops done todo r,
    beh_sound beh -> Forall fits_msg todo -> pinv done todo r -> cinv done r ->
    let tr := run unmarshal beh r ops in
    forall i, exists todo', todo = msgs_of (firstn i tr) ++ todo' /\
      forall c ri, nth_error tr i = Some (EvPop (Some c), ri) -> good_ckpt (done ++ msgs_of (firstn i tr)) c.
  Proof.
    intros beh ops. induction ops as [| o ops IH]; intros done todo r Hb Hf Hp Hc; cbn [run].
    - intros i. exists todo. destruct i; split; try reflexivity; discriminate.
    - destruct (step unmarshal beh r o) as [r' e] eqn:Es.
      destruct (step_inv beh done todo r o r' e Hb Hf Hp Hc Es) as (todo1 & E1 & Hp' & Hc' & He).
      intros [| i]; cbn [firstn nth_error].
      + exists todo. split; [reflexivity |]. intros c ri [= -> _]. rewrite app_nil_r. exact He.
      + assert (Hf1 : Forall fits_msg todo1) by (rewrite E1 in Hf; apply Forall_app in Hf; apply Hf).
        destruct (IH _ todo1 r' Hb Hf1 Hp' Hc' i) as (todo2 & E2 & Hck).
        exists todo2. rewrite msgs_of_cons, app_assoc, <- app_assoc. split; [congruence | exact Hck].
  Qed.

  (** reading on does not depend on the save machinery: it is [read_msgs] on the unread bytes *)
  Lemma read_all_eq : forall beh r,
    read_all unmarshal beh r = read_msgs unmarshal (r_cap r) (s_rest (r_src r)).
  Proof.
    intros beh r. unfold read_all, read_msgs. generalize (S (length (s_rest (r_src r)))). intros fuel.
    revert r. induction fuel as [| f IH]; intros r; [reflexivity |].
    cbn [read_all_fuel read_msgs_fuel]. unfold read_message.
    destruct (read_one unmarshal (r_cap r) (s_rest (r_src r))) as [[[[m | e] c] rest] cap'];
      destruct (if s_want (r_src r) then beh (s_pos (r_src r)) (s_pos (r_src r) + c) else None);
      rewrite ?IH; reflexivity.
  Qed.

  Lemma read_all_rest : forall beh todo r,
    Forall fits_msg todo -> s_rest (r_src r) = stream todo -> read_all unmarshal beh r = (todo, EEOF).
  Proof.
    intros beh todo r Hf Hr. rewrite read_all_eq, Hr.
    exact (read_msgs_stream marshal unmarshal unmarshal_marshal todo (r_cap r) Hf).
  Qed.

  Lemma resume_good : forall done todo c r0,
    s_data (r_src r0) = stream (done ++ todo) -> good_ckpt done c ->
    exists r', resume r0 (Some c) = Some r' /\ pinv done todo r' /\ cinv done r'.
  Proof.
    intros done todo c r0 Hd (Hoff & sc & Hsc & H1 & H2).
    unfold resume. rewrite Hsc, Hoff, Hd.
    replace (off_of done <? sc_restart sc) with false by lia.
    assert (Hlen : off_of done <= N.of_nat (length (stream (done ++ todo)))).
    { unfold off_of. rewrite stream_app, app_length. lia. }
    replace (N.of_nat (length (stream (done ++ todo))) <? off_of done) with false by lia.
    rewrite andb_false_r.
    eexists. split; [reflexivity |]. split; [| reflexivity].
    unfold pinv. cbn. repeat split.
    unfold off_of. rewrite Nat2N.id, stream_app, ListLemmas.skipn_app_exact. reflexivity.
  Qed.

  Lemma good_ckpt_resumes : forall beh done todo c r0,
    Forall fits_msg (done ++ todo) -> s_data (r_src r0) = stream (done ++ todo) -> good_ckpt done c ->
    exists r', resume r0 (Some c) = Some r' /\ read_all unmarshal beh r' = (todo, EEOF).
  Proof.
    intros beh done todo c r0 Hf Hd Hg. apply Forall_app in Hf.
    destruct (resume_good done todo c r0 Hd Hg) as (r' & Er & (_ & _ & _ & Hr) & _).
    exists r'. split; [exact Er | exact (read_all_rest beh todo r' (proj2 Hf) Hr)].
  Qed.

  Lemma run_new_inv :
    forall msgs beh cap0 ops,
      Forall fits_msg msgs -> beh_sound beh ->
      let tr := run unmarshal beh (new_reader cap0 (stream msgs)) ops in
      forall i, let k := length (msgs_of (firstn i tr)) in
        msgs_of (firstn i tr) = firstn k msgs /\
        forall c ri, nth_error tr i = Some (EvPop (Some c), ri) -> good_ckpt (firstn k msgs) c.
  Proof.
    intros msgs beh cap0 ops Hf Hb tr i k.
    destruct (run_inv beh ops [] msgs _ Hb Hf (pinv_new cap0 msgs) (cinv_new cap0 _) i) as (todo' & E & Hck).
    fold tr in E, Hck. replace (firstn k msgs) with (msgs_of (firstn i tr)) by (rewrite E; symmetry; apply firstn_app_exact).
    split; [reflexivity | exact Hck].
  Qed.

  Lemma run_reads_prefix :
    forall (msgs : list M) (beh : behaviour) (cap0 : N) (ops : list op),
      Forall fits_msg msgs -> beh_sound beh ->
      exists n, msgs_of (run unmarshal beh (new_reader cap0 (stream msgs)) ops) = firstn n msgs.
  Proof.
    intros msgs beh cap0 ops Hf Hb.
    destruct (run_new_inv msgs beh cap0 ops Hf Hb (length (run unmarshal beh (new_reader cap0 (stream msgs)) ops))) as [E _].
    rewrite firstn_all in E. eexists. exact E.
  Qed.
End Resume.
