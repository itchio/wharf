(** Lemmas about [Wire/Uvarint.v].  The bit operations of the model are brought into arithmetic
    form once ([cont_byte], [land_127], [enc_fuel_S], [uv_loop_cont], [uv_loop_last]); the
    round trip for every 64-bit value, truncated encodings and lengths are inductions over
    these equations.  The round trip theorems themselves are in Properties/C13.v. *)
From Wharf Require Import Base.Prelude Base.ListLemmas Wire.Uvarint.
From Coq Require Import ZifyBool ZifyNat ZifyN.
Local Open Scope N_scope.

Lemma land_low_shiftl : forall x c s, x < 2 ^ s -> N.land x (N.shiftl c s) = 0.
Proof.
  intros x c s Hx. apply N.bits_inj. intros n. rewrite N.land_spec, N.bits_0.
  destruct (N.lt_ge_cases n s) as [Hn | Hn].
  - rewrite (N.shiftl_spec_low c s n Hn). apply andb_false_r.
  - rewrite <- (N.mod_small x (2 ^ s) Hx). rewrite (N.mod_pow2_bits_high x s n Hn). reflexivity.
Qed.

Lemma lor_disjoint_add : forall x c s, x < 2 ^ s -> N.lor x (N.shiftl c s) = x + c * 2 ^ s.
Proof.
  intros x c s Hx. pose proof (land_low_shiftl x c s Hx) as H0.
  rewrite <- (N.lxor_lor _ _ H0), <- (N.add_nocarry_lxor _ _ H0), N.shiftl_mul_pow2. reflexivity.
Qed.

Lemma lor_ge_l : forall a b, a <= N.lor a b.
Proof.
  intros a b.
  assert (E : N.lor a b = N.lor a (N.ldiff b a)).
  { apply N.bits_inj. intros n. rewrite !N.lor_spec, N.ldiff_spec.
    destruct (N.testbit a n), (N.testbit b n); reflexivity. }
  assert (D : N.land a (N.ldiff b a) = 0).
  { apply N.bits_inj. intros n. rewrite N.land_spec, N.ldiff_spec, N.bits_0.
    destruct (N.testbit a n), (N.testbit b n); reflexivity. }
  rewrite E, <- (N.lxor_lor _ _ D), <- (N.add_nocarry_lxor _ _ D). lia.
Qed.

Lemma land_255_small : forall y, y < 256 -> N.land y 255 = y.
Proof.
  intros y Hy. change 255 with (N.ones 8). rewrite N.land_ones. apply N.mod_small. exact Hy.
Qed.

(** the continuation byte [byte(x) | 0x80]: bit 7 of [x mod 256] is either clear, and the or
    adds 128 to seven low bits, or set, and then it is the same or again *)
Lemma cont_byte : forall y, N.lor (N.land y 255) 128 = 128 + y mod 128.
Proof.
  intros y. change 255 with (N.ones 8). rewrite N.land_ones. change (2 ^ 8) with 256.
  pose proof (lor_disjoint_add (y mod 128) 1 7) as E. change (N.shiftl 1 7) with 128 in E.
  rewrite N.mul_1_l in E. change (2 ^ 7) with 128 in E.
  destruct (N.lt_ge_cases (y mod 256) 128).
  - replace (y mod 256) with (y mod 128) by lia. rewrite E; lia.
  - replace (y mod 256) with (N.lor (y mod 128) 128) by (rewrite E; lia).
    rewrite <- N.lor_assoc, N.lor_diag, E; lia.
Qed.

Lemma land_127 : forall b, 128 <= b < 256 -> N.land b 127 = b - 128.
Proof. intros b Hb. change 127 with (N.ones 7). rewrite N.land_ones. change (2 ^ 7) with 128. lia. Qed.

Lemma pow2_add7 : forall k, 2 ^ (k + 7) = 128 * 2 ^ k.
Proof. intros k. rewrite N.pow_add_r. apply N.mul_comm. Qed.

Lemma enc_fuel_S : forall f y,
  uvarint_enc_fuel (S f) y = if 128 <=? y then (128 + y mod 128) :: uvarint_enc_fuel f (y / 128) else [y].
Proof.
  intros f y. cbn [uvarint_enc_fuel]. rewrite cont_byte, N.shiftr_div_pow2.
  destruct (N.leb_spec 128 y); [reflexivity |]. rewrite land_255_small by lia. reflexivity.
Qed.

Lemma uv_loop_cont : forall b l i x s, 128 <= b < 256 -> i < 9 ->
  uv_loop (b :: l) i x s = uv_loop l (i + 1) (N.lor x (N.shiftl (b - 128) s)) (s + 7).
Proof.
  intros b l i x s Hb Hi. cbn [uv_loop]. rewrite land_127 by exact Hb.
  replace (b <? 128) with false by lia. replace (i =? 9) with false by lia. reflexivity.
Qed.

Lemma uv_loop_last : forall b r i x s, b < 128 -> i < 9 \/ b <= 1 ->
  uv_loop (b :: r) i x s = UvOk (N.lor x (N.shiftl b s)) (i + 1) r.
Proof.
  intros b r i x s Hb Hi. cbn [uv_loop]. replace (b <? 128) with true by lia.
  replace ((i =? 9) && (1 <? b)) with false by lia. reflexivity.
Qed.

(** the decoding loop, started in the state the encoder's position corresponds to *)
Lemma uv_loop_enc :
  forall fuel i x y r s,
    N.of_nat fuel + i = 9 -> s = 7 * i -> x < 2 ^ s -> x + y * 2 ^ s < 2 ^ 64 ->
    uv_loop (uvarint_enc_fuel fuel y ++ r) i x s =
    UvOk (x + y * 2 ^ s) (i + N.of_nat (length (uvarint_enc_fuel fuel y))) r.
Proof.
  induction fuel as [| f IH]; intros i x y r s Hi Hs Hx Hv.
  - assert (i = 9) by lia. subst i s. change (2 ^ (7 * 9)) with (2 ^ 63) in *.
    cbn [uvarint_enc_fuel app length]. rewrite land_255_small by lia.
    rewrite uv_loop_last, lor_disjoint_add by (assumption || lia). reflexivity.
  - rewrite enc_fuel_S. destruct (N.leb_spec 128 y) as [Hge | Hlt]; cbn [app length].
    + rewrite uv_loop_cont, lor_disjoint_add by (assumption || lia).
      replace (128 + y mod 128 - 128) with (y mod 128) by lia.
      (* the value decoded so far plus what is still encoded stays the same *)
      assert (E : x + y mod 128 * 2 ^ s + y / 128 * 2 ^ (s + 7) = x + y * 2 ^ s).
      { rewrite pow2_add7. rewrite (N.div_mod y 128) at 3 by discriminate. ring. }
      rewrite IH, E; [f_equal; lia | lia | lia | | rewrite E; exact Hv].
      rewrite pow2_add7. pose proof (N.mul_le_mono_r (y mod 128) 127 (2 ^ s)). lia.
    + rewrite uv_loop_last, lor_disjoint_add by (assumption || lia). reflexivity.
Qed.

Lemma uvarint_read_enc :
  forall n r, n < 2 ^ 64 ->
    uvarint_read (uvarint_enc n ++ r) = UvOk n (N.of_nat (length (uvarint_enc n))) r.
Proof.
  intros n r Hn. unfold uvarint_read, uvarint_enc.
  pose proof (uv_loop_enc 9 0 0 n r 0) as H. change (2 ^ 0) with 1 in H.
  rewrite N.mul_1_r in H. rewrite H; [f_equal; lia | reflexivity | reflexivity | reflexivity | exact Hn].
Qed.

Lemma enc_fuel_length_le : forall fuel y, (1 <= length (uvarint_enc_fuel fuel y) <= S fuel)%nat.
Proof.
  induction fuel as [| f IH]; intros y; [cbn; lia |]. rewrite enc_fuel_S.
  destruct (128 <=? y); cbn [length]; [specialize (IH (y / 128)) |]; lia.
Qed.

Lemma uvarint_enc_length_le_10 : forall n, (length (uvarint_enc n) <= 10)%nat.
Proof. intros n. apply (enc_fuel_length_le 9). Qed.

Lemma uvarint_enc_nonempty : forall n, (1 <= length (uvarint_enc n))%nat.
Proof. intros n. apply (enc_fuel_length_le 9). Qed.

Lemma enc_fuel_length : forall fuel y k, (k < fuel)%nat ->
  ((length (uvarint_enc_fuel fuel y) <= S k)%nat <-> y < 2 ^ (7 * N.of_nat (S k))).
Proof.
  induction fuel as [| f IH]; intros y k Hk; [lia |].
  replace (7 * N.of_nat (S k)) with (7 * N.of_nat k + 7) by lia.
  rewrite enc_fuel_S, pow2_add7.
  assert (0 < 2 ^ (7 * N.of_nat k)) by (apply N.neq_0_lt_0, N.pow_nonzero; discriminate).
  destruct (N.leb_spec 128 y); cbn [length]; [| nia].
  destruct k as [| k].
  - pose proof (enc_fuel_length_le f (y / 128)). change (2 ^ (7 * N.of_nat 0)) with 1. lia.
  - rewrite <- Nat.succ_le_mono, (IH (y / 128) k) by lia. lia.
Qed.

(** the writer's 8-byte varint buffer is enough exactly for lengths below 2^56 *)
Lemma uvarint_enc_fits_8 : forall n, (length (uvarint_enc n) <= 8)%nat <-> n < 2 ^ 56.
Proof. intros n. apply (enc_fuel_length 9 n 7). lia. Qed.

Lemma uv_loop_enc_cut : forall fuel y k i x s,
  (k < length (uvarint_enc_fuel fuel y))%nat -> N.of_nat fuel + i <= 9 ->
  uv_loop (firstn k (uvarint_enc_fuel fuel y)) i x s =
  UvErr (if i + N.of_nat k =? 0 then UvEOF else UvUnexpectedEOF) (i + N.of_nat k).
Proof.
  induction fuel as [| f IH]; intros y k i x s Hk Hi; [| rewrite enc_fuel_S in *; destruct (128 <=? y)];
    (destruct k as [| k]; [cbn [firstn uv_loop]; rewrite N.add_0_r; reflexivity |]);
    cbn [uvarint_enc_fuel length] in Hk; try lia.
  cbn [firstn]. rewrite uv_loop_cont, IH by lia.
  replace (i + 1 + N.of_nat k) with (i + N.of_nat (S k)) by lia. reflexivity.
Qed.

Lemma uvarint_read_truncated :
  forall n p q, uvarint_enc n = p ++ q -> q <> [] ->
    uvarint_read p = UvErr (match p with [] => UvEOF | _ => UvUnexpectedEOF end) (N.of_nat (length p)).
Proof.
  intros n p q E Hq. unfold uvarint_read, uvarint_enc in *.
  replace p with (firstn (length p) (uvarint_enc_fuel 9 n)) at 1
    by (rewrite E; apply firstn_app_exact).
  rewrite uv_loop_enc_cut, N.add_0_l; [destruct p; reflexivity | | lia].
  rewrite E, app_length. destruct q; [contradiction | cbn [length]; lia].
Qed.

Lemma smear_ge : forall v k, v <= smear v k.
Proof. intros v k. apply lor_ge_l. Qed.
