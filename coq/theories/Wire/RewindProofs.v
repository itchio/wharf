(** Lemmas about [Wire/Rewind.v]: a reader that is resumed while in use - in any save state,
    to any checkpoint it has popped itself or to the start - keeps popping checkpoints that
    resume exactly, and keeps reading the right messages. *)
From Wharf Require Import Base.Prelude Wire.Frame Wire.FrameProofs
  Wire.Reader Wire.ReaderProofs Wire.Rewind.
From Coq Require Import ZifyBool ZifyNat ZifyN.
Local Open Scope N_scope.

Lemma Forall2_nth_error_r : forall (A B : Type) (P : A -> B -> Prop) (l1 : list A) (l2 : list B) (i : nat) (x : B) (d : A),
  Forall2 P l1 l2 -> nth_error l2 i = Some x -> P (nth i l1 d) x.
Proof.
  intros A B P l1 l2 i x d H. revert i. induction H as [| a b l1 l2 Hab H IH]; intros i Hi.
  - destruct i; discriminate Hi.
  - destruct i as [| i]; cbn [nth_error nth] in *.
    + inversion Hi; subst. exact Hab.
    + apply IH. exact Hi.
Qed.

Section RewindProofs.
  Context {M : Type}.
  Variable marshal : M -> list byte.
  Variable unmarshal : list byte -> option M.
  Hypothesis unmarshal_marshal : forall m, unmarshal (marshal m) = Some m.
  Variable msgs : list M.
  Hypothesis msgs_fit : Forall (fits_msg marshal) msgs.
  Variable behs : nat -> behaviour.
  Hypothesis behs_sound : forall i, beh_sound (behs i).

  Notation stream := (stream marshal).
  Notation pinv := (pinv marshal).
  Notation cinv := (cinv marshal).
  Notation good_ckpt := (good_ckpt marshal).
  Notation off_of := (off_of marshal).
  Notation trace := (list (@xev M * reader)).

  (** what holds of an event performed at position [p] *)
  Definition ev_ok (p : nat) (x : @xev M * reader) : Prop :=
    match fst x with
    | XE (EvPop (Some c)) => exists d t, msgs = d ++ t /\ length d = p /\ good_ckpt d c
    | XE (EvRead (ReadOk m)) => nth_error msgs p = Some m
    | XE (EvRead (ReadErr e)) => p = length msgs /\ e = EEOF
    | _ => True
    end.

  Definition good (tr : trace) : Prop := Forall2 ev_ok (snd (xpos tr)) tr.

  Lemma xpos_snoc : forall (tr : trace) x, xpos (tr ++ [x]) = xpos_step (xpos tr) x.
  Proof. intros tr x. unfold xpos. rewrite fold_left_app. reflexivity. Qed.

  Lemma good_snoc : forall (tr : trace) x, good tr -> ev_ok (fst (xpos tr)) x -> good (tr ++ [x]).
  Proof.
    intros tr x Hg Hx. unfold good in *. rewrite xpos_snoc.
    destruct (xpos tr) as [cur hist]. cbn [xpos_step snd fst] in *.
    apply Forall2_app; [exact Hg |]. constructor; [exact Hx | constructor].
  Qed.

  Lemma fst_xpos_snoc : forall (tr : trace) x,
    fst (xpos (tr ++ [x])) =
    match fst x with
    | XE (EvRead (ReadOk _)) => S (fst (xpos tr))
    | XRes (Some j) true => nth j (snd (xpos tr)) 0%nat
    | XRes None true => 0%nat
    | _ => fst (xpos tr)
    end.
  Proof. intros tr x. rewrite xpos_snoc. destruct (xpos tr) as [cur hist]. reflexivity. Qed.

  Lemma resume_nil_inv : forall beh r, s_data (r_src r) = stream msgs ->
    exists r', resume_used beh r None = Some r' /\ pinv [] msgs r' /\ cinv [] r'.
  Proof.
    intros beh r Hd. unfold resume_used, resume. eexists. split; [reflexivity |]. split.
    - unfold ReaderProofs.pinv. cbn. rewrite Hd. repeat split; reflexivity.
    - reflexivity.
  Qed.

  (** [Resume] with a good checkpoint on a reader in use: like [resume_good], and if the
      discarding read makes a pending request come true the checkpoint received is within the
      contract *)
  Lemma resume_used_good : forall beh d t c r,
    beh_sound beh -> s_data (r_src r) = stream (d ++ t) -> good_ckpt d c ->
    exists r', resume_used beh r (Some c) = Some r' /\ pinv d t r' /\ cinv d r'.
  Proof.
    intros beh d t c r Hb Hd Hg.
    destruct (resume_good marshal d t c r Hd Hg) as (r1 & Er & Hp & Hc).
    destruct Hg as (Hoff & sc & Hsc & H1 & H2).
    unfold resume_used. rewrite Er, Hsc.
    destruct (s_want (r_src r1) && (sc_restart sc <? mc_off c)) eqn:Ew; [| eauto].
    destruct (beh (sc_restart sc) (mc_off c)) as [e |] eqn:Eb; [| eauto].
    eexists. split; [reflexivity |]. split.
    - destruct Hp as (P1 & P2 & P3 & P4). unfold ReaderProofs.pinv. cbn. auto.
    - unfold ReaderProofs.cinv. cbn. exists e. destruct (Hb _ _ _ Eb) as [B1 B2].
      split; [reflexivity |]. split; [exact B1 |]. rewrite <- Hoff. exact B2.
  Qed.

  Lemma good_nth : forall (tr : trace) i x, good tr -> nth_error tr i = Some x -> ev_ok (pos_at tr i) x.
  Proof. intros tr i x Hg Hnth. exact (Forall2_nth_error_r _ _ _ _ _ i _ 0%nat Hg Hnth). Qed.

  Lemma good_popped : forall (tr : trace) i c, good tr -> popped_at tr i = Some c ->
    exists d t, msgs = d ++ t /\ length d = pos_at tr i /\ good_ckpt d c.
  Proof.
    intros tr i c Hg Epop. unfold popped_at in Epop.
    destruct (nth_error tr i) as [[[[w | [c' |] | res] | j' ok] ri] |] eqn:Enth; try discriminate Epop.
    injection Epop as ->. exact (good_nth tr i _ Hg Enth).
  Qed.

  Lemma xrun_good : forall ops (tr : trace) r d t,
    good tr -> msgs = d ++ t -> length d = fst (xpos tr) -> pinv d t r -> cinv d r ->
    good (xrun unmarshal behs tr r ops).
  Proof.
    induction ops as [| o ops IH]; intros tr r d t Hg Em El Hp Hc; cbn [xrun]; [exact Hg |].
    destruct o as [o | j].
    - (* WantSave / PopCheckpoint / ReadMessage: [step_inv] *)
      destruct (step unmarshal (behs (length tr)) r o) as [r' e] eqn:Es.
      assert (Hft : Forall (fits_msg marshal) t) by (rewrite Em in msgs_fit; apply Forall_app in msgs_fit; apply msgs_fit).
      destruct (step_inv marshal unmarshal unmarshal_marshal _ d t r o r' e (behs_sound _) Hft Hp Hc Es)
        as (t' & Et & Hp' & Hc' & He).
      apply (IH _ _ (d ++ msgs_of [(e, r')]) t'); try assumption.
      + apply good_snoc; [exact Hg |]. unfold ev_ok. cbn [fst]. rewrite <- El.
        destruct e as [w | [c |] | [m | er]]; try exact I.
        * exists d, t. auto.
        * rewrite Em, Et, nth_error_app2, Nat.sub_diag by lia. reflexivity.
        * destruct He as [-> ->]. rewrite Em, app_nil_r. auto.
      + rewrite <- app_assoc, <- Et. exact Em.
      + rewrite fst_xpos_snoc, <- El. cbn [fst].
        destruct e as [w | c | [m | er]]; cbn [msgs_of]; rewrite ?app_nil_r, ?app_length; cbn [length]; lia.
    - (* Resume on the reader in use *)
      assert (Hdata : s_data (r_src r) = stream msgs) by (rewrite Em; apply Hp).
      destruct j as [i |]; cbn [option_map].
      + destruct (popped_at tr i) as [c |] eqn:Epop; cbn [option_map]; [| apply good_snoc; [exact Hg | exact I]].
        destruct (good_popped tr i c Hg Epop) as (d' & t' & Em' & El' & Hgc). rewrite Em' in Hdata.
        destruct (resume_used_good (behs (length tr)) d' t' c r (behs_sound _) Hdata Hgc) as (r' & Er & Hp' & Hc').
        rewrite Er. apply (IH _ _ d' t'); try assumption; [apply good_snoc; [exact Hg | exact I] |].
        rewrite fst_xpos_snoc. exact El'.
      + destruct (resume_nil_inv (behs (length tr)) r Hdata) as (r' & Er & Hp' & Hc').
        rewrite Er. apply (IH _ _ [] msgs); try assumption; [apply good_snoc; [exact Hg | exact I] | reflexivity |].
        rewrite fst_xpos_snoc. reflexivity.
  Qed.

  Lemma xrun_new_ok : forall cap0 ops,
    let tr := xrun unmarshal behs [] (new_reader cap0 (stream msgs)) ops in
    forall i x, nth_error tr i = Some x -> ev_ok (pos_at tr i) x.
  Proof.
    intros cap0 ops tr i x Hnth. apply (good_nth tr i x); [| exact Hnth].
    exact (xrun_good ops [] _ [] msgs (Forall2_nil _) eq_refl eq_refl (pinv_new marshal cap0 msgs) (cinv_new marshal cap0 _)).
  Qed.
End RewindProofs.
