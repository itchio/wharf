(** Lemmas about [Wire/Frame.v]: what is written is read back followed by end of stream, for
    any codec satisfying the round-trip hypotheses; a truncated stream yields a strict prefix
    of the messages and an end-of-file error, never a wrong message; magic numbers. *)
From Wharf Require Import Base.Prelude Base.ListLemmas Wire.Uvarint Wire.UvarintProofs Wire.Frame.
From Coq Require Import ZifyBool ZifyNat ZifyN.
Local Open Scope N_scope.

(** a body the writer's 8-byte varint buffer can announce *)
Definition fits (body : list byte) : Prop := N.of_nat (length body) < 2 ^ 56.

Lemma pow56_lt_pow64 : 2 ^ 56 < 2 ^ 64.
Proof. reflexivity. Qed.

Lemma fits_lt_63 : forall b, fits b -> N.of_nat (length b) < 2 ^ 63.
Proof. intros b H. eapply N.lt_trans; [exact H | reflexivity]. Qed.

Lemma fits_lt_64 : forall b, fits b -> N.of_nat (length b) < 2 ^ 64.
Proof. intros b H. eapply N.lt_trans; [exact H | reflexivity]. Qed.

(** [PutUvarint] into the 8-byte buffer: fine below 2^56, an index out of range from there on *)
Lemma write_message_spec : forall b,
  write_message b = if N.of_nat (length b) <? 2 ^ 56 then WOk (frame b) else WPanic.
Proof.
  intros b. unfold write_message, varint_buffer_len. pose proof (uvarint_enc_fits_8 (N.of_nat (length b))) as H8.
  destruct (N.leb_spec (N.of_nat (length (uvarint_enc (N.of_nat (length b))))) 8),
           (N.ltb_spec (N.of_nat (length b)) (2 ^ 56)); reflexivity || (unfold byte in *; lia).
Qed.

Lemma write_message_ok : forall b, fits b -> write_message b = WOk (frame b).
Proof.
  intros b Hb. rewrite write_message_spec.
  apply N.ltb_lt in Hb. rewrite Hb. reflexivity.
Qed.

Lemma write_message_panics : forall b, 2 ^ 56 <= N.of_nat (length b) < 2 ^ 64 -> write_message b = WPanic.
Proof.
  intros b [Hlo _]. rewrite write_message_spec.
  apply N.ltb_ge in Hlo. rewrite Hlo. reflexivity.
Qed.

Lemma write_bodies_ok : forall bs, Forall fits bs -> write_bodies bs = WOk (concat (map frame bs)).
Proof.
  induction 1 as [| b bs Hb _ IH]; [reflexivity |].
  cbn [write_bodies map concat]. rewrite (write_message_ok b Hb), IH. reflexivity.
Qed.

Lemma frame_nonempty : forall b, (1 <= length (frame b))%nat.
Proof.
  intros b. unfold frame. rewrite app_length. pose proof (uvarint_enc_nonempty (N.of_nat (length b))). lia.
Qed.

Lemma le32_sum : forall u, u < 4294967296 ->
  u mod 256 + 256 * ((u / 256) mod 256) + 65536 * ((u / 65536) mod 256) + 16777216 * ((u / 16777216) mod 256) = u.
Proof.
  (* little endian, digit by digit: v mod 256 + 256 * (v / 256) = v, three times *)
  intros u Hu. change 65536 with (256 * 256). change 16777216 with (256 * (256 * 256)).
  rewrite <- !N.div_div by discriminate.
  rewrite (N.mod_small (u / 256 / 256 / 256)) by (repeat apply N.div_lt_upper_bound; try discriminate; exact Hu).
  transitivity (u mod 256 + 256 * ((u / 256) mod 256 + 256 * ((u / 256 / 256) mod 256 + 256 * (u / 256 / 256 / 256))));
    [ring |].
  rewrite !(N.add_comm (_ mod 256)), <- !N.div_mod'. reflexivity.
Qed.

Lemma int32_of_magic : forall m, (- 2147483648 <= m < 2147483648)%Z -> int32_of (Z.to_N (m mod 4294967296)%Z) = m.
Proof. intros m Hm. unfold int32_of. destruct (Z.to_N (m mod 4294967296) <? 2147483648) eqn:E; lia. Qed.

Lemma expect_magic_enc : forall m m' r, (- 2147483648 <= m < 2147483648)%Z ->
  expect_magic m' (magic_enc m ++ r) = if Z.eqb m m' then inl r else inr EFormat.
Proof.
  intros m m' r Hm. unfold magic_enc, le32. cbn [app expect_magic].
  rewrite le32_sum, (int32_of_magic m Hm) by lia. reflexivity.
Qed.

Section Codec.
  Context {M : Type}.
  Variable marshal : M -> list byte.
  Variable unmarshal : list byte -> option M.
  Hypothesis unmarshal_marshal : forall m, unmarshal (marshal m) = Some m.

  Definition stream (msgs : list M) : list byte := concat (map frame (map marshal msgs)).

  Lemma stream_cons : forall m ms, stream (m :: ms) = frame (marshal m) ++ stream ms.
  Proof. reflexivity. Qed.

  Lemma stream_app : forall a b, stream (a ++ b) = stream a ++ stream b.
  Proof. intros a b. unfold stream. rewrite !map_app, concat_app. reflexivity. Qed.

  Definition cap_after (cap len : N) : N := if cap <? len then npo2 len else cap.

  Lemma read_one_frame :
    forall cap m r, N.of_nat (length (marshal m)) < 2 ^ 63 ->
      read_one unmarshal cap (frame (marshal m) ++ r) =
      (ReadOk m, N.of_nat (length (frame (marshal m))), r, cap_after cap (N.of_nat (length (marshal m)))).
  Proof.
    intros cap m r Hlen. unfold read_one, frame. rewrite <- app_assoc, app_length, Nat2N.inj_add.
    rewrite uvarint_read_enc by (eapply N.lt_trans; [exact Hlen | reflexivity]).
    change (2 ^ 63) with 9223372036854775808 in Hlen. apply N.leb_gt in Hlen. rewrite Hlen.
    rewrite Nat2N.id, firstn_app_exact, skipn_app_exact, N.ltb_irrefl, unmarshal_marshal. fold (cap_after cap (N.of_nat (length (marshal m)))).
    destruct (marshal m) as [| x b] eqn:Eb; [| reflexivity].
    cbn [length N.of_nat N.eqb app]. rewrite <- Eb at 1. rewrite unmarshal_marshal, N.add_0_r. reflexivity.
  Qed.

  Lemma read_one_nil : forall cap, read_one unmarshal cap [] = (ReadErr EEOF, 0, [], cap).
  Proof. reflexivity. Qed.

  Definition fits_msg (m : M) : Prop := fits (marshal m).

  Lemma write_msgs_ok : forall msgs, Forall fits_msg msgs -> write_msgs marshal msgs = WOk (stream msgs).
  Proof. intros msgs Hf. apply write_bodies_ok, Forall_map, Hf. Qed.

  Lemma read_one_truncated_frame :
    forall cap b p q, fits b -> frame b = p ++ q -> q <> [] ->
      exists e c rest cap', read_one unmarshal cap p = (ReadErr e, c, rest, cap') /\
                            (e = EEOF \/ e = EUnexpectedEOF).
  Proof.
    intros cap b p q Hb E Hq. unfold read_one.
    destruct (app_cut _ _ _ _ E) as [(l & -> & Eb) | (x & l & Ee & _)].
    - (* the cut is inside the body, or right after the length prefix: [l] is all io.ReadFull gets *)
      rewrite uvarint_read_enc by (apply fits_lt_64, Hb).
      pose proof (fits_lt_63 b Hb) as H63. change (2 ^ 63) with 9223372036854775808 in H63.
      apply N.leb_gt in H63. rewrite H63.
      assert (Hll : (length l < length b)%nat).
      { rewrite Eb, app_length. destruct q; [contradiction | cbn [length]; lia]. }
      rewrite firstn_all2 by lia.
      replace (N.of_nat (length b) =? 0) with false by lia.
      replace (N.of_nat (length l) <? N.of_nat (length b)) with true by lia.
      destruct (N.of_nat (length l) =? 0); do 4 eexists; (split; [reflexivity |]); [left | right]; reflexivity.
    - (* the cut is inside the length prefix *)
      rewrite (uvarint_read_truncated _ p (x :: l) Ee) by discriminate.
      destruct p; do 4 eexists; (split; [reflexivity |]); [left | right]; reflexivity.
  Qed.

  (** reading a first part [p] of a stream: a first part of the messages, then io.EOF or
      io.ErrUnexpectedEOF; all of them, and io.EOF, exactly when nothing is missing *)
  Lemma read_msgs_fuel_prefix :
    forall msgs fuel cap p q, Forall fits_msg msgs -> stream msgs = p ++ q -> (length p < fuel)%nat ->
      exists k e, read_msgs_fuel unmarshal fuel cap p = (firstn k msgs, e) /\ (e = EEOF \/ e = EUnexpectedEOF) /\
                  (q <> [] -> (k < length msgs)%nat) /\ (q = [] -> k = length msgs /\ e = EEOF).
  Proof.
    induction msgs as [| m ms IH]; intros fuel cap p q Hf E Hfuel; (destruct fuel as [| f]; [lia |]); cbn [read_msgs_fuel].
    - symmetry in E. apply app_eq_nil in E. destruct E as [-> ->]. exists 0%nat, EEOF. tauto.
    - inversion Hf as [| m' ms' Hm Hms]; subst. rewrite stream_cons in E.
      destruct (app_cut _ _ _ _ E) as [(l & -> & Es) | (x & l & Ef & ->)].
      + (* the first frame is complete *)
        rewrite read_one_frame by (apply fits_lt_63; exact Hm).
        destruct (IH f (cap_after cap (N.of_nat (length (marshal m)))) l q Hms Es) as (k & e & Er & He & Hlt & Hall).
        { rewrite app_length in Hfuel. pose proof (frame_nonempty (marshal m)). lia. }
        rewrite Er. exists (S k), e. cbn [firstn length]. split; [reflexivity |]. split; [exact He |].
        split; [intros Hq; specialize (Hlt Hq); lia | intros Hq; destruct (Hall Hq) as [-> ->]; tauto].
      + (* the cut falls inside the first frame *)
        destruct (read_one_truncated_frame cap (marshal m) p (x :: l) Hm Ef ltac:(discriminate))
          as (e & c & rest & cap' & Er & He).
        rewrite Er. exists 0%nat, e. cbn [firstn length]. split; [reflexivity |]. split; [exact He |].
        split; [lia | discriminate].
  Qed.

  Lemma read_msgs_prefix :
    forall msgs cap p q, Forall fits_msg msgs -> stream msgs = p ++ q ->
      exists k e, read_msgs unmarshal cap p = (firstn k msgs, e) /\ (e = EEOF \/ e = EUnexpectedEOF) /\
                  (q <> [] -> (k < length msgs)%nat) /\ (q = [] -> k = length msgs /\ e = EEOF).
  Proof. intros msgs cap p q Hf E. apply (read_msgs_fuel_prefix msgs _ cap p q Hf E). lia. Qed.

  Lemma read_msgs_stream :
    forall msgs cap, Forall fits_msg msgs -> read_msgs unmarshal cap (stream msgs) = (msgs, EEOF).
  Proof.
    intros msgs cap Hf.
    destruct (read_msgs_prefix msgs cap (stream msgs) [] Hf (eq_sym (app_nil_r _))) as (k & e & Er & _ & _ & Hall).
    destruct (Hall eq_refl) as [-> ->]. rewrite firstn_all in Er. exact Er.
  Qed.

  Lemma truncated_stream_lemma :
    forall msgs cap p q, Forall fits_msg msgs -> stream msgs = p ++ q -> q <> [] ->
      exists k e, read_msgs unmarshal cap p = (firstn k msgs, e) /\ (k < length msgs)%nat /\
                  (e = EEOF \/ e = EUnexpectedEOF).
  Proof.
    intros msgs cap p q Hf E Hq. destruct (read_msgs_prefix msgs cap p q Hf E) as (k & e & Er & He & Hlt & _).
    exists k, e. auto.
  Qed.
End Codec.
