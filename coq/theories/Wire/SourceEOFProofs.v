(** The repaired byte reads and discard loop of wire/read_context.go compute the plain list
    semantics used by [Wire/Reader.v], whether or not the source reports io.EOF together with
    its last bytes; the unrepaired ones do not (executable counterexamples). *)
From Wharf Require Import Base.Prelude Base.BlocksLemmas Wire.Uvarint Wire.SourceEOF.
From Coq Require Import ZifyBool ZifyNat ZifyN.
Local Open Scope N_scope.

Lemma read_byte_fixed_spec : forall eager rest,
  read_byte_fixed eager rest = match rest with [] => (None, []) | b :: r => (Some b, r) end.
Proof.
  intros eager rest. unfold read_byte_fixed, src_read. destruct rest as [| b r]; [reflexivity |].
  cbn [firstn skipn]. destruct (eager && match r with [] => true | _ => false end); reflexivity.
Qed.

Lemma uv_loop_with_fixed : forall eager l fuel i x s,
  N.of_nat fuel + i = 10 -> i <= 9 ->
  uv_loop_with (read_byte_fixed eager) fuel l i x s = uv_loop l i x s.
Proof.
  intros eager l. induction l as [| b l IH]; intros fuel i x s Hf Hi.
  - destruct fuel; [lia |]. cbn [uv_loop_with uv_loop]. rewrite read_byte_fixed_spec. reflexivity.
  - destruct fuel as [| f]; [lia |]. cbn [uv_loop_with uv_loop]. rewrite read_byte_fixed_spec.
    destruct (b <? 128); [reflexivity |].
    destruct (i =? 9) eqn:E9.
    + assert (f = 0%nat) by lia. subst f. cbn [uv_loop_with]. reflexivity.
    + apply IH; lia.
Qed.

Lemma discard_fixed_spec : forall eager chunk fuel delta rest,
  (0 < chunk)%nat -> (delta <= length rest)%nat -> (delta < fuel)%nat ->
  discard_fixed fuel eager chunk delta rest = Some (skipn delta rest).
Proof.
  intros eager chunk. induction fuel as [| f IH]; intros delta rest Hc Hd Hf; [lia |].
  cbn [discard_fixed]. destruct delta as [| d]; [reflexivity |].
  destruct rest as [| b rest]; [cbn [length] in Hd; lia |].
  unfold src_read. set (l := b :: rest) in *. set (n := Nat.min (S d) chunk).
  assert (Hlen : length (firstn n l) = n) by (rewrite firstn_length; lia).
  rewrite Hlen.
  (* io.EOF can only come with the last bytes, and then nothing is left to discard *)
  assert (Hno : match skipn n l with [] => true | _ => false end && negb (Nat.eqb (S d - n) 0) = false).
  { destruct (skipn n l) eqn:Es; [| reflexivity].
    apply (f_equal (@length _)) in Es. rewrite skipn_length in Es. cbn [length] in Es.
    replace (S d - n)%nat with O by lia. reflexivity. }
  rewrite <- andb_assoc, Hno, andb_false_r.
  replace (skipn (S d) l) with (skipn (S d - n) (skipn n l)) by (rewrite skipn_skipn_add; f_equal; lia).
  apply IH; [exact Hc | rewrite skipn_length; lia | lia].
Qed.

(** a stream ending in the one-byte frame of an empty message: the message is lost *)
Example unfixed_loses_final_empty_message :
  uv_loop_with (read_byte_unfixed true) 10 [0] 0 0 0 = UvErr UvEOF 0 /\
  uv_loop_with (read_byte_fixed true) 10 [0] 0 0 0 = UvOk 0 1 [] /\
  uv_loop_with (read_byte_unfixed false) 10 [0] 0 0 0 = UvOk 0 1 [].
Proof. vm_compute. repeat split; reflexivity. Qed.

(** discarding up to the very end of the stream (a checkpoint made after the last message) *)
Example unfixed_cannot_discard_to_the_end :
  discard_unfixed 10 true 4096 3 [1; 2; 3] = None /\
  discard_fixed 10 true 4096 3 [1; 2; 3] = Some [] /\
  discard_unfixed 10 false 4096 3 [1; 2; 3] = Some [].
Proof. vm_compute. repeat split; reflexivity. Qed.
