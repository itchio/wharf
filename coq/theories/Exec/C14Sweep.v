(** Exhaustive sweep of the C14 theorem statement in the model alone, at tiny parameters where
    every window-boundary case is reachable with a handful of bytes: for every new content
    over {0,1} of length <= n, every old content 0^m (m <= n+2; only the positions where old
    and new agree matter), every partition of the new content into Write calls, with and
    without a Flush after every write, and every split of the writes into two sessions with
    stale bytes (a well-formed end marker among them) after the saved overlay offset:
    patch + truncate gives the new content and no loop runs out of fuel.  Definitions only;
    Overlay/SweepProofs.v proves [sweep] true at every parameter, and Properties/C14.v
    [tiny_parameter_sweep] states it. *)
From Wharf Require Import Base.Prelude Overlay.Writer Overlay.Patch Overlay.Codec.
Local Open Scope N_scope.

Fixpoint all_bits (n : nat) : list (list N) :=
  match n with
  | O => [[]]
  | S k => flat_map (fun l => [0 :: l; 1 :: l]) (all_bits k)
  end.

(** all ways of cutting [l] into consecutive non-empty pieces *)
Fixpoint compositions (l : list N) : list (list (list N)) :=
  match l with
  | [] => [[]]
  | x :: r =>
      flat_map (fun c => match c with
                         | [] => [[[x]]]
                         | h :: t => [(x :: h) :: t; [x] :: h :: t]
                         end) (compositions r)
  end.

Definition events_for (ws : list (list N)) (flush : bool) : list event :=
  flat_map (fun w => EvWrite w :: if flush then [EvFlush] else []) ws.

Definition result_is (r : presult) (want : list N) : bool :=
  match r with POk f => nlist_eqb f want | _ => false end.

Definition check_one (bs thr : N) (old : list N) (ws : list (list N)) (flush : bool) : bool :=
  let st := finalize bs thr enc (run_events bs thr enc (new_writer enc magic old 0 0) (events_for ws flush)) in
  negb (w_fail st) && result_is (patch dec magic old (write_at [] 0 (session_bytes st))) (concat ws).

(** end marker, a stray byte, an empty message *)
Definition stale_bytes : list N := [3; 8; 248; 15; 77; 0].

Definition check_split (bs thr : N) (old : list N) (ws : list (list N)) (k : nat) (flush : bool) : bool :=
  let '(f, fail, _) :=
    run_sessions bs thr enc magic old [] 0 0 [(events_for (firstn k ws) flush, stale_bytes)] (events_for (skipn k ws) flush) in
  negb fail && result_is (patch dec magic old f) (concat ws).

Definition check_new (bs thr : N) (n : nat) (new : list N) : bool :=
  forallb (fun m =>
    let old := repeat 0 m in
    forallb (fun ws =>
      check_one bs thr old ws false && check_one bs thr old ws true
      && forallb (fun k => check_split bs thr old ws k (Nat.even k)) (seq 0 (S (length ws))))
      (compositions new))
    (seq 0 (n + 3)).

Definition sweep (bs thr : N) (n : nat) : bool :=
  forallb (fun len => forallb (check_new bs thr len) (all_bits len)) (seq 0 (S n)).
