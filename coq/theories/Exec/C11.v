(** Executable instantiation of the wsync models for the C11 correspondence: strong hash := the
    block itself.  Comparators used by the generated case files.
    Used by a lemma: [model_ops] (Exec/C08Edits.v [bound_ok_true]); everything else by the generated
    case files only. *)
From Wharf Require Import Base.Prelude Wsync.Weak Wsync.Diff Wsync.Library Wsync.Sign Wsync.Apply Wsync.Spec.
Local Open Scope N_scope.

Definition MaxDataOp : N := 4194304.      (* wsync.MaxDataOp *)

(** operations as the Go harness prints them *)
Inductive xop := XR (f i sp : N) | XD (d : list N).

(** the function the C11 theorems are about ([Wsync/Spec.v]), with the block as its own hash *)
Definition model_ops (bs maxData : N) (olds : list (list N)) (src : list N) (pref : option N) : option (list op) :=
  diff_ops (fun b : list N => b) nlist_eqb bs maxData olds src pref.

Definition concretize (src : list N) (o : op) : xop :=
  match conc src o with
  | CRange f i sp => XR f i sp
  | CData d => XD d
  end.

Definition xop_eqb (a b : xop) : bool :=
  match a, b with
  | XR f i s, XR f' i' s' => (f =? f') && (i =? i') && (s =? s')
  | XD d, XD d' => nlist_eqb d d'
  | _, _ => false
  end.

Definition run_ops (bs : N) (olds : list (list N)) (src : list N) (pref : option N) : option (list xop) :=
  option_map (map (concretize src)) (model_ops bs MaxDataOp olds src pref).

Definition ops_case := (N * N * list (list N) * list N * option N * list xop)%type.

(** the fast instantiation (below) must agree on the small cases too *)
Definition xop_shape (o : xop) : N * N * N * N :=
  match o with XR f i sp => (0, f, i, sp) | XD d => (1, N.of_nat (length d), 0, 0) end.

(** ** a fast instantiation for the real constants: run-length encoded inputs, the source is
    read through a balanced tree over its runs, the strong hash of a block / window is its
    canonical run-length encoding (injective).  The same [compute_diff], [lookup_in], [sign_all]. *)
Inductive rtree := RLeaf | RNode (l : rtree) (start cnt v : N) (r : rtree).

Fixpoint with_starts (runs : list (N * N)) (at_ : N) : list (N * N * N) :=
  match runs with
  | [] => []
  | (v, c) :: r => (at_, c, v) :: with_starts r (at_ + c)
  end.

Fixpoint tbuild (fuel n : nat) (runs : list (N * N * N)) : rtree * list (N * N * N) :=
  match fuel with
  | O => (RLeaf, runs)
  | S f =>
      if Nat.eqb n 0 then (RLeaf, runs)
      else
        let nl := Nat.div2 n in
        let '(l, rest) := tbuild f nl runs in
        match rest with
        | [] => (l, [])
        | (s, c, v) :: rest' =>
            let '(r, rest'') := tbuild f (n - nl - 1) rest' in
            (RNode l s c v r, rest'')
        end
  end.

Fixpoint tget (t : rtree) (i : N) : N :=
  match t with
  | RLeaf => 0
  | RNode l s c v r => if i <? s then tget l i else if i <? s + c then v else tget r i
  end.

Definition rle_len (runs : list (N * N)) : N := fold_left (fun a vc => a + snd vc) runs 0.

Fixpoint rle_drop (runs : list (N * N)) (a : N) : list (N * N) :=
  match runs with
  | [] => []
  | (v, c) :: r => if a <? c then (v, c - a) :: r else rle_drop r (a - c)
  end.

Fixpoint rle_take (runs : list (N * N)) (l : N) : list (N * N) :=
  match runs with
  | [] => []
  | (v, c) :: r => if l =? 0 then [] else if l <=? c then [(v, l)] else (v, c) :: rle_take r (l - c)
  end.

(** canonical run-length encoding of a list *)
Fixpoint to_rle (l : list N) : list (N * N) :=
  match l with
  | [] => []
  | x :: r => match to_rle r with
              | (v, c) :: t => if x =? v then (v, c + 1) :: t else (x, 1) :: (v, c) :: t
              | [] => [(x, 1)]
              end
  end.

Definition rle_eqb (a b : list (N * N)) : bool :=
  list_eqb (fun x y => (fst x =? fst y) && (snd x =? snd y)) a b.

Definition fast_ops (bs maxData : N) (olds : list (list (N * N))) (src : list (N * N)) (pref : option N) : option (list op) :=
  let lib := sign_all to_rle bs 0 (map expand olds) in
  let runs := with_starts src 0 in
  let t := fst (tbuild (S (length runs)) (length runs) runs) in
  compute_diff bs maxData (tget t) (rle_len src)
    (lookup_in rle_eqb lib pref (fun a l => rle_take (rle_drop src a) l)).

(** observed operations of a real-constant case: data ops by their length *)
Inductive yop := YR (f i sp : N) | YD (len : N).

Definition yop_of (o : op) : yop := match o with OpRange f i sp => YR f i sp | OpData _ l => YD l end.

Definition yop_eqb (a b : yop) : bool :=
  match a, b with
  | YR f i s, YR f' i' s' => (f =? f') && (i =? i') && (s =? s')
  | YD l, YD l' => l =? l'
  | _, _ => false
  end.

Definition big_case := (N * N * list (list (N * N)) * list (N * N) * option N * list yop)%type.

Definition mismatches_big (cs : list big_case) : list N :=
  map (fun c => let '(id, _, _, _, _, _) := c in id)
      (filter (fun c => let '(_, bs, olds, src, pref, obs) := c in
                        match fast_ops bs MaxDataOp olds src pref with
                        | Some ops => negb (list_eqb yop_eqb (map yop_of ops) obs)
                        | None => true
                        end) cs).

Definition yop_shape (o : yop) : N * N * N * N :=
  match o with YR f i sp => (0, f, i, sp) | YD l => (1, l, 0, 0) end.

Definition shape_eqb (a b : N * N * N * N) : bool :=
  let '(a1, a2, a3, a4) := a in let '(b1, b2, b3, b4) := b in (a1 =? b1) && (a2 =? b2) && (a3 =? b3) && (a4 =? b4).

Definition mismatches_ops (cs : list ops_case) : list N :=
  map (fun c => let '(id, _, _, _, _, _) := c in id)
      (filter (fun c => let '(_, bs, olds, src, pref, obs) := c in
                        match run_ops bs olds src pref, fast_ops bs MaxDataOp (map to_rle olds) (to_rle src) pref with
                        | Some ops, Some fops =>
                            negb (list_eqb xop_eqb ops obs) ||
                            negb (list_eqb shape_eqb (map yop_shape (map yop_of fops)) (map xop_shape obs))
                        | _, _ => true
                        end) cs).

(** replay of arbitrary operation lists *)
Definition to_cop (o : xop) : cop := match o with XR f i sp => CRange f i sp | XD d => CData d end.

Definition apply_case := (N * N * list (list N) * list xop * option (list N))%type.

Definition opt_eqb (a b : option (list N)) : bool :=
  match a, b with
  | Some x, Some y => nlist_eqb x y
  | None, None => true
  | _, _ => false
  end.

Definition mismatches_apply (cs : list apply_case) : list N :=
  map (fun c => let '(id, _, _, _, _) := c in id)
      (filter (fun c => let '(_, bs, olds, ops, obs) := c in
                        negb (opt_eqb (apply_ops bs olds (map to_cop ops)) obs)) cs).

(** the model at tiny parameters: data-op splitting, buffer wrap and the split trailing data
    (the input that produced a 10-byte data op with [maxData = 8] before the repair) *)
Definition iota (n : nat) : list N := map N.of_nat (seq 1 n).

Example small_wrap :
  option_map (map (concretize (iota 23))) (model_ops 4 8 [] (iota 23) None)
  = Some [XD (iota 8); XD [9;10;11;12;13]; XD [14;15;16;17;18;19;20;21]; XD [22;23]].
Proof. vm_compute. reflexivity. Qed.
