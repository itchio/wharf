(** Executable instantiation of the C05 model and its two comparators ([mismatches_val],
    [mismatches_agg]). *)
From Wharf Require Import Base.Prelude Val.Drip Val.VPool Val.FileVal.
Local Open Scope Z_scope.

Definition kind_rank (k : wkind) : Z := match k with WFile => 0 | WSymlink => 1 | WDir => 2 | WClosed => 3 end.

Definition wound_leb (a b : wound) : bool :=
  let ka := kind_rank (wk a) in let kb := kind_rank (wk b) in
  if ka <? kb then true else if kb <? ka then false else
  if widx a <? widx b then true else if widx b <? widx a then false else
  if wstart a <? wstart b then true else if wstart b <? wstart a then false else
  wend a <=? wend b.

Fixpoint insert_w (w : wound) (l : list wound) : list wound :=
  match l with
  | [] => [w]
  | x :: r => if wound_leb w x then w :: l else x :: insert_w w r
  end.
Definition sort_w (l : list wound) : list wound := fold_right insert_w [] l.

(** observations as printed by the harness: file contents arrive run-length encoded *)
Inductive xobs := XMissing | XNotDir | XDir | XLink (d : N) | XFile (rle : list (N * N)) | XErr.
Definition of_x (x : xobs) : obs :=
  match x with
  | XMissing => OMissing | XNotDir => ONotDir | XDir => ODir | XLink d => OLink d
  | XFile r => OFile (expand r) | XErr => OErr
  end.

Definition val_case := (N * list (list nat * xobs) * list (list nat * N * xobs) * list (list nat * list (N * N) * xobs) * (rcls * rcls * list wound))%type.

Definition run_val (ds : list (list nat * obs)) (ls : list (list nat * N * obs)) (fs : list (list nat * list N * obs)) : rcls * rcls * list wound :=
  let v := validate 65536 4194304 (fun b : list N => b) nlist_eqb ds ls fs in
  let ff := failfast 65536 4194304 (fun b : list N => b) nlist_eqb ds ls fs in
  match v with
  | None => (RErr, ff, [])
  | Some ws => (ROk, ff, sort_w (reported ws))
  end.

Definition mismatches_val (cs : list val_case) : list N :=
  map (fun c => let '(id, _, _, _, _) := c in id)
      (filter (fun c => let '(_, ds, ls, fs, obs) := c in
                        let '(wc, fc, ws) := obs in
                        let '(mwc, mfc, mws) := run_val (map (fun p => (fst p, of_x (snd p))) ds) (map (fun p => let '(a, w, o) := p in (a, w, of_x o)) ls) (map (fun p => let '(a, sg, o) := p in (a, expand sg, of_x o)) fs) in
                        negb (rcls_eqb wc mwc && rcls_eqb fc mfc && list_eqb wound_eqb ws mws)) cs).

(** pwr.AggregateWounds driven directly with synthetic marker sequences *)
Definition agg_case := (N * Z * list wound * list wound)%type.
Definition mismatches_agg (cs : list agg_case) : list N :=
  map (fun c => let '(id, _, _, _) := c in id)
      (filter (fun c => let '(_, m, i, o) := c in negb (list_eqb wound_eqb (aggregate m None i) o)) cs).
