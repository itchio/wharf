(** Executable instantiation of the C12 models and the comparators used by generated case
    files.  Search oracle := the naive partitioned suffix array of Bsdiff/Suffix.v (group bsd)
    or the tabulated answers shipped with the case (group bsdt); cache := simplelru as a
    recency list.  [GO_BLOCK] and [run_bsd] are used by Properties/C12.v, Properties/C07.v and
    Compose/OptimizeApplyProofs.v; the comparators by the generated case files only. *)
From Wharf Require Import Base.Prelude Bsdiff.Scan Bsdiff.Patch Bsdiff.Lru Bsdiff.Suffix.
Local Open Scope Z_scope.

Definition GO_BLOCK : Z := 131072.

Definition ctrl_eqb (a b : ctrl) : bool :=
  let '(a1, c1, s1, e1) := a in
  let '(a2, c2, s2, e2) := b in
  nlist_eqb a1 a2 && nlist_eqb c1 c2 && (s1 =? s2) && Bool.eqb e1 e2.

(** observed class: 0 ok, 1 panic, 2 error, 3 hang *)
Definition do_agrees (m : res (list ctrl)) (obs : N * list ctrl) : bool :=
  let '(code, cs) := obs in
  match m with
  | Ok l => (code =? 0)%N && list_eqb ctrl_eqb l cs
  | Panic _ => (code =? 1)%N
  | OutOfFuel => false
  end.

(** Case files are written for an open Z_scope with Z literals only, without pairs or scope
    delimiters (elaborating those dominates the cost of a case file): byte strings arrive as
    [list Z], records as applications of the monomorphic constructors below. *)
Definition bz (l : list Z) : list N := map Z.to_N l.
Inductive ctrlz := mkc (add copy : list Z) (seek : Z) (eof : bool).
Definition ctrl_of (c : ctrlz) : ctrl := let '(mkc a c s e) := c in (bz a, bz c, s, e).

(* ---- differ, in-Coq suffix array ---- *)
Inductive bsd_case := Bsd (id : N) (partitions : Z) (old new : list Z) (code : Z) (cs : list ctrlz).

Definition run_bsd (partitions : Z) (old new : list N) : res (list ctrl) :=
  let parts := new_psa (norm_partitions partitions (len old)) old in
  bsdiff_do GO_BLOCK (fun _ suf => psa_search parts suf) partitions old new.

Definition mismatches_bsd (cs : list bsd_case) : list N :=
  map (fun c => let '(Bsd id _ _ _ _ _) := c in id)
      (filter (fun c => let '(Bsd _ p o n code ct) := c in
                        negb (do_agrees (run_bsd p (bz o) (bz n)) (Z.to_N code, map ctrl_of ct))) cs).

(* ---- differ, tabulated search ---- *)
(** a row of the table = pos0; len0; pos1; len1; ... for the suffixes of one scan block *)
Inductive bsdt_case := Bsdt (id : N) (partitions : Z) (old new : list Z) (table : list (list Z)) (code : Z) (cs : list ctrlz).

Fixpoint unflatten (l : list Z) : list (Z * Z) :=
  match l with
  | a :: b :: r => (a, b) :: unflatten r
  | _ => []
  end.

Definition table_search (table : list (list (Z * Z))) (bi : N) (suf : list N) : Z * Z :=
  let row := nth (N.to_nat bi) table [] in
  nth (length row - length suf) row (0, 0).

Fixpoint row_in_range (oldlen : Z) (row : list (Z * Z)) : bool :=
  match row with
  | [] => true
  | (pos, n) :: r => (0 <=? pos) && (pos <=? oldlen) && (0 <=? n) && (n <=? len row) && row_in_range oldlen r
  end.

Definition run_bsdt (partitions : Z) (old new : list N) (table : list (list (Z * Z))) : res (list ctrl) :=
  bsdiff_do GO_BLOCK (table_search table) partitions old new.

Definition mismatches_bsdt (cs : list bsdt_case) : list N :=
  map (fun c => let '(Bsdt id _ _ _ _ _ _) := c in id)
      (filter (fun c => let '(Bsdt _ p o n t code ct) := c in
                        let t := map unflatten t in
                        negb (forallb (row_in_range (len o)) t
                              && do_agrees (run_bsdt p (bz o) (bz n) t) (Z.to_N code, map ctrl_of ct))) cs).

(* ---- patcher ---- *)
Inductive pat_case := Pat (id : N) (old : list Z) (cs : list ctrlz) (newSize k pcode : Z) (pout : list Z) (rcode saved : Z) (rout : list Z).

Definition pat_agrees (old : list N) (cs : list ctrl) (newSize : Z) (k : nat) (pc : Z) (pout : list N) (rc saved : Z) (rout : list N) : bool :=
  (match bspatch old cs newSize with
   | Some o => (pc =? 0) && nlist_eqb o pout
   | None => (pc =? 2)
   end) &&
  (match resume old k cs with
   | Some (_, sv, o2) => (rc =? 0) && (sv =? saved) && nlist_eqb o2 rout
   | None => (rc =? 2)
   end).

Definition mismatches_pat (cs : list pat_case) : list N :=
  map (fun c => let '(Pat id _ _ _ _ _ _ _ _ _) := c in id)
      (filter (fun c => let '(Pat _ o ct sz k pc po rc sv ro) := c in
                        negb (pat_agrees (bz o) (map ctrl_of ct) sz (Z.to_nat k) pc (bz po) rc sv (bz ro))) cs).

(* ---- lrufile ---- *)
Inductive zresult := ZRead (data : list Z) (st : Z) | ZSeek (pos st : Z).
Definition lresult_of (r : zresult) : lresult :=
  match r with
  | ZRead d st => RRead (bz d) (Z.to_N st)
  | ZSeek p st => RSeek p (Z.to_N st)
  end.
Inductive lru_case := Lru (id : N) (chunk entries : Z) (file : list Z) (ops : list lop) (code : Z) (rs : list zresult) (loads : list Z).

Definition lresult_eqb (a b : lresult) : bool :=
  match a, b with
  | RRead d1 s1, RRead d2 s2 => nlist_eqb d1 d2 && (s1 =? s2)%N
  | RSeek p1 s1, RSeek p2 s2 => (p1 =? p2) && (s1 =? s2)%N
  | _, _ => false
  end.

Definition lru_agrees (chunk : Z) (entries : nat) (file : list N) (ops : list lop) (code : Z) (rs : list lresult) (loads : list Z) : bool :=
  match run_lru chunk entries file ops with
  | Some (mrs, mloads) =>
      (code =? 0) && list_eqb lresult_eqb mrs rs && list_eqb Z.eqb mloads loads
      (* and the plain reader says the same: the theorem, observed *)
      && list_eqb lresult_eqb (run_plain file ops) rs
  | None => (code =? 1)
  end.

Definition mismatches_lru (cs : list lru_case) : list N :=
  map (fun c => let '(Lru id _ _ _ _ _ _ _) := c in id)
      (filter (fun c => let '(Lru _ ch en f ops code rs loads) := c in
                        negb (lru_agrees ch (Z.to_nat en) (bz f) ops code (map lresult_of rs) loads)) cs).
