(** Executable side of C06: case types and comparators for the two correspondence groups.
    Nothing here is used by a theorem.

    "fsmodel": a random operation sequence on a scratch directory; results (errno class or
               value) of every operation and the final tree must equal the model's.
    "heal"   : signed build + damaged tree + the outcomes Go produced under GOMAXPROCS 1/2/16
               (error class, final tree); each must be among the outcomes of the model over a
               family of schedules (6 thread priorities x channel capacities 1, 2, 1024, with
               and without a pseudo-random schedule prefix). *)
From Wharf Require Import FS.Light FS.Tree FS.Ops Heal.Validator Heal.Healer.

(** trees in case files carry run-length encoded file contents *)
Inductive rnode := RFile (rle : list (N * N)) | RDir | RLink (dest : list comp).
Definition of_rnode (n : rnode) : node :=
  match n with RFile r => File (expand r) | RDir => Dir | RLink d => Link d end.
Definition of_rtree (t : list (path * rnode)) : tree := map (fun e => (fst e, of_rnode (snd e))) t.

(* monomorphic constructors for the generated case files: tuple notations make Coq infer the
   type arguments of every [pair], which dominated the run time of the correspondence *)
Definition R (v c : N) : N * N := (v, c).
Definition E (p : path) (n : rnode) : path * rnode := (p, n).
Definition LK (p : path) (dest : list comp) : path * list comp := (p, dest).
Definition FL (p : path) (rle : list (N * N)) : path * list (N * N) := (p, rle).

(* ---------------- fsmodel ---------------- *)

Inductive fsop :=
| OLstat (p : path) | OStat (p : path) | OReadlink (p : path) | ORead (p : path)
| OMkdir (p : path) | OMkdirAll (p : path) | ORemove (p : path) | ORemoveAll (p : path)
| OSymlink (dest : list comp) (p : path) | OWrite (p : path) (rle : list (N * N))
| ORename (src dst : path) | ORename2 (src dst : path)
| OWriteAt (p : path) (off : N) (rle : list (N * N)) | OTruncate (p : path) (len : N).

Inductive fsres :=
| RErr (e : errno)
| RUnit
| RKind (k : N)            (* 0 file, 1 dir, 2 link *)
| RDest (d : list comp)
| RData (rle : list (N * N)).

Definition kind_of (n : node) : N := match n with File _ => 0 | Dir => 1 | Link _ => 2 end.

Definition fsres_eqb (a b : fsres) : bool :=
  match a, b with
  | RErr x, RErr y => errno_eqb x y
  | RUnit, RUnit => true
  | RKind x, RKind y => N.eqb x y
  | RDest x, RDest y => dest_eqb x y
  | RData x, RData y => nlist_eqb (expand x) (expand y)
  | _, _ => false
  end.

Definition unit_res (t : tree) (r : res tree) : tree * fsres :=
  match r with Ok t' => (t', RUnit) | Err e => (t, RErr e) end.

Definition do_op (t : tree) (o : fsop) : tree * fsres :=
  match o with
  | OLstat p => (t, match lstat t p with Ok n => RKind (kind_of n) | Err e => RErr e end)
  | OStat p => (t, match stat t p with Ok n => RKind (kind_of n) | Err e => RErr e end)
  | OReadlink p => (t, match readlink t p with Ok d => RDest d | Err e => RErr e end)
  | ORead p => (t, match read_file t p with Ok d => RData (map (fun x => (x, 1%N)) d) | Err e => RErr e end)
  | OMkdir p => unit_res t (mkdir t p)
  | OMkdirAll p => unit_res t (mkdir_all t p)
  | ORemove p => unit_res t (remove t p)
  | ORemoveAll p => unit_res t (remove_all t p)
  | OSymlink d p => unit_res t (symlink t d p)
  | OWrite p r => match open_trunc t p with
                  | Ok (t', q) => (write_fd t' q (expand r), RUnit)
                  | Err e => (t, RErr e)
                  end
  | ORename a c => unit_res t (rename t a c)
  | ORename2 a c => unit_res t (rename2 t a c)
  | OWriteAt p off r => match open_nocreate t p with
                        | Ok q => (write_at_fd t q (N.to_nat off) (expand r), RUnit)
                        | Err e => (t, RErr e)
                        end
  | OTruncate p len => match open_nocreate t p with
                       | Ok q => (truncate_fd t q (N.to_nat len), RUnit)
                       | Err e => (t, RErr e)
                       end
  end.

Fixpoint do_ops (t : tree) (os : list fsop) : tree * list fsres :=
  match os with
  | [] => (t, [])
  | o :: r => let '(t1, x) := do_op t o in let '(t2, xs) := do_ops t1 r in (t2, x :: xs)
  end.

Definition fs_case := (N * list (path * rnode) * list fsop * list fsres * list (path * rnode))%type.

Definition FC (id : N) (init : list (path * rnode)) (os : list fsop) (rs : list fsres)
           (final : list (path * rnode)) : fs_case := (id, init, os, rs, final).

Definition run_fs (init : list (path * rnode)) (os : list fsop) : tree * list fsres := do_ops (of_rtree init) os.

Definition fs_agrees (c : fs_case) : bool :=
  let '(_, init, os, rs, final) := c in
  let '(t, xs) := run_fs init os in
  list_eqb fsres_eqb xs rs && tree_eqb t (of_rtree final) && wf_tree (of_rtree init).

Definition mismatches_fsmodel (cs : list fs_case) : list N :=
  map (fun c => let '(id, _, _, _, _) := c in id) (filter (fun c => negb (fs_agrees c)) cs).

(* ---------------- heal ---------------- *)

Definition rbuild := (list path * list (path * list comp) * list (path * list (N * N)))%type.
Definition of_rbuild (b : rbuild) : build :=
  let '(d, l, f) := b in mkBuild d l (map (fun e => (fst e, expand (snd e))) f).

Definition heal_case :=
  (N * path * rbuild * list (path * rnode) * list (N * list (path * rnode)))%type.

Definition RB (d : list path) (l : list (path * list comp)) (f : list (path * list (N * N))) : rbuild := (d, l, f).
Definition OUT (cls : N) (t : list (path * rnode)) : N * list (path * rnode) := (cls, t).
Definition HC (id : N) (T : path) (b : rbuild) (t0 : list (path * rnode))
           (outs : list (N * list (path * rnode))) : heal_case := (id, T, b, t0, outs).

Definition tid_of (n : N) : tid := match n with 0%N => TV | 1%N => TH | _ => TW end.

(* a pseudo-random schedule prefix derived from the case id *)
Fixpoint lcg_sched (n : nat) (x : N) : list tid :=
  match n with
  | O => []
  | S n' => let x' := ((x * 1103515245 + 12345) mod 2147483648)%N in
            tid_of ((x' / 65536) mod 3)%N :: lcg_sched n' x'
  end.

Definition prios : list (list tid) :=
  [[TV; TH; TW]; [TV; TW; TH]; [TH; TV; TW]; [TH; TW; TV]; [TW; TV; TH]; [TW; TH; TV]].

(* more than the number of effective steps of any execution ([mu] of the initial state, Heal/HealMeasure.v) *)
Definition fuel_for (b : build) : nat :=
  8 * (length (b_dirs b) + length (b_links b) + length (b_files b)) + 20.

Definition outcome_of (s : state) : N * tree :=
  (match result s with Some (Ok _) => 0%N | Some (Err _) => 1%N | None => 9%N end, s_fs s).

(* the schedule family: (capacity, priority, length of the pseudo-random prefix) *)
Definition sched_family : list (nat * list tid * nat) :=
  flat_map (fun cap => map (fun prio => (cap, prio, 0)) prios) [1; 1024]
  ++ map (fun prio => (2, prio, 60)) prios
  ++ map (fun prio => (1, prio, 25)) prios.

Definition model_outcome (fx : fixes) (id : N) (T : path) (b : build) (t0 : tree) (sc : nat * list tid * nat) : N * tree :=
  let '(cap, prio, n) := sc in
  outcome_of (finish fx cap b T (fuel_for b) prio (run fx cap b T (lcg_sched n (id + N.of_nat cap)) (init b t0))).

Definition model_outcomes (fx : fixes) (id : N) (T : path) (b : build) (t0 : tree) : list (N * tree) :=
  map (model_outcome fx id T b t0) sched_family.

(* [existsb] that stops at the first hit also under call-by-value evaluation *)
Fixpoint lazy_existsb {A} (f : A -> bool) (l : list A) : bool :=
  match l with
  | [] => false
  | a :: r => if f a then true else lazy_existsb f r
  end.

(* Go's outcome must be the model's outcome under some schedule of the family *)
Definition outcome_in (fx : fixes) (id : N) (T : path) (b : build) (t0 : tree) (o : N * tree) : bool :=
  lazy_existsb (fun sc => let m := model_outcome fx id T b t0 sc in if N.eqb (fst m) (fst o) then tree_eqb (snd m) (snd o) else false) sched_family.

Definition heal_agrees (fx : fixes) (c : heal_case) : bool :=
  let '(id, T, rb, rt0, outs) := c in
  let b := of_rbuild rb in
  let t0 := of_rtree rt0 in
  wf_build b && wf_tree t0 &&
  forallb (fun o => outcome_in fx id T b t0 (fst o, of_rtree (snd o))) outs.

Definition mismatches_heal (cs : list heal_case) : list N :=
  map (fun c => let '(id, _, _, _, _) := c in id) (filter (fun c => negb (heal_agrees fixed c)) cs).
