(** The C08 edit bound on the executable model, in the form [(2k+1) * (bs-1) + bs] of
    [EditProofs.edits_fresh_sharp].  [bound_ok] tests it for one old file, one list of edits and one
    preferred file; [sweep1] lists the single edits (three kinds, every offset 0 .. n+1, every
    length 0 .. 2*bs+1) of a pseudo-random file that violate it.  [bound_ok] is [true] of every
    input ([bound_ok_true]: the theorem with the block as its own strong hash), so every sweep is
    empty; [tiny_edit_sweep] says so at tiny block sizes and [maxData] values that make the
    data-op splitting, the buffer wrap and the last run reachable. *)
From Wharf Require Import Base.Prelude Wsync.Spec Wsync.EditSpec Exec.C11.
From Wharf Require Import Base.ListLemmas Wsync.Theorems Wsync.EditProofs Wsync.C08EditTheorems.
From Coq Require Import Lia.
Local Open Scope N_scope.

(** a linear congruential generator for "high-entropy" bytes *)
Fixpoint lcg (n : nat) (x : N) : list N :=
  match n with
  | O => []
  | S k => let x' := (x * 1103515245 + 12345) mod 2147483648 in (x' / 65536) mod 256 :: lcg k x'
  end.

(** hypothesis ([nwr_b]) -> conclusion, on the model with the block as its own strong hash *)
Definition bound_ok (bs maxData : N) (olds : list (list N)) (f : N) (es : list edit) (pref : option N) : bool :=
  let old := nth (N.to_nat f) olds [] in
  let '(src, intro) := apply_edits es old in
  if nwr_b bs src then
    match model_ops bs maxData olds src pref with
    | Some ops => fresh_of ops <=? intro + (2 * len es + 1) * (bs - 1) + bs
    | None => false
    end
  else true.

Definition all_edits (n bs seed : N) : list edit :=
  flat_map (fun a => let a := N.of_nat a in
    flat_map (fun l => let l' := N.of_nat l in
       [Overwrite a (lcg l (seed + a * 7 + l')); Insert a (lcg l (seed + 1000 + a * 7 + l')); Delete a l'])
       (seq 0 (N.to_nat (2 * bs + 2))))
    (seq 0 (N.to_nat (n + 2))).

(** the single edits of an [n]-byte file that violate the bound *)
Definition sweep1 (bs maxData : N) (n : nat) (seed : N) : list edit :=
  let old := lcg n seed in
  filter (fun e => negb (bound_ok bs maxData [lcg 5 (seed + 5); old] 1 [e] (Some 1))) (all_edits (N.of_nat n) bs seed).

Lemma bound_ok_true bs maxData olds f es pref :
  0 < bs -> 0 < maxData -> (N.to_nat f < length olds)%nat -> bound_ok bs maxData olds f es pref = true.
Proof.
  intros Hbs Hmax Hf. unfold bound_ok.
  destruct (apply_edits es _) as [src intro] eqn:He. destruct (nwr_b bs src) eqn:Hn; [|reflexivity].
  pose proof (diff_total_lemma _ (fun b : list N => b) nlist_eqb bs maxData olds src pref Hbs Hmax
                nlist_eqb_sound (id_strong_injective bs olds src)) as Ht.
  unfold model_ops. destruct (diff_ops _ _ _ _ _ _ _) as [ops|] eqn:Hd; [|congruence].
  apply N.leb_le.
  exact (edits_fresh_sharp _ _ nlist_eqb bs maxData olds pref Hbs Hmax ListLemmas.nlist_eqb_eq f _ es src intro
           (nth_error_nth' olds [] Hf) He (id_strong_injective bs olds src) (nwr_b_sound bs src Hn) ops Hd).
Qed.

Lemma sweep1_nil bs maxData n seed : 0 < bs -> 0 < maxData -> sweep1 bs maxData n seed = [].
Proof.
  intros Hbs Hmax. unfold sweep1. induction (all_edits _ _ _) as [|e l IH]; [reflexivity|].
  cbn [filter]. rewrite bound_ok_true by (assumption || (cbn; lia)). exact IH.
Qed.

Example tiny_edit_sweep :
  (sweep1 2 3 9 1, sweep1 3 1 11 2, sweep1 3 100 13 3, sweep1 4 2 17 4, sweep1 2 1 4 5, sweep1 4 5 3 6, sweep1 4 5 8 9)
  = ([], [], [], [], [], [], []).
Proof. rewrite !sweep1_nil by reflexivity. reflexivity. Qed.
