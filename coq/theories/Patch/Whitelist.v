(** Vocabulary of the C17 statement: membership in the whitelist (a Go map[int64]bool, given
    as the list of keys mapped to true), the number of selected indices in a range, the part
    of a per-file segmented trace that belongs to selected files, and "this recorded call is
    about new file [idx]" for bowl calls.  Definitions only. *)
From Wharf Require Import Base.Prelude Patch.Patcher.
Local Open Scope Z_scope.

Definition wl_mem (W : list Z) (i : Z) : bool := existsb (Z.eqb i) W.

(** how many of the indices i, i+1, ..., i+k-1 are selected *)
Fixpoint wl_count (W : list Z) (i : Z) (k : nat) : Z :=
  match k with
  | O => 0
  | S k' => (if wl_mem W i then 1 else 0) + wl_count W (i + 1) k'
  end.

(** [segs] = one trace segment per file i, i+1, ...: keep those of selected files *)
Fixpoint wl_select (W : list Z) (i : Z) (segs : list (list event)) : list event :=
  match segs with
  | [] => []
  | s :: r => (if wl_mem W i then s else []) ++ wl_select W (i + 1) r
  end.

(** bowl calls name the new file they write; pool calls are not constrained here (they are
    constrained by being part of a selected file's segment) *)
Definition bowl_ev_for (idx : Z) (e : event) : Prop :=
  match e with EvWriter i => i = idx | EvTranspose i _ => i = idx | _ => True end.
