(** What one iteration of the patcher ([step], Patch/Resume.v) does to the message reader and
    to the list of offers: in a relay loop whose consumer wants a save, [WantSave] and
    [PopCheckpoint] ([rd_save]); then, in every phase, exactly one [ReadMessage].  Nothing else
    touches [s_rd], and [s_offers] only grows by the checkpoint built around what was popped.
    Everything that is said about the save protocol along a run - that offsets advance by one,
    that saves do happen, that popped checkpoints are resumable - is a fact about the reader
    automaton carried through [step_reads]. *)
From Wharf Require Import Base.Prelude Patch.Resume.

Section Step.
  Variables D RAW WS WCK : Type.
  Variable dlen : D -> N.
  Variable blocksize : N.
  Variables tsize ssize : N -> N.
  Variable nfiles : N.
  Variable range_data : N -> N -> N -> D.
  Variable bs_data : N -> Z -> D -> D -> D.
  Variable w_open  : N -> option (N * WCK) -> RAW -> option (WS * RAW).
  Variable w_write : N -> WS -> RAW -> D -> WS * RAW.
  Variable w_save  : N -> WS -> RAW -> (N * WCK) * WS * RAW.
  Variable w_final : N -> WS -> RAW -> RAW.
  Variable w_tell  : WS -> N.
  Variable fresh : bool.
  Variable is_overlay : N -> bool.
  Variable copy_old : N -> RAW.
  Variable emit : nat -> bool.
  Variables sched stop : nat -> bool.

  Local Notation state := (state RAW WS WCK).
  Local Notation sph := (s_ph RAW WS WCK).
  Local Notation srd := (s_rd RAW WS WCK).
  Local Notation soffers := (s_offers RAW WS WCK).

  Lemma write1_eq : forall (s : state) w d,
    write1 D _ _ _ w_write s w d =
    (mkst _ _ _ (sph s) (s_file _ _ _ s) (srd s) (s_bowl _ _ _ s)
          (upd (s_disk _ _ _ s) (s_file _ _ _ s) (snd (w_write (s_file _ _ _ s) w (s_disk _ _ _ s (s_file _ _ _ s)) d)))
          (s_asked _ _ _ s) (soffers s),
     fst (w_write (s_file _ _ _ s) w (s_disk _ _ _ s (s_file _ _ _ s)) d)).
  Proof. intros. unfold write1. destruct (w_write _ _ _ _). reflexivity. Qed.

  Lemma open1_rd : forall (s s2 : state) c w,
    open1 _ _ _ w_open fresh is_overlay s c = Some (s2, w) -> srd s2 = srd s /\ soffers s2 = soffers s.
  Proof.
    intros s s2 c w. unfold open1. destruct (w_open _ _ _) as [[w' raw']|]; intros H; inversion H. split; reflexivity.
  Qed.

  Lemma resume_state_shape : forall prepare src_resume ck d (s : state),
    resume_state RAW WS WCK w_open fresh is_overlay prepare src_resume ck d = Some s ->
    exists p, src_resume (mc_off (ck_msg _ ck)) (mc_src (ck_msg _ ck)) = Some p /\
              srd s = mkrd p Idle false 0 /\ soffers s = [].
  Proof.
    intros prepare sr ck d s. unfold resume_state. destruct (sr _ _) as [p|]; [|discriminate].
    destruct (open1 _ _ _ w_open fresh is_overlay _ _) as [[s1 w]|] eqn:Eo; [|discriminate].
    apply open1_rd in Eo. intros H. inversion H; subst s. eauto.
  Qed.

  (** the reader's part of the save block, [ask] being the consumer's answer *)
  Definition rd_save (ask : bool) (r : reader) : option mckpt * reader :=
    if ask then rd_pop (rd_want r) else (None, r).

  Lemma rd_save_spec : forall ask r,
    r_pos (snd (rd_save ask r)) = r_pos r /\ r_src (snd (rd_save ask r)) = r_src r /\
    match fst (rd_save ask r) with
    | Some mc => r_st r = HasSrc /\ mc = mkmc (r_pos r) (r_src r) /\ r_st (snd (rd_save ask r)) = Idle
    | None => True
    end.
  Proof. intros [|] [p [| |] wn sr]; cbn; auto. Qed.

  (** is the consumer asked, and does it want a save, in the iteration that starts in [s]? *)
  Definition asks (s : state) : bool :=
    match sph s with PRsLoop _ _ | PBsLoop _ _ _ _ => sched (s_asked _ _ _ s) | _ => false end.

  Definition grows (o : option mckpt) (s s' : state) : Prop :=
    match o with
    | None => soffers s' = soffers s
    | Some mc => exists ck d, soffers s' = (ck, d) :: soffers s /\ ck_msg _ ck = mc
    end.

  Lemma grows_length : forall o s s', grows o s s' ->
    length (soffers s') = match o with Some _ => 1 | None => 0 end + length (soffers s).
  Proof. intros [mc|] s s'; [intros (ck & d & -> & _)| intros ->]; reflexivity. Qed.

  Lemma save_point_eq : forall bs w oo t (s : state),
    save_point _ _ _ w_save sched stop bs w oo t s =
    match rd_save (sched (s_asked _ _ _ s)) (srd s) with
    | (Some mc, rd') =>
        let '(wc, w', raw') := w_save (s_file _ _ _ s) w (s_disk _ _ _ s (s_file _ _ _ s)) in
        let disk' := upd (s_disk _ _ _ s) (s_file _ _ _ s) raw' in
        let offers' := (mkck _ mc (s_file _ _ _ s) bs (s_bowl _ _ _ s) (fst wc) (snd wc) oo t, disk') :: soffers s in
        (mkst _ _ _ (sph s) (s_file _ _ _ s) rd' (s_bowl _ _ _ s) disk' (S (s_asked _ _ _ s)) offers', w', stop (length offers'))
    | (None, rd') =>
        (mkst _ _ _ (sph s) (s_file _ _ _ s) rd' (s_bowl _ _ _ s) (s_disk _ _ _ s) (S (s_asked _ _ _ s)) (soffers s), w, false)
    end.
  Proof. intros. unfold save_point, rd_save. destruct (sched (s_asked _ _ _ s)); reflexivity. Qed.

  Lemma save_point_reads : forall bs w oo t (s : state),
    srd (fst (fst (save_point _ _ _ w_save sched stop bs w oo t s))) = snd (rd_save (sched (s_asked _ _ _ s)) (srd s)) /\
    grows (fst (rd_save (sched (s_asked _ _ _ s)) (srd s))) s (fst (fst (save_point _ _ _ w_save sched stop bs w oo t s))).
  Proof.
    intros. rewrite save_point_eq. destruct (rd_save _ _) as [[mc|] rd']; [|split; reflexivity].
    destruct (w_save _ w _) as [[c w'] raw']. split; [reflexivity|]. cbn. eauto.
  Qed.

  (** what an iteration that starts in [s] with the consumer's answer [ask] does to the reader and
      to the offers: the save block, then - unless stopped - one read *)
  Definition reads (ask : bool) (s : state) (r : result RAW WS WCK) : Prop :=
    match r with
    | Running _ _ _ s' => srd s' = rd_read emit (snd (rd_save ask (srd s))) /\ grows (fst (rd_save ask (srd s))) s s'
    | Stopped _ _ _ s' => grows (fst (rd_save ask (srd s))) s s'
    | Finished _ _ _ _ => False
    | Failed _ _ _ => True
    end.

  (** an iteration of a relay loop: the save block, then - unless told to stop - a body that
      reads one message and otherwise leaves the reader and the offers alone *)
  Lemma loop_reads : forall bs w oo t (s : state) (k : state -> WS -> result RAW WS WCK),
    (forall s1 w1, match k s1 w1 with
                   | Running _ _ _ s' => srd s' = rd_read emit (srd s1) /\ soffers s' = soffers s1
                   | Failed _ _ _ => True
                   | _ => False
                   end) ->
    reads (sched (s_asked _ _ _ s)) s
          (let '(s1, w1, stopped) := save_point _ _ _ w_save sched stop bs w oo t s in
           if stopped then Stopped _ _ _ s1 else k s1 w1).
  Proof.
    intros bs w oo t s k Hk. unfold reads. destruct (save_point_reads bs w oo t s) as (Hr & Hg).
    destruct (save_point _ _ _ w_save sched stop bs w oo t s) as [[s1 w1] [|]]; cbn [fst] in Hr, Hg; [exact Hg|].
    specialize (Hk s1 w1). destruct (k s1 w1) as [s'| | |]; try contradiction; auto. destruct Hk as (E1 & E2).
    rewrite E1, Hr. split; [reflexivity|]. unfold grows in *. rewrite E2. exact Hg.
  Qed.

  Lemma step_reads : forall (s : state) m,
    reads (asks s) s (step D RAW WS WCK dlen blocksize tsize ssize range_data bs_data w_open w_write w_save w_final w_tell
                           fresh is_overlay copy_old emit sched stop s m).
  Proof.
    intros s m. unfold step, asks. destruct (sph s); try apply loop_reads; unfold reads.
    - destruct m; auto. destruct (N.eqb fi _); cbn; auto.
    - destruct (is_full_file_op _ _ _ _ _ m).
      + unfold transpose. destruct fresh; cbn; auto.
      + destruct (open1 _ _ _ w_open fresh is_overlay (read1 _ _ _ emit s) None) as [[s2 w]|] eqn:Eo; auto.
        apply open1_rd in Eo. destruct m; auto; rewrite write1_eq; cbn; exact Eo.
    - destruct m; cbn; auto.
    - intros s1 w1. destruct m; auto; rewrite ?write1_eq; cbn; auto.
    - destruct m; auto.
      destruct (open1 _ _ _ w_open fresh is_overlay (read1 _ _ _ emit s) None) as [[s2 w]|] eqn:Eo; auto.
      apply open1_rd in Eo. exact Eo.
    - intros s1 w1. destruct m; auto; rewrite ?write1_eq; cbn; auto.
    - destruct m; auto. destruct (N.eqb _ _); cbn; auto.
  Qed.

  Lemma rd_read_pos : forall r, r_pos (rd_read emit r) = S (r_pos r).
  Proof. intros. unfold rd_read. destruct (r_want r && emit (r_pos r))%bool; reflexivity. Qed.

  Local Notation stepG := (step D RAW WS WCK dlen blocksize tsize ssize range_data bs_data w_open w_write w_save w_final w_tell
                                fresh is_overlay copy_old emit sched stop).
  Local Notation runG := (run D RAW WS WCK dlen blocksize tsize ssize nfiles range_data bs_data w_open w_write w_save w_final w_tell
                              fresh is_overlay copy_old emit sched stop).

  (** What a reader can pop: the source part of a checkpoint was handed out during the read
      of an earlier message, and the reader part is a position of the stream: while a
      checkpoint is held ([HasSrc]) the reader has moved past the message whose read produced
      it.  [len] is the number of messages of the patch. *)
  Definition rd_wf (r : reader) : Prop := r_st r = HasSrc -> r_src r < r_pos r /\ emit (r_src r) = true.

  Definition popped (len : nat) (mc : mckpt) : Prop :=
    mc_src mc < mc_off mc /\ mc_off mc <= len /\ emit (mc_src mc) = true.

  Lemma rd_read_wf : forall r, rd_wf r -> rd_wf (rd_read emit r).
  Proof.
    intros [p st wn sr] H. unfold rd_wf, rd_read in *. cbn in *. destruct wn; cbn.
    - destruct (emit p) eqn:E; cbn.
      + intros _. split; [lia|exact E].
      + intros Hx. destruct (H Hx). split; [lia|assumption].
    - intros Hx. destruct (H Hx). split; [lia|assumption].
  Qed.

  Lemma rd_save_wf : forall len ask r, rd_wf r -> r_pos r <= len ->
    rd_wf (snd (rd_save ask r)) /\ match fst (rd_save ask r) with Some mc => popped len mc | None => True end.
  Proof.
    intros len [|] [p [| |] wn sr] H Hp; unfold rd_wf, popped in *; cbn in *; try easy.
    destruct (H eq_refl). easy.
  Qed.

  Definition offers_popped (len : nat) (s : state) : Prop := Forall (fun x => popped len (ck_msg _ (fst x))) (soffers s).

  Lemma step_popped : forall len (s : state) m, rd_wf (srd s) -> r_pos (srd s) < len -> offers_popped len s ->
    match stepG s m with
    | Running _ _ _ s' => rd_wf (srd s') /\ r_pos (srd s') = S (r_pos (srd s)) /\ offers_popped len s'
    | Stopped _ _ _ s' => offers_popped len s'
    | Finished _ _ _ _ => False
    | Failed _ _ _ => True
    end.
  Proof.
    intros len s m Hi Hlt Ho. pose proof (step_reads s m) as A.
    destruct (rd_save_wf len (asks s) (srd s) Hi ltac:(lia)) as (Hi' & Hq).
    assert (G : forall s', grows (fst (rd_save (asks s) (srd s))) s s' -> offers_popped len s').
    { intros s'. unfold offers_popped. destruct (fst (rd_save _ _)) as [mc|]; [intros (ck & d & -> & E); constructor; [|exact Ho]|intros ->; exact Ho].
      cbn [fst]. rewrite E. exact Hq. }
    destruct (stepG s m); auto. destruct A as (E & A). rewrite E, rd_read_pos.
    split; [apply rd_read_wf, Hi'|]. split; [f_equal; apply rd_save_spec|auto].
  Qed.

  (** every checkpoint a run offers is one its reader popped *)
  Lemma run_popped : forall len ms (s : state), rd_wf (srd s) -> length ms <= len - r_pos (srd s) -> offers_popped len s ->
    match runG s ms with
    | Running _ _ _ s' | Finished _ _ _ s' | Stopped _ _ _ s' => offers_popped len s'
    | Failed _ _ _ => True
    end.
  Proof.
    intros len. induction ms as [|m ms IH]; intros s Hi Hlen Ho; cbn [run]; destruct (at_end _ _ _ nfiles s); auto.
    cbn [length] in Hlen. pose proof (step_popped len s m Hi ltac:(lia) Ho) as Hs.
    destruct (stepG s m) as [s1|s1|s1|]; [|contradiction|exact Hs|exact I].
    destruct Hs as (Hi1 & Hp & Ho1). apply IH; auto. lia.
  Qed.
End Step.
