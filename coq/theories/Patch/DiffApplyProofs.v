(** C01: applying [write_patch old new] to an empty directory lays out exactly [new].
    The Resume loop is proved once, for the frames of ANY per-file series each of which [writes]
    its file ([run_series_cut]: the new build when nothing is cut off, an error on a proper
    prefix); an rsync series whose operations are [ops_ok] writes its file
    ([rsync_series_writes]), a bsdiff series in Compose/OptimizeApplyProofs.v.
    Notions that statements elsewhere use: [wgood] (C03, C10), [ops_ok] / [differ_ok] (what C01
    asks of a differ, on the files of the new build only). *)
From Coq Require Import ZifyBool ZifyNat Permutation.
From Wharf Require Import Base.Prelude Base.ListLemmas Bowl.Fresh Bowl.FreshProofs Patch.Reinterp Patch.ReinterpProofs
  Patch.Stream Patch.Patcher Patch.ApplyProofs Patch.PatcherProofs.
Local Open Scope Z_scope.

Lemma in_build b q n :
  In (q, n) b <-> match n with
                  | File d => In (q, d) (files_of b) | Dir => In q (dirs_of b) | Link d => In (q, d) (links_of b)
                  end.
Proof.
  unfold files_of, dirs_of, links_of.
  destruct n; rewrite in_flat_map; (split; [intros H; eexists; split; [exact H|left; reflexivity]|]);
    intros ([p [x| |x]] & Hin & H); cbn [fst snd] in H; try contradiction;
    destruct H as [E|[]]; inversion E; subst; exact Hin.
Qed.

Lemma in_files_of b q d : In (q, d) (files_of b) <-> In (q, File d) b.
Proof. symmetry. apply (in_build b q (File d)). Qed.

Lemma paths_permutation b :
  Permutation (map fst b) (dirs_of b ++ map fst (files_of b) ++ map fst (links_of b)).
Proof.
  induction b as [|[p n] b IH]; [constructor|].
  unfold dirs_of, files_of, links_of in *. cbn [map fst flat_map snd].
  destruct n; cbn [app map fst].
  - apply Permutation_cons_app. exact IH.
  - constructor. exact IH.
  - rewrite app_assoc. apply Permutation_cons_app. rewrite <- app_assoc. exact IH.
Qed.

Lemma c_paths_of b : c_paths (container_of b) = dirs_of b ++ map fst (files_of b) ++ map fst (links_of b).
Proof. unfold c_paths, container_of. cbn [c_dirs c_files c_links]. rewrite map_map. reflexivity. Qed.

Lemma wf_container_of b : wf_build b -> wf_container (container_of b).
Proof.
  intros (ND & NR & PC). unfold wf_container. rewrite c_paths_of.
  pose proof (paths_permutation b) as HP. repeat split.
  - eapply Permutation_NoDup; eassumption.
  - intros HI. apply NR. eapply Permutation_in; [apply Permutation_sym; eassumption|assumption].
  - intros p q Hp Hq. cbn [container_of c_dirs]. apply (in_build b q Dir).
    apply (Permutation_in _ (Permutation_sym HP)) in Hp. apply in_map_iff in Hp. destruct Hp as ([p' n] & <- & Hin).
    apply (PC p' n q); assumption.
  - intros f Hf. cbn [container_of c_files] in Hf. apply in_map_iff in Hf. destruct Hf as (x & <- & _). cbn [snd]. lia.
Qed.

Lemma ctree_of_build_nonfile b q :
  wf_build b -> (forall d, ~ In (q, d) (files_of b)) ->
  tlookup (ctree (container_of b)) q = tlookup b q.
Proof.
  intros WFB Hnf. pose proof (wf_container_of b WFB) as WFC. destruct WFB as (ND & NR & PC).
  destruct (tlookup b q) as [n|] eqn:E.
  - apply tlookup_in, in_build in E. destruct n as [d| |d].
    + destruct (Hnf d E).
    + apply ctree_dir, E.
    + apply (ctree_link _ WFC), E.
  - apply ctree_none. rewrite c_paths_of. intros HI.
    apply (Permutation_in _ (Permutation_sym (paths_permutation b))) in HI.
    apply tlookup_none in E. contradiction.
Qed.

Lemma znth_map {A B} (f : A -> B) l i : znth (map f l) i = option_map f (znth l i).
Proof. unfold znth. destruct (i <? 0); [reflexivity|]. apply nth_error_map. Qed.

Lemma files_of_container b i :
  znth (c_files (container_of b)) i = option_map (fun f => (fst f, Z.of_nat (length (snd f)))) (znth (files_of b) i).
Proof. cbn [container_of c_files]. apply znth_map. Qed.

Lemma contents_znth b i : znth (contents_of b) i = option_map snd (znth (files_of b) i).
Proof. unfold contents_of. apply znth_map. Qed.

Lemma old_aligned b f d :
  znth (contents_of b) f = Some d -> exists pf, znth (c_files (container_of b)) f = Some (pf, Z.of_nat (length d)).
Proof.
  rewrite contents_znth, files_of_container. destruct (znth (files_of b) f) as [[pf d']|]; cbn [option_map snd fst]; [|discriminate].
  intros [= ->]. exists pf. reflexivity.
Qed.

Lemma as_so_hey : as_so hey_msg = mkSO HEY 0 0 0 [].
Proof. vm_compute. reflexivity. Qed.

Section Series.
  Variables (bs : Z) (old new : build).
  Hypothesis Hbs : 0 < bs.
  Hypothesis FO : fits63 old.

  Let oldC := container_of old.
  Let newC := container_of new.
  Let olds := contents_of old.

  Lemma range_fits f i s :
    range_ok bs olds (OpRange f i s) -> i64_ok f /\ i64_ok i /\ i64_ok s.
  Proof.
    intros (d & Hd & Hi & Hs & Hle). destruct FO as [Fn Fl].
    pose proof (znth_Some _ _ _ Hd) as Hr. unfold olds, contents_of in Hr. rewrite map_length in Hr.
    assert (Hlen : Z.of_nat (length d) < 2^63).
    { rewrite Forall_forall in Fl. apply Fl. eapply znth_In. eassumption. }
    pose proof (num_blocks_le bs (Z.of_nat (length d)) Hbs ltac:(lia)) as Hnb.
    unfold i64_ok. lia.
  Qed.

  Lemma as_so_op o : range_ok bs olds o ->
    as_so (op_msg o) = match o with OpRange f i s => mkSO T_BLOCK_RANGE f i s [] | OpData d => mkSO T_DATA 0 0 0 d end.
  Proof.
    intros H. destruct o as [f i s|d]; cbn [op_msg]; apply as_so_own; cbn [pmsg_ok so_type so_file so_block so_span].
    - destruct (range_fits f i s H) as (A & B & C).
      split; [unfold i32_ok, T_BLOCK_RANGE; lia|]. split; [assumption|]. split; assumption.
    - unfold i32_ok, i64_ok, T_DATA. lia.
  Qed.

  Lemma op_type_not_hey o : range_ok bs olds o -> (so_type (as_so (op_msg o)) =? HEY) = false.
  Proof. intros H. rewrite as_so_op by assumption. destruct o; reflexivity. Qed.

  Lemma validate_op_ok o : range_ok bs olds o -> validate_op oldC (as_so (op_msg o)) = true.
  Proof.
    intros H. rewrite as_so_op by assumption. unfold validate_op. destruct o as [f i s|d]; cbn [so_type so_file]; [|reflexivity].
    cbn [T_BLOCK_RANGE Z.eqb]. destruct H as (d & Hd & _). apply znth_Some in Hd.
    unfold olds, contents_of in Hd. rewrite map_length in Hd.
    unfold oldC. cbn [container_of c_files]. rewrite map_length.
    apply andb_true_intro. split; [apply Z.leb_le|apply Z.ltb_lt]; lia.
  Qed.

  Lemma until_marker_ops ops rest :
    Forall (range_ok bs olds) ops -> until_marker (map op_msg ops ++ hey_msg :: rest) = Ok rest.
  Proof.
    induction 1 as [|o ops Ho _ IH]; cbn [map app until_marker].
    - rewrite as_so_hey. reflexivity.
    - rewrite op_type_not_hey by assumption. exact IH.
  Qed.

  Lemma relay_op o ms w : range_ok bs olds o ->
    relay bs oldC olds (op_msg o :: ms) w =
    bind (apply_op bs oldC olds w (as_so (op_msg o))) (fun w' => relay bs oldC olds ms w').
  Proof. intros H. cbn [relay]. rewrite op_type_not_hey, validate_op_ok by assumption. reflexivity. Qed.

  Lemma full_file_op_cases idx pn sz o :
    range_ok bs olds o -> znth (c_files newC) idx = Some (pn, sz) ->
    is_full_file_op bs oldC newC idx (as_so (op_msg o)) = Ok false \/
    is_full_file_op bs oldC newC idx (as_so (op_msg o)) = Ok true /\
    exists f d, o = OpRange f 0 (num_blocks bs sz) /\ znth olds f = Some d /\ Z.of_nat (length d) = sz.
  Proof.
    intros Ho He. rewrite as_so_op by assumption. unfold is_full_file_op.
    destruct o as [f i sp|d]; cbn [so_type so_file so_block so_span]; [|left; reflexivity].
    cbn [T_BLOCK_RANGE Z.eqb negb]. destruct Ho as (d & Hd & _).
    destruct (old_aligned old f d Hd) as [pf Hc]. fold oldC in Hc. rewrite Hc, He.
    destruct (Z.eqb_spec i 0) as [->|]; [|left; reflexivity].
    destruct (Z.eqb_spec (Z.of_nat (length d)) sz) as [Hsz|]; [|left; reflexivity].
    destruct (Z.eqb_spec sp (num_blocks bs sz)) as [->|]; [right|left; reflexivity].
    split; [reflexivity|]. exists f, d. repeat split; assumption.
  Qed.

  Variable p : path.
  Variable L : nat.         (* declared size of the file being written *)

  (** the writer has written [written] so far into the pre-sized file *)
  Definition wgood (w : wst) (written : list byte) : Prop :=
    w_path w = p /\ w_off w = length written /\
    tlookup (p_tree (w_st w)) p = Some (File (written ++ zeros (L - length written))).

  Lemma w_write_next w written data :
    wgood w written -> (length written + length data <= L)%nat ->
    exists w', w_write w data = Ok w' /\ wgood w' (written ++ data).
  Proof.
    intros (Hp & Ho & Hf) Hlen. rewrite <- Hp in Hf.
    destruct (w_write_file w data _ Hf) as (w' & E & Hp' & Ho' & _ & Hf' & _). exists w'. split; [exact E|].
    rewrite Hp in *. split; [exact Hp'|]. split; [rewrite Ho', Ho, app_length; reflexivity|].
    rewrite Hf', Ho. destruct data; [rewrite app_nil_r; reflexivity|]. rewrite pwrite_next by assumption. reflexivity.
  Qed.

  Lemma wgood_fresh s : tlookup (p_tree s) p = Some (File (zeros L)) -> wgood (mkW s p 0) [].
  Proof. intros Hz. unfold wgood. cbn [w_path w_off w_st length app]. rewrite Nat.sub_0_r. repeat split. exact Hz. Qed.

  Lemma open_writer_good nC s idx sz :
    znth (c_files nC) idx = Some (p, sz) -> file_ready (p_tree s) p -> tlookup (p_tree s) p = Some (File (zeros L)) ->
    exists w, open_writer nC s idx = Ok w /\ wgood w [].
  Proof.
    intros Hi R Hz. rewrite (open_writer_ready nC s idx p sz Hi R). eexists. split; [reflexivity|].
    apply wgood_fresh. exact Hz.
  Qed.

  Lemma wgood_full w written :
    wgood w written -> length written = L -> tlookup (p_tree (w_st w)) p = Some (File written).
  Proof. intros (_ & _ & Hf) <-. rewrite Nat.sub_diag in Hf. cbn [zeros repeat] in Hf. rewrite app_nil_r in Hf. exact Hf. Qed.

  Lemma denote_length_le o : forall ops, In o ops -> (length (denote bs olds o) <= length (replay bs olds ops))%nat.
  Proof.
    induction ops as [|o' ops IH]; intros HI; [destruct HI|]. unfold replay. cbn [flat_map]. rewrite app_length.
    destruct HI as [->|HI]; [lia|]. apply IH in HI. unfold replay in HI. lia.
  Qed.

  Lemma apply_op_next w written o :
    range_ok bs olds o -> wgood w written -> (length written + length (denote bs olds o) <= L)%nat ->
    exists w', apply_op bs oldC olds w (as_so (op_msg o)) = Ok w' /\ wgood w' (written ++ denote bs olds o).
  Proof.
    intros Ho Hw Hlen. rewrite as_so_op by assumption. unfold apply_op.
    destruct o as [f i s|d]; cbn [so_type so_file so_block so_span so_data]; [|apply w_write_next; assumption].
    cbn [T_BLOCK_RANGE Z.eqb]. destruct Ho as (d & Hd & Hi & Hs & Hle).
    destruct (old_aligned old f d Hd) as [pf Hc].
    rewrite (apply_single_replays_lemma bs oldC olds w f i s d pf Hbs Hc Hd Hi Hle).
    (* logging the two pool calls does not move the writer *)
    exact (w_write_next (mkW (ev (ev (w_st w) (EvSize f)) (EvRead f)) (w_path w) (w_off w)) written _ Hw Hlen).
  Qed.

  Lemma relay_ops ops : forall w written rest,
    Forall (range_ok bs olds) ops -> wgood w written ->
    (length written + length (replay bs olds ops) = L)%nat ->
    exists s', relay bs oldC olds (map op_msg ops ++ hey_msg :: rest) w = Ok (rest, s') /\
      tlookup (p_tree s') p = Some (File (written ++ replay bs olds ops)).
  Proof.
    induction ops as [|o ops IH]; intros w written rest Hall Hw Hlen; cbn [map app]; unfold replay in *; cbn [flat_map] in *.
    - cbn [relay]. rewrite as_so_hey. cbn [so_type HEY Z.eqb Pos.eqb]. exists (w_st w).
      split; [reflexivity|]. rewrite app_nil_r. apply wgood_full; [exact Hw|]. cbn [length] in Hlen. lia.
    - inversion Hall as [|? ? Ho Hall']; subst. rewrite relay_op by assumption. rewrite app_length in Hlen.
      destruct (apply_op_next w written o Ho Hw) as (w' & E & Hg); [lia|].
      rewrite E. cbn [bind].
      destruct (IH w' (written ++ denote bs olds o) rest Hall' Hg) as (s' & Er & Hf); [rewrite app_length; lia|].
      exists s'. split; [exact Er|]. rewrite app_assoc. exact Hf.
  Qed.

  Lemma transpose_ok idx sz f d s :
    znth olds f = Some d -> znth (c_files newC) idx = Some (p, sz) -> file_ready (p_tree s) p ->
    exists s', transpose oldC newC olds s idx f = Ok s' /\ tlookup (p_tree s') p = Some (File d).
  Proof.
    intros Hd He Hr. destruct (old_aligned old f d Hd) as [pf Hc]. fold oldC in Hc.
    unfold transpose, pool_open. rewrite Hc, Hd. cbn [bind]. rewrite He. cbn [ev p_tree].
    rewrite (transpose_write_ready _ _ d Hr). cbn [bind]. eexists. split; [reflexivity|]. cbn [p_tree].
    apply tlookup_tset_same.
  Qed.
End Series.

Lemma frames_msgs_map l : frames_msgs (map FMsg l) = Some l.
Proof. induction l as [|m l IH]; cbn [map frames_msgs]; [reflexivity|]. rewrite IH. reflexivity. Qed.

(** the per-file part of a patch: for file [i], [i + 1], ... a SyncHeader of the kind and the
    frames of the series *)
Fixpoint series_msgs (i : Z) (ss : list (Z * list pmsg)) : list pmsg :=
  match ss with
  | [] => []
  | ks :: r => MSH (mkSH (fst ks) i) :: snd ks ++ series_msgs (i + 1) r
  end.

Section Loop.
  Variables (bs : Z) (oldC : container) (olds : list (list byte)) (new : build).
  Hypothesis WFN : wf_build new.
  Hypothesis FN : fits63 new.

  Let newC := container_of new.
  Let files := files_of new.

  Let WFC : wf_container newC := wf_container_of new WFN.

  Lemma new_file_entry idx p data :
    znth files idx = Some (p, data) -> znth (c_files newC) idx = Some (p, Z.of_nat (length data)).
  Proof. intros H. unfold newC. rewrite files_of_container. fold files. rewrite H. reflexivity. Qed.

  (** the series [snd ks] of kind [fst ks] WRITES the new file [f]: processed where Prepare left
      the zero-filled file, it consumes exactly its own frames and leaves [f]'s content there
      (and nothing else changes: [process_local]) *)
  Definition writes (f : path * list byte) (ks : Z * list pmsg) : Prop :=
    (fst ks = SH_RSYNC \/ fst ks = SH_BSDIFF) /\
    forall idx rest s,
      znth files idx = Some f -> file_ready (p_tree s) (fst f) ->
      tlookup (p_tree s) (fst f) = Some (File (zeros (length (snd f)))) ->
      exists s', process_file bs oldC newC olds (fst ks) idx (snd ks ++ rest) s = Ok (rest, s') /\
        tlookup (p_tree s') (fst f) = Some (File (snd f)).

  Section Tree.
  Variable t0 : tree.      (* the tree Prepare laid out *)

  (** before file [idx]: files below [idx] hold their content, the others are still the
      zero-filled files of Prepare, and nothing else has changed *)
  Definition Inv (idx : Z) (s : pst) : Prop :=
    (forall j p d, znth files j = Some (p, d) ->
       file_ready (p_tree s) p /\ tlookup (p_tree s) p = Some (File (if j <? idx then d else zeros (length d)))) /\
    (forall q, (forall d, ~ In (q, d) files) -> tlookup (p_tree s) q = tlookup t0 q).

  Lemma Inv_start tr : same_tree t0 (ctree newC) -> Inv 0 (mkP t0 tr).
  Proof.
    intros H0. split; [|reflexivity]. intros j p d Hj. cbn [p_tree].
    destruct (prepared_ready newC t0 j p _ WFC H0 (new_file_entry j p d Hj)) as [R Lk]. rewrite Nat2Z.id in Lk.
    apply znth_Some in Hj. destruct (Z.ltb_spec j 0); [lia|]. split; assumption.
  Qed.

  Lemma Inv_step idx p data s s1 :
    znth files idx = Some (p, data) -> Inv idx s ->
    tlookup (p_tree s1) p = Some (File data) ->
    (forall q, q <> p -> tlookup (p_tree s1) q = tlookup (p_tree s) q) ->
    Inv (idx + 1) s1.
  Proof.
    intros Hfile [HIf HIo] Hdata Hfr. destruct (HIf idx p data Hfile) as [Hready Hzero].
    rewrite Z.ltb_irrefl in Hzero.
    assert (Hkeep : forall pj, file_ready (p_tree s) pj -> file_ready (p_tree s1) pj).
    { intros pj Rj. apply (file_ready_frame (p_tree s) _ p pj Rj Hfr); [exists (zeros (length data))|exists data]; assumption. }
    split.
    - intros j pj dj Hj. destruct (HIf j pj dj Hj) as [Rj Lj]. split; [apply Hkeep, Rj|].
      destruct (Z.eq_dec j idx) as [->|Hne].
      + rewrite Hfile in Hj. injection Hj as <- <-. destruct (Z.ltb_spec idx (idx + 1)); [exact Hdata|lia].
      + rewrite Hfr, Lj.
        * destruct (Z.ltb_spec j idx), (Z.ltb_spec j (idx + 1)); try reflexivity; lia.
        * intros ->. apply Hne.
          exact (znth_NoDup_fst _ _ _ _ _ _ (files_nodup newC WFC) (new_file_entry _ _ _ Hj) (new_file_entry _ _ _ Hfile)).
    - intros q Hq. rewrite Hfr; [apply HIo; assumption|].
      intros ->. apply (Hq data). eapply znth_In. eassumption.
  Qed.

  Lemma Inv_final s :
    same_tree t0 (ctree newC) -> Inv (Z.of_nat (length files)) s ->
    forall p, tlookup (p_tree s) p = tlookup new p.
  Proof.
    intros H0 [HIf HIo] p. unfold files in *. destruct (tlookup new p) as [[d| |d]|] eqn:E.
    1: { apply tlookup_in, in_files_of, In_nth_error in E. destruct E as [k Hk].
         rewrite <- znth_of_nat in Hk. rewrite (proj2 (HIf _ p d Hk)). apply znth_Some in Hk.
         rewrite (proj2 (Z.ltb_lt _ _) (proj2 Hk)). reflexivity. }
    (* [p] is not a file of [new]: it is as Prepare left it *)
    all: rewrite HIo, H0, <- E; [apply ctree_of_build_nonfile; [exact WFN|]|]; intros d' Hd;
      apply in_files_of, (tlookup_nodup new p _ (proj1 WFN)) in Hd; rewrite E in Hd; discriminate.
  Qed.

  Lemma run_files_sh k n idx ms s tch :
    k = SH_RSYNC \/ k = SH_BSDIFF -> 0 <= idx < 2^63 ->
    run_files bs oldC newC olds None (S n) idx (MSH (mkSH k idx) :: ms) s tch =
    bind (process_file bs oldC newC olds k idx ms s)
         (fun rs => run_files bs oldC newC olds None n (idx + 1) (fst rs) (snd rs) (tch + 1)).
  Proof.
    intros Hk Hidx. cbn [run_files].
    assert (Hsh : as_sh (MSH (mkSH k idx)) = mkSH k idx).
    { apply as_sh_own. cbn [pmsg_ok sh_type sh_file]. unfold i32_ok, i64_ok, SH_RSYNC, SH_BSDIFF in *. lia. }
    rewrite Hsh. cbn [sh_file sh_type wl_skip]. rewrite Z.eqb_refl.
    destruct Hk as [->| ->]; reflexivity.
  Qed.

  (** the loop on a first part [p] of the frames of series that write the files still to come:
      the new build when nothing is cut off, an error otherwise *)
  Lemma run_series_cut ss : forall fs done s tch p q,
    files = done ++ fs -> Forall2 writes fs ss -> Inv (Z.of_nat (length done)) s ->
    series_msgs (Z.of_nat (length done)) ss = p ++ q ->
    match q with
    | [] => exists s', run_files bs oldC newC olds None (length fs) (Z.of_nat (length done)) p s tch
                       = Ok (s', tch + Z.of_nat (length fs)) /\ Inv (Z.of_nat (length files)) s'
    | _ :: _ => run_files bs oldC newC olds None (length fs) (Z.of_nat (length done)) p s tch = Err
    end.
  Proof.
    induction ss as [|[k ser] ss IH]; intros fs done s tch p q Hsplit HW HI E; inversion HW as [|[pa data] ? fs' ? Hw HW']; subst fs.
    - symmetry in E. apply app_eq_nil in E. destruct E as [-> ->]. exists s. cbn [length run_files].
      rewrite Z.add_0_r, Hsplit, app_nil_r. split; [reflexivity|exact HI].
    - subst. destruct Hw as [Hk Hw]. cbn [fst snd] in *.
      set (idx := Z.of_nat (length done)) in *.
      assert (Hfile : znth files idx = Some (pa, data)) by (rewrite Hsplit; apply znth_app_length).
      assert (Hidx : 0 <= idx < 2^63).
      { destruct FN as [Fn _]. fold files in Fn. rewrite Hsplit, app_length in Fn. cbn [length] in Fn. lia. }
      assert (Hnext : idx + 1 = Z.of_nat (length (done ++ [(pa, data)]))) by (rewrite app_length; cbn [length]; lia).
      cbn [series_msgs fst snd] in E.
      destruct p as [|m p1]; [cbn [app] in E; subst q; reflexivity|].
      injection E as <- E. cbn [length]. rewrite run_files_sh by assumption.
      destruct (proj1 HI idx pa data Hfile) as [Hready Hzero]. rewrite Z.ltb_irrefl in Hzero.
      destruct (app_cut _ _ _ _ E) as [(l & -> & ER)|(a & l & ES & ->)].
      + (* the series of this file is complete *)
        destruct (Hw idx l s Hfile Hready Hzero) as (s1 & Ep & Hdata).
        destruct (process_local _ _ _ _ _ _ _ _ _ _ _ _ (new_file_entry _ _ _ Hfile) Hready Ep) as (_ & Hfr & _).
        rewrite Ep. cbn [bind fst snd].
        pose proof (Inv_step idx pa data s s1 Hfile HI Hdata Hfr) as HI1. rewrite Hnext in *.
        specialize (IH fs' (done ++ [(pa, data)]) s1 (tch + 1) l q).
        rewrite <- app_assoc in IH. specialize (IH Hsplit HW' HI1 ER).
        destruct q; [|exact IH]. destruct IH as (s' & Er & HI'). exists s'. rewrite Er.
        split; [do 2 f_equal; lia|exact HI'].
      + (* the cut is inside the series of this file *)
        destruct (Hw idx [] s Hfile Hready Hzero) as (s1 & Ep & _).
        rewrite app_nil_r, ES in Ep.
        destruct (process_file_prefix bs oldC newC olds k idx p1 (a :: l) s [] s1 Ep) as [E'|(r' & _ & E')].
        * rewrite E'. reflexivity.
        * destruct r'; discriminate E'.
  Qed.

  End Tree.

  (** NewFreshBowl + Resume on a first part of the frames *)
  Lemma apply_series_cut ss p q :
    Forall2 writes files ss -> series_msgs 0 ss = p ++ q ->
    match q with
    | [] => exists t touched trace,
              apply_fresh bs oldC newC olds None p = Ok (t, touched, trace) /\
              touched = Z.of_nat (length files) /\ forall x, tlookup t x = tlookup new x
    | _ :: _ => apply_fresh bs oldC newC olds None p = Err
    end.
  Proof.
    intros HW E. unfold apply_fresh.
    destruct (prepare_spec newC WFC) as (t0 & E0 & H0). rewrite E0. cbn [bind].
    pose proof (run_series_cut t0 ss files [] (mkP t0 []) 0 p q eq_refl HW (Inv_start t0 [] H0) E) as Hrun.
    unfold newC in *. cbn [container_of c_files length Z.of_nat] in *. rewrite map_length. fold files.
    destruct q.
    - destruct Hrun as (s' & Er & HI'). rewrite Er. cbn [bind fst snd]. eexists _, _, _.
      split; [reflexivity|]. split; [lia|]. exact (Inv_final t0 s' H0 HI').
    - rewrite Hrun. reflexivity.
  Qed.

  Lemma apply_series_all ss :
    Forall2 writes files ss ->
    exists t touched trace,
      apply_fresh bs oldC newC olds None (series_msgs 0 ss) = Ok (t, touched, trace) /\
      touched = Z.of_nat (length files) /\ forall x, tlookup t x = tlookup new x.
  Proof. intros HW. exact (apply_series_cut ss _ [] HW (eq_sym (app_nil_r _))). Qed.

  Lemma apply_series_prefix ss k :
    Forall2 writes files ss -> (k < length (series_msgs 0 ss))%nat ->
    apply_fresh bs oldC newC olds None (firstn k (series_msgs 0 ss)) = Err.
  Proof.
    intros HW Hk. pose proof (apply_series_cut ss _ _ HW (eq_sym (firstn_skipn k _))) as H.
    destruct (skipn k (series_msgs 0 ss)) eqn:En; [|exact H].
    apply (f_equal (@length pmsg)) in En. rewrite skipn_length in En. cbn [length] in En. lia.
  Qed.
End Loop.

(** what C01 assumes of the differ ([diff_ok]), for the operations of one file *)
Definition ops_ok (bs : Z) (olds : list (list byte)) (ops : list op) (data : list byte) : Prop :=
  ops <> [] /\ replay bs olds ops = data /\ Forall (range_ok bs olds) ops.

Section Rsync.
  Variables (bs : Z) (old new : build).
  Hypothesis Hbs : 0 < bs.
  Hypothesis FO : fits63 old.

  Let oldC := container_of old.
  Let newC := container_of new.
  Let olds := contents_of old.

  (** an rsync series whose operations replay to the file, ranges in bounds, writes it: by
      Transpose when the first operation is the full-file one, through the relay loop otherwise *)
  Lemma rsync_series_writes ops f :
    ops_ok bs olds ops (snd f) -> writes bs oldC olds new f (SH_RSYNC, map op_msg ops ++ [hey_msg]).
  Proof.
    destruct f as [p data]. intros (Hne & Hrep & Hall). split; [left; reflexivity|]. cbn [fst snd].
    intros idx rest s Hfile Hready Hzero. pose proof (new_file_entry new idx p data Hfile) as Hentry.
    unfold process_file. rewrite Z.eqb_refl, <- app_assoc. cbn [app].
    unfold oldC, newC, olds in *.
    destruct ops as [|o1 orest]; [contradiction|].
    pose proof (Forall_inv Hall) as Ho1.
    cbn [map app]. unfold process_rsync. rewrite (validate_op_ok bs old Hbs FO o1 Ho1). cbn [negb].
    destruct (full_file_op_cases bs old new Hbs FO idx p _ o1 Ho1 Hentry) as [Ef|(Ef & f & d & -> & Hd & Hsz)];
      rewrite Ef; cbn [bind].
    - destruct (open_writer_good p (length data) _ s idx _ Hentry Hready Hzero) as (w0 & -> & Hg). cbn [bind].
      rewrite <- (relay_op bs old Hbs FO) by exact Ho1.
      destruct (relay_ops bs old Hbs FO p (length data) (o1 :: orest) w0 [] rest Hall Hg) as (s' & Er & Hf);
        [rewrite Hrep; reflexivity|].
      exists s'. rewrite Hrep in Hf. split; [exact Er|exact Hf].
    - (* Transpose: the old file is the new one *)
      destruct (full_file_op bs _ f _ orest d data Hbs Hd ltac:(lia) eq_refl Hrep) as [-> _].
      destruct (transpose_ok old new p idx _ f data s Hd Hentry Hready) as (s' & Et & Hf).
      rewrite (as_so_op bs old Hbs FO _ Ho1). cbn [so_file]. rewrite Et. cbn [bind].
      rewrite (until_marker_ops bs old Hbs FO orest rest (Forall_inv_tail Hall)). cbn [bind].
      exists s'. split; [reflexivity|assumption].
  Qed.
End Rsync.

Lemma all_series_msgs differ oldC : forall fs i,
  all_series differ oldC i fs =
  series_msgs i (map (fun f => (SH_RSYNC, map op_msg (differ (preferred_index oldC (fst f)) (snd f)) ++ [hey_msg])) fs).
Proof.
  induction fs as [|f fs IH]; intros i; cbn [all_series map series_msgs fst snd]; [reflexivity|].
  rewrite IH. reflexivity.
Qed.

(** WritePatch consults the differ on the files of the new build only *)
Definition differ_ok (bs : Z) (differ : Z -> list byte -> list op) (old new : build) : Prop :=
  Forall (fun f => ops_ok bs (contents_of old) (differ (preferred_index (container_of old) (fst f)) (snd f)) (snd f))
         (files_of new).

Lemma diff_ok_differ_ok bs differ old new : diff_ok bs (contents_of old) differ -> differ_ok bs differ old new.
Proof. intros DOK. apply Forall_forall. intros f _. apply DOK. Qed.

Lemma patch_msgs_series differ old new :
  patch_msgs differ old new =
  series_msgs 0 (map (fun f => (SH_RSYNC, map op_msg (differ (preferred_index (container_of old) (fst f)) (snd f)) ++ [hey_msg]))
                     (files_of new)).
Proof. apply all_series_msgs. Qed.

Lemma patch_series_write bs differ old new :
  0 < bs -> fits63 old -> differ_ok bs differ old new ->
  Forall2 (writes bs (container_of old) (contents_of old) new) (files_of new)
          (map (fun f => (SH_RSYNC, map op_msg (differ (preferred_index (container_of old) (fst f)) (snd f)) ++ [hey_msg]))
               (files_of new)).
Proof.
  intros Hbs FO DOK. apply Forall2_map_self. revert DOK. apply Forall_impl.
  intros f Hf. apply (rsync_series_writes bs old new Hbs FO _ f Hf).
Qed.

Lemma write_patch_applies bs differ old new algo quality :
  0 < bs -> wf_build new -> fits63 old -> fits63 new -> differ_ok bs differ old new ->
  exists t touched trace,
    apply_patch_fresh bs (contents_of old) None (write_patch differ algo quality old new) = Ok (t, touched, trace) /\
    touched = Z.of_nat (length (files_of new)) /\
    forall p, tlookup t p = tlookup new p.
Proof.
  intros Hbs WFN FO FN DOK. unfold apply_patch_fresh, write_patch, read_patch.
  rewrite frames_msgs_map, patch_msgs_series. cbn [option_map].
  apply (apply_series_all bs _ _ new WFN FN), patch_series_write; assumption.
Qed.

Theorem diff_apply_fresh_lemma bs differ old new algo quality :
  0 < bs -> wf_build new -> fits63 old -> fits63 new -> diff_ok bs (contents_of old) differ ->
  exists t touched trace,
    apply_patch_fresh bs (contents_of old) None (write_patch differ algo quality old new) = Ok (t, touched, trace) /\
    touched = Z.of_nat (length (files_of new)) /\
    forall p, tlookup t p = tlookup new p.
Proof. intros Hbs WFN FO FN DOK. apply write_patch_applies; try assumption. apply diff_ok_differ_ok, DOK. Qed.

Lemma diff_ok_data_only bs olds : diff_ok bs olds (fun _ data => [OpData data]).
Proof.
  intros pref data. split; [discriminate|]. split; [cbn; apply app_nil_r|]. repeat constructor.
Qed.
