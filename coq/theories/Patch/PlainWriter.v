(** Model of bowl_fresh.go's [freshEntryWriter] - the entry writer of the fresh bowl, also
    used by the overlay bowl for staged new files - and of the creation of a fresh bowl
    (tlc [Container.Prepare] on each file) and [freshBowl.Transpose]; then the proof that they
    satisfy the writer contract of Patch/ResumeProofs.v, [fresh_commit_disks], and Section
    Fresh: the notions of Patch/ResumeProofs.v at this writer ([fresh_run], [fresh_start],
    [fresh_resumed], [fresh_sized], [fresh_offered], [fresh_crash]), in which
    [resume_equiv_fresh] (Properties/C03.v) is stated.

    Go: Resume opens with O_CREATE|O_WRONLY (no truncation) and seeks to the checkpointed
    offset; Write writes at the file position; Save fsyncs and reports the offset; Finalize
    does nothing; prepareFile truncates (or zero-extends) the file to its final size;
    Transpose copies the old file over the output file, truncating it. *)
From Wharf Require Import Base.Prelude Base.ListLemmas Patch.Resume Patch.ResumeProofs.

Definition zeros (n : nat) : list byte := repeat 0%N n.

(** os.File.Write at offset [off]: a hole left by a seek past the end reads as zeros *)
Definition pwrite (raw : list byte) (off : nat) (d : list byte) : list byte :=
  firstn off raw ++ zeros (off - length raw) ++ d ++ skipn (off + length d) raw.

(** os.Truncate(path, n) *)
Definition resize (n : nat) (raw : list byte) : list byte := firstn n raw ++ zeros (n - length raw).

Lemma resize_length : forall n raw, length (resize n raw) = n.
Proof. intros. unfold resize, zeros. rewrite app_length, firstn_length, repeat_length. lia. Qed.

Lemma firstn_firstn_app {A} : forall k n (l r : list A), k <= n -> k <= length l -> firstn k (firstn n l ++ r) = firstn k l.
Proof.
  intros. rewrite firstn_app, firstn_firstn, firstn_length.
  replace (Nat.min k n) with k by lia. replace (k - Nat.min n (length l)) with 0 by lia. apply app_nil_r.
Qed.

Lemma firstn_resize : forall k n raw, k <= n -> k <= length raw -> firstn k (resize n raw) = firstn k raw.
Proof. intros. apply firstn_firstn_app; assumption. Qed.

Section Plain.
  Variable ssize tsize : N -> N.
  Variable old : N -> list byte.            (* contents of the old build's files *)

  Definition p_open (_ : N) (c : option (N * unit)) (raw : list byte) : option (N * list byte) :=
    Some (match c with Some (o, _) => o | None => 0%N end, raw).
  Definition p_write (_ : N) (w : N) (raw : list byte) (d : list byte) : N * list byte :=
    ((w + N.of_nat (length d))%N, pwrite raw (N.to_nat w) d).
  Definition p_save (_ : N) (w : N) (raw : list byte) : (N * unit) * N * list byte := ((w, tt), w, raw).
  Definition p_final (_ : N) (_ : N) (raw : list byte) : list byte := raw.
  Definition p_tell (w : N) : N := w.
  Definition p_result (_ : N) (raw : list byte) : option (list byte) := Some raw.
  Definition p_prepare (f : N) (raw : list byte) : list byte := resize (N.to_nat (ssize f)) raw.
  Definition p_copy_old (t : N) : list byte := old t.

  (** the ghost arguments of [writer_ok] (Patch/ResumeProofs.v) at this writer: content so far,
      invariant, admissible working file, what a checkpoint covers, finished file *)
  Definition p_abs (_ : N) (w : N) (raw : list byte) : list byte := firstn (N.to_nat w) raw.
  Definition p_inv (f : N) (w : N) (raw : list byte) : Prop :=
    N.to_nat w <= length raw /\ length raw <= Nat.max (N.to_nat (ssize f)) (N.to_nat w).
  Definition p_raw_ok (f : N) (raw : list byte) : Prop := length raw <= N.to_nat (ssize f).
  (** the crash disk's file is at least as long as the checkpointed offset and agrees with
      the file of checkpoint time below it; everything from that offset on is arbitrary *)
  Definition p_covers (_ : N) (c : N * unit) (raw raw2 : list byte) : Prop :=
    N.to_nat (fst c) <= length raw2 /\ firstn (N.to_nat (fst c)) raw2 = firstn (N.to_nat (fst c)) raw.
  Definition p_finished (f : N) (raw c : list byte) : Prop := raw = c /\ length raw = N.to_nat (ssize f).

  Lemma firstn_eq_len : forall (a b : list byte) n, n <= length a -> firstn n b = firstn n a -> n <= length b.
  Proof.
    intros a b n Hn H. apply (f_equal (@length _)) in H. rewrite !firstn_length in H. lia.
  Qed.

  Lemma pwrite_inside : forall raw off d, off <= length raw ->
    pwrite raw off d = firstn off raw ++ d ++ skipn (off + length d) raw.
  Proof. intros. unfold pwrite. replace (off - length raw) with 0 by lia. reflexivity. Qed.

  Lemma pwrite_length : forall raw off d, off <= length raw ->
    length (pwrite raw off d) = Nat.max (length raw) (off + length d).
  Proof.
    intros. rewrite pwrite_inside by auto. rewrite !app_length, firstn_length, skipn_length. lia.
  Qed.

  Lemma pwrite_prefix : forall raw off d, off <= length raw ->
    firstn (off + length d) (pwrite raw off d) = firstn off raw ++ d.
  Proof.
    intros. rewrite pwrite_inside, app_assoc by auto.
    replace (off + length d) with (length (firstn off raw ++ d)) by (rewrite app_length, firstn_length; lia).
    apply firstn_app_exact.
  Qed.

  Lemma prepare_ok : forall f raw, p_raw_ok f (p_prepare f raw).
  Proof. intros. unfold p_raw_ok, p_prepare. now rewrite resize_length. Qed.

  Hypothesis Hold : forall t, length (old t) = N.to_nat (tsize t).

  Lemma plain_writer_ok : forall fr : bool,
    writer_ok (list byte) (list byte) (list byte) N unit (fun d => N.of_nat (length d))
              tsize ssize p_open p_write p_save p_final p_tell p_result fr
              p_prepare p_copy_old old (fun c d => c ++ d) [] p_abs p_inv p_raw_ok p_covers p_finished.
  Proof.
    intros fr. constructor.
    - (* open from scratch *)
      intros f raw Hok. exists 0%N, raw. unfold p_open, p_inv, p_abs, p_tell, p_raw_ok in *. simpl.
      repeat split; auto; lia.
    - (* write *)
      intros f w raw d (H1 & H2). unfold p_write, p_inv, p_abs, p_tell. simpl.
      rewrite pwrite_length by auto. repeat split; try lia.
      replace (N.to_nat (w + N.of_nat (length d))) with (N.to_nat w + length d) by lia.
      apply pwrite_prefix; auto.
    - (* save, and reopening on a crash disk *)
      intros f w raw (H1 & H2). unfold p_save. repeat split; auto.
      intros raw2 (C1 & C2) Hok. simpl in *. exists w, raw2. unfold p_open, p_inv, p_abs, p_tell, p_raw_ok in *.
      repeat split; auto; lia.
    - (* finalize *)
      intros f w raw (H1 & H2) Ht. unfold p_tell in Ht. subst. unfold p_finished, p_final, p_abs.
      assert (length raw = N.to_nat (ssize f)) by lia. split; auto.
      symmetry. apply firstn_all2. lia.
    - intros f raw c (-> & _). reflexivity.
    - (* Prepare *)
      intros f raw _. apply prepare_ok.
    - intros f c raw raw2 _ (C1 & C2) Hle. unfold p_covers, p_prepare. rewrite resize_length, <- C2.
      split; [lia|apply firstn_resize; lia].
    - intros f raw c _ (-> & Hl). unfold p_prepare, resize. rewrite firstn_all2 by lia.
      replace (N.to_nat (ssize f) - length c) with 0 by lia. apply app_nil_r.
    - intros f t _ Hsz. unfold p_finished, p_copy_old. split; auto. rewrite Hold. now rewrite Hsz.
  Qed.
End Plain.

(** Commit of a fresh bowl hands every output file over as it is *)
Lemma fresh_commit_disks : forall (nfiles : N) (old : N -> list byte) (sf Sf : state (list byte) N unit),
  commit (list byte) (list byte) N unit nfiles p_result true old sf = commit (list byte) (list byte) N unit nfiles p_result true old Sf ->
  forall g, (g < nfiles)%N -> s_disk _ _ _ sf g = s_disk _ _ _ Sf g.
Proof.
  intros nfiles old sf Sf H g Hg. unfold commit in H. simpl in H. inversion H as [Hm].
  assert (Hin : In (N.to_nat g) (seq 0 (N.to_nat nfiles))) by (apply in_seq; lia).
  pose proof (proj1 map_ext_in_iff Hm _ Hin) as Hg'. simpl in Hg'.
  unfold p_result in Hg'. rewrite N2Nat.id in Hg'. now inversion Hg'.
Qed.

(** ** the fresh bowl: every entry writer is a [freshEntryWriter] *)
Section Fresh.
  Variable blocksize : N.
  Variables tsize ssize : N -> N.
  Variable nfiles : N.
  Variable old : N -> list byte.
  Variable range_data : N -> N -> N -> list byte.
  Variable bs_data : N -> Z -> list byte -> list byte -> list byte.
  Variable is_overlay : N -> bool.
  Variable emit : nat -> bool.
  Variable src_resume : nat -> nat -> option nat.

  Definition fresh_run (sched stop : nat -> bool) :=
    run (list byte) (list byte) N unit (fun d => N.of_nat (length d)) blocksize tsize ssize nfiles range_data bs_data
        p_open p_write p_save p_final p_tell true is_overlay (p_copy_old old) emit sched stop.
  Definition fresh_start (d0 : N -> list byte) := start_state (list byte) N unit true (p_prepare ssize) d0.
  Definition fresh_resumed (sched stop : nat -> bool) :=
    run_resumed (list byte) (list byte) N unit (fun d => N.of_nat (length d)) blocksize tsize ssize nfiles range_data bs_data
        p_open p_write p_save p_final p_tell true is_overlay (p_prepare ssize) (p_copy_old old) emit src_resume sched stop.
  Definition fresh_sized :=
    sized_run (list byte) (list byte) N unit (fun d => N.of_nat (length d)) blocksize tsize ssize nfiles range_data bs_data
        p_open p_write p_save p_final p_tell true is_overlay (p_copy_old old) emit.
  Definition fresh_offered :=
    offered (list byte) (list byte) N unit (fun d => N.of_nat (length d)) blocksize tsize ssize nfiles range_data bs_data
        p_open p_write p_save p_final p_tell true is_overlay (p_prepare ssize) (p_copy_old old) emit src_resume
        (p_raw_ok ssize) p_covers.

  (** the crash model, spelled out for the fresh bowl: the in-progress output file still has
      its first [ck_woff] bytes, everything after them is arbitrary (lost, torn, garbage, or
      later writes); output files of earlier series are as they were; all other files of the
      output directory are arbitrary *)
  Definition fresh_crash (ck : ckpt unit) (d d' : N -> list byte) : Prop :=
    let f := ck_file _ ck in let o := N.to_nat (ck_woff _ ck) in
    o <= length (d' f) /\ firstn o (d' f) = firstn o (d f) /\ forall g, (g < f)%N -> d' g = d g.

  Lemma fresh_crash_ok : forall ck d d', fresh_crash ck d d' ->
    crash_ok (list byte) unit true (p_prepare ssize) (p_raw_ok ssize) p_covers ck d d'.
  Proof.
    intros ck d d' (H1 & H2 & H3). split; [|split].
    - split; auto.
    - intros g Hg _. auto.
    - intros g _. apply prepare_ok.
  Qed.

End Fresh.
