(** Model of repo/pwr/patcher: [savingPatcher.Resume] (from the start, no checkpoint) as a state
    machine over the message list, applied through a fresh bowl (Bowl/Fresh.v) and an old-build
    pool that serves [olds] (the actual old files, by index) under the old container's sizes.

      patcher.go        Resume loop: SyncHeader, index check, series kind, whitelist => skipFile
      patcher_rsync.go  first op; isFullFileOp => bowl.Transpose, then read up to the end
                        marker ignoring everything; otherwise bowl.GetWriter and every op is
                        applied by wsync.ApplySingleFull (opSize / lastSize arithmetic below)
      patcher_bsdiff.go BsdiffHeader, Control* until eof (bsdiff.IndividualPatchContext.Apply),
                        end marker, final size check
    Every frame is decoded as the type the reader's state expects (Patch/Reinterp.v).
    The trace records the calls a recording bowl / recording pool would see.
    Not modelled: checkpoints (C03), progress, int64 overflow of offsets.
    Definitions only; lemmas in Patch/PatcherProofs.v. *)
From Wharf Require Import Base.Prelude Bowl.Fresh Patch.Reinterp Patch.Stream.
Local Open Scope Z_scope.

Inductive event :=
| EvWriter (i : Z)                (* bowl.GetWriter(i) *)
| EvTranspose (src tgt : Z)       (* bowl.Transpose{SourceIndex: src, TargetIndex: tgt} *)
| EvSize (i : Z)                  (* targetPool.GetSize(i) *)
| EvRead (i : Z).                 (* targetPool.GetReader / GetReadSeeker(i) *)

Record pst := mkP { p_tree : tree; p_trace : list event }.
Definition ev (s : pst) (e : event) : pst := mkP (p_tree s) (p_trace s ++ [e]).

(** an open entry writer: its path and its offset (freshEntryWriter) *)
Record wst := mkW { w_st : pst; w_path : path; w_off : nat }.

Section Patcher.
  Variable bs : Z.                       (* pwr.BlockSize *)
  Variables oldC newC : container.       (* target / source container of the patch *)
  Variable olds : list (list byte).      (* the old build on disk, by old file index *)
  Variable whitelist : option (list Z).  (* SetSourceIndexWhitelist: keys mapped to true *)

  (** the old-build pool: fspool indexes container.Files (a panic when out of range), then
      opens the file on disk (an error when it is not there) *)
  Definition pool_open (i : Z) : res (list byte) :=
    match znth (c_files oldC) i with
    | None => Panic
    | Some _ => match znth olds i with None => Err | Some d => Ok d end
    end.

  (** writer.Write *)
  Definition w_write (w : wst) (data : list byte) : res wst :=
    match data with
    | [] => Ok w                      (* no Write call reaches the file *)
    | _ => bind (entry_write (p_tree (w_st w)) (w_path w) (w_off w) data) (fun t =>
           Ok (mkW (mkP t (p_trace (w_st w))) (w_path w) (w_off w + length data)))
    end.

  (** wsync.ApplySingleFull, OpBlockRange (failFast):
        fileSize := pool.GetSize(op.FileIndex)
        fixedSize := (op.BlockSpan - 1) * blockSize
        lastIndex := op.BlockIndex + (op.BlockSpan - 1)
        lastSize := blockSize; if blockSize*(lastIndex+1) > fileSize { lastSize = fileSize % blockSize }
        opSize := fixedSize + lastSize
        target := pool.GetReadSeeker(op.FileIndex); target.Seek(blockSize*op.BlockIndex)
        io.CopyBuffer(output, io.LimitReader(target, opSize))   -- fewer bytes at EOF, no error *)
  Definition op_size (fileSize blockIndex blockSpan : Z) : Z :=
    let fixedSize := (blockSpan - 1) * bs in
    let lastIndex := blockIndex + (blockSpan - 1) in
    let lastSize := if bs * (lastIndex + 1) >? fileSize then Z.rem fileSize bs else bs in
    fixedSize + lastSize.

  Definition apply_range (w : wst) (f i s : Z) : res wst :=
    let w1 := mkW (ev (w_st w) (EvSize f)) (w_path w) (w_off w) in
    match znth (c_files oldC) f with
    | None => Panic
    | Some (_, fileSize) =>
      let w2 := mkW (ev (w_st w1) (EvRead f)) (w_path w) (w_off w) in
      match znth olds f with
      | None => Err
      | Some d =>
        if bs * i <? 0 then Err
        else w_write w2 (slice d (bs * i) (op_size fileSize i s))
      end
    end.

  (** makeWop + ApplySingle *)
  Definition apply_op (w : wst) (o : sync_op) : res wst :=
    if so_type o =? T_BLOCK_RANGE then apply_range w (so_file o) (so_block o) (so_span o)
    else if so_type o =? T_DATA then w_write w (so_data o)
    else Err.

  (** validateOp (repo commit "fix: patcher returns an error for block range ops whose file index
      is outside the target container"): true = nil *)
  Definition validate_op (o : sync_op) : bool :=
    if so_type o =? T_BLOCK_RANGE
    then (0 <=? so_file o) && (so_file o <? Z.of_nat (length (c_files oldC)))
    else true.

  (** isFullFileOp (indexes targetContainer.Files[op.FileIndex]; validateOp ran before) *)
  Definition is_full_file_op (idx : Z) (o : sync_op) : res bool :=
    if negb (so_type o =? T_BLOCK_RANGE) then Ok false
    else if negb (so_block o =? 0) then Ok false
    else match znth (c_files oldC) (so_file o), znth (c_files newC) idx with
         | Some (_, tsize), Some (_, osize) =>
           if negb (tsize =? osize) then Ok false
           else Ok (so_span o =? num_blocks bs osize)
         | _, _ => Panic
         end.

  (** bowl.GetWriter(idx) + writer.Resume(nil) *)
  Definition open_writer (s : pst) (idx : Z) : res wst :=
    let s1 := ev s (EvWriter idx) in
    match znth (c_files newC) idx with
    | None => Panic
    | Some (p, _) => bind (entry_open (p_tree s1) p) (fun t => Ok (mkW (mkP t (p_trace s1)) p 0))
    end.

  (** freshBowl.Transpose: TargetPool.GetReader(tgt), OutputPool.GetWriter(src), io.Copy *)
  Definition transpose (s : pst) (src tgt : Z) : res pst :=
    let s1 := ev (ev s (EvTranspose src tgt)) (EvRead tgt) in
    bind (pool_open tgt) (fun d =>
    match znth (c_files newC) src with
    | None => Panic
    | Some (p, _) => bind (transpose_write (p_tree s1) p d) (fun t => Ok (mkP t (p_trace s1)))
    end).

  (** readUntilEndMarker after a full-file op: everything up to the marker is ignored *)
  Fixpoint until_marker (ms : list pmsg) : res (list pmsg) :=
    match ms with
    | [] => Err
    | m :: r => if so_type (as_so m) =? HEY then Ok r else until_marker r
    end.

  (** the relay loop of processRsync *)
  Fixpoint relay (ms : list pmsg) (w : wst) : res (list pmsg * pst) :=
    match ms with
    | [] => Err
    | m :: r => let o := as_so m in
                if so_type o =? HEY then Ok (r, w_st w)
                else if negb (validate_op o) then Err
                else bind (apply_op w o) (fun w' => relay r w')
    end.

  Definition process_rsync (idx : Z) (ms : list pmsg) (s : pst) : res (list pmsg * pst) :=
    match ms with
    | [] => Err
    | m :: r =>
      let o := as_so m in
      if negb (validate_op o) then Err else
      bind (is_full_file_op idx o) (fun full =>
      if full then
        bind (transpose s idx (so_file o)) (fun s' =>
        bind (until_marker r) (fun r' => Ok (r', s')))
      else
        bind (open_writer s idx) (fun w =>
        bind (apply_op w o) (fun w' => relay r w')))
    end.

  (** bsdiff.IndividualPatchContext.Apply: lrufile.Seek(OldOffset) must land inside [0,size];
      add = old bytes + ctrl.Add (mod 256), exactly len(Add) of them; copy; OldOffset += seek *)
  Fixpoint add_bytes (a b : list byte) : list byte :=
    match a, b with
    | x :: a', y :: b' => ((x + y) mod 256)%N :: add_bytes a' b'
    | _, _ => []
    end.
  Definition bs_apply (old : list byte) (off : Z) (c : control) (w : wst) : res (Z * wst) :=
    if (off <? 0) || (off >? Z.of_nat (length old)) then Err
    else
      let addlen := Z.of_nat (length (ct_add c)) in
      if off + addlen >? Z.of_nat (length old) then Err
      else bind (w_write w (add_bytes (ct_add c) (skipn (Z.to_nat off) old))) (fun w1 =>
           bind (w_write w1 (ct_copy c)) (fun w2 =>
           Ok (off + addlen + ct_seek c, w2))).

  Fixpoint ctrl_loop (old : list byte) (off : Z) (ms : list pmsg) (w : wst) : res (list pmsg * wst) :=
    match ms with
    | [] => Err
    | m :: r => let c := as_ct m in
                if ct_eof c then Ok (r, w)
                else bind (bs_apply old off c w) (fun ow => ctrl_loop old (fst ow) r (snd ow))
    end.

  Definition process_bsdiff (idx : Z) (ms : list pmsg) (s : pst) : res (list pmsg * pst) :=
    match ms with
    | [] => Err
    | m :: r =>
      let tgt := bh_target (as_bh m) in
      (* repo commit "fix: patcher returns an error for a bsdiff header whose target index is
         outside the target container" *)
      if (tgt <? 0) || (tgt >=? Z.of_nat (length (c_files oldC))) then Err else
      let s1 := ev s (EvRead tgt) in
      bind (pool_open tgt) (fun old =>
      bind (open_writer s1 idx) (fun w =>
      bind (ctrl_loop old 0 r w) (fun rw =>
      match fst rw with
      | [] => Err
      | m2 :: r2 =>
        if negb (so_type (as_so m2) =? HEY) then Err
        else match znth (c_files newC) idx with
             | Some (_, size) => if Z.of_nat (w_off (snd rw)) =? size then Ok (r2, w_st (snd rw)) else Err
             | None => Panic
             end
      end)))
    end.

  (** processFile: by series kind *)
  Definition process_file (kind idx : Z) (ms : list pmsg) (s : pst) : res (list pmsg * pst) :=
    if kind =? SH_RSYNC then process_rsync idx ms s else process_bsdiff idx ms s.

  (** skipFile (after repo commit "fix: skipFile follows the series kind announced by the sync
      header"): an rsync series is read as SyncOps up to the end marker; a bsdiff series as
      BsdiffHeader, Controls up to and including the one marked eof, then the end marker *)
  Fixpoint skip_rsync (ms : list pmsg) : res (list pmsg) :=
    match ms with
    | [] => Err
    | m :: r => if so_type (as_so m) =? HEY then Ok r else skip_rsync r
    end.
  Fixpoint skip_ctrls (ms : list pmsg) : res (list pmsg) :=
    match ms with
    | [] => Err
    | m :: r => if ct_eof (as_ct m) then Ok r else skip_ctrls r
    end.
  Definition skip_bsdiff (ms : list pmsg) : res (list pmsg) :=
    match ms with
    | [] => Err
    | _ :: r => bind (skip_ctrls r) (fun r' =>
                match r' with
                | [] => Err
                | m2 :: r2 => if so_type (as_so m2) =? HEY then Ok r2 else Err
                end)
    end.
  Definition skip_file (kind : Z) (ms : list pmsg) : res (list pmsg) :=
    if kind =? SH_BSDIFF then skip_bsdiff ms else skip_rsync ms.

  (** skipFile as it was before that commit (d56acaa): every frame decoded as a SyncOp, whatever
      the series kind (used by [skip_v0_desync], Properties/C17.v, the recorded defect) *)
  Definition skip_file_v0 (kind : Z) (ms : list pmsg) : res (list pmsg) := skip_rsync ms.

  Definition wl_skip (fileIndex : Z) : bool :=
    match whitelist with
    | None => false
    | Some l => negb (existsb (Z.eqb fileIndex) l)
    end.

  (** the Resume loop: [n] files left, [idx] = c.FileIndex *)
  Fixpoint run_files (n : nat) (idx : Z) (ms : list pmsg) (s : pst) (touched : Z) : res (pst * Z) :=
    match n with
    | O => Ok (s, touched)
    | S n' =>
      match ms with
      | [] => Err
      | m :: r =>
        let sh := as_sh m in
        if negb (sh_file sh =? idx) then Err
        else if negb ((sh_type sh =? SH_RSYNC) || (sh_type sh =? SH_BSDIFF)) then Err
        else if wl_skip (sh_file sh) then
          bind (skip_file (sh_type sh) r) (fun r' => run_files n' (idx + 1) r' s touched)
        else
          bind (process_file (sh_type sh) idx r s)
               (fun rs => run_files n' (idx + 1) (fst rs) (snd rs) (touched + 1))
      end
    end.

  (** NewFreshBowl (Prepare into the empty output directory) + Resume(nil) + Commit *)
  Definition apply_fresh (ms : list pmsg) : res (tree * Z * list event) :=
    bind (prepare newC []) (fun t =>
    bind (run_files (length (c_files newC)) 0 ms (mkP t []) 0) (fun st =>
    Ok (p_tree (fst st), snd st, p_trace (fst st)))).
End Patcher.

(** a whole patch given as frames: patcher.New then the above *)
Definition apply_patch_fresh (bs : Z) (olds : list (list byte)) (whitelist : option (list Z)) (fs : list frame)
  : res (tree * Z * list event) :=
  match read_patch fs with
  | None => Err
  | Some (_, _, oldC, newC, ms) => apply_fresh bs oldC newC olds whitelist ms
  end.
