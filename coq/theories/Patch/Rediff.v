(** Model of pwr/rediff/rediff.go.

    [analyzePatch]: per new file, the bytes each old file contributes according to the
    BLOCK_RANGE ops (with the arithmetic of the code: [lastBlockIndex := BlockIndex + BlockSpan],
    [otherBlocksSize := BlockSize*BlockSpan - 1]), the selection rule (most bytes; on a tie the
    old file with the same path), the same-path fallback, the size limits, [ForceMapAll].  The
    pinned code iterated a Go map; the repaired code visits the keys in index order and skips
    0-byte targets.  The model keeps the order as the argument [ord] (index order is one
    instance) and does not model the skip.
    [Optimize]: per new file either the rsync series copied verbatim or a BSDIFF header with
    the target index and the series bsdiff computes from (old file, new file).

    Numbers are [Z] (protobuf int64 fields).  A container index out of range is a Go panic:
    [None].  Definitions only. *)
From Wharf Require Import Base.Prelude Val.Drip Val.VPool.
Local Open Scope Z_scope.

(** pwr.SyncOp of an rsync series (the end marker is implicit) *)
Inductive sop := SRange (fileIndex blockIndex blockSpan : Z) | SData (len : Z).

(** bytesReusedPerFileIndex[k] = bytesReusedPerFileIndex[k] + v; entries in first-insertion order *)
Fixpoint fo_add (m : list (Z * Z)) (k v : Z) : list (Z * Z) :=
  match m with
  | [] => [(k, v)]
  | (k', v') :: r => if k' =? k then (k', v' + v) :: r else (k', v') :: fo_add r k v
  end.

Record scan := mkscan { sm : list (Z * Z); nrange : Z; ndata : Z }.
Definition scan0 := mkscan [] 0 0.

Section Analyze.
  Variable bs : Z.                      (* pwr.BlockSize *)
  Variable force : bool.                (* Params.ForceMapAll *)
  Variable limit : Z.                   (* Params.RediffSizeLimit (after the default) *)
  Variable tsizes : list Z.             (* targetContainer.Files[i].Size *)

  Definition tsize (i : Z) : Z := nth (Z.to_nat i) tsizes 0.

  (** the [for readingOps] loop *)
  Fixpoint scan_ops (ops : list sop) (s : scan) : option scan :=
    match ops with
    | [] => Some s
    | SData _ :: r => scan_ops r (mkscan (sm s) (nrange s) (ndata s + 1))
    | SRange f b span :: r =>
      if f <? 0 then None
      else match nth_error tsizes (Z.to_nat f) with
           | None => None                       (* targetContainer.Files[rop.FileIndex] *)
           | Some size =>
             let lastBlockIndex := b + span in
             let lastBlockSize := compute_block_size bs size lastBlockIndex in
             let otherBlocksSize := bs * span - 1 in
             scan_ops r (mkscan (fo_add (sm s) f (otherBlocksSize + lastBlockSize)) (nrange s + 1) (ndata s))
           end
    end.

  (** [same i] = targetContainer.Files[i].Path == sourceFile.Path *)
  Definition better (same : Z -> bool) (cur : option (Z * Z)) (cand : Z * Z) : bool :=
    match cur with
    | None => true
    | Some (_, cb) => (snd cand >? cb) || ((snd cand =? cb) && same (fst cand))
    end.

  (** the selection loop over the keys of [bytesReusedPerFileIndex], visited in the order [ord] *)
  Definition select (same : Z -> bool) (ord : list (Z * Z)) : option (Z * Z) :=
    fold_left (fun cur cand => if better same cur cand then Some cand else cur) ord None.

  Definition same_of (samePath : option Z) (i : Z) : bool :=
    match samePath with Some k => i =? k | None => false end.

  (** "even without any common blocks ... if the file is named the same" (old size > 0 only) *)
  Definition fallback (samePath : option Z) : option (Z * Z) :=
    match samePath with
    | Some k => if tsize k >? 0 then Some (k, 0) else None
    | None => None
    end.

  (** the two size limits *)
  Definition finish (ssize : Z) (dm : option (Z * Z)) : option (Z * Z) :=
    let dm := if ssize >? limit then None else dm in
    match dm with
    | Some (i, b) => if tsize i >? limit then None else Some (i, b)
    | None => None
    end.

  Definition skipped (ssize : Z) (s : scan) : bool :=
    ((ssize =? 0) && negb force) || ((nrange s =? 1) && (ndata s =? 0) && negb force).

  (** one new file: size, index of the old file with the same path, its ops; [ord] must be a
      permutation of the reused-bytes map.  [None] = panic, [Some None] = no mapping. *)
  Definition analyze_file (ssize : Z) (samePath : option Z) (ops : list sop) (ord : list (Z * Z)) : option (option (Z * Z)) :=
    match scan_ops ops scan0 with
    | None => None
    | Some s =>
      if skipped ssize s then Some None
      else
        let dm := match select (same_of samePath) ord with
                  | Some x => Some x
                  | None => fallback samePath
                  end in
        Some (finish ssize dm)
    end.

  (** the reused-bytes map of a file, for stating "[ord] is a permutation of it" *)
  Definition reused (ops : list sop) : option (list (Z * Z)) := option_map sm (scan_ops ops scan0).

  (** ---- order-free description of the results the rule allows (executable) ---- *)
  Definition is_choiceb (same : Z -> bool) (m : list (Z * Z)) (e : Z * Z) : bool :=
    existsb (fun x => (fst x =? fst e) && (snd x =? snd e)) m &&
    forallb (fun x => snd x <=? snd e) m &&
    (negb (existsb (fun x => (snd x =? snd e) && same (fst x)) m) || same (fst e)).

  Definition analyze_allowed (ssize : Z) (samePath : option Z) (ops : list sop) : option (list (option (Z * Z))) :=
    match scan_ops ops scan0 with
    | None => None
    | Some s =>
      if skipped ssize s then Some [None]
      else match sm s with
           | [] => Some [finish ssize (fallback samePath)]
           | m => Some (map (fun e => finish ssize (Some e)) (filter (is_choiceb (same_of samePath) m) m))
           end
    end.
End Analyze.

(** ---- Optimize, over abstract series ---- *)
Section Optimize.
  Context {Content RSeries BSeries : Type}.
  Variable bsdiff_do : Content -> Content -> BSeries.       (* bsdiff.DiffContext.Do(old, new) *)

  Inductive series := Rsync (s : RSeries) | Bsdiff (target : Z) (b : BSeries).

  (** one new file of the patch being rewritten: its rsync series, its content in the new
      build (SourcePool), the mapping chosen by the analysis *)
  Definition optimize_file (olds : list Content) (x : RSeries * Content * option (Z * Z)) : option series :=
    let '(orig, new, mapping) := x in
    match mapping with
    | None => Some (Rsync orig)                                 (* ops copied verbatim *)
    | Some (t, _) =>
      if t <? 0 then None
      else match nth_error olds (Z.to_nat t) with
           | Some old => Some (Bsdiff t (bsdiff_do old new))    (* BSDIFF header, target index, series *)
           | None => None                                       (* TargetPool.GetReadSeeker fails *)
           end
    end.

  Fixpoint optimize (olds : list Content) (xs : list (RSeries * Content * option (Z * Z))) : option (list series) :=
    match xs with
    | [] => Some []
    | x :: r => match optimize_file olds x, optimize olds r with
                | Some s, Some ss => Some (s :: ss)
                | _, _ => None
                end
    end.
End Optimize.
Arguments series : clear implicits.
