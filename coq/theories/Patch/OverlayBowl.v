(** The entry writers of the overlay bowl (bowl_overlay.go [GetWriter]): a source file whose
    path exists in the old build is written through an [overlayEntryWriter] (an overlay stream
    in the stage folder, applied to the old file at Commit), any other source file through a
    [freshEntryWriter] on a stage file that Commit moves into place.  The dispatch is modelled
    here; the contract of Patch/ResumeProofs.v for the dispatching writer follows from the
    contracts of its two halves: Patch/PlainWriter.v proves the one for [freshEntryWriter],
    the one for [overlayEntryWriter] (writer 2 below) is C14's "sessions" statement: after
    Flush the stream written so far decodes to the bytes written so far, a new session opened
    at the saved (ReadOffset, OverlayOffset) on a file that agrees up to OverlayOffset
    continues it, and the end marker makes anything after it irrelevant. *)
From Wharf Require Import Base.Prelude Patch.ResumeProofs Patch.PlainWriter.

Section Dispatch.
  Variables D C RAW WS1 WS2 WCK1 WCK2 : Type.
  Variable sel : N -> bool.                      (* true: writer 2 (overlay), false: writer 1 (plain) *)
  Variable o1 : N -> option (N * WCK1) -> RAW -> option (WS1 * RAW).
  Variable o2 : N -> option (N * WCK2) -> RAW -> option (WS2 * RAW).
  Variable wr1 : N -> WS1 -> RAW -> D -> WS1 * RAW.
  Variable wr2 : N -> WS2 -> RAW -> D -> WS2 * RAW.
  Variable sv1 : N -> WS1 -> RAW -> (N * WCK1) * WS1 * RAW.
  Variable sv2 : N -> WS2 -> RAW -> (N * WCK2) * WS2 * RAW.
  Variable fi1 : N -> WS1 -> RAW -> RAW.
  Variable fi2 : N -> WS2 -> RAW -> RAW.
  Variable te1 : WS1 -> N.
  Variable te2 : WS2 -> N.
  Variable re1 re2 : N -> RAW -> option C.

  Definition lift1 (x : option (WS1 * RAW)) : option ((WS1 + WS2) * RAW) :=
    match x with Some (w, r) => Some (inl w, r) | None => None end.
  Definition lift2 (x : option (WS2 * RAW)) : option ((WS1 + WS2) * RAW) :=
    match x with Some (w, r) => Some (inr w, r) | None => None end.

  Definition d_open (f : N) (c : option (N * (WCK1 + WCK2))) (raw : RAW) : option ((WS1 + WS2) * RAW) :=
    if sel f then
      match c with
      | None => lift2 (o2 f None raw)
      | Some (o, inr k) => lift2 (o2 f (Some (o, k)) raw)
      | Some (_, inl _) => None                 (* "invalid checkpoint for overlayEntryWriter" *)
      end
    else
      match c with
      | None => lift1 (o1 f None raw)
      | Some (o, inl k) => lift1 (o1 f (Some (o, k)) raw)
      | Some (o, inr _) => None
      end.

  Definition d_write (f : N) (w : WS1 + WS2) (raw : RAW) (d : D) : (WS1 + WS2) * RAW :=
    match w with
    | inl w1 => (inl (fst (wr1 f w1 raw d)), snd (wr1 f w1 raw d))
    | inr w2 => (inr (fst (wr2 f w2 raw d)), snd (wr2 f w2 raw d))
    end.

  Definition d_save (f : N) (w : WS1 + WS2) (raw : RAW) : (N * (WCK1 + WCK2)) * (WS1 + WS2) * RAW :=
    match w with
    | inl w1 => let '(c, w', r') := sv1 f w1 raw in ((fst c, inl (snd c)), inl w', r')
    | inr w2 => let '(c, w', r') := sv2 f w2 raw in ((fst c, inr (snd c)), inr w', r')
    end.

  Definition d_final (f : N) (w : WS1 + WS2) (raw : RAW) : RAW :=
    match w with inl w1 => fi1 f w1 raw | inr w2 => fi2 f w2 raw end.
  Definition d_tell (w : WS1 + WS2) : N := match w with inl w1 => te1 w1 | inr w2 => te2 w2 end.
  Definition d_result (f : N) (raw : RAW) : option C := if sel f then re2 f raw else re1 f raw.

  (** the ghost arguments of [writer_ok] (Patch/ResumeProofs.v) at this writer: content so far,
      invariant, admissible working file, what a checkpoint covers, finished file *)
  Variable dlen : D -> N.
  Variables tsize ssize : N -> N.
  Variable prepare : N -> RAW -> RAW.
  Variable copy_old : N -> RAW.
  Variable old_content : N -> C.
  Variable capp : C -> D -> C.
  Variable cnil : C.
  Variable abs1 : N -> WS1 -> RAW -> C.
  Variable abs2 : N -> WS2 -> RAW -> C.
  Variable inv1 : N -> WS1 -> RAW -> Prop.
  Variable inv2 : N -> WS2 -> RAW -> Prop.
  Variable ok1 ok2 : N -> RAW -> Prop.
  Variable cov1 : N -> N * WCK1 -> RAW -> RAW -> Prop.
  Variable cov2 : N -> N * WCK2 -> RAW -> RAW -> Prop.
  Variable fin1 fin2 : N -> RAW -> C -> Prop.

  Definition d_abs (f : N) (w : WS1 + WS2) (raw : RAW) : C :=
    match w with inl w1 => abs1 f w1 raw | inr w2 => abs2 f w2 raw end.
  Definition d_inv (f : N) (w : WS1 + WS2) (raw : RAW) : Prop :=
    match w with inl w1 => sel f = false /\ inv1 f w1 raw | inr w2 => sel f = true /\ inv2 f w2 raw end.
  Definition d_raw_ok (f : N) (raw : RAW) : Prop := if sel f then ok2 f raw else ok1 f raw.
  Definition d_covers (f : N) (c : N * (WCK1 + WCK2)) (raw raw2 : RAW) : Prop :=
    match snd c with
    | inl k => sel f = false /\ cov1 f (fst c, k) raw raw2
    | inr k => sel f = true /\ cov2 f (fst c, k) raw raw2
    end.
  Definition d_finished (f : N) (raw : RAW) (c : C) : Prop := if sel f then fin2 f raw c else fin1 f raw c.

  Hypothesis H1 : writer_ok D C RAW WS1 WCK1 dlen tsize ssize o1 wr1 sv1 fi1 te1 re1 false prepare copy_old old_content
                            capp cnil abs1 inv1 ok1 cov1 fin1.
  Hypothesis H2 : writer_ok D C RAW WS2 WCK2 dlen tsize ssize o2 wr2 sv2 fi2 te2 re2 false prepare copy_old old_content
                            capp cnil abs2 inv2 ok2 cov2 fin2.

  Lemma dispatch_writer_ok :
    writer_ok D C RAW (WS1 + WS2) (WCK1 + WCK2) dlen tsize ssize d_open d_write d_save d_final d_tell d_result false
              prepare copy_old old_content capp cnil d_abs d_inv d_raw_ok d_covers d_finished.
  Proof.
    pose proof H1 as [O1 Wr1 Sv1 Fi1 Re1 _ _ _ _]. pose proof H2 as [O2 Wr2 Sv2 Fi2 Re2 _ _ _ _].
    constructor; try discriminate.
    - intros f raw Hok. unfold d_raw_ok, d_open in *. destruct (sel f) eqn:Es.
      + destruct (O2 f raw Hok) as (w & raw' & E & I & A & T). exists (inr w), raw'. rewrite E. simpl. auto.
      + destruct (O1 f raw Hok) as (w & raw' & E & I & A & T). exists (inl w), raw'. rewrite E. simpl. auto.
    - intros f [w|w] raw d (Es & Hinv); simpl.
      + destruct (Wr1 f w raw d Hinv) as (A & B & C0). auto.
      + destruct (Wr2 f w raw d Hinv) as (A & B & C0). auto.
    - (* a checkpoint carries the tag of the writer that made it, so reopening goes to the same half *)
      intros f [w|w] raw (Es & Hinv); simpl.
      + pose proof (Sv1 f w raw Hinv) as HS. destruct (sv1 f w raw) as [[[o k] w'] raw']. destruct HS as (A & B & C0 & E & Hop).
        simpl. repeat split; auto. intros raw2 (_ & Hc) Hok. unfold d_raw_ok in Hok. rewrite Es in Hok.
        destruct (Hop raw2 Hc Hok) as (w2 & raw2' & Eo & I2 & A2 & T2).
        exists (inl w2), raw2'. unfold d_open. rewrite Es, Eo. simpl. auto.
      + pose proof (Sv2 f w raw Hinv) as HS. destruct (sv2 f w raw) as [[[o k] w'] raw']. destruct HS as (A & B & C0 & E & Hop).
        simpl. repeat split; auto. intros raw2 (_ & Hc) Hok. unfold d_raw_ok in Hok. rewrite Es in Hok.
        destruct (Hop raw2 Hc Hok) as (w2 & raw2' & Eo & I2 & A2 & T2).
        exists (inr w2), raw2'. unfold d_open. rewrite Es, Eo. simpl. auto.
    - intros f [w|w] raw (Es & Hinv) Ht; unfold d_finished; rewrite Es; [apply Fi1|apply Fi2]; auto.
    - intros f raw c Hf. unfold d_finished, d_result in *. destruct (sel f); [apply Re2|apply Re1]; auto.
  Qed.
End Dispatch.

(** the overlay bowl: staged new files through [freshEntryWriter] (proved), patched old files
    through an overlay entry writer satisfying the contract (C14) *)
Lemma overlay_bowl_writer_ok :
  forall (WS2 WCK2 : Type) (is_overlay : N -> bool) (tsize ssize : N -> N) (old : N -> list byte)
         (o2 : N -> option (N * WCK2) -> list byte -> option (WS2 * list byte))
         (wr2 : N -> WS2 -> list byte -> list byte -> WS2 * list byte)
         (sv2 : N -> WS2 -> list byte -> (N * WCK2) * WS2 * list byte)
         (fi2 : N -> WS2 -> list byte -> list byte) (te2 : WS2 -> N) (re2 : N -> list byte -> option (list byte))
         (abs2 : N -> WS2 -> list byte -> list byte) (inv2 : N -> WS2 -> list byte -> Prop) (ok2 : N -> list byte -> Prop)
         (cov2 : N -> N * WCK2 -> list byte -> list byte -> Prop) (fin2 : N -> list byte -> list byte -> Prop),
    (forall t, length (old t) = N.to_nat (tsize t)) ->
    writer_ok (list byte) (list byte) (list byte) WS2 WCK2 (fun d => N.of_nat (length d)) tsize ssize o2 wr2 sv2 fi2 te2 re2 false
              (p_prepare ssize) (p_copy_old old) old (fun c d => c ++ d) [] abs2 inv2 ok2 cov2 fin2 ->
    writer_ok (list byte) (list byte) (list byte) (N + WS2) (unit + WCK2) (fun d => N.of_nat (length d)) tsize ssize
              (d_open _ _ _ _ _ is_overlay p_open o2) (d_write _ _ _ _ p_write wr2) (d_save _ _ _ _ _ p_save sv2)
              (d_final _ _ _ p_final fi2) (d_tell _ _ p_tell te2) (d_result _ _ is_overlay p_result re2) false
              (p_prepare ssize) (p_copy_old old) old (fun c d => c ++ d) []
              (d_abs _ _ _ _ p_abs abs2) (d_inv _ _ _ is_overlay (p_inv ssize) inv2) (d_raw_ok _ is_overlay (p_raw_ok ssize) ok2)
              (d_covers _ _ _ is_overlay p_covers cov2) (d_finished _ _ is_overlay (p_finished ssize) fin2).
Proof.
  intros. apply dispatch_writer_ok; auto. apply plain_writer_ok; auto.
Qed.
