(** C10 — the readers of itchio/wharf fed an ARBITRARY framed stream.

    Model (definitions only, executable) of
      - pwr/patcher: savingPatcher.Resume / skipFile / processRsync / isFullFileOp / makeWop /
        processBsdiff, wsync.Context.ApplySingleFull (block-range arithmetic in int64),
        bsdiff.IndividualPatchContext.Apply over bsdiff/lrufile (Seek range check);
      - pwr/rediff: analyzePatch and the second pass of Optimize;
      - pwr.ReadSignature and pwr.ComputeHashInfo;
      - pwr/overlay.OverlayPatchContext.Patch.

    A stream is the list of its frames after the magic number / header / containers (those are
    well-formed by the guard of the property).  A frame is either the generic protobuf field
    list of its payload (field number, wire type, varint value or payload LENGTH - byte
    contents never influence the outcome class) or [B], a frame that cannot be read (cut inside,
    undecodable).  The end of the list is a clean end of file.  Every reader decodes a frame as
    whatever message type its state expects: the decoders below are derived from the field
    numbers and wire types of pwr.proto / bsdiff.proto / overlay.proto (same number and same
    wire type: value carried over, last occurrence wins; anything else is an unknown field).

    Fields are [Z]: arbitrary.  int64 arithmetic on stream values wraps ([wrap64]).
    Every Go indexing / slicing / division site reached with a stream value is an explicit
    [Panic site]; every loop without an a-priori bound runs on fuel, [Hang] = out of fuel.

    [fx : bool] selects the code: [false] = the tree before, [true] = the tree after the commits
    "fix: patcher returns an error for block range ops ...", "fix: patcher returns an error for a
    bsdiff header ...", "fix: rediff returns an error for block range ops ...",
    "fix: ComputeHashInfo checks the number of hashes before slicing them". *)
From Wharf Require Import Base.Prelude.
Local Open Scope Z_scope.

(** * Outcomes *)

Inductive site :=
| SIsFullFileOp        (* patcher_rsync.go isFullFileOp: targetContainer.Files[op.FileIndex] *)
| SPoolGetSize         (* wsync/algo.go ApplySingleFull: pool.GetSize(op.FileIndex) -> container.Files[i] *)
| SPoolGetReadSeeker   (* patcher_bsdiff.go: targetPool.GetReadSeeker(bh.TargetIndex) -> container.Files[i] / nil reader *)
| SAnalyzePatch        (* rediff.go analyzePatch: targetContainer.Files[rop.FileIndex] *)
| SHashInfoSlice       (* hashinfo.go: sigInfo.Hashes[hashIndex : hashIndex+numBlocks] *)
| SDivZero.            (* wsync/algo.go: fileSize % blockSize *)

Inductive res := Ok | Err | Panic (s : site) | Hang.

Definition res_eqb (a b : res) : bool :=
  match a, b with
  | Ok, Ok | Err, Err | Hang, Hang => true
  | Panic _, Panic _ => true       (* the site is documentation, never compared *)
  | _, _ => false
  end.

(** [safe r] : what the property allows *)
Definition safe (r : res) : Prop := r = Ok \/ r = Err.

(** one step of a reader: go on with a state, or stop with an outcome *)
Inductive step (A : Type) := Cont (a : A) | Stop (r : res).
Arguments Cont {A} a.
Arguments Stop {A} r.

(** * Frames *)

Inductive fval := V (v : Z) | L (n : Z) | X.
Definition field := (Z * fval)%type.
Inductive frame := G (fs : list field) | B.
Definition stream := list frame.

(** wire.ReadContext.ReadMessage: next frame, or an error (end of stream, unreadable frame) *)
Definition read (s : stream) : option (list field * stream) :=
  match s with
  | G fs :: r => Some (fs, r)
  | _ => None
  end.

Definition wrap64 (z : Z) : Z := (z + 2^63) mod 2^64 - 2^63.
Definition wrap32 (z : Z) : Z := (z + 2^31) mod 2^32 - 2^31.

(** scalar field [num] of wire type varint / length-delimited; last occurrence wins *)
Fixpoint get_varint (num : Z) (fs : list field) (acc : Z) : Z :=
  match fs with
  | [] => acc
  | (n, V v) :: r => get_varint num r (if n =? num then v else acc)
  | _ :: r => get_varint num r acc
  end.
Fixpoint get_len (num : Z) (fs : list field) (acc : Z) : Z :=
  match fs with
  | [] => acc
  | (n, L l) :: r => get_len num r (if n =? num then l else acc)
  | _ :: r => get_len num r acc
  end.

Definition f_int64 (num : Z) (fs : list field) : Z := wrap64 (get_varint num fs 0).
Definition f_enum (num : Z) (fs : list field) : Z := wrap32 (get_varint num fs 0).
Definition f_bool (num : Z) (fs : list field) : bool := negb (get_varint num fs 0 =? 0).
Definition f_bytes (num : Z) (fs : list field) : Z := get_len num fs 0.

(** pwr.SyncHeader { Type type = 1; int64 fileIndex = 16 } *)
Record syncheader := mkSH { sh_type : Z; sh_file : Z }.
Definition dec_sh (fs : list field) := mkSH (f_enum 1 fs) (f_int64 16 fs).
(** pwr.SyncOp { Type type = 1; int64 fileIndex = 2, blockIndex = 3, blockSpan = 4; bytes data = 5 } *)
Record syncop := mkOp { op_type : Z; op_file : Z; op_block : Z; op_span : Z; op_data : Z }.
Definition dec_op (fs : list field) := mkOp (f_enum 1 fs) (f_int64 2 fs) (f_int64 3 fs) (f_int64 4 fs) (f_bytes 5 fs).
(** pwr.BsdiffHeader { int64 targetIndex = 1 } *)
Definition dec_bh (fs : list field) : Z := f_int64 1 fs.
(** bsdiff.Control { bytes add = 1, copy = 2; int64 seek = 3; bool eof = 4 } *)
Record control := mkCtl { c_add : Z; c_copy : Z; c_seek : Z; c_eof : bool }.
Definition dec_ctl (fs : list field) := mkCtl (f_bytes 1 fs) (f_bytes 2 fs) (f_int64 3 fs) (f_bool 4 fs).
(** overlay.OverlayOp { Type type = 1; int64 len = 2; bytes data = 3 } *)
Record ovlop := mkOv { ov_type : Z; ov_len : Z; ov_data : Z }.
Definition dec_ov (fs : list field) := mkOv (f_enum 1 fs) (f_int64 2 fs) (f_bytes 3 fs).

Definition BLOCK_RANGE : Z := 0.
Definition DATA : Z := 1.
Definition HEY : Z := 2049.          (* SyncOp_HEY_YOU_DID_IT *)
Definition RSYNC : Z := 0.
Definition BSDIFF : Z := 1.
Definition OV_SKIP : Z := 0.
Definition OV_FRESH : Z := 1.
Definition OV_HEY : Z := 2040.

(** * Containers: the list of the file sizes *)

Definition in_range (l : list Z) (i : Z) : bool := (0 <=? i) && (i <? Z.of_nat (length l)).
(** [l[i]]; the range test comes first so that an index like 2^62 is never turned into a unary
    number when the model is executed *)
Definition nth_size (l : list Z) (i : Z) : option Z :=
  if in_range l i then nth_error l (Z.to_nat i) else None.

(** pwr.ComputeNumBlocks (Go's [/] truncates: [Z.quot]) *)
Definition num_blocks (bs size : Z) : Z := Z.quot (size + bs - 1) bs.

(** * wsync.Context.ApplySingleFull, failFast = true, over a file-system pool whose files
      exist with the sizes of the container.  [maxoff]: largest offset the file system lets an
      *os.File seek to.  Returns the number of bytes handed to the writer. *)
Definition apply_block_range (bs maxoff : Z) (tgt : list Z) (fi bi span : Z) : step Z :=
  match nth_size tgt fi with
  | None => Stop (Panic SPoolGetSize)                 (* fileSize := pool.GetSize(op.FileIndex) *)
  | Some fileSize =>
    let fixedSize := wrap64 ((span - 1) * bs) in
    let lastIndex := wrap64 (bi + (span - 1)) in
    let tooFar := wrap64 (bs * (lastIndex + 1)) >? fileSize in
    if tooFar && (bs =? 0) then Stop (Panic SDivZero)  (* lastSize = fileSize % blockSize *)
    else
      let lastSize := if tooFar then Z.rem fileSize bs else bs in
      let opSize := wrap64 (fixedSize + lastSize) in
      (* target, err := pool.GetReadSeeker(op.FileIndex): the file exists *)
      let off := wrap64 (bs * bi) in                   (* target.Seek(blockSize*op.BlockIndex, SEEK_SET) *)
      if (off <? 0) || (off >? maxoff) then Stop Err
      else (* io.CopyBuffer(output, io.LimitReader(target, opSize), buffer): a negative limit reads
              nothing, a huge one is bounded by the file; a short copy is not an error *)
        Cont (Z.max 0 (Z.min opSize (fileSize - off)))
  end.

(** patcher_rsync.go makeWop + ApplySingle *)
Definition apply_op (fx : bool) (bs maxoff : Z) (tgt : list Z) (op : syncop) : step Z :=
  if fx && (op_type op =? BLOCK_RANGE) && negb (in_range tgt (op_file op)) then Stop Err   (* validateOp *)
  else if op_type op =? BLOCK_RANGE then apply_block_range bs maxoff tgt (op_file op) (op_block op) (op_span op)
  else if op_type op =? DATA then Cont (op_data op)
  else Stop Err.                                       (* unknown sync op type *)

(** patcher_rsync.go isFullFileOp; [None] = index out of range *)
Definition is_full_file_op (bs : Z) (tgt : list Z) (outSize : Z) (op : syncop) : option bool :=
  if negb (op_type op =? BLOCK_RANGE) then Some false
  else if negb (op_block op =? 0) then Some false
  else match nth_size tgt (op_file op) with
       | None => None
       | Some tsz => if negb (tsz =? outSize) then Some false
                     else Some (op_span op =? num_blocks bs outSize)
       end.

(** "for { ReadMessage(op); if op.Type == HEY_YOU_DID_IT { break } }" : skipFile, the loop after a
    full-file op, both passes of rediff.Optimize *)
Fixpoint until_hey (fuel : nat) (s : stream) : step stream :=
  match fuel with
  | O => Stop Hang
  | S f => match read s with
           | None => Stop Err
           | Some (fs, s1) => if op_type (dec_op fs) =? HEY then Cont s1 else until_hey f s1
           end
  end.

(** the relay loop of processRsync; [w] = bytes written so far (writer.Tell) *)
Fixpoint relay (fuel : nat) (fx : bool) (bs maxoff : Z) (tgt : list Z) (w : Z) (s : stream) : step stream :=
  match fuel with
  | O => Stop Hang
  | S f => match read s with
           | None => Stop Err
           | Some (fs, s1) =>
             let op := dec_op fs in
             if op_type op =? HEY then Cont s1           (* writer.Finalize() *)
             else match apply_op fx bs maxoff tgt op with
                  | Stop r => Stop r
                  | Cont n => relay f fx bs maxoff tgt (w + n) s1
                  end
           end
  end.

(** processRsync from the start of a file (no checkpoint) *)
Definition process_rsync (fuel : nat) (fx : bool) (bs maxoff : Z) (tgt : list Z) (outSize : Z) (s : stream) : step stream :=
  match read s with
  | None => Stop Err
  | Some (fs, s1) =>
    let op := dec_op fs in
    if fx && (op_type op =? BLOCK_RANGE) && negb (in_range tgt (op_file op)) then Stop Err   (* validateOp *)
    else match is_full_file_op bs tgt outSize op with
         | None => Stop (Panic SIsFullFileOp)
         | Some true => until_hey fuel s1                (* bwl.Transpose, then read up to the end marker *)
         | Some false =>
           (* bwl.GetWriter, writer.Resume(nil); the first op is relayed, then the others *)
           match apply_op fx bs maxoff tgt op with
           | Stop r => Stop r
           | Cont n => relay fuel fx bs maxoff tgt n s1
           end
         end
  end.

(** the control loop of processBsdiff with bsdiff.IndividualPatchContext.Apply inlined;
    [oldSize] size of the old file (lrufile.Reset), [off] = ipc.OldOffset, [w] = writer.Tell *)
Fixpoint controls (fuel : nat) (oldSize off w : Z) (s : stream) : step (Z * stream) :=
  match fuel with
  | O => Stop Hang
  | S f => match read s with
           | None => Stop Err
           | Some (fs, s1) =>
             let c := dec_ctl fs in
             if c_eof c then Cont (w, s1)
             else if (off <? 0) || (off >? oldSize) then Stop Err      (* old.Seek(ipc.OldOffset, io.SeekStart) *)
             else if (0 <? c_add c) && (off + c_add c >? oldSize) then Stop Err   (* copied != addlen *)
             else
               let off1 := if 0 <? c_add c then off + c_add c else off in
               let w1 := w + Z.max 0 (c_add c) + Z.max 0 (c_copy c) in
               controls f oldSize (wrap64 (off1 + c_seek c)) w1 s1
           end
  end.

Definition process_bsdiff (fuel : nat) (fx : bool) (tgt : list Z) (outSize : Z) (s : stream) : step stream :=
  match read s with
  | None => Stop Err
  | Some (fs, s1) =>
    let ti := dec_bh fs in
    match nth_size tgt ti with
    | None => if fx then Stop Err                       (* the check added by the fix *)
              else Stop (Panic SPoolGetReadSeeker)       (* targetPool.GetReadSeeker(targetIndex) *)
    | Some oldSize =>
      (* GetWriter, Resume(nil), NewIndividualPatchContext(old, 0, writer) *)
      match controls fuel oldSize 0 0 s1 with
      | Stop r => Stop r
      | Cont (w, s2) =>
        match read s2 with                               (* the sentinel SyncOp *)
        | None => Stop Err
        | Some (fs2, s3) =>
          if negb (op_type (dec_op fs2) =? HEY) then Stop Err
          else if negb (w =? outSize) then Stop Err      (* final size check *)
          else Cont s3
        end
      end
    end
  end.

(** the Control loop of a skipped bsdiff series *)
Fixpoint until_eof (fuel : nat) (s : stream) : step stream :=
  match fuel with
  | O => Stop Hang
  | S f => match read s with
           | None => Stop Err
           | Some (fs, s1) => if c_eof (dec_ctl fs) then Cont s1 else until_eof f s1
           end
  end.

(** savingPatcher.skipFile (a series of a file that is not whitelisted).  A bsdiff series is read
    as what it is (fix "skipFile follows the series kind announced by the sync header"): one
    BsdiffHeader, Control messages up to and including the one marked eof, then a SyncOp that
    must be the sentinel; an rsync series is read op by op up to the end marker *)
Definition skip_file (fuel : nat) (kind : Z) (s : stream) : step stream :=
  if kind =? BSDIFF then
    match read s with                                    (* the BsdiffHeader (its fields are not used) *)
    | None => Stop Err
    | Some (_, s1) =>
      match until_eof fuel s1 with
      | Stop r => Stop r
      | Cont s2 =>
        match read s2 with                               (* the sentinel SyncOp *)
        | None => Stop Err
        | Some (fs2, s3) => if op_type (dec_op fs2) =? HEY then Cont s3 else Stop Err
        end
      end
    end
  else until_hey fuel s.

Definition whitelisted (wl : option (list Z)) (i : Z) : bool :=
  match wl with
  | None => true
  | Some l => existsb (Z.eqb i) l
  end.

(** savingPatcher.Resume(nil, ...) : one series per file of the new container *)
Fixpoint resume (fuel : nat) (fx : bool) (bs maxoff : Z) (tgt : list Z) (wl : option (list Z))
         (idx : Z) (srcs : list Z) (s : stream) : res :=
  match srcs with
  | [] => Ok
  | outSize :: rest =>
    match read s with
    | None => Err
    | Some (fs, s1) =>
      let sh := dec_sh fs in
      if negb (sh_file sh =? idx) then Err               (* expected file idx *)
      else if negb ((sh_type sh =? RSYNC) || (sh_type sh =? BSDIFF)) then Err   (* unknown series kind *)
      else
        let r := if negb (whitelisted wl idx) then skip_file fuel (sh_type sh) s1   (* skipFile *)
                 else if sh_type sh =? RSYNC then process_rsync fuel fx bs maxoff tgt outSize s1
                 else process_bsdiff fuel fx tgt outSize s1 in
        match r with
        | Stop x => x
        | Cont s2 => resume fuel fx bs maxoff tgt wl (idx + 1) rest s2
        end
    end
  end.

Definition patcher (fuel : nat) (fx : bool) (bs maxoff : Z) (tgt src : list Z) (wl : option (list Z)) (s : stream) : res :=
  resume fuel fx bs maxoff tgt wl 0 src s.

(** * rediff *)

(** the op loop of analyzePatch for one file *)
Fixpoint analyze_ops (fuel : nat) (fx : bool) (tgt : list Z) (s : stream) : step stream :=
  match fuel with
  | O => Stop Hang
  | S f => match read s with
           | None => Stop Err
           | Some (fs, s1) =>
             let op := dec_op fs in
             if op_type op =? BLOCK_RANGE then
               if in_range tgt (op_file op) then analyze_ops f fx tgt s1
               else if fx then Stop Err else Stop (Panic SAnalyzePatch)   (* targetContainer.Files[rop.FileIndex] *)
             else if op_type op =? DATA then analyze_ops f fx tgt s1
             else if op_type op =? HEY then Cont s1
             else Stop Err                               (* unknown sync type op *)
           end
  end.

Fixpoint analyze (fuel : nat) (fx : bool) (tgt : list Z) (idx : Z) (srcs : list Z) (s : stream) : res :=
  match srcs with
  | [] => Ok
  | _ :: rest =>
    match read s with
    | None => Err
    | Some (fs, s1) =>
      if negb (sh_file (dec_sh fs) =? idx) then Err      (* expected index idx (the series kind is not looked at) *)
      else match analyze_ops fuel fx tgt s1 with
           | Stop r => r
           | Cont s2 => analyze fuel fx tgt (idx + 1) rest s2
           end
    end
  end.

(** second pass (Optimize) over the same stream: ops are copied or thrown away up to the end
    marker; for mapped files bsdiff.Do runs on two well-formed files (outside this model: C12) *)
Fixpoint optimize_pass (fuel : nat) (idx : Z) (srcs : list Z) (s : stream) : res :=
  match srcs with
  | [] => Ok
  | _ :: rest =>
    match read s with
    | None => Err
    | Some (fs, s1) =>
      if negb (sh_file (dec_sh fs) =? idx) then Err
      else match until_hey fuel s1 with
           | Stop r => r
           | Cont s2 => optimize_pass fuel (idx + 1) rest s2
           end
    end
  end.

(** rediff.NewContext then Optimize *)
Definition rediff (fuel : nat) (fx : bool) (tgt src : list Z) (s : stream) : res :=
  match analyze fuel fx tgt 0 src s with
  | Ok => optimize_pass fuel 0 src s
  | r => r
  end.

(** * signature reader and hash grouping *)

(** one ReadMessage(hash) of ReadSignature: a hash, a clean end of file, or another error *)
Inductive hread := HGot (s : stream) | HEof | HBad.
Definition read_hash (s : stream) : hread :=
  match s with
  | [] => HEof
  | G _ :: r => HGot r
  | B :: _ => HBad
  end.

(** the inner loop "for blockIndex := 0; blockIndex < numBlocks" : [k] hashes still to read;
    a clean EOF breaks out of this loop only *)
Fixpoint read_blocks (k : nat) (n : Z) (s : stream) : step (Z * stream) :=
  match k with
  | O => Cont (n, s)
  | S k' => match read_hash s with
            | HGot s1 => read_blocks k' (n + 1) s1
            | HEof => Cont (n, s)
            | HBad => Stop Err
            end
  end.

(** ReadSignature over the files of the container; returns the number of hashes read *)
Fixpoint read_signature (bs : Z) (sizes : list Z) (n : Z) (s : stream) : step Z :=
  match sizes with
  | [] => Cont n
  | sz :: rest =>
    let nb := num_blocks bs sz in
    if nb =? 0 then
      match read_hash s with            (* empty files have one hash; a clean EOF here ends the WHOLE loop *)
      | HGot s1 => read_signature bs rest (n + 1) s1
      | HEof => Cont n
      | HBad => Stop Err
      end
    else
      match read_blocks (Z.to_nat nb) n s with
      | Stop r => Stop r
      | Cont (n1, s1) => read_signature bs rest n1 s1
      end
  end.

(** ComputeHashInfo: [n] = len(Hashes), [cap] = cap(Hashes) *)
Fixpoint hash_info (fx : bool) (bs : Z) (sizes : list Z) (hashIndex n cap : Z) : res :=
  match sizes with
  | [] => if hashIndex =? n then Ok else Err
  | sz :: rest =>
    if sz =? 0 then hash_info fx bs rest (hashIndex + 1) n cap
    else
      let nb := num_blocks bs sz in
      if fx && (hashIndex + nb >? n) then Err                     (* the check added by the fix *)
      else if hashIndex + nb >? cap then Panic SHashInfoSlice      (* Hashes[hashIndex : hashIndex+numBlocks] *)
      else hash_info fx bs rest (hashIndex + nb) n cap
  end.

(** ReadSignature then ComputeHashInfo; [capf] gives the capacity of the slice append built *)
Definition signature (fx : bool) (bs : Z) (capf : Z -> Z) (sizes : list Z) (s : stream) : res :=
  match read_signature bs sizes 0 s with
  | Stop r => r
  | Cont n => hash_info fx bs sizes 0 n (capf n)
  end.

(** * overlay Patch over an *os.File positioned at [pos]; [seekmax] / [writemax]: what the file
      system allows (lseek beyond seekmax: EINVAL; a write ending beyond writemax: EFBIG) *)
Fixpoint overlay_patch (fuel : nat) (seekmax writemax pos : Z) (s : stream) : res :=
  match fuel with
  | O => Hang
  | S f => match read s with
           | None => Err
           | Some (fs, s1) =>
             let op := dec_ov fs in
             if ov_type op =? OV_HEY then Ok
             else if ov_type op =? OV_SKIP then           (* w.Seek(op.Len, io.SeekCurrent) *)
               if ov_len op =? 0 then overlay_patch f seekmax writemax pos s1
               else if (pos + ov_len op <? 0) || (pos + ov_len op >? seekmax) then Err
               else overlay_patch f seekmax writemax (pos + ov_len op) s1
             else if ov_type op =? OV_FRESH then          (* w.Write(op.Data) *)
               if ov_data op <=? 0 then overlay_patch f seekmax writemax pos s1
               else if pos + ov_data op >? writemax then Err
               else overlay_patch f seekmax writemax (pos + ov_data op) s1
             else overlay_patch f seekmax writemax pos s1   (* any other type: ignored *)
           end
  end.
