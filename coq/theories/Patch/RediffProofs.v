(** Proofs about the rediff model (Patch/Rediff.v): whatever the iteration order of the Go
    map, the chosen old file is in range, has the maximal reused-bytes figure, and is the
    same-path file whenever that one is among the maximal; the optimized patch applies to
    the same result as the original. *)
From Wharf Require Import Base.Prelude Patch.Rediff.
From Coq Require Import Permutation ZifyBool ZifyNat.
Local Open Scope Z_scope.

(** what the selection rule promises about its choice [e] among the entries [m] *)
Definition is_choice (same : Z -> bool) (m : list (Z * Z)) (e : Z * Z) : Prop :=
  In e m /\
  (forall x, In x m -> snd x <= snd e) /\
  ((exists x, In x m /\ snd x = snd e /\ same (fst x) = true) -> same (fst e) = true).

Section Select.
  Variable same : Z -> bool.

  (** [e] is at least as good a choice as [x]: not fewer bytes, and with as many the same-path file
      is not passed over.  A choice among [m] is an entry of [m] that beats them all. *)
  Definition beats (e x : Z * Z) : Prop :=
    snd x <= snd e /\ (snd x = snd e -> same (fst x) = true -> same (fst e) = true).

  Lemma is_choice_beats m e : is_choice same m e <-> In e m /\ forall x, In x m -> beats e x.
  Proof. unfold is_choice, beats. firstorder. Qed.

  Lemma beats_refl e : beats e e.
  Proof. split; [lia|auto]. Qed.

  Lemma beats_trans c e x : beats c e -> beats e x -> beats c x.
  Proof. intros [A B] [C D]. split; [lia|]. intros E S. apply B; [lia|]. apply D; [lia|assumption]. Qed.

  Lemma better_beats e c : if better same (Some e) c then beats c e else beats e c.
  Proof.
    destruct e as [ei eb], c as [ci cb]. unfold better, beats. cbn [fst snd].
    destruct ((cb >? eb) || ((cb =? eb) && same ci)) eqn:E; (split; [lia|]); intros Eq S; destruct (same ci); lia || assumption.
  Qed.

  Definition sel_inv (cur : option (Z * Z)) (done : list (Z * Z)) : Prop :=
    match cur with
    | None => done = []
    | Some e => is_choice same done e
    end.

  Lemma select_step cur done cand :
    sel_inv cur done ->
    sel_inv (if better same cur cand then Some cand else cur) (done ++ [cand]).
  Proof.
    destruct cur as [e|]; cbn [sel_inv].
    - intros H. apply is_choice_beats in H as [Hin Hall]. pose proof (better_beats e cand) as Hb.
      destruct (better same (Some e) cand); apply is_choice_beats; (split; [apply in_or_app; cbn; auto|]);
        intros x Hx; apply in_app_or in Hx as [Hx|[<-|[]]].
      + (* the candidate replaces the current choice *) exact (beats_trans _ _ _ Hb (Hall x Hx)).
      + apply beats_refl.
      + (* the current choice stays *) apply Hall, Hx.
      + exact Hb.
    - intros ->. apply is_choice_beats. split; [left; reflexivity|]. intros x [<-|[]]. apply beats_refl.
  Qed.

  Lemma select_fold : forall l cur done,
    sel_inv cur done ->
    sel_inv (fold_left (fun cur cand => if better same cur cand then Some cand else cur) l cur) (done ++ l).
  Proof.
    induction l as [|cand l IH]; intros cur done Hinv; cbn [fold_left].
    - rewrite app_nil_r. assumption.
    - replace (done ++ cand :: l) with ((done ++ [cand]) ++ l) by (rewrite <- app_assoc; reflexivity).
      apply IH. apply select_step. assumption.
  Qed.

  Lemma select_spec ord :
    match select same ord with
    | None => ord = []
    | Some e => is_choice same ord e
    end.
  Proof. exact (select_fold ord None [] eq_refl). Qed.

  Lemma is_choice_perm m m' e : Permutation m m' -> is_choice same m e -> is_choice same m' e.
  Proof.
    intros Hp H. apply is_choice_beats in H as [Hin Hall]. apply is_choice_beats.
    split; [eapply Permutation_in; eassumption|]. intros x Hx. apply Hall.
    eapply Permutation_in; [apply Permutation_sym|]; eassumption.
  Qed.

  Lemma select_perm m ord : Permutation ord m ->
    match select same ord with None => m = [] | Some e => is_choice same m e end.
  Proof.
    intros Hp. pose proof (select_spec ord) as Hs. destruct (select same ord) as [e|].
    - exact (is_choice_perm ord m e Hp Hs).
    - subst ord. exact (Permutation_nil Hp).
  Qed.

  Lemma is_choiceb_true m e : is_choice same m e -> is_choiceb same m e = true.
  Proof.
    intros H. apply is_choice_beats in H as [Hin Hall]. unfold is_choiceb. apply andb_true_intro. split; [apply andb_true_intro; split|].
    - apply existsb_exists. exists e. split; [assumption|]. cbv beta. rewrite !Z.eqb_refl. reflexivity.
    - apply forallb_forall. intros x Hx. apply Z.leb_le, (Hall x Hx).
    - destruct (same (fst e)) eqn:Es; [apply orb_true_r|]. rewrite orb_false_r. apply negb_true_iff.
      destruct (existsb (fun x => (snd x =? snd e) && same (fst x)) m) eqn:Ex; [|reflexivity].
      apply existsb_exists in Ex. destruct Ex as (x & Hx & Hb). apply andb_prop in Hb. destruct Hb as [Hb Hs].
      rewrite <- Es. symmetry. apply (proj2 (Hall x Hx)); [lia|assumption].
  Qed.
End Select.

Section AnalyzeProofs.
  Variable bs : Z.
  Variable force : bool.
  Variable limit : Z.
  Variable tsizes : list Z.

  Definition in_range (i : Z) : Prop := 0 <= i < Z.of_nat (length tsizes).
  Definition keys_in_range (m : list (Z * Z)) : Prop := Forall (fun kv => in_range (fst kv)) m.

  Lemma fo_add_keys m k v : keys_in_range m -> in_range k -> keys_in_range (fo_add m k v).
  Proof.
    intros Hm Hk. induction Hm as [|[k' v'] m Hx Hm IH]; cbn [fo_add]; [constructor; [exact Hk|constructor]|].
    destruct (k' =? k); constructor; assumption.
  Qed.

  Lemma scan_ops_keys : forall ops s s',
    scan_ops bs tsizes ops s = Some s' -> keys_in_range (sm s) -> keys_in_range (sm s').
  Proof.
    induction ops as [|[f b span|len] ops IH]; intros s s'; cbn [scan_ops].
    - intros E; inversion E; subst. auto.
    - destruct (f <? 0) eqn:Ef; [discriminate|].
      destruct (nth_error tsizes (Z.to_nat f)) as [size|] eqn:En; [|discriminate].
      intros E Hk. apply IH in E; [assumption|]. cbn [sm]. apply fo_add_keys; [assumption|].
      assert (Hlt : (Z.to_nat f < length tsizes)%nat) by (apply nth_error_Some; congruence).
      unfold in_range. lia.
    - intros E Hk. apply IH in E; assumption.
  Qed.

  Lemma reused_keys ops m : reused bs tsizes ops = Some m -> keys_in_range m.
  Proof.
    unfold reused. destruct (scan_ops bs tsizes ops scan0) as [s|] eqn:E; [|discriminate].
    intros E'. inversion E'; subst. eapply scan_ops_keys; [eassumption|]. constructor.
  Qed.

  (** no panic on a patch whose block ranges name existing old files *)
  Lemma analyze_file_total ssize sp ops ord m :
    reused bs tsizes ops = Some m -> analyze_file bs force limit tsizes ssize sp ops ord <> None.
  Proof.
    unfold reused, analyze_file. destruct (scan_ops bs tsizes ops scan0); [|discriminate].
    intros _. destruct (skipped force ssize s); discriminate.
  Qed.

  Lemma finish_some ssize dm i b :
    finish limit tsizes ssize dm = Some (i, b) -> dm = Some (i, b) /\ ssize <= limit /\ tsize tsizes i <= limit.
  Proof.
    unfold finish. destruct (ssize >? limit) eqn:El; [discriminate|]. destruct dm as [[j c]|]; [|discriminate].
    destruct (tsize tsizes j >? limit) eqn:Et; [discriminate|]. intros [= -> ->]. repeat split; lia.
  Qed.

  Lemma fallback_some sp i b : fallback tsizes sp = Some (i, b) -> sp = Some i /\ b = 0 /\ 0 < tsize tsizes i.
  Proof.
    unfold fallback. destruct sp as [k|]; [|discriminate]. destruct (tsize tsizes k >? 0) eqn:Ek; [|discriminate].
    intros [= -> <-]. repeat split. lia.
  Qed.

  Lemma analyze_file_cases ssize sp ops ord m r :
    reused bs tsizes ops = Some m -> Permutation ord m ->
    analyze_file bs force limit tsizes ssize sp ops ord = Some r ->
    exists s, scan_ops bs tsizes ops scan0 = Some s /\ sm s = m /\
      if skipped force ssize s then r = None
      else (exists e, is_choice (same_of sp) m e /\ finish limit tsizes ssize (Some e) = r) \/
           (m = [] /\ finish limit tsizes ssize (fallback tsizes sp) = r).
  Proof.
    unfold reused, analyze_file. intros Hm Hperm.
    destruct (scan_ops bs tsizes ops scan0) as [s|]; [|discriminate]. injection Hm as <-.
    intros E. exists s. split; [reflexivity|]. split; [reflexivity|].
    destruct (skipped force ssize s); injection E as <-; [reflexivity|].
    pose proof (select_perm (same_of sp) _ ord Hperm) as Hsel.
    destruct (select (same_of sp) ord) as [e|]; [left; exists e|right]; (split; [exact Hsel|reflexivity]).
  Qed.

  Lemma analyze_choice_sound_lemma ssize sp ops ord m i b :
    reused bs tsizes ops = Some m -> Permutation ord m ->
    (forall k, sp = Some k -> in_range k) ->
    analyze_file bs force limit tsizes ssize sp ops ord = Some (Some (i, b)) ->
    in_range i /\ ssize <= limit /\ tsize tsizes i <= limit /\
    ((m <> [] /\ is_choice (same_of sp) m (i, b)) \/
     (m = [] /\ sp = Some i /\ b = 0 /\ 0 < tsize tsizes i)).
  Proof.
    intros Hm Hperm Hsp E. destruct (analyze_file_cases _ _ _ _ _ _ Hm Hperm E) as (s & _ & _ & Hc).
    destruct (skipped force ssize s); [discriminate|].
    destruct Hc as [(e & Hsel & Hc)|[Hnil Hc]]; apply finish_some in Hc; destruct Hc as (Hd & Hl1 & Hl2).
    - injection Hd as ->. split; [exact (proj1 (Forall_forall _ _) (reused_keys ops m Hm) _ (proj1 Hsel))|].
      split; [assumption|]. split; [assumption|]. left. split; [|assumption].
      intros En. rewrite En in Hsel. exact (proj1 Hsel).
    - apply fallback_some in Hd. split; [exact (Hsp i (proj1 Hd))|].
      split; [assumption|]. split; [assumption|]. right. split; assumption.
  Qed.
End AnalyzeProofs.

Section OptimizeProofs.
  Context {Content RSeries BSeries : Type}.
  Variable den_rsync : RSeries -> list Content -> option Content.   (* an rsync series applied to the old build *)
  Variable den_bsdiff : BSeries -> Content -> option Content.       (* a bsdiff series applied to one old file *)
  Variable bsdiff_do : Content -> Content -> BSeries.
  (** C12: the series bsdiff computes from (old, new), applied to old, gives new *)
  Hypothesis bsdiff_roundtrip : forall old new, den_bsdiff (bsdiff_do old new) old = Some new.

  Definition apply_series (olds : list Content) (s : series RSeries BSeries) : option Content :=
    match s with
    | Rsync r => den_rsync r olds
    | Bsdiff t b => if t <? 0 then None
                    else match nth_error olds (Z.to_nat t) with
                         | Some old => den_bsdiff b old
                         | None => None
                         end
    end.
  Definition apply_patch (olds : list Content) (p : list (series RSeries BSeries)) : list (option Content) :=
    map (apply_series olds) p.

  Definition mapping_in_range (olds : list Content) (x : RSeries * Content * option (Z * Z)) : Prop :=
    match snd x with
    | Some (t, _) => 0 <= t < Z.of_nat (length olds)
    | None => True
    end.
  (** C01: the original series of a new file, applied to the old build, gives that file *)
  Definition original_correct (olds : list Content) (x : RSeries * Content * option (Z * Z)) : Prop :=
    den_rsync (fst (fst x)) olds = Some (snd (fst x)).

  Lemma optimize_file_cases olds (x : RSeries * Content * option (Z * Z)) s :
    optimize_file bsdiff_do olds x = Some s ->
    match snd x with
    | None => s = Rsync (fst (fst x))
    | Some (t, _) => (t <? 0) = false /\
                     exists o, nth_error olds (Z.to_nat t) = Some o /\ s = Bsdiff t (bsdiff_do o (snd (fst x)))
    end.
  Proof.
    destruct x as [[orig new] [[t nb]|]]; cbn [optimize_file fst snd]; [|intros [= <-]; reflexivity].
    destruct (t <? 0); [discriminate|].
    destruct (nth_error olds (Z.to_nat t)) as [o|]; [|discriminate]. intros [= <-]. eauto.
  Qed.

  Lemma optimize_file_correct olds x :
    mapping_in_range olds x -> original_correct olds x ->
    exists s, optimize_file bsdiff_do olds x = Some s /\ apply_series olds s = Some (snd (fst x)).
  Proof.
    destruct x as [[orig new] [[t nb]|]]; unfold mapping_in_range, original_correct; cbn [optimize_file fst snd];
      intros Hr Hc; [|exists (Rsync orig); split; [reflexivity|exact Hc]].
    destruct (t <? 0) eqn:Et; [lia|].
    destruct (nth_error olds (Z.to_nat t)) as [old|] eqn:En; [|apply nth_error_None in En; lia].
    eexists. split; [reflexivity|]. cbn [apply_series]. rewrite Et, En. apply bsdiff_roundtrip.
  Qed.

  Theorem optimize_preserves_lemma olds xs :
    Forall (mapping_in_range olds) xs -> Forall (original_correct olds) xs ->
    exists opt, optimize bsdiff_do olds xs = Some opt /\
                apply_patch olds opt = apply_patch olds (map (fun x => Rsync (fst (fst x))) xs) /\
                apply_patch olds opt = map (fun x => Some (snd (fst x))) xs.
  Proof.
    intros Hr Hc.
    assert (Horig : apply_patch olds (map (fun x => Rsync (fst (fst x))) xs) = map (fun x => Some (snd (fst x))) xs).
    { unfold apply_patch. rewrite map_map. apply map_ext_Forall. exact Hc. }
    rewrite Horig. clear Horig.
    induction xs as [|x xs IH]; [exists []; repeat split|].
    inversion Hr as [|? ? Hr1 Hr2]; subst. inversion Hc as [|? ? Hc1 Hc2]; subst.
    destruct (IH Hr2 Hc2) as (opt & Eo & En & _).
    destruct (optimize_file_correct olds x Hr1 Hc1) as (s & Es & Ea).
    exists (s :: opt). cbn [optimize apply_patch map]. rewrite Es, Eo, Ea. fold (apply_patch olds opt). rewrite En.
    repeat split.
  Qed.
End OptimizeProofs.

Section Rediff.
  Context {Content RSeries BSeries : Type}.
  Variable den_rsync : RSeries -> list Content -> option Content.
  Variable den_bsdiff : BSeries -> Content -> option Content.
  Variable bsdiff_do : Content -> Content -> BSeries.
  Hypothesis bsdiff_roundtrip : forall old new, den_bsdiff (bsdiff_do old new) old = Some new.
  Variable bs : Z.
  Variable force : bool.
  Variable limit : Z.
  Variable tsizes : list Z.
  Variable olds : list Content.
  Hypothesis olds_sizes : length olds = length tsizes.

  (** a new file as both passes see it: size, old file of the same path, ops, the order in
      which the Go map happens to be iterated, the series itself, the file's content *)
  Definition file_in := (Z * option Z * list sop * list (Z * Z) * RSeries * Content)%type.

  Definition file_valid (f : file_in) : Prop :=
    let '(ssize, sp, ops, ord, orig, new) := f in
    (exists m, reused bs tsizes ops = Some m /\ Permutation ord m) /\
    (forall k, sp = Some k -> in_range tsizes k) /\
    den_rsync orig olds = Some new.

  Fixpoint analyze_all (fs : list file_in) : option (list (RSeries * Content * option (Z * Z))) :=
    match fs with
    | [] => Some []
    | (ssize, sp, ops, ord, orig, new) :: r =>
      match analyze_file bs force limit tsizes ssize sp ops ord, analyze_all r with
      | Some mapping, Some xs => Some ((orig, new, mapping) :: xs)
      | _, _ => None
      end
    end.

  (** the first pass: on valid files the analysis returns mappings that the second pass accepts *)
  Lemma analyze_all_sound fs :
    Forall file_valid fs ->
    exists xs, analyze_all fs = Some xs /\
               Forall (mapping_in_range olds) xs /\ Forall (original_correct den_rsync olds) xs /\
               map (fun x : RSeries * Content * option (Z * Z) => Some (snd (fst x))) xs = map (fun f : file_in => Some (snd f)) fs.
  Proof.
    induction 1 as [|[[[[[ssize sp] ops] ord] orig] new] fs Hf Hfs IH].
    - exists []. repeat split; constructor.
    - destruct IH as (xs & Ea & Hr & Hc & Em). destruct Hf as ((m & Hm & Hp) & Hsp & Hd).
      cbn [analyze_all]. rewrite Ea.
      destruct (analyze_file bs force limit tsizes ssize sp ops ord) as [mapping|] eqn:E.
      2:{ exfalso. eapply analyze_file_total; eassumption. }
      eexists. split; [reflexivity|]. split; [|split].
      + constructor; [|assumption]. unfold mapping_in_range. cbn [snd].
        destruct mapping as [[t b]|]; [|exact I].
        eapply analyze_choice_sound_lemma in E; try eassumption.
        destruct E as [E _]. unfold in_range in E. rewrite olds_sizes. assumption.
      + constructor; assumption.
      + cbn [map fst snd]. rewrite Em. reflexivity.
  Qed.

  Theorem rediff_preserves_lemma fs :
    Forall file_valid fs ->
    exists xs opt,
      analyze_all fs = Some xs /\ optimize bsdiff_do olds xs = Some opt /\
      apply_patch den_rsync den_bsdiff olds opt = map (fun f : file_in => Some (snd f)) fs.
  Proof.
    intros Hv. destruct (analyze_all_sound fs Hv) as (xs & Ea & Hr & Hc & Em).
    destruct (optimize_preserves_lemma den_rsync den_bsdiff bsdiff_do bsdiff_roundtrip olds xs Hr Hc) as (opt & Eo & _ & En).
    exists xs, opt. split; [assumption|]. split; [assumption|]. rewrite En. assumption.
  Qed.
End Rediff.
