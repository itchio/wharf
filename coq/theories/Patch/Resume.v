(** Model of the resumable patcher: pwr/patcher/patcher.go ([New], [Resume], the outer
    [for c.FileIndex < numFiles] loop), patcher_rsync.go ([processRsync], [isFullFileOp]),
    patcher_bsdiff.go ([processBsdiff]), the save blocks that assemble a [Checkpoint],
    wire/read_context.go ([WantSave], [PopCheckpoint], [Resume], the source's OnSave callback),
    and the bowl's work lists (bowl_overlay.go [markOverlay], [markMove], [Transpose], [Save],
    [Resume]; bowl_fresh.go [Transpose], creation = tlc [Prepare]).

    The patcher is a machine that consumes the message list one message per step.  Definitions
    only; the proofs are in Patch/ResumeStep.v, ResumeProofs.v (which also defines the writer
    contract, the crash model and [offered]), ResumeLive.v and FreshLater.v, the concrete entry
    writer of the fresh bowl (and of staged new files of the overlay bowl) in Patch/PlainWriter.v.

    What is abstract (section variables), and why:
    - payloads [D] with their length [dlen]: every offset the patcher computes depends on
      payloads only through their length.  The theorems hold for every [D]; the executable
      instance of the correspondence uses [D := N] (lengths only);
    - the old build: [range_data] is what [wsync.ApplySingle] copies for a BLOCK_RANGE op,
      [bs_data t off add copy] is what [bsdiff Apply] writes for a control when the old-file
      cursor is at [off].  The old build is not modified while patching (fresh bowl: other
      directory; overlay bowl: only at Commit), hence these are functions;
    - entry writers [w_*] (per source file, as handed out by [Bowl.GetWriter]), the raw working
      files [RAW] they act on and the logical content [C] that [Commit] makes of them
      ([w_result]).  Patch/PlainWriter.v instantiates them for [freshEntryWriter]; the overlay
      entry writer is the subject of C14 and enters the theorems through the contract
      [writer_ok] (Patch/ResumeProofs.v);
    - the source below the message reader: [emit p] says whether the source, once asked,
      hands its checkpoint out while message [p] is being read (seek source: always; a
      decompressor: at its next block boundary), [src_resume] is [ReadContext.Resume]
      (source resume + discard), characterised by C13 ([H_wire] in the theorems). *)
From Wharf Require Import Base.Prelude.

Section Resume.
  Variables D C RAW WS WCK : Type.
  Variable dlen : D -> N.

  (** containers and the old build *)
  Variable blocksize : N.
  Variables tsize ssize : N -> N.     (* sizes of the target (old) / source (new) files *)
  Variable nfiles : N.                (* len(sourceContainer.Files) *)
  Variable range_data : N -> N -> N -> D.
  Variable bs_data : N -> Z -> D -> D -> D.

  (** entry writers: GetWriter+Resume, Write, Save (flush, sync, checkpoint), Finalize+Close,
      Tell; [w_result f raw] = the content of source file [f] after Commit when its working
      file is [raw] *)
  Variable w_open  : N -> option (N * WCK) -> RAW -> option (WS * RAW).
  Variable w_write : N -> WS -> RAW -> D -> WS * RAW.
  Variable w_save  : N -> WS -> RAW -> (N * WCK) * WS * RAW.
  Variable w_final : N -> WS -> RAW -> RAW.
  Variable w_tell  : WS -> N.
  Variable w_result : N -> RAW -> option C.

  (** the bowl *)
  Variable fresh : bool.              (* fresh bowl / overlay bowl *)
  Variable is_overlay : N -> bool.    (* overlay bowl: the path of source file f exists in the old build *)
  Variable prepare : N -> RAW -> RAW. (* creation of a fresh bowl: tlc.Prepare on file f *)
  Variable copy_old : N -> RAW.       (* freshBowl.Transpose: truncating copy of old file t *)
  Variable old_content : N -> C.

  (** the source below the message reader *)
  Variable emit : nat -> bool.
  Variable src_resume : nat -> nat -> option nat.   (* reader offset, source offset -> where reading restarts *)

  Inductive msg :=
  | MHeader (fi : N) (bsdiff : bool)      (* SyncHeader *)
  | MRange (f bi span : N)                (* SyncOp BLOCK_RANGE *)
  | MData (d : D)                         (* SyncOp DATA *)
  | MEnd                                  (* SyncOp HEY_YOU_DID_IT *)
  | MBsHeader (target : N)                (* BsdiffHeader *)
  | MCtrl (add copy : D) (seek : Z)       (* bsdiff Control *)
  | MCtrlEof.                             (* bsdiff Control{eof} *)

  (** ** wire.ReadContext at message granularity *)
  Inductive savest := Idle | Waiting | HasSrc.
  Record reader := mkrd { r_pos : nat; r_st : savest; r_want : bool; r_src : nat }.

  (** ReadMessage: the source's Read runs [handleSave] first, so a pending request is served
      at the offset where this message starts; OnSave stores it and flips the state. *)
  Definition rd_read (r : reader) : reader :=
    if r_want r && emit (r_pos r)
    then mkrd (S (r_pos r)) HasSrc false (r_pos r)
    else mkrd (S (r_pos r)) (r_st r) (r_want r) (r_src r).

  Definition rd_want (r : reader) : reader :=
    match r_st r with
    | Idle => mkrd (r_pos r) Waiting true (r_src r)
    | _ => r
    end.

  Record mckpt := mkmc { mc_off : nat; mc_src : nat }.

  Definition rd_pop (r : reader) : option mckpt * reader :=
    match r_st r with
    | HasSrc => (Some (mkmc (r_pos r) (r_src r)), mkrd (r_pos r) Idle (r_want r) (r_src r))
    | _ => (None, r)
    end.

  (** ** the bowl's work lists *)
  Record bowlck := mkbk { bk_trans : list (N * N) (* source, target *); bk_ovl : list N; bk_move : list N }.
  Definition bowl0 := mkbk [] [] [].

  Definition mark_once (i : N) (l : list N) : list N :=
    if existsb (N.eqb i) l then l else l ++ [i].

  (** overlayBowl.GetWriter's marking (the fresh bowl keeps no lists) *)
  Definition mark (f : N) (b : bowlck) : bowlck :=
    if fresh then b
    else if is_overlay f then mkbk (bk_trans b) (mark_once f (bk_ovl b)) (bk_move b)
    else mkbk (bk_trans b) (bk_ovl b) (mark_once f (bk_move b)).

  Fixpoint trans_put (s t : N) (l : list (N * N)) : list (N * N) :=
    match l with
    | [] => [(s, t)]
    | (s', t') :: r => if N.eqb s' s then (s, t) :: r else (s', t') :: trans_put s t r
    end.

  Definition upd {A} (d : N -> A) (f : N) (v : A) : N -> A := fun g => if N.eqb g f then v else d g.

  (** Bowl.Transpose: the overlay bowl records (replacing an entry for the same source file),
      the fresh bowl copies right away *)
  Definition transpose (s t : N) (b : bowlck) (d : N -> RAW) : bowlck * (N -> RAW) :=
    if fresh then (b, upd d s (copy_old t))
    else (mkbk (trans_put s t (bk_trans b)) (bk_ovl b) (bk_move b), d).

  (** ** checkpoints *)
  Record ckpt := mkck {
    ck_msg : mckpt;        (* MessageCheckpoint *)
    ck_file : N;           (* FileIndex, also SyncHeader.FileIndex *)
    ck_bs : bool;          (* FileKind / SyncHeader.Type *)
    ck_bowl : bowlck;      (* BowlCheckpoint *)
    ck_woff : N;           (* WriterCheckpoint.Offset *)
    ck_wdata : WCK;        (* WriterCheckpoint.Data *)
    ck_old : Z;            (* BsdiffCheckpoint.OldOffset *)
    ck_target : N          (* BsdiffCheckpoint.TargetIndex *)
  }.

  (** ** the machine *)
  Inductive phase :=
  | PFile                                  (* top of the outer loop: the SyncHeader is next *)
  | PRsFirst                               (* processRsync from the beginning: first op is next *)
  | PRsSkip                                (* after a full-file op: read until the end marker *)
  | PRsLoop (w : WS)                       (* the relay loop, writer open *)
  | PBsHeader                              (* processBsdiff from the beginning: BsdiffHeader is next *)
  | PBsLoop (w : WS) (oldoff : Z) (target : N)
  | PBsEnd (w : WS).                       (* the sentinel SyncOp is next *)

  Record state := mkst {
    s_ph : phase;
    s_file : N;
    s_rd : reader;
    s_bowl : bowlck;
    s_disk : N -> RAW;
    s_asked : nat;                               (* ShouldSave calls so far *)
    s_offers : list (ckpt * (N -> RAW))          (* checkpoints handed to Save, newest first, each
                                                    with the disk at that moment (ghost) *)
  }.

  Inductive result :=
  | Running (s : state)
  | Finished (s : state)     (* Resume returned nil *)
  | Stopped (s : state)      (* Resume returned ErrStop *)
  | Failed.                  (* any other error *)

  (** the save consumer: [sched i] answers the i-th ShouldSave call, [stop j] says whether the
      j-th Save (counting from 1) returns AfterSaveStop *)
  Variable sched : nat -> bool.
  Variable stop : nat -> bool.

  Definition set_ph (s : state) (p : phase) : state :=
    mkst p (s_file s) (s_rd s) (s_bowl s) (s_disk s) (s_asked s) (s_offers s).
  Definition set_rd (s : state) (r : reader) : state :=
    mkst (s_ph s) (s_file s) r (s_bowl s) (s_disk s) (s_asked s) (s_offers s).
  Definition read1 (s : state) : state := set_rd s (rd_read (s_rd s)).
  Definition next_file (s : state) : state :=
    mkst PFile (s_file s + 1)%N (s_rd s) (s_bowl s) (s_disk s) (s_asked s) (s_offers s).
  Definition write1 (s : state) (w : WS) (d : D) : state * WS :=
    let f := s_file s in
    let '(w', raw') := w_write f w (s_disk s f) d in
    (mkst (s_ph s) f (s_rd s) (s_bowl s) (upd (s_disk s) f raw') (s_asked s) (s_offers s), w').
  Definition finalize1 (s : state) (w : WS) : state :=
    let f := s_file s in
    mkst (s_ph s) f (s_rd s) (s_bowl s) (upd (s_disk s) f (w_final f w (s_disk s f))) (s_asked s) (s_offers s).

  (** GetWriter + writer.Resume(c) *)
  Definition open1 (s : state) (c : option (N * WCK)) : option (state * WS) :=
    let f := s_file s in
    let b := mark f (s_bowl s) in
    match w_open f c (s_disk s f) with
    | None => None
    | Some (w, raw') => Some (mkst (s_ph s) f (s_rd s) b (upd (s_disk s) f raw') (s_asked s) (s_offers s), w)
    end.

  (** the save block at the top of both relay loops:
      [if sc.ShouldSave() { rctx.WantSave(); if mc := rctx.PopCheckpoint(); mc != nil {
         bowl.Save(); writer.Save(); sc.Save(checkpoint) -> maybe ErrStop } }] *)
  Definition save_point (bs : bool) (w : WS) (oo : Z) (t : N) (s : state) : state * WS * bool :=
    let f := s_file s in
    let asked' := S (s_asked s) in
    if sched (s_asked s) then
      match rd_pop (rd_want (s_rd s)) with
      | (Some mc, rd') =>
          let '(wc, w', raw') := w_save f w (s_disk s f) in
          let disk' := upd (s_disk s) f raw' in
          let ck := mkck mc f bs (s_bowl s) (fst wc) (snd wc) oo t in
          let offers' := (ck, disk') :: s_offers s in
          (mkst (s_ph s) f rd' (s_bowl s) disk' asked' offers', w', stop (length offers'))
      | (None, rd') => (mkst (s_ph s) f rd' (s_bowl s) (s_disk s) asked' (s_offers s), w, false)
      end
    else (mkst (s_ph s) f (s_rd s) (s_bowl s) (s_disk s) asked' (s_offers s), w, false).

  Definition num_blocks (size : N) : N := ((size + blocksize - 1) / blocksize)%N.

  (** patcher_rsync.go isFullFileOp (index bounds are C10's business) *)
  Definition is_full_file_op (file : N) (m : msg) : option N :=
    match m with
    | MRange f bi span =>
        if (N.eqb bi 0 && N.eqb (tsize f) (ssize file) && N.eqb span (num_blocks (ssize file)))%bool
        then Some f else None
    | _ => None
    end.

  (** one loop iteration: (save block,) ReadMessage, act on the message *)
  Definition step (s : state) (m : msg) : result :=
    match s_ph s with
    | PFile =>
        match m with
        | MHeader fi bs =>
            if N.eqb fi (s_file s)
            then Running (set_ph (read1 s) (if bs then PBsHeader else PRsFirst))
            else Failed
        | _ => Failed
        end
    | PRsFirst =>
        let s1 := read1 s in
        match is_full_file_op (s_file s) m with
        | Some t =>
            let '(b, d) := transpose (s_file s) t (s_bowl s1) (s_disk s1) in
            Running (mkst PRsSkip (s_file s1) (s_rd s1) b d (s_asked s1) (s_offers s1))
        | None =>
            match open1 s1 None with
            | None => Failed
            | Some (s2, w) =>
                match m with
                | MRange f bi span => let '(s3, w') := write1 s2 w (range_data f bi span) in Running (set_ph s3 (PRsLoop w'))
                | MData d => let '(s3, w') := write1 s2 w d in Running (set_ph s3 (PRsLoop w'))
                | _ => Failed                      (* makeWop: unknown sync op type *)
                end
            end
        end
    | PRsSkip =>
        match m with
        | MEnd => Running (next_file (read1 s))
        | _ => Running (read1 s)                   (* trailing ops after a full-file op are ignored *)
        end
    | PRsLoop w =>
        let '(s1, w1, stopped) := save_point false w 0%Z 0%N s in
        if stopped then Stopped s1 else
        let s2 := read1 s1 in
        match m with
        | MEnd => Running (next_file (finalize1 s2 w1))
        | MRange f bi span => let '(s3, w') := write1 s2 w1 (range_data f bi span) in Running (set_ph s3 (PRsLoop w'))
        | MData d => let '(s3, w') := write1 s2 w1 d in Running (set_ph s3 (PRsLoop w'))
        | _ => Failed
        end
    | PBsHeader =>
        match m with
        | MBsHeader t =>
            match open1 (read1 s) None with
            | None => Failed
            | Some (s2, w) => Running (set_ph s2 (PBsLoop w 0%Z t))
            end
        | _ => Failed
        end
    | PBsLoop w oo t =>
        let '(s1, w1, stopped) := save_point true w oo t s in
        if stopped then Stopped s1 else
        let s2 := read1 s1 in
        match m with
        | MCtrlEof => Running (set_ph s2 (PBsEnd w1))
        | MCtrl add copy seek =>
            (* ipc.Apply: write add(+old) and copy, then OldOffset += len(add) + seek *)
            let '(s3, w') := write1 s2 w1 (bs_data t oo add copy) in
            Running (set_ph s3 (PBsLoop w' (oo + Z.of_N (dlen add) + seek)%Z t))
        | _ => Failed
        end
    | PBsEnd w =>
        match m with
        | MEnd =>
            if N.eqb (w_tell w) (ssize (s_file s))       (* the final size check *)
            then Running (next_file (finalize1 (read1 s) w))
            else Failed
        | _ => Failed
        end
    end.

  Definition at_end (s : state) : bool :=
    match s_ph s with PFile => (nfiles <=? s_file s)%N | _ => false end.

  (** the outer loop; [ms] = the messages not yet read *)
  Fixpoint run (s : state) (ms : list msg) : result :=
    if at_end s then Finished s else
    match ms with
    | [] => Failed                                   (* unexpected EOF *)
    | m :: ms' =>
        match step s m with
        | Running s' => run s' ms'
        | r => r
        end
    end.

  (** creation of the bowl on disk [d] *)
  Definition bowl_create (d : N -> RAW) : N -> RAW :=
    if fresh then fun f => prepare f (d f) else d.

  (** patcher.New + Resume(nil) with a new bowl *)
  Definition start_state (d : N -> RAW) : state :=
    mkst PFile 0%N (mkrd 0 Idle false 0) bowl0 (bowl_create d) 0 [].

  (** patcher.New + new bowl on disk [d] + Resume(ck): rctx.Resume, bowl.Resume, then
      processRsync / processBsdiff take their "checkpoint != nil" branch *)
  Definition resume_state (ck : ckpt) (d : N -> RAW) : option state :=
    match src_resume (mc_off (ck_msg ck)) (mc_src (ck_msg ck)) with
    | None => None
    | Some p =>
        let s0 := mkst PFile (ck_file ck) (mkrd p Idle false 0)
                       (if fresh then bowl0 else ck_bowl ck) (bowl_create d) 0 [] in
        match open1 s0 (Some (ck_woff ck, ck_wdata ck)) with
        | None => None
        | Some (s1, w) =>
            Some (set_ph s1 (if ck_bs ck then PBsLoop w (ck_old ck) (ck_target ck) else PRsLoop w))
        end
    end.

  Definition run_fresh_start (d : N -> RAW) (ms : list msg) : result := run (start_state d) ms.

  Definition run_resumed (ck : ckpt) (d : N -> RAW) (ms : list msg) : result :=
    match resume_state ck d with
    | None => Failed
    | Some s => run s (skipn (r_pos (s_rd s)) ms)
    end.

  (** ** Commit, as far as the content of each source file goes (paths, renames and their
      ordering are C02's subject): a staged new file is moved, a second move of the same file
      fails because the first one consumed it *)
  Fixpoint nodup_n (l : list N) : bool :=
    match l with [] => true | x :: r => negb (existsb (N.eqb x) r) && nodup_n r end.

  Fixpoint trans_find (f : N) (l : list (N * N)) : option N :=
    match l with [] => None | (s, t) :: r => if N.eqb s f then Some t else trans_find f r end.

  Definition file_result (s : state) (f : N) : option C :=
    if fresh then w_result f (s_disk s f)
    else match trans_find f (bk_trans (s_bowl s)) with
         | Some t => Some (old_content t)
         | None =>
             if (existsb (N.eqb f) (bk_ovl (s_bowl s)) || existsb (N.eqb f) (bk_move (s_bowl s)))%bool
             then w_result f (s_disk s f) else None
         end.

  Definition commit (s : state) : option (list (option C)) :=
    if (fresh || nodup_n (bk_move (s_bowl s)))%bool      (* freshBowl.Commit has nothing to do *)
    then Some (map (fun i => file_result s (N.of_nat i)) (seq 0 (N.to_nat nfiles)))
    else None.

  (** Resume then Commit *)
  Definition outcome_of (r : result) : option (list (option C)) :=
    match r with Finished s => commit s | _ => None end.

End Resume.

Arguments MHeader {D}. Arguments MRange {D}. Arguments MData {D}. Arguments MEnd {D}.
Arguments MBsHeader {D}. Arguments MCtrl {D}. Arguments MCtrlEof {D}.
