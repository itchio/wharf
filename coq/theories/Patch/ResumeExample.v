(** A concrete instance for the C03 theorems (non-vacuity, Properties/C03.v): block size 4, one
    old file, one new file patched by four ops; the run that always saves offers two
    checkpoints; a crash disk that lost the tail of the output file and has garbage after the
    checkpointed offset. *)
From Wharf Require Import Base.Prelude Patch.Resume Patch.PlainWriter.

Definition ex_old (t : N) : list byte := if N.eqb t 0 then [1; 2; 3; 4; 5; 6]%N else [].
Definition ex_tsize (t : N) : N := if N.eqb t 0 then 6%N else 0%N.
Definition ex_ssize (f : N) : N := if N.eqb f 0 then 9%N else 0%N.
Definition ex_range (f bi span : N) : list byte :=
  firstn (N.to_nat (span * 4)) (skipn (N.to_nat (bi * 4)) (ex_old f)).
Definition ex_bs (t : N) (off : Z) (add copy : list byte) : list byte := add ++ copy.
Definition ex_src_resume (off src : nat) : option nat := if Nat.leb src off then Some off else None.
Definition ex_msgs : list (msg (list byte)) :=
  [MHeader 0 false; MData [9; 9]%N; MRange 0 0 1; MData [7]%N; MRange 0 1 1; MEnd].
Definition ex_d0 : N -> list byte := fun _ => [].
Definition ex_new : list byte := [9; 9; 1; 2; 3; 4; 7; 5; 6]%N.

Definition ex_run (sched stop : nat -> bool) :=
  fresh_run 4 ex_tsize ex_ssize 1 ex_old ex_range ex_bs (fun _ => false) (fun _ => true) sched stop.

Definition ex_first := ex_run (fun _ => true) (fun _ => false) (fresh_start ex_ssize ex_d0) ex_msgs.

Definition ex_offer : ckpt unit * (N -> list byte) :=
  match ex_first with
  | Finished _ _ _ s => nth 1 (s_offers _ _ _ s) (mkck unit (mkmc 0 0) 0 false bowl0 0 tt 0%Z 0, ex_d0)
  | _ => (mkck unit (mkmc 0 0) 0 false bowl0 0 tt 0%Z 0, ex_d0)
  end.

Definition ex_crash : N -> list byte := fun g => if N.eqb g 0 then [9; 9; 1; 2; 3; 4; 42; 42]%N else [77]%N.

Lemma ex_hold : forall t, length (ex_old t) = N.to_nat (ex_tsize t).
Proof. intros t. unfold ex_old, ex_tsize. destruct (N.eqb t 0); reflexivity. Qed.

Lemma ex_wire : forall off src, src <= off -> ex_src_resume off src = Some off.
Proof. intros off src H. unfold ex_src_resume. apply Nat.leb_le in H. now rewrite H. Qed.
