(** Schema-level model of protobuf (proto3) marshalling of the four message types that are
    interleaved in the per-file part of a wharf patch, and of what happens when a frame written
    as one type is unmarshalled as another (DESIGN section 5, Protobuf re-interpretation).

    Source of the tables: repo/pwr/pwr.proto and repo/bsdiff/bsdiff.proto

      SyncHeader   { Type type = 1 (enum, varint);  int64 fileIndex = 16 (varint) }
      SyncOp       { Type type = 1 (enum, varint);  int64 fileIndex = 2;  int64 blockIndex = 3;
                     int64 blockSpan = 4 (varints);  bytes data = 5 (length-delimited) }
      BsdiffHeader { int64 targetIndex = 1 (varint) }
      Control      { bytes add = 1;  bytes copy = 2 (length-delimited);  int64 seek = 3 (varint);
                     bool eof = 4 (varint) }

    proto3 marshalling emits only the fields that differ from their zero value, in field-number
    order; unmarshalling as T' keeps, per field of T', the LAST wire field with the same number
    AND the same wire type, everything else (unknown number, or known number with another wire
    type) is skipped as an unknown field.  A varint carries an unsigned 64-bit number:
    int64 fields are its two's complement reading, enum fields the two's complement reading of
    its low 32 bits (Go: int32(v)), bool fields [v <> 0].

    The table is validated against golang/protobuf on every run by the correspondence group
    [reinterp] of C17 (marshal as T, unmarshal as each T', random field values).
    Definitions only. *)
From Wharf Require Import Base.Prelude.
Local Open Scope Z_scope.

Inductive wval := WVarint (u : Z) (* 0 <= u < 2^64 *) | WBytes (b : list byte).
Definition wfield := (Z * wval)%type.          (* field number, value (which fixes the wire type) *)

Definition u64_of_i64 (v : Z) : Z := v mod 2^64.
Definition i64_of_u64 (u : Z) : Z := if u <? 2^63 then u else u - 2^64.
Definition i32_of_u64 (u : Z) : Z := let w := u mod 2^32 in if w <? 2^31 then w else w - 2^32.
Definition bool_of_u64 (u : Z) : bool := negb (u =? 0).

(** the four message types *)
Record sync_header := mkSH { sh_type : Z; sh_file : Z }.
Record sync_op := mkSO { so_type : Z; so_file : Z; so_block : Z; so_span : Z; so_data : list byte }.
Record bsdiff_header := mkBH { bh_target : Z }.
Record control := mkCT { ct_add : list byte; ct_copy : list byte; ct_seek : Z; ct_eof : bool }.

Definition HEY : Z := 2049.     (* SyncOp_HEY_YOU_DID_IT *)
Definition T_BLOCK_RANGE : Z := 0.
Definition T_DATA : Z := 1.
Definition SH_RSYNC : Z := 0.
Definition SH_BSDIFF : Z := 1.

(** marshalling: non-default fields, ascending field numbers *)
Definition f_varint (n v : Z) : list wfield := if v =? 0 then [] else [(n, WVarint (u64_of_i64 v))].
Definition f_bytes (n : Z) (b : list byte) : list wfield := match b with [] => [] | _ => [(n, WBytes b)] end.
Definition f_bool (n : Z) (b : bool) : list wfield := if b then [(n, WVarint 1)] else [].

Definition fields_sh (m : sync_header) : list wfield := f_varint 1 (sh_type m) ++ f_varint 16 (sh_file m).
Definition fields_so (m : sync_op) : list wfield :=
  f_varint 1 (so_type m) ++ f_varint 2 (so_file m) ++ f_varint 3 (so_block m) ++ f_varint 4 (so_span m)
  ++ f_bytes 5 (so_data m).
Definition fields_bh (m : bsdiff_header) : list wfield := f_varint 1 (bh_target m).
Definition fields_ct (m : control) : list wfield :=
  f_bytes 1 (ct_add m) ++ f_bytes 2 (ct_copy m) ++ f_varint 3 (ct_seek m) ++ f_bool 4 (ct_eof m).

(** unmarshalling: last field with matching number and wire type, else the zero value *)
Fixpoint get_varint (n : Z) (fs : list wfield) (acc : Z) : Z :=
  match fs with
  | [] => acc
  | (k, WVarint u) :: r => get_varint n r (if k =? n then u else acc)
  | _ :: r => get_varint n r acc
  end.
Fixpoint get_bytes (n : Z) (fs : list wfield) (acc : list byte) : list byte :=
  match fs with
  | [] => acc
  | (k, WBytes b) :: r => get_bytes n r (if k =? n then b else acc)
  | _ :: r => get_bytes n r acc
  end.

Definition dec_sh (fs : list wfield) : sync_header :=
  mkSH (i32_of_u64 (get_varint 1 fs 0)) (i64_of_u64 (get_varint 16 fs 0)).
Definition dec_so (fs : list wfield) : sync_op :=
  mkSO (i32_of_u64 (get_varint 1 fs 0)) (i64_of_u64 (get_varint 2 fs 0)) (i64_of_u64 (get_varint 3 fs 0))
       (i64_of_u64 (get_varint 4 fs 0)) (get_bytes 5 fs []).
Definition dec_bh (fs : list wfield) : bsdiff_header := mkBH (i64_of_u64 (get_varint 1 fs 0)).
Definition dec_ct (fs : list wfield) : control :=
  mkCT (get_bytes 1 fs []) (get_bytes 2 fs []) (i64_of_u64 (get_varint 3 fs 0)) (bool_of_u64 (get_varint 4 fs 0)).

(** a frame of the per-file part of a patch, by the type it was WRITTEN as *)
Inductive pmsg :=
| MSH (m : sync_header) | MSO (m : sync_op) | MBH (m : bsdiff_header) | MCT (m : control).

Definition fields_of (m : pmsg) : list wfield :=
  match m with MSH x => fields_sh x | MSO x => fields_so x | MBH x => fields_bh x | MCT x => fields_ct x end.

(** the re-interpretation table: read a frame as the type the reader's state expects *)
Definition as_sh (m : pmsg) : sync_header := dec_sh (fields_of m).
Definition as_so (m : pmsg) : sync_op := dec_so (fields_of m).
Definition as_bh (m : pmsg) : bsdiff_header := dec_bh (fields_of m).
Definition as_ct (m : pmsg) : control := dec_ct (fields_of m).

(** value ranges of well-formed messages (what Go's typed fields can hold) *)
Definition i64_ok (v : Z) : Prop := - 2^63 <= v < 2^63.
Definition i32_ok (v : Z) : Prop := - 2^31 <= v < 2^31.
Definition pmsg_ok (m : pmsg) : Prop :=
  match m with
  | MSH x => i32_ok (sh_type x) /\ i64_ok (sh_file x)
  | MSO x => i32_ok (so_type x) /\ i64_ok (so_file x) /\ i64_ok (so_block x) /\ i64_ok (so_span x)
  | MBH x => i64_ok (bh_target x)
  | MCT x => i64_ok (ct_seek x)
  end.

(** boolean equalities used by the executable comparators *)
Definition sh_eqb (a b : sync_header) : bool := (sh_type a =? sh_type b) && (sh_file a =? sh_file b).
Definition so_eqb (a b : sync_op) : bool :=
  (so_type a =? so_type b) && (so_file a =? so_file b) && (so_block a =? so_block b) && (so_span a =? so_span b)
  && nlist_eqb (so_data a) (so_data b).
Definition bh_eqb (a b : bsdiff_header) : bool := bh_target a =? bh_target b.
Definition ct_eqb (a b : control) : bool :=
  nlist_eqb (ct_add a) (ct_add b) && nlist_eqb (ct_copy a) (ct_copy b) && (ct_seek a =? ct_seek b) && Bool.eqb (ct_eof a) (ct_eof b).
Definition pmsg_eqb (a b : pmsg) : bool :=
  match a, b with
  | MSH x, MSH y => sh_eqb x y | MSO x, MSO y => so_eqb x y | MBH x, MBH y => bh_eqb x y | MCT x, MCT y => ct_eqb x y
  | _, _ => false
  end.
