(** Proofs about the resumable patcher of Patch/Resume.v, on top of Patch/ResumeStep.v (what one
    step does to the reader and the checkpoint).  The notions the C03 statements are written in
    are defined here, inside [Section Proofs]: the writer contract [writer_ok], [sized_run],
    the crash model [crash_ok], and [offered].

    The entry writers enter through a contract [writer_ok] stated with ghost notions:
    [w_abs f w raw] the logical content written so far into source file [f], [winv] the
    writer's invariant, [raw_ok] what a working file may look like before a writer is opened
    on it from scratch, [covers f c raw raw'] "raw' agrees with raw on the region checkpoint c
    covers" (the crash model: arbitrary elsewhere), [finished f raw c] "raw is the completed
    working file of f and Commit turns it into c".  Patch/PlainWriter.v proves the contract
    for the fresh bowl's entry writer; for the overlay entry writer it is C14's
    "sessions" statement and stays a hypothesis here.

    Main results: [run_sim] (any run, whatever its save consumer does, stays related to the
    uninterrupted run and every checkpoint it offers is good), [offered_good], [sim_final_ends]
    and [resumed_run_equiv], which asks of the reader only that it can resume from what a
    reader pops ([H_popped]).

    Lower case ([s], [w], [sf]) is the run under study - any save consumer, possibly resumed;
    upper case ([S], [W], [Sf]) is the uninterrupted run. *)
From Wharf Require Import Base.Prelude Base.ListLemmas Patch.Resume Patch.ResumeStep.

Section Proofs.
  Variables D C RAW WS WCK : Type.
  Variable dlen : D -> N.
  Variable blocksize : N.
  Variables tsize ssize : N -> N.
  Variable nfiles : N.
  Variable range_data : N -> N -> N -> D.
  Variable bs_data : N -> Z -> D -> D -> D.
  Variable w_open  : N -> option (N * WCK) -> RAW -> option (WS * RAW).
  Variable w_write : N -> WS -> RAW -> D -> WS * RAW.
  Variable w_save  : N -> WS -> RAW -> (N * WCK) * WS * RAW.
  Variable w_final : N -> WS -> RAW -> RAW.
  Variable w_tell  : WS -> N.
  Variable w_result : N -> RAW -> option C.
  Variable fresh : bool.
  Variable is_overlay : N -> bool.
  Variable prepare : N -> RAW -> RAW.
  Variable copy_old : N -> RAW.
  Variable old_content : N -> C.
  Variable emit : nat -> bool.
  Variable src_resume : nat -> nat -> option nat.

  Variable capp : C -> D -> C.
  Variable cnil : C.
  Variable w_abs : N -> WS -> RAW -> C.
  Variable winv : N -> WS -> RAW -> Prop.
  Variable raw_ok : N -> RAW -> Prop.
  Variable covers : N -> N * WCK -> RAW -> RAW -> Prop.
  Variable finished : N -> RAW -> C -> Prop.

  Record writer_ok : Prop := {
    W_open_new : forall f raw, raw_ok f raw ->
      exists w raw', w_open f None raw = Some (w, raw') /\ winv f w raw' /\ w_abs f w raw' = cnil /\ w_tell w = 0%N;
    W_write : forall f w raw d, winv f w raw ->
      winv f (fst (w_write f w raw d)) (snd (w_write f w raw d)) /\
      w_abs f (fst (w_write f w raw d)) (snd (w_write f w raw d)) = capp (w_abs f w raw) d /\
      w_tell (fst (w_write f w raw d)) = (w_tell w + dlen d)%N;
    W_save : forall f w raw, winv f w raw ->
      let '(c, w', raw') := w_save f w raw in
      winv f w' raw' /\ w_abs f w' raw' = w_abs f w raw /\ w_tell w' = w_tell w /\ fst c = w_tell w /\
      forall raw2, covers f c raw' raw2 -> raw_ok f raw2 ->
        exists w2 raw2', w_open f (Some c) raw2 = Some (w2, raw2') /\ winv f w2 raw2' /\
                         w_abs f w2 raw2' = w_abs f w raw /\ w_tell w2 = w_tell w;
    W_final : forall f w raw, winv f w raw -> w_tell w = ssize f -> finished f (w_final f w raw) (w_abs f w raw);
    W_result : forall f raw c, finished f raw c -> w_result f raw = Some c;
    (* creation of a fresh bowl (tlc.Prepare) and its Transpose *)
    P_ok : forall f raw, fresh = true -> raw_ok f (prepare f raw);
    P_covers : forall f c raw raw2, fresh = true -> covers f c raw raw2 -> (fst c <= ssize f)%N -> covers f c raw (prepare f raw2);
    P_fin : forall f raw c, fresh = true -> finished f raw c -> prepare f raw = raw;
    P_copy : forall f t, fresh = true -> tsize t = ssize f -> finished f (copy_old t) (old_content t)
  }.

  Hypothesis HW : writer_ok.
  (** [ReadContext.Resume] restarts exactly at the reader offset of [ck] (the next unread
      message).  The simulation is conditional on it, checkpoint by checkpoint; [offered_good]
      supplies it for the offered ones *)
  Definition resumes (ck : ckpt WCK) : Prop :=
    src_resume (mc_off (ck_msg _ ck)) (mc_src (ck_msg _ ck)) = Some (mc_off (ck_msg _ ck)).

  (** the reader hypothesis, in the form the C03 statements spell out ([H_wire]: more than C13
      gives, see Compose/ResumeWireInst.v) and in the form the proofs need ([H_popped]: only what
      a reader of a patch of [len] messages can pop; what C13 gives) *)
  Definition H_wire : Prop := forall off src, src <= off -> src_resume off src = Some off.

  Definition H_popped (len : nat) : Prop :=
    forall mc, popped emit len mc -> src_resume (mc_off mc) (mc_src mc) = Some (mc_off mc).

  Lemma H_wire_popped : forall len, H_wire -> H_popped len.
  Proof. intros len H mc (Hlt & _). apply H. lia. Qed.

  Local Notation state := (state RAW WS WCK).
  Local Notation result := (result RAW WS WCK).
  Local Notation stepG := (step D RAW WS WCK dlen blocksize tsize ssize range_data bs_data w_open w_write w_save w_final w_tell fresh is_overlay copy_old emit).
  Local Notation runG := (run D RAW WS WCK dlen blocksize tsize ssize nfiles range_data bs_data w_open w_write w_save w_final w_tell fresh is_overlay copy_old emit).
  Local Notation never := (fun _ : nat => false).
  (** the uninterrupted application: a consumer that never asks to save *)
  Local Notation stepI := (stepG never never).
  Local Notation runI := (runG never never).
  Local Notation resumeG := (resume_state RAW WS WCK w_open fresh is_overlay prepare src_resume).
  Local Notation markG := (mark fresh is_overlay).
  Local Notation createG := (bowl_create RAW fresh prepare).
  Local Notation commitG := (commit C RAW WS WCK nfiles w_result fresh old_content).
  Local Notation at_endG := (at_end RAW WS WCK nfiles).

  Local Notation sfile := (s_file RAW WS WCK).
  Local Notation sdisk := (s_disk RAW WS WCK).
  Local Notation sbowl := (s_bowl RAW WS WCK).
  Local Notation srd := (s_rd RAW WS WCK).
  Local Notation sph := (s_ph RAW WS WCK).
  Local Notation soffers := (s_offers RAW WS WCK).

  (** does Commit look at the working file of [g]? *)
  Definition uses_disk (b : bowlck) (g : N) : bool :=
    (fresh || existsb (N.eqb g) (bk_ovl b) || existsb (N.eqb g) (bk_move b))%bool.

  Definition marked (b : bowlck) (g : N) : bool :=
    (existsb (N.eqb g) (bk_ovl b) || existsb (N.eqb g) (bk_move b))%bool.

  (** [s] and [S] stand before the same message of the same patch with the same work lists;
      the files below [lo] are completed on both disks, those from [hi] on are untouched
      (and unmarked); what lies between - at most the current file - is in progress *)
  Record frame (lo hi : N) (s S : state) : Prop := {
    F_file : sfile s = sfile S;
    F_pos : r_pos (srd s) = r_pos (srd S);
    F_bowl : sbowl s = sbowl S;
    F_done : forall g, (g < lo)%N -> uses_disk (sbowl s) g = true ->
               exists c, finished g (sdisk s g) c /\ finished g (sdisk S g) c;
    F_later : forall g, (hi <= g)%N -> raw_ok g (sdisk s g) /\ raw_ok g (sdisk S g);
    F_fresh : fresh = true -> sbowl s = bowl0;
    F_marks : forall g, marked (sbowl s) g = true -> (g < hi)%N
  }.

  Definition wrel (f : N) (w1 : WS) (r1 : RAW) (w2 : WS) (r2 : RAW) : Prop :=
    winv f w1 r1 /\ winv f w2 r2 /\ w_abs f w1 r1 = w_abs f w2 r2 /\ w_tell w1 = w_tell w2.

  (** in the middle of the current file, with open writers [w] and [W] that have written the
      same content; the file has been marked in the work lists *)
  Definition Rw (s : state) (w : WS) (S : state) (W : WS) : Prop :=
    wrel (sfile s) w (sdisk s (sfile s)) W (sdisk S (sfile s)) /\
    markG (sfile s) (sbowl s) = sbowl s /\
    frame (sfile s) (sfile s + 1) s S.

  Definition ph_writer (p : phase WS) : option WS :=
    match p with PRsLoop _ w | PBsLoop _ w _ _ | PBsEnd _ w => Some w | _ => None end.

  Definition same_shape (p1 p2 : phase WS) : Prop :=
    match p1, p2 with
    | PRsLoop _ _, PRsLoop _ _ | PBsEnd _ _, PBsEnd _ _ => True
    | PBsLoop _ _ o1 t1, PBsLoop _ _ o2 t2 => o1 = o2 /\ t1 = t2
    | _, _ => False
    end.

  (** the files below [done_below p f] are completed, those from [first_later p f] on are
      untouched, when the current file is [f] and no writer is open in phase [p] *)
  Definition done_below (p : phase WS) (f : N) : N :=
    match p with PRsSkip _ => (f + 1)%N | _ => f end.
  Definition first_later (p : phase WS) (f : N) : N :=
    match p with PFile _ | PRsFirst _ | PBsHeader _ => f | _ => (f + 1)%N end.

  (** [None, None]: between two files ([PFile], and [PRsSkip] once the current file has been
      transposed), or at the beginning of one that nobody has opened yet *)
  Definition R (s S : state) : Prop :=
    match ph_writer (sph s), ph_writer (sph S) with
    | Some w, Some W => same_shape (sph s) (sph S) /\ Rw s w S W
    | None, None => sph S = sph s /\ frame (done_below (sph s) (sfile s)) (first_later (sph s) (sfile s)) s S
    | _, _ => False
    end.

  (** ** well-formedness of the patch with respect to the declared sizes: no series writes
      beyond the size of its file and an rsync series ends exactly at it (the bsdiff series is
      checked by the patcher itself) *)
  Definition sized_step (S : state) (m : msg D) : Prop :=
    match s_ph _ _ _ S with
    | PRsLoop _ w => (w_tell w <= ssize (s_file _ _ _ S))%N /\ (m = MEnd -> w_tell w = ssize (s_file _ _ _ S))
    | PBsLoop _ w _ _ => (w_tell w <= ssize (s_file _ _ _ S))%N
    | PBsEnd _ w => (w_tell w <= ssize (s_file _ _ _ S))%N
    | _ => True
    end.

  Fixpoint sized_run (S : state) (ms : list (msg D)) : Prop :=
    if at_endG S then True else
    match ms with
    | [] => True
    | m :: ms' => sized_step S m /\ match stepI S m with Running _ _ _ S' => sized_run S' ms' | _ => True end
    end.

  (** ** the crash model: [d'] is a possible disk after a crash that happened when the
      checkpoint [ck] had been taken on disk [d] - equal to [d] on the completed files Commit
      will look at, agreeing with [d] on the covered region of the in-progress file, arbitrary
      (within what a working file may look like once the new bowl is created) elsewhere *)
  Definition crash_ok (ck : ckpt WCK) (d d' : N -> RAW) : Prop :=
    covers (ck_file _ ck) (ck_woff _ ck, ck_wdata _ ck) (d (ck_file _ ck)) (d' (ck_file _ ck)) /\
    (forall g, (g < ck_file _ ck)%N -> uses_disk (ck_bowl _ ck) g = true -> d' g = d g) /\
    (forall g, (ck_file _ ck <= g)%N -> raw_ok g (createG d' g)).

  Lemma upd_same : forall A (d : N -> A) f v, upd d f v f = v.
  Proof. intros. unfold upd. now rewrite N.eqb_refl. Qed.

  Lemma upd_other : forall A (d : N -> A) f v g, g <> f -> upd d f v g = d g.
  Proof. intros. unfold upd. destruct (N.eqb_spec g f); congruence. Qed.

  Lemma upd_outside : forall A (d : N -> A) f v g, (g < f \/ f + 1 <= g)%N -> upd d f v g = d g.
  Proof. intros. apply upd_other. lia. Qed.

  Lemma existsb_app1 : forall (i g : N) l, existsb (N.eqb g) (l ++ [i]) = (existsb (N.eqb g) l || N.eqb g i)%bool.
  Proof. intros. rewrite existsb_app. simpl. now rewrite orb_false_r. Qed.

  Lemma mark_once_in : forall i l, existsb (N.eqb i) (mark_once i l) = true.
  Proof.
    intros. unfold mark_once. destruct (existsb (N.eqb i) l) eqn:E; auto.
    rewrite existsb_app1, N.eqb_refl. apply orb_true_r.
  Qed.

  Lemma mark_once_other : forall i g l, g <> i -> existsb (N.eqb g) (mark_once i l) = existsb (N.eqb g) l.
  Proof.
    intros. unfold mark_once. destruct (existsb (N.eqb i) l); auto.
    rewrite existsb_app1. destruct (N.eqb_spec g i); try congruence. apply orb_false_r.
  Qed.

  Lemma mark_once_idem : forall i l, existsb (N.eqb i) l = true -> mark_once i l = l.
  Proof. intros. unfold mark_once. now rewrite H. Qed.

  Lemma mark_idem : forall f b, markG f (markG f b) = markG f b.
  Proof.
    intros. unfold mark. destruct fresh; auto. destruct (is_overlay f); simpl; f_equal; apply mark_once_idem, mark_once_in.
  Qed.

  Lemma mark_trans : forall f b, bk_trans (markG f b) = bk_trans b.
  Proof. intros. unfold mark. destruct fresh; auto. destruct (is_overlay f); auto. Qed.

  Lemma mark_fresh : forall f b, fresh = true -> markG f b = b.
  Proof. intros. unfold mark. now rewrite H. Qed.

  Lemma uses_disk_marked : forall b g, uses_disk b g = (fresh || marked b g)%bool.
  Proof. intros. unfold uses_disk, marked. now rewrite orb_assoc. Qed.

  Lemma marked_mark_other : forall f g b, g <> f -> marked (markG f b) g = marked b g.
  Proof.
    intros. unfold marked, mark. destruct fresh; auto. destruct (is_overlay f); simpl; now rewrite mark_once_other.
  Qed.

  Lemma fresh_cases : fresh = true \/ fresh = false.
  Proof. destruct fresh; auto. Qed.

  Lemma create_covers : forall d f c raw, covers f c raw (d f) -> (fst c <= ssize f)%N -> covers f c raw (createG d f).
  Proof. intros d f c raw H Hsz. unfold bowl_create. destruct fresh eqn:E; [apply (P_covers HW); auto|exact H]. Qed.

  Lemma create_finished : forall d g c, finished g (d g) c -> createG d g = d g.
  Proof. intros d g c H. unfold bowl_create. destruct fresh eqn:E; [exact (P_fin HW _ _ _ E H)|reflexivity]. Qed.

  Lemma finalize1_eq : forall (s : state) w,
    finalize1 _ _ _ w_final s w =
    mkst _ _ _ (sph s) (sfile s) (srd s) (sbowl s)
         (upd (sdisk s) (sfile s) (w_final (sfile s) w (sdisk s (sfile s)))) (s_asked _ _ _ s) (soffers s).
  Proof. reflexivity. Qed.

  Lemma set_ph_offers : forall (s : state) p, soffers (set_ph _ _ _ s p) = soffers s.
  Proof. reflexivity. Qed.

  Lemma full_file_op_spec : forall f (m : msg D) t,
    is_full_file_op D blocksize tsize ssize f m = Some t -> tsize t = ssize f.
  Proof.
    intros f m t. destruct m; simpl; try discriminate.
    destruct (N.eqb bi 0 && N.eqb (tsize f0) (ssize f) && N.eqb span (num_blocks blocksize (ssize f)))%bool eqn:E; try discriminate.
    intros H; inversion H; subst. apply andb_prop in E. destruct E as (E & _). apply andb_prop in E. destruct E as (_ & E).
    now apply N.eqb_eq.
  Qed.

  (** nothing in a frame depends on the phase, on the count of questions or on the offers, and
      the disks may change between [lo] and [hi] *)
  Lemma frame_change : forall lo hi s S s' S', frame lo hi s S ->
    sfile s' = sfile s -> sbowl s' = sbowl s -> r_pos (srd s') = r_pos (srd s) ->
    sfile S' = sfile S -> sbowl S' = sbowl S -> r_pos (srd S') = r_pos (srd S) ->
    (forall g, (g < lo \/ hi <= g)%N -> sdisk s' g = sdisk s g /\ sdisk S' g = sdisk S g) ->
    frame lo hi s' S'.
  Proof.
    intros lo hi s S s' S' [Hf Hp Hb Hd Hl Hfr Hm] E1 E2 E3 E4 E5 E6 Hdisk.
    constructor; rewrite ?E1, ?E2, ?E3, ?E4, ?E5, ?E6; auto.
    - intros g Hg Hu. destruct (Hdisk g (or_introl Hg)) as (-> & ->). auto.
    - intros g Hg. destruct (Hdisk g (or_intror Hg)) as (-> & ->). auto.
  Qed.

  Lemma frame_read : forall lo hi s S, frame lo hi s S -> frame lo hi (read1 _ _ _ emit s) (read1 _ _ _ emit S).
  Proof.
    intros lo hi s S [Hf Hp Hb Hd Hl Hfr Hm]. constructor; simpl; auto.
    now rewrite !rd_read_pos, Hp.
  Qed.

  Lemma frame_next : forall lo hi s S, frame lo hi s S -> frame lo hi (next_file _ _ _ s) (next_file _ _ _ S).
  Proof. intros lo hi s S [Hf Hp Hb Hd Hl Hfr Hm]. constructor; simpl; auto. congruence. Qed.

  Lemma R_frame : forall s S, R s S -> frame (done_below (sph s) (sfile s)) (first_later (sph s) (sfile s)) s S.
  Proof.
    intros s S. unfold R. destruct (sph s), (sph S); simpl; try contradiction; intros (_ & H); apply H.
  Qed.

  Lemma R_intro : forall s S, ph_writer (sph s) = None -> sph S = sph s ->
    frame (done_below (sph s) (sfile s)) (first_later (sph s) (sfile s)) s S -> R s S.
  Proof. intros s S Hp E HF. unfold R. rewrite E, Hp. auto. Qed.

  Lemma Rw_R : forall s S w W, Rw s w S W -> ph_writer (sph s) = Some w -> ph_writer (sph S) = Some W ->
    same_shape (sph s) (sph S) -> R s S.
  Proof. intros s S w W H H1 H2 Hsh. unfold R. rewrite H1, H2. auto. Qed.

  Lemma Rw_to_R : forall s S w W p1 p2, Rw s w S W -> ph_writer p1 = Some w -> ph_writer p2 = Some W -> same_shape p1 p2 ->
    R (set_ph _ _ _ s p1) (set_ph _ _ _ S p2).
  Proof.
    intros s S w W p1 p2 (Hw & Hc & HF) H1 H2 Hsh. apply (Rw_R _ _ w W); auto.
    split; [exact Hw|]. split; [exact Hc|]. apply (frame_change _ _ _ _ _ _ HF); auto.
  Qed.

  Definition with_writer (p : phase WS) (W : WS) : phase WS :=
    match p with
    | PRsLoop _ _ => PRsLoop _ W
    | PBsLoop _ _ oo t => PBsLoop _ W oo t
    | PBsEnd _ _ => PBsEnd _ W
    | p => p
    end.

  Lemma shape_writer : forall p P W, same_shape p P -> ph_writer P = Some W -> P = with_writer p W.
  Proof. intros [] [] W; simpl; try contradiction; intros H [= <-]; try destruct H; subst; reflexivity. Qed.

  Lemma R_other : forall s S, R s S ->
    match ph_writer (sph s) with
    | Some w => exists W, sph S = with_writer (sph s) W /\ Rw s w S W
    | None => sph S = sph s
    end.
  Proof.
    intros s S H. unfold R in H. destruct (ph_writer (sph s)) as [w|], (ph_writer (sph S)) as [W|] eqn:EW; try contradiction.
    - exists W. split; [apply shape_writer; [apply H|exact EW]|apply H].
    - apply H.
  Qed.

  Lemma Rw_read : forall s w S W, Rw s w S W -> Rw (read1 _ _ _ emit s) w (read1 _ _ _ emit S) W.
  Proof. intros s w S W (Hw & Hc & HF). split; [exact Hw|]. split; [exact Hc|]. apply frame_read, HF. Qed.

  Lemma R_read : forall s S, R s S -> R (read1 _ _ _ emit s) (read1 _ _ _ emit S).
  Proof.
    intros s S. unfold R. change (sph (read1 _ _ _ emit s)) with (sph s). change (sph (read1 _ _ _ emit S)) with (sph S).
    destruct (ph_writer (sph s)), (ph_writer (sph S)); try contradiction; intros (A & B); (split; [exact A|]).
    - apply Rw_read, B.
    - apply frame_read, B.
  Qed.

  Lemma Rw_write : forall s w S W d, Rw s w S W ->
    Rw (fst (write1 D _ _ _ w_write s w d)) (snd (write1 D _ _ _ w_write s w d))
       (fst (write1 D _ _ _ w_write S W d)) (snd (write1 D _ _ _ w_write S W d)).
  Proof.
    intros s w S W d ((I1 & I2 & Ha & Ht) & Hc & HF). pose proof (F_file _ _ _ _ HF) as Hf.
    rewrite !write1_eq. unfold Rw. simpl. rewrite <- Hf.
    destruct (W_write HW (sfile s) w (sdisk s (sfile s)) d I1) as (J1 & J2 & J3).
    destruct (W_write HW (sfile s) W (sdisk S (sfile s)) d I2) as (K1 & K2 & K3).
    split; [|split; [exact Hc|]].
    - rewrite !upd_same. repeat split; auto; congruence.
    - apply (frame_change _ _ _ _ _ _ HF); simpl; auto.
      intros g Hg. rewrite !upd_outside by auto. auto.
  Qed.

  Lemma Rw_final : forall s w S W, Rw s w S W -> w_tell W = ssize (sfile S) ->
    R (next_file _ _ _ (finalize1 _ _ _ w_final s w)) (next_file _ _ _ (finalize1 _ _ _ w_final S W)).
  Proof.
    intros s w S W ((I1 & I2 & Ha & Ht) & Hc & [Hf Hp Hb Hd Hl Hfr Hm]) Hsz.
    apply R_intro; [reflexivity|reflexivity|]. constructor; simpl; auto; try congruence.
    - intros g Hg Hu. rewrite <- Hf. destruct (N.eq_dec g (sfile s)) as [->|Hne].
      + rewrite !upd_same. exists (w_abs (sfile s) w (sdisk s (sfile s))). split.
        * apply (W_final HW); auto. congruence.
        * rewrite Ha. apply (W_final HW); auto. congruence.
      + rewrite !upd_other by auto. apply Hd; auto. lia.
    - intros g Hg. rewrite <- Hf. rewrite !upd_outside by auto. apply Hl. lia.
  Qed.

  (** GetWriter + Resume(nil) on a file nobody has opened yet *)
  Lemma open_new_sim : forall s S, frame (sfile s) (sfile s) s S ->
    exists s2 w S2 W,
      open1 _ _ _ w_open fresh is_overlay s None = Some (s2, w) /\
      open1 _ _ _ w_open fresh is_overlay S None = Some (S2, W) /\
      Rw s2 w S2 W /\ sph s2 = sph s /\ sph S2 = sph S /\ soffers s2 = soffers s.
  Proof.
    intros s S [Hf Hp Hb Hd Hl Hfr Hm].
    destruct (Hl (sfile s) (N.le_refl _)) as (O1 & O2).
    destruct (W_open_new HW _ _ O1) as (w & raw1 & E1 & I1 & A1 & T1).
    destruct (W_open_new HW _ _ O2) as (W & raw2 & E2 & I2 & A2 & T2).
    unfold open1. rewrite <- Hf, E1, E2. eexists _, w, _, W. split; [reflexivity|]. split; [reflexivity|].
    split; [|simpl; auto]. unfold Rw. simpl. split; [|split; [apply mark_idem|]].
    - rewrite !upd_same. repeat split; auto; congruence.
    - constructor; simpl; auto; try congruence.
      + intros g Hg Hu. rewrite !upd_outside by auto. apply Hd; auto.
        rewrite uses_disk_marked in *. now rewrite marked_mark_other in Hu by lia.
      + intros g Hg. rewrite !upd_outside by auto. apply Hl. lia.
      + intros Efr. rewrite mark_fresh by auto. auto.
      + intros g Hg. destruct (N.eq_dec g (sfile s)) as [->|Hne]; [lia|].
        rewrite marked_mark_other in Hg by auto. apply Hm in Hg. lia.
  Qed.

  Definition good_at (S : state) (ck : ckpt WCK) (d : N -> RAW) : Prop :=
    forall d', crash_ok ck d d' -> resumes ck -> exists sr, resumeG ck d' = Some sr /\ R sr S.

  Definition offers_step (S s s' : state) : Prop :=
    soffers s' = soffers s \/ exists ck d, soffers s' = (ck, d) :: soffers s /\ good_at S ck d.

  Lemma offers_step_ext : forall S s s1 s2, offers_step S s s1 -> soffers s2 = soffers s1 -> offers_step S s s2.
  Proof. intros S s s1 s2 [H|(ck & d & H & G)] E; [left|right; exists ck, d]; rewrite E; auto. Qed.

  Definition phase_of (bs : bool) (w : WS) (oo : Z) (t : N) : phase WS :=
    if bs then PBsLoop _ w oo t else PRsLoop _ w.

  Lemma phase_of_writer : forall bs w oo t, ph_writer (phase_of bs w oo t) = Some w.
  Proof. destruct bs; reflexivity. Qed.

  Lemma phase_of_shape : forall bs w1 w2 oo t, same_shape (phase_of bs w1 oo t) (phase_of bs w2 oo t).
  Proof. destruct bs; simpl; auto. Qed.

  (** the writer goes on after Save as before, and the checkpoint assembled at a save point is
      good: a brand-new patcher and bowl on any crash disk end up related to the uninterrupted
      run at the same message *)
  Lemma good_offer : forall s w S W bs oo t mc c w1 raw1,
    Rw s w S W -> sph S = phase_of bs W oo t -> (w_tell W <= ssize (sfile S))%N ->
    mc_off mc = r_pos (srd s) ->
    w_save (sfile s) w (sdisk s (sfile s)) = (c, w1, raw1) ->
    wrel (sfile s) w1 raw1 W (sdisk S (sfile s)) /\
    good_at S (mkck _ mc (sfile s) bs (sbowl s) (fst c) (snd c) oo t) (upd (sdisk s) (sfile s) raw1).
  Proof.
    intros s w S W bs oo t mc [o k] w1 raw1 ((I1 & I2 & Ha & Ht) & Hc & [Hf Hp Hb Hd Hl Hfr Hm]) HphS Hsz Hoff Esave.
    pose proof (W_save HW (sfile s) w (sdisk s (sfile s)) I1) as HS. rewrite Esave in HS.
    destruct HS as (J1 & J2 & J3 & J4 & Hopen).
    split; [repeat split; auto; congruence|].
    intros d' (Hcov & Hdone & Hlater) Hres. unfold resumes in Hres. simpl in Hcov, Hdone, Hlater, Hres. rewrite upd_same in Hcov.
    destruct (Hopen (createG d' (sfile s))) as (w2 & raw2 & Eopen & K1 & K2 & K3);
      [apply create_covers; [exact Hcov|rewrite J4, Ht, Hf; exact Hsz]|apply Hlater, N.le_refl|].
    unfold resume_state. simpl. rewrite Hres. unfold open1. simpl. rewrite Eopen.
    eexists. split; [reflexivity|].
    assert (Hbowl : markG (sfile s) (if fresh then bowl0 else sbowl s) = sbowl s).
    { rewrite <- Hc at 2. f_equal. destruct fresh; [symmetry; apply Hfr|]; reflexivity. }
    unfold set_ph. simpl. rewrite Hbowl.
    apply (Rw_R _ _ w2 W);
      [|apply (phase_of_writer bs)|rewrite HphS; apply phase_of_writer|rewrite HphS; apply (phase_of_shape bs)].
    split; [|split; [exact Hc|]]; simpl.
    - rewrite upd_same. repeat split; auto. now rewrite K2. now rewrite K3.
    - constructor; simpl; auto.
      + now rewrite Hoff.
      + (* a completed file is the same on the crash disk, and creating the bowl leaves it alone *)
        intros g Hg Hu. rewrite upd_outside by auto.
        destruct (Hd g Hg Hu) as (c0 & F1 & F2). exists c0. split; auto.
        assert (E : d' g = sdisk s g) by (rewrite Hdone, upd_outside by auto; reflexivity).
        rewrite (create_finished d' g c0), E; [exact F1|rewrite E; exact F1].
      + intros g Hg. rewrite upd_outside by auto. split; [apply Hlater; lia | apply Hl; auto].
  Qed.

  Lemma save_sim : forall sched stop s w S W bs oo t s1 w1 st,
    Rw s w S W -> sph S = phase_of bs W oo t -> (w_tell W <= ssize (sfile S))%N ->
    save_point _ _ _ w_save sched stop bs w oo t s = (s1, w1, st) ->
    Rw s1 w1 S W /\ offers_step S s s1 /\ (st = true -> exists j, stop j = true).
  Proof.
    intros sched stop s w S W bs oo t s1 w1 st HR HphS Hsz. rewrite save_point_eq.
    pose proof (rd_save_spec (sched (s_asked _ _ _ s)) (srd s)) as (Q1 & Q2 & Q3).
    pose proof HR as (Hw & Hc & HF).
    destruct (rd_save _ (srd s)) as [[mc|] rd']; simpl in Q1, Q2, Q3.
    - destruct Q3 as (_ & -> & _).
      destruct (w_save (sfile s) w (sdisk s (sfile s))) as [[c w'] raw'] eqn:Esave.
      intros H; inversion H; subst; clear H.
      destruct (good_offer _ _ _ _ bs oo t (mkmc (r_pos (srd s)) (r_src (srd s))) _ _ _ HR HphS Hsz eq_refl Esave)
        as (Hw1 & Hgood).
      split; [|split; [right; simpl; eauto|eauto]].
      split; [|split; [exact Hc|]]; simpl.
      + rewrite upd_same. exact Hw1.
      + apply (frame_change _ _ _ _ _ _ HF); simpl; auto.
        intros g Hg. rewrite upd_outside by auto. auto.
    - (* nothing popped: only the reader's save state and the count of questions move *)
      intros H; inversion H; subst. split; [|split; [left; reflexivity|discriminate]].
      split; [exact Hw|]. split; [exact Hc|]. apply (frame_change _ _ _ _ _ _ HF); auto.
  Qed.

  Lemma save_ideal : forall (S : state) W bs oo t,
    save_point _ _ _ w_save never never bs W oo t S =
    (mkst _ _ _ (sph S) (sfile S) (srd S) (sbowl S) (sdisk S) (Datatypes.S (s_asked _ _ _ S)) (soffers S), W, false).
  Proof. reflexivity. Qed.

  (** the common head of the two relay loops: the save block, then ReadMessage *)
  Lemma loop_head_sim : forall sched stop s w S W bs oo t s1 w1 st,
    Rw s w S W -> sph S = phase_of bs W oo t -> (w_tell W <= ssize (sfile S))%N ->
    save_point _ _ _ w_save sched stop bs w oo t s = (s1, w1, st) ->
    Rw (read1 _ _ _ emit s1) w1 (read1 _ _ _ emit (fst (fst (save_point _ _ _ w_save never never bs W oo t S)))) W /\
    offers_step S s s1 /\ (st = true -> exists j, stop j = true).
  Proof.
    intros sched stop s w S W bs oo t s1 w1 st HR HphS Hsz Esave.
    destruct (save_sim _ _ _ _ _ _ _ _ _ _ _ _ HR HphS Hsz Esave) as ((Hw & Hc & HF) & Hoff & Hst).
    split; [|auto]. apply Rw_read. split; [exact Hw|]. split; [exact Hc|]. apply (frame_change _ _ _ _ _ _ HF); auto.
  Qed.

  Definition sim_result (stop : nat -> bool) (S S' s : state) (r : result) : Prop :=
    match r with
    | Running _ _ _ s' => R s' S' /\ offers_step S s s'
    | Stopped _ _ _ s' => offers_step S s s' /\ exists j, stop j = true
    | _ => False
    end.

  (** a relayed write, in whichever writer phase [k] it lands *)
  Lemma write_sim : forall (k : WS -> phase WS) s w S W d S',
    (forall w1 w2, ph_writer (k w1) = Some w1 /\ same_shape (k w1) (k w2)) ->
    Rw s w S W ->
    (let '(S3, W') := write1 D _ _ _ w_write S W d in Running _ _ _ (set_ph _ _ _ S3 (k W'))) = Running _ _ _ S' ->
    exists s', (let '(s3, w') := write1 D _ _ _ w_write s w d in Running _ _ _ (set_ph _ _ _ s3 (k w'))) = Running _ _ _ s' /\
               R s' S' /\ soffers s' = soffers s.
  Proof.
    intros k s w S W d S' Hk HR E. pose proof (Rw_write _ _ _ _ d HR) as H.
    pose proof (write1_eq D _ _ _ w_write s w d) as Es.
    destruct (write1 D _ _ _ w_write S W d) as [S3 W3]. destruct (write1 D _ _ _ w_write s w d) as [s3 w3].
    inversion E; subst S'. eexists. split; [reflexivity|]. split.
    - apply (Rw_to_R _ _ _ _ _ _ H); [apply (Hk w3 W3)|apply (Hk W3 W3)|apply (Hk w3 W3)].
    - inversion Es. reflexivity.
  Qed.

  Lemma loop_rs_sim : forall sched stop s S m S' w W,
    sph s = PRsLoop _ w -> sph S = PRsLoop _ W -> Rw s w S W ->
    stepI S m = Running _ _ _ S' -> sized_step S m -> sim_result stop S S' s (stepG sched stop s m).
  Proof.
    intros sched stop s S m S' w W Es ES HRw Hideal Hsz.
    unfold sized_step in Hsz. rewrite ES in Hsz. destruct Hsz as (Hsz & HszEnd).
    unfold step in *. rewrite Es. rewrite ES, save_ideal in Hideal. cbv beta iota in Hideal.
    destruct (save_point _ _ _ w_save sched stop false w 0%Z 0%N s) as [[s1 w1] st] eqn:Esave.
    destruct (loop_head_sim _ _ _ _ _ _ false 0%Z 0%N _ _ _ HRw ES Hsz Esave) as (HR2 & Hoff & Hst).
    destruct st; [split; auto|].
    destruct m; try discriminate.
    1, 2: destruct (write_sim (PRsLoop _) _ _ _ _ _ _ (fun _ _ => conj eq_refl I) HR2 Hideal) as (s' & -> & HR' & Eo);
      split; [exact HR'|eapply offers_step_ext; eauto].
    inversion Hideal; subst S'. split; [apply Rw_final; auto|eapply offers_step_ext; eauto].
  Qed.

  Lemma loop_bs_sim : forall sched stop s S m S' w W oo t,
    sph s = PBsLoop _ w oo t -> sph S = PBsLoop _ W oo t -> Rw s w S W ->
    stepI S m = Running _ _ _ S' -> sized_step S m -> sim_result stop S S' s (stepG sched stop s m).
  Proof.
    intros sched stop s S m S' w W oo t Es ES HRw Hideal Hsz.
    unfold sized_step in Hsz. rewrite ES in Hsz.
    unfold step in *. rewrite Es. rewrite ES, save_ideal in Hideal. cbv beta iota in Hideal.
    destruct (save_point _ _ _ w_save sched stop true w oo t s) as [[s1 w1] st] eqn:Esave.
    destruct (loop_head_sim _ _ _ _ _ _ true oo t _ _ _ HRw ES Hsz Esave) as (HR2 & Hoff & Hst).
    destruct st; [split; auto|].
    destruct m; try discriminate.
    - destruct (write_sim (fun w' => PBsLoop _ w' (oo + Z.of_N (dlen add) + seek)%Z t) _ _ _ _ _ _ ltac:(simpl; auto) HR2 Hideal)
        as (s' & E & HR' & Eo). cbv beta in E. rewrite E.
      split; [exact HR'|]. eapply offers_step_ext; eauto.
    - inversion Hideal; subst S'. split; [|eapply offers_step_ext; eauto].
      apply (Rw_to_R _ _ _ _ (PBsEnd _ w1) (PBsEnd _ W) HR2 eq_refl eq_refl I).
  Qed.

  (** Bowl.Transpose instead of a series: the fresh bowl copies the old file over the output file
      at once, the overlay bowl only records it and Commit will not look at the working file *)
  Lemma transpose_sim : forall s S t s' S',
    frame (sfile s) (sfile s) s S -> tsize t = ssize (sfile s) ->
    transpose RAW fresh copy_old (sfile s) t (sbowl s) (sdisk s) = (sbowl s', sdisk s') ->
    transpose RAW fresh copy_old (sfile s) t (sbowl s) (sdisk S) = (sbowl S', sdisk S') ->
    sfile s' = sfile s -> sfile S' = sfile S -> r_pos (srd s') = r_pos (srd s) -> r_pos (srd S') = r_pos (srd S) ->
    frame (sfile s + 1) (sfile s + 1) s' S'.
  Proof.
    intros s S t s' S' [Hf Hp Hb Hd Hl Hfr Hm] Esz E1 E2 F1 F2 P1 P2. unfold transpose in E1, E2.
    destruct fresh_cases as [Efr|Efr]; rewrite Efr in E1, E2; inversion E1 as [[B1 D1]]; inversion E2 as [[B2 D2]];
      constructor; rewrite <- ?B1, <- ?B2, <- ?D1, <- ?D2, ?F1, ?F2, ?P1, ?P2; simpl; auto.
    - intros g Hg Hu. destruct (N.eq_dec g (sfile s)) as [->|Hne].
      + rewrite !upd_same. exists (old_content t). split; apply (P_copy HW); auto.
      + rewrite !upd_other by auto. apply Hd; auto. lia.
    - intros g Hg. rewrite !upd_outside by auto. apply Hl. lia.
    - intros g Hg. apply Hm in Hg. lia.
    - intros g Hg Hu. destruct (N.eq_dec g (sfile s)) as [->|Hne].
      + rewrite uses_disk_marked, Efr in Hu. apply Hm in Hu. lia.
      + apply Hd; auto. lia.
    - intros g Hg. apply Hl. lia.
    - intros Hx. congruence.
    - intros g Hg. apply Hm in Hg. lia.
  Qed.

  Lemma step_sim : forall sched stop s S m S',
    R s S -> stepI S m = Running _ _ _ S' -> sized_step S m -> sim_result stop S S' s (stepG sched stop s m).
  Proof.
    intros sched stop s S m S' HR Hideal Hsz.
    pose proof (R_frame _ _ HR) as HF. pose proof (F_file _ _ _ _ HF) as Hf.
    pose proof (R_other _ _ HR) as ES.
    destruct (sph s) eqn:Es; simpl in ES, HF; try destruct ES as (W & ES & HRw).
    - (* PFile *)
      unfold step in *. rewrite Es. rewrite ES in Hideal.
      destruct m; try discriminate. rewrite <- Hf in Hideal.
      destruct (N.eqb fi (sfile s)); try discriminate. inversion Hideal; subst S'. split; [|left; reflexivity].
      apply frame_read in HF.
      apply R_intro; [destruct bsdiff; reflexivity|reflexivity|].
      destruct bsdiff; simpl; apply (frame_change _ _ _ _ _ _ HF); auto.
    - (* PRsFirst *)
      unfold step in *. rewrite Es. rewrite ES in Hideal. rewrite <- Hf in Hideal.
      apply frame_read in HF.
      destruct (is_full_file_op D blocksize tsize ssize (sfile s) m) as [t|] eqn:Efull.
      + (* transposition *)
        apply full_file_op_spec in Efull. rewrite <- (F_bowl _ _ _ _ HF) in Hideal.
        destruct (transpose RAW fresh copy_old (sfile s) t _ (sdisk (read1 _ _ _ emit s))) as [b d] eqn:E1.
        destruct (transpose RAW fresh copy_old (sfile s) t _ (sdisk (read1 _ _ _ emit S))) as [B Dk] eqn:E2.
        inversion Hideal; subst S'. split; [|left; reflexivity].
        apply R_intro; [reflexivity|reflexivity|].
        apply (transpose_sim (read1 _ _ _ emit s) (read1 _ _ _ emit S) t); auto.
      + (* open a writer and relay the first op *)
        destruct (open_new_sim (read1 _ _ _ emit s) (read1 _ _ _ emit S) HF) as (s2 & w & S2 & W & E1 & E2 & HRw & P1 & P2 & Po).
        simpl in E1, E2. rewrite E1. rewrite E2 in Hideal.
        destruct m; try discriminate;
          destruct (write_sim (PRsLoop _) _ _ _ _ _ _ (fun _ _ => conj eq_refl I) HRw Hideal) as (s' & -> & HR' & Eo);
          (split; [exact HR'|left; rewrite Eo, Po; reflexivity]).
    - (* PRsSkip *)
      unfold step in *. rewrite Es. rewrite ES in Hideal.
      destruct m; inversion Hideal; subst S'; simpl; (split; [|left; reflexivity]); try apply (R_read _ _ HR).
      apply R_intro; [reflexivity|reflexivity|]. simpl. apply frame_next, frame_read, HF.
    - (* PRsLoop *)
      eapply loop_rs_sim; eauto.
    - (* PBsHeader *)
      unfold step in *. rewrite Es. rewrite ES in Hideal.
      destruct m; try discriminate.
      destruct (open_new_sim (read1 _ _ _ emit s) (read1 _ _ _ emit S) (frame_read _ _ _ _ HF)) as (s2 & w & S2 & W & E1 & E2 & HRw & P1 & P2 & Po).
      simpl in E1, E2. rewrite E1. rewrite E2 in Hideal. inversion Hideal; subst S'. split.
      + apply (Rw_to_R _ _ _ _ (PBsLoop _ w 0%Z target) (PBsLoop _ W 0%Z target) HRw eq_refl eq_refl (conj eq_refl eq_refl)).
      + left. simpl. now rewrite Po.
    - (* PBsLoop *)
      eapply loop_bs_sim; eauto.
    - (* PBsEnd *)
      unfold step in *. rewrite Es. rewrite ES in Hideal.
      destruct m; try discriminate.
      pose proof (proj1 HRw) as (_ & _ & _ & Ht). rewrite Ht, Hf.
      destruct (N.eqb (w_tell W) (ssize (sfile S))) eqn:Esz; try discriminate.
      inversion Hideal; subst S'. split; [|left; reflexivity].
      apply Rw_final; [now apply Rw_read|now apply N.eqb_eq].
  Qed.

  Lemma step_running : forall sched stop (s : state) m r,
    stepG sched stop s m = r ->
    match r with
    | Running _ _ _ s' => r_pos (srd s') = Datatypes.S (r_pos (srd s))
    | Finished _ _ _ _ => False
    | _ => True
    end.
  Proof.
    intros sched stop s m r <-.
    pose proof (step_reads D _ _ _ dlen blocksize tsize ssize range_data bs_data w_open w_write w_save w_final w_tell
                           fresh is_overlay copy_old emit sched stop s m) as H.
    destruct (stepG sched stop s m); auto. destruct H as (-> & _). rewrite rd_read_pos. f_equal. apply rd_save_spec.
  Qed.

  Lemma at_end_R : forall s S, R s S -> at_endG s = at_endG S.
  Proof.
    intros s S HR. unfold at_end. rewrite (F_file _ _ _ _ (R_frame _ _ HR)). revert HR. unfold R.
    destruct (sph s), (sph S); simpl; try contradiction; try reflexivity; intros (E & _); discriminate E.
  Qed.

  Lemma R_pos : forall s S, R s S -> r_pos (srd s) = r_pos (srd S).
  Proof. intros s S HR. exact (F_pos _ _ _ _ (R_frame _ _ HR)). Qed.

  Definition good (msgs : list (msg D)) (Sf : state) (ck : ckpt WCK) (d : N -> RAW) : Prop :=
    forall d', crash_ok ck d d' -> resumes ck ->
      exists sr S, resumeG ck d' = Some sr /\ R sr S /\
                   runI S (skipn (r_pos (srd sr)) msgs) = Finished _ _ _ Sf /\
                   sized_run S (skipn (r_pos (srd sr)) msgs).

  Definition all_good (msgs : list (msg D)) (Sf s : state) : Prop :=
    Forall (fun x => good msgs Sf (fst x) (snd x)) (soffers s).

  Definition sim_final (stop : nat -> bool) (msgs : list (msg D)) (Sf : state) (r : result) : Prop :=
    match r with
    | Finished _ _ _ sf => R sf Sf /\ at_endG sf = true /\ all_good msgs Sf sf
    | Stopped _ _ _ s' => all_good msgs Sf s' /\ exists j, stop j = true
    | _ => False
    end.

  Lemma run_sim : forall sched stop msgs Sf ms s S,
    R s S -> all_good msgs Sf s -> ms = skipn (r_pos (srd S)) msgs -> runI S ms = Finished _ _ _ Sf -> sized_run S ms ->
    sim_final stop msgs Sf (runG sched stop s ms).
  Proof.
    intros sched stop msgs Sf ms. induction ms as [|m ms IH]; intros s S HR Hall Hms Hideal Hsz;
      simpl in *; rewrite (at_end_R _ _ HR); destruct (at_endG S) eqn:Ee; try discriminate;
      try solve [inversion Hideal; subst Sf; simpl; rewrite (at_end_R _ _ HR); auto].
    destruct Hsz as (Hsz1 & Hsz2).
    pose proof (step_running never never S m _ eq_refl) as Hpos.
    destruct (stepI S m) as [S'| | |] eqn:Estep; try discriminate; [|contradiction].
    pose proof (step_sim sched stop _ _ _ _ HR Estep Hsz1) as Hsim.
    (* what this step offers can be resumed into the rest of this run *)
    assert (Hgood : forall s', offers_step S s s' -> all_good msgs Sf s').
    { intros s' [E|(ck & d & E & G)]; unfold all_good; rewrite E; [exact Hall|]. constructor; [|exact Hall].
      intros d' Hc Hres. destruct (G d' Hc Hres) as (sr & Hr & HRr). exists sr, S. split; auto. split; auto.
      rewrite (R_pos _ _ HRr), <- Hms. simpl. rewrite Ee, Estep. auto. }
    destruct (stepG sched stop s m) as [s'|s'|s'|]; simpl in Hsim; try contradiction.
    - destruct Hsim as (HR' & Hoff). apply (IH s' S'); auto.
      rewrite Hpos, <- Nat.add_1_r, <- skipn_skipn_add, <- Hms. reflexivity.
    - destruct Hsim as (Hoff & J). split; auto.
  Qed.

  Lemma commit_R : forall sf Sf, R sf Sf -> at_endG sf = true -> commitG sf = commitG Sf.
  Proof.
    intros sf Sf HR He. pose proof (R_frame _ _ HR) as [_ _ Hb Hd _ _ _].
    unfold at_end in He. destruct (sph sf); try discriminate. apply N.leb_le in He. simpl in Hd.
    unfold commit. rewrite <- Hb.
    destruct (fresh || nodup_n (bk_move (sbowl sf)))%bool; auto. f_equal.
    apply map_ext_in. intros i Hi. apply in_seq in Hi.
    assert (Hu : uses_disk (sbowl sf) (N.of_nat i) = true ->
                 w_result (N.of_nat i) (sdisk sf (N.of_nat i)) = w_result (N.of_nat i) (sdisk Sf (N.of_nat i))).
    { intros Hu. destruct (Hd (N.of_nat i) ltac:(lia) Hu) as (c & F1 & F2).
      now rewrite (W_result HW _ _ _ F1), (W_result HW _ _ _ F2). }
    unfold file_result. rewrite <- Hb. unfold uses_disk in Hu.
    destruct fresh; [apply Hu; reflexivity|].
    destruct (trans_find (N.of_nat i) (bk_trans (sbowl sf))); auto.
    destruct (existsb (N.eqb (N.of_nat i)) (bk_ovl (sbowl sf)) || existsb (N.eqb (N.of_nat i)) (bk_move (sbowl sf)))%bool eqn:Em; auto.
  Qed.

  (** the verdict of the C03 statements: [r] completes and Commit yields what it yields after the
      uninterrupted run, or [r] stops because its consumer asked *)
  Definition ends_like (stop : nat -> bool) (Sf : state) (r : result) : Prop :=
    match r with
    | Finished _ _ _ sf => commitG sf = commitG Sf
    | Stopped _ _ _ _ => exists j, stop j = true
    | _ => False
    end.

  Lemma sim_final_ends : forall stop msgs Sf (r : result), sim_final stop msgs Sf r -> ends_like stop Sf r.
  Proof.
    intros stop msgs Sf [s|s|s|]; simpl; try contradiction.
    - intros (HR & He & _). now apply commit_R.
    - intros (_ & J). exact J.
  Qed.

  Lemma R_start : forall d0, (forall g, raw_ok g (createG d0 g)) ->
    R (start_state _ _ _ fresh prepare d0) (start_state _ _ _ fresh prepare d0).
  Proof.
    intros d0 Hok. apply R_intro; [reflexivity|reflexivity|]. constructor; simpl; auto.
    - intros g Hg. lia.
    - intros g Hg. discriminate.
  Qed.

  Definition result_state (r : result) : option state :=
    match r with Running _ _ _ s | Finished _ _ _ s | Stopped _ _ _ s => Some s | Failed _ _ _ => None end.

  Lemma outcome_of_Some : forall (r : result) x,
    outcome_of C RAW WS WCK nfiles w_result fresh old_content r = Some x ->
    exists sf, r = Finished _ _ _ sf /\ commitG sf = Some x.
  Proof. intros [s|s|s|] x H; try discriminate H. exists s. auto. Qed.

  Lemma outcome_unstopped : forall (r : result) (Sf : state), ends_like never Sf r ->
    outcome_of C RAW WS WCK nfiles w_result fresh old_content r = commitG Sf.
  Proof. intros [s|s|s|] Sf H; try contradiction; auto. destruct H as (j & Hj). discriminate. Qed.

  Section Patch.
    Variable msgs : list (msg D).
    Variable d0 : N -> RAW.
    Variable Sf : state.
    Hypothesis Hideal : runI (start_state _ _ _ fresh prepare d0) msgs = Finished _ _ _ Sf.
    Hypothesis Hsized : sized_run (start_state _ _ _ fresh prepare d0) msgs.
    Hypothesis Hd0 : forall g, raw_ok g (createG d0 g).

    Local Notation run_resumedG := (run_resumed D RAW WS WCK dlen blocksize tsize ssize nfiles range_data bs_data w_open w_write w_save w_final w_tell fresh is_overlay prepare copy_old emit src_resume).

    Lemma first_run_sim : forall sched stop,
      sim_final stop msgs Sf (runG sched stop (start_state _ _ _ fresh prepare d0) msgs).
    Proof. intros. eapply run_sim; eauto using R_start. constructor. Qed.

    Lemma resumed_run_sim : forall ck d d' sched stop,
      good msgs Sf ck d -> crash_ok ck d d' -> resumes ck -> sim_final stop msgs Sf (run_resumedG sched stop ck d' msgs).
    Proof.
      intros ck d d' sched stop Hg Hc Hres. destruct (Hg d' Hc Hres) as (sr & S & Er & HR & Hrun & Hsz).
      unfold run_resumed. rewrite Er. rewrite (R_pos _ _ HR) in *. eapply run_sim; eauto.
      destruct (resume_state_shape _ _ _ _ _ _ _ _ _ _ _ Er) as (p & _ & _ & E0). unfold all_good. rewrite E0. constructor.
    Qed.

    (** the checkpoints obtainable through any chain of interruptions: offered by the first
        run (under any save consumer), or by a run resumed - in a new patcher and bowl, on any
        crash disk - from such a checkpoint *)
    Inductive offered : ckpt WCK -> (N -> RAW) -> Prop :=
    | off_first : forall sched stop s ck d,
        result_state (runG sched stop (start_state _ _ _ fresh prepare d0) msgs) = Some s ->
        In (ck, d) (soffers s) -> offered ck d
    | off_chain : forall ck0 dk0 d' sched stop s ck d,
        offered ck0 dk0 -> crash_ok ck0 dk0 d' ->
        result_state (run_resumedG sched stop ck0 d' msgs) = Some s ->
        In (ck, d) (soffers s) -> offered ck d.

    (** every offered checkpoint is one a reader popped: each run of the chain begins with an
        idle reader and no offers *)
    Lemma offered_popped : forall ck d, offered ck d -> popped emit (length msgs) (ck_msg _ ck).
    Proof.
      intros ck d H.
      assert (Hrun : forall sched stop (s0 s : state) ms, r_st (srd s0) = Idle -> soffers s0 = [] -> length ms <= length msgs - r_pos (srd s0) ->
                result_state (runG sched stop s0 ms) = Some s -> In (ck, d) (soffers s) -> popped emit (length msgs) (ck_msg _ ck)).
      { intros sched stop s0 s ms Hi Hnil Hlen Hr Hin.
        pose proof (run_popped D RAW WS WCK dlen blocksize tsize ssize nfiles range_data bs_data w_open w_write w_save w_final w_tell
                               fresh is_overlay copy_old emit sched stop (length msgs) ms s0) as A.
        unfold offers_popped, rd_wf in A. rewrite Hnil, Hi in A. specialize (A ltac:(discriminate) Hlen (Forall_nil _)).
        destruct (runG sched stop s0 ms); inversion Hr; subst; exact (proj1 (Forall_forall _ _) A _ Hin). }
      destruct H as [sched stop s ck d Hr Hin | ck0 dk0 d' sched stop s ck d _ _ Hr Hin].
      - apply (Hrun sched stop (start_state _ _ _ fresh prepare d0) s msgs eq_refl eq_refl); auto. cbn. lia.
      - unfold run_resumed in Hr. destruct (resumeG ck0 d') as [s0|] eqn:Er; [|discriminate Hr].
        destruct (resume_state_shape _ _ _ _ _ _ _ _ _ _ _ Er) as (p & _ & Erd & Eof).
        eapply (Hrun sched stop s0 s); eauto; rewrite ?skipn_length, Erd; [reflexivity|cbn; lia].
    Qed.

    Lemma sim_final_in : forall stop r s' ck d,
      sim_final stop msgs Sf r -> result_state r = Some s' -> In (ck, d) (soffers s') -> good msgs Sf ck d.
    Proof.
      intros stop r s' ck d Hs Hr Hin. assert (Hall : all_good msgs Sf s').
      { destruct r; simpl in *; try contradiction; inversion Hr; subst; apply Hs. }
      exact (proj1 (Forall_forall _ _) Hall _ Hin).
    Qed.

    Lemma offered_good : H_popped (length msgs) -> forall ck d, offered ck d -> good msgs Sf ck d.
    Proof.
      intros Hp ck d H. induction H as [sched stop s ck d Hr Hin | ck0 dk0 d' sched stop s ck d H0 IH Hc Hr Hin].
      - exact (sim_final_in stop _ _ _ _ (first_run_sim sched stop) Hr Hin).
      - exact (sim_final_in stop _ _ _ _ (resumed_run_sim _ _ _ sched stop IH Hc (Hp _ (offered_popped _ _ H0))) Hr Hin).
    Qed.

    (** resuming from any offered checkpoint on any crash disk ends like the uninterrupted
        run, or stops on request *)
    Lemma resumed_run_equiv : H_popped (length msgs) ->
      forall ck d d' sched stop, offered ck d -> crash_ok ck d d' ->
      ends_like stop Sf (run_resumedG sched stop ck d' msgs).
    Proof.
      intros Hp ck d d' sched stop Ho Hc.
      exact (sim_final_ends stop msgs _ _ (resumed_run_sim _ _ _ sched stop (offered_good Hp _ _ Ho) Hc (Hp _ (offered_popped _ _ Ho)))).
    Qed.

    (** saving is transparent: the first run itself, whatever its consumer saves, ends like the
        run that never saves - or stops on request *)
    Lemma first_run_equiv : forall sched stop, ends_like stop Sf (runG sched stop (start_state _ _ _ fresh prepare d0) msgs).
    Proof. intros. apply (sim_final_ends stop msgs), first_run_sim. Qed.
  End Patch.

End Proofs.
