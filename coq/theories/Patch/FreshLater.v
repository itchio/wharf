(** The crash model contains every later disk of the same run (fresh bowl): if a checkpoint
    was offered when the disk was [d], then the disk of any later moment of that run - writes
    made after the checkpoint wholly on disk - satisfies [fresh_crash ck d].  (Partly written,
    torn or garbage data after the checkpointed offset is covered by the model being arbitrary
    there.)  Here: [later_ok] / [linv], kept by [step] ([linv_step]), [reach] and [linv_reach],
    [later_crash]; the theorem is [crash_model_contains_later_states], Properties/C03.v. *)
From Wharf Require Import Base.Prelude Patch.Resume Patch.ResumeStep Patch.ResumeProofs Patch.PlainWriter.

Section Later.
  Variable blocksize : N.
  Variables tsize ssize : N -> N.
  Variable old : N -> list byte.
  Variable range_data : N -> N -> N -> list byte.
  Variable bs_data : N -> Z -> list byte -> list byte -> list byte.
  Variable is_overlay : N -> bool.
  Variable emit : nat -> bool.
  Variables sched stop : nat -> bool.

  Local Notation state := (state (list byte) N unit).
  Local Notation stepF := (step (list byte) (list byte) N unit (fun d => N.of_nat (length d)) blocksize tsize ssize range_data bs_data
                                p_open p_write p_save p_final p_tell true is_overlay (p_copy_old old) emit sched stop).
  Local Notation sfile := (s_file (list byte) N unit).
  Local Notation sdisk := (s_disk (list byte) N unit).
  Local Notation sph := (s_ph (list byte) N unit).
  Local Notation soffers := (s_offers (list byte) N unit).

  (** [ck], offered on disk [d], seen from a later moment: current file [f], disk [disk],
      offset [ow] of the open writer if there is one *)
  Definition later_ok (f : N) (disk : N -> list byte) (ow : option N) (ck : ckpt unit) (d : N -> list byte) : Prop :=
    let cf := ck_file _ ck in let o := N.to_nat (ck_woff _ ck) in
    (cf <= f)%N /\
    (forall g, (g < cf)%N -> disk g = d g) /\
    o <= length (disk cf) /\ firstn o (disk cf) = firstn o (d cf) /\
    (cf = f -> exists w, ow = Some w /\ (ck_woff _ ck <= w)%N).

  Definition linvw (f : N) (disk : N -> list byte) (offers : list (ckpt unit * (N -> list byte))) (ow : option N) : Prop :=
    (forall w, ow = Some w -> N.to_nat w <= length (disk f)) /\
    (forall ck d, In (ck, d) offers -> later_ok f disk ow ck d).

  Definition linv (s : state) : Prop := linvw (sfile s) (sdisk s) (soffers s) (ph_writer N (sph s)).

  Lemma later_crash : forall f disk ow ck d, later_ok f disk ow ck d -> fresh_crash ck d disk.
  Proof. intros f disk ow ck d (H1 & H2 & H3 & H4 & _). unfold fresh_crash. auto. Qed.

  Lemma firstn_pwrite : forall raw w d o, o <= w -> w <= length raw -> firstn o (pwrite raw w d) = firstn o raw.
  Proof.
    intros. rewrite pwrite_inside by auto. apply firstn_firstn_app; lia.
  Qed.

  Lemma linvw_ext : forall f disk disk' offers ow, (forall g, disk' g = disk g) -> linvw f disk offers ow -> linvw f disk' offers ow.
  Proof.
    intros f disk disk' offers ow E (H1 & H2). split.
    - intros w Hw. rewrite E. auto.
    - intros ck d Hin. destruct (H2 ck d Hin) as (L1 & L2 & L3 & L4 & L5). unfold later_ok. rewrite !E.
      repeat split; auto. intros g Hg. rewrite E. auto.
  Qed.

  (** GetWriter + Resume(nil): the file's writer starts at 0 *)
  Lemma linvw_open : forall f disk offers, linvw f disk offers None -> linvw f disk offers (Some 0%N).
  Proof.
    intros f disk offers (H1 & H2). split.
    - intros w Hw. inversion Hw. simpl. lia.
    - intros ck d Hin. destruct (H2 ck d Hin) as (L1 & L2 & L3 & L4 & L5). repeat split; auto.
      intros E. destruct (L5 E) as (w & Hw & _). discriminate.
  Qed.

  Lemma linvw_write : forall f disk offers w dd,
    linvw f disk offers (Some w) ->
    linvw f (upd disk f (pwrite (disk f) (N.to_nat w) dd)) offers (Some (w + N.of_nat (length dd))%N).
  Proof.
    intros f disk offers w dd (H1 & H2). pose proof (H1 w eq_refl) as Hlen. split.
    - intros w' Hw'. inversion Hw'; subst. rewrite upd_same, pwrite_length by auto. lia.
    - intros ck d Hin. destruct (H2 ck d Hin) as (L1 & L2 & L3 & L4 & L5). unfold later_ok. split; auto. split.
      { intros g Hg. rewrite upd_other by lia. auto. }
      destruct (N.eq_dec (ck_file _ ck) f) as [Ef|Ef]; [|rewrite upd_other by auto].
      + destruct (L5 Ef) as (w0 & Hc0 & Hle). inversion Hc0; subst w0. rewrite Ef in *. rewrite upd_same.
        split; [rewrite pwrite_length by lia; lia|]. split.
        * rewrite firstn_pwrite by lia. auto.
        * intros _. exists (w + N.of_nat (length dd))%N. split; auto. lia.
      + split; auto. split; auto. intros Hx. contradiction.
  Qed.

  (** the save block hands out a checkpoint for the current file at the writer's offset *)
  Lemma linvw_offer : forall f disk offers w ck,
    linvw f disk offers (Some w) -> ck_file _ ck = f -> ck_woff _ ck = w ->
    linvw f disk ((ck, disk) :: offers) (Some w).
  Proof.
    intros f disk offers w ck (H1 & H2) Ef Ew. split; auto.
    intros ck' d [Hin|Hin]; [|auto]. inversion Hin; subst. pose proof (H1 _ eq_refl).
    repeat split; auto; try lia. intros _. exists (ck_woff _ ck'). split; auto. lia.
  Qed.

  (** the current file is done (finalized, or transposed) *)
  Lemma linvw_next : forall f disk offers ow, linvw f disk offers ow -> linvw (f + 1)%N disk offers None.
  Proof.
    intros f disk offers ow (H1 & H2). split; [discriminate|].
    intros ck d Hin. destruct (H2 ck d Hin) as (L1 & L2 & L3 & L4 & L5). repeat split; auto; try lia.
  Qed.

  (** freshBowl.Transpose overwrites the output file of the current (not yet opened) file *)
  Lemma linvw_upd_none : forall f disk offers v, linvw f disk offers None -> linvw f (upd disk f v) offers None.
  Proof.
    intros f disk offers v (H1 & H2). split; [discriminate|].
    intros ck d Hin. destruct (H2 ck d Hin) as (L1 & L2 & L3 & L4 & L5).
    assert (Hne : ck_file _ ck <> f) by (intros E; destruct (L5 E) as (w & Hw & _); discriminate).
    unfold later_ok. rewrite upd_other by auto.
    repeat split; auto. intros g Hg. rewrite upd_other by lia. auto.
  Qed.

  Lemma linvw_same_raw : forall f disk offers ow, linvw f disk offers ow -> linvw f (upd disk f (disk f)) offers ow.
  Proof.
    intros f disk offers ow H. apply (linvw_ext f disk); auto. intros g. unfold upd. destruct (N.eqb_spec g f); subst; auto.
  Qed.

  Lemma linv_save : forall (s : state) w bs oo t s1 w1 st,
    linvw (sfile s) (sdisk s) (soffers s) (Some w) ->
    save_point _ _ _ p_save sched stop bs w oo t s = (s1, w1, st) ->
    w1 = w /\ sfile s1 = sfile s /\ sph s1 = sph s /\ linvw (sfile s) (sdisk s1) (soffers s1) (Some w).
  Proof.
    intros s w bs oo t s1 w1 st H. rewrite save_point_eq. destruct (rd_save _ _) as [[mc|] rd'].
    - unfold p_save. intros E; inversion E; subst; clear E. simpl.
      split; [reflexivity|]. split; [reflexivity|]. split; [reflexivity|].
      apply linvw_offer; [apply linvw_same_raw; exact H | reflexivity | reflexivity].
    - intros E; inversion E; subst; clear E. simpl.
      split; [reflexivity|]. split; [reflexivity|]. split; [reflexivity|]. exact H.
  Qed.

  Lemma linv_step : forall (s : state) m r, linv s -> stepF s m = r ->
    match r with Running _ _ _ s' | Stopped _ _ _ s' => linv s' | _ => True end.
  Proof.
    intros s m r H <-. unfold linv, ph_writer in *. unfold step. destruct (sph s) eqn:Es.
    - (* PFile *)
      destruct m; auto. destruct (N.eqb fi (sfile s)); auto. simpl. destruct bsdiff; exact H.
    - (* PRsFirst *)
      destruct (is_full_file_op _ blocksize tsize ssize (sfile s) m) as [t|].
      + unfold transpose. simpl. now apply linvw_upd_none.
      + unfold open1, p_open. simpl. apply linvw_same_raw, linvw_open in H.
        destruct m; auto; unfold write1, p_write; simpl; apply (linvw_write _ _ _ 0%N); exact H.
    - (* PRsSkip *)
      destruct m; simpl; rewrite ?Es; try exact H. eapply linvw_next; eauto.
    - (* PRsLoop *)
      destruct (save_point _ _ _ p_save sched stop false w 0%Z 0%N s) as [[s1 w1] st] eqn:Esave.
      destruct (linv_save _ _ _ _ _ _ _ _ H Esave) as (-> & Ef & Ep & H1).
      destruct st; [rewrite Ep, Es, Ef; exact H1|].
      destruct m; auto; unfold write1, p_write, p_final; simpl; rewrite Ef.
      + now apply linvw_write.
      + now apply linvw_write.
      + eapply linvw_next. apply linvw_same_raw. eauto.
    - (* PBsHeader *)
      destruct m; auto. unfold open1, p_open. simpl. apply linvw_open, linvw_same_raw; exact H.
    - (* PBsLoop *)
      destruct (save_point _ _ _ p_save sched stop true w oldoff target s) as [[s1 w1] st] eqn:Esave.
      destruct (linv_save _ _ _ _ _ _ _ _ H Esave) as (-> & Ef & Ep & H1).
      destruct st; [rewrite Ep, Es, Ef; exact H1|].
      destruct m; auto; unfold write1, p_write; simpl; rewrite Ef; [now apply linvw_write|exact H1].
    - (* PBsEnd *)
      destruct m; auto. destruct (N.eqb (p_tell w) (ssize (sfile s))); auto.
      simpl. unfold p_final. eapply linvw_next. apply linvw_same_raw. eauto.
  Qed.

  Lemma linv_start : forall d0, linv (fresh_start ssize d0).
  Proof. intros d0. split; [discriminate|]. intros ck d []. Qed.

  (** [reach s ms s']: [s'] is [s] or a later state of the run of [ms] from [s], the state a
      Stopped step ends in included *)
  Fixpoint reach (s : state) (ms : list (msg (list byte))) (s' : state) : Prop :=
    s' = s \/
    match ms with
    | [] => False
    | m :: ms' => match stepF s m with Running _ _ _ s1 => reach s1 ms' s' | Stopped _ _ _ s1 => s' = s1 | _ => False end
    end.

  Lemma linv_reach : forall ms s s', linv s -> reach s ms s' -> linv s'.
  Proof.
    induction ms as [|m ms IH]; intros s s' H [->|Hr]; auto; try contradiction.
    pose proof (linv_step s m _ H eq_refl) as Hs. destruct (stepF s m); try contradiction.
    - eapply IH; eauto.
    - subst. auto.
  Qed.

End Later.
