(** Lemmas about the C10 model (Patch/Malformed.v) behind Properties/C10.v: with the bounds checks
    of the fix commits ([fx = true]) every reader, fed any frame list, stops in [Ok] or [Err] or
    hands on a shorter stream; and the checks change an outcome only where the tree
    before them ([fx = false]) panicked. *)
From Wharf Require Import Base.Prelude Patch.Malformed.
From Coq Require Import ZifyBool ZifyNat.
Local Open Scope Z_scope.

Lemma safe_ok : safe Ok.
Proof. left; reflexivity. Qed.
Lemma safe_err : safe Err.
Proof. right; reflexivity. Qed.
#[export] Hint Resolve safe_ok safe_err : c10.

Lemma read_cases {T} (P : T -> Prop) s (k : list field -> stream -> T) (e : T) :
  P e -> (forall fs s1, length s = S (length s1) -> P (k fs s1)) ->
  P (match read s with Some (fs, s1) => k fs s1 | None => e end).
Proof. intros He Hk. destruct s as [|[fs|] s1]; cbn [read]; auto. Qed.

(** [read_cases] for two readers that read the same frame *)
Lemma read_cases_both {T} (P : T -> T -> Prop) s (k k' : list field -> stream -> T) (e : T) :
  P e e -> (forall fs s1, length s = S (length s1) -> P (k fs s1) (k' fs s1)) ->
  P (match read s with Some (fs, s1) => k fs s1 | None => e end)
    (match read s with Some (fs, s1) => k' fs s1 | None => e end).
Proof. intros He Hk. destruct s as [|[fs|] s1]; cbn [read]; auto. Qed.

Definition step_safe {A} (Q : A -> Prop) (x : step A) : Prop :=
  match x with
  | Cont a => Q a
  | Stop r => safe r
  end.

(** the loops are proved for every [n] from the length of their stream on, so that the induction
    hypothesis applies as it is *)
Definition step_ok (n : nat) : step stream -> Prop := step_safe (fun s' => (length s' < n)%nat).

Definition no_panic (r : res) : Prop := forall st, r <> Panic st.

(** [x]: a step before the fix, [y]: after it *)
Definition upto_panic {A} (x y : step A) : Prop :=
  match x with
  | Stop (Panic _) => True
  | _ => y = x
  end.

Lemma upto_panic_refl {A} (x : step A) : upto_panic x x.
Proof. destruct x as [a|[]]; reflexivity. Qed.

(** [x]: a reader before the fix commits, [y]: the same reader after them.  The commits change
    the outcome only where [x] panicked, and under [H] the reader after them is total.  Totality
    needs hypotheses ([0 < bs], enough fuel) that the first half holds without: [Hang] and the
    division panic occur in both trees alike. *)
Definition fixes {A} (H : Prop) (Q : A -> Prop) (x y : step A) : Prop :=
  upto_panic x y /\ (H -> step_safe Q y).

Lemma fixes_refl {A} (H : Prop) (Q : A -> Prop) x : (H -> step_safe Q x) -> fixes H Q x x.
Proof. intros Hx. split; [apply upto_panic_refl|exact Hx]. Qed.

Lemma fixes_err {A} (H : Prop) (Q : A -> Prop) : fixes H Q (Stop Err) (Stop Err).
Proof. apply fixes_refl. intros _. exact safe_err. Qed.

(** a check that returns an error where the tree before it panicked *)
Lemma fixes_panic {A} (H : Prop) (Q : A -> Prop) st : fixes H Q (Stop (Panic st)) (Stop Err).
Proof. split; [exact I|intros _; exact safe_err]. Qed.

Lemma fixes_weaken {A} (H H' : Prop) (Q : A -> Prop) x y : fixes H Q x y -> (H' -> H) -> fixes H' Q x y.
Proof. intros [Hc Hs] Hi. split; [exact Hc|intros h; exact (Hs (Hi h))]. Qed.

Lemma fixes_bind {A B} (H H1 H2 : Prop) (Q : B -> Prop) (x y : step A) (k k' : A -> step B) :
  fixes H1 (fun _ => True) x y -> (forall a, fixes H2 Q (k a) (k' a)) -> (H -> H1 /\ H2) ->
  fixes H Q (match x with Stop r => Stop r | Cont a => k a end) (match y with Stop r => Stop r | Cont a => k' a end).
Proof.
  intros [Hc Hs] Hk Himp. split.
  - destruct x as [a|[]]; cbn in Hc; try (rewrite Hc; cbn; auto using upto_panic_refl); [apply Hk|exact I].
  - intros h. destruct (Himp h) as [h1 h2]. specialize (Hs h1). destruct y as [a|r]; [apply Hk, h2|exact Hs].
Qed.

(** the same for a whole reader: [x] its outcome before the fix commits, [y] after them *)
Definition fixes_res (H : Prop) (x y : res) : Prop := (no_panic x -> y = x) /\ (H -> safe y).

Lemma fixes_res_refl (H : Prop) x : (H -> safe x) -> fixes_res H x x.
Proof. intros Hx. split; [reflexivity|exact Hx]. Qed.

Lemma fixes_res_err (H : Prop) : fixes_res H Err Err.
Proof. apply fixes_res_refl. intros _. exact safe_err. Qed.

(** one iteration of a loop over the files: the series reader, then the loop on what it leaves *)
Lemma fixes_loop (H H1 : Prop) (H2 : stream -> Prop) n (x y : step stream) (k k' : stream -> res) :
  fixes H1 (fun s => (length s < n)%nat) x y -> (forall s, fixes_res (H2 s) (k s) (k' s)) ->
  (H -> H1) -> (forall s, H -> (length s < n)%nat -> H2 s) ->
  fixes_res H (match x with Stop r => r | Cont s => k s end) (match y with Stop r => r | Cont s => k' s end).
Proof.
  intros [Hc Hs] Hk Himp1 Himp2. split.
  - intros Hnp. destruct x as [s|[]]; cbn in Hc; try (rewrite Hc; reflexivity); [rewrite Hc; apply Hk, Hnp|].
    exfalso. eapply Hnp. reflexivity.
  - intros h. specialize (Hs (Himp1 h)). destruct y as [s|r]; [apply Hk, Himp2; assumption|exact Hs].
Qed.

Lemma in_range_nth_size l i : in_range l i = match nth_size l i with Some _ => true | None => false end.
Proof.
  unfold nth_size. destruct (in_range l i) eqn:H; [|reflexivity]. unfold in_range in H.
  destruct (nth_error l (Z.to_nat i)) eqn:Hn; [reflexivity|]. apply nth_error_None in Hn. lia.
Qed.

Lemma until_hey_ok : forall f s n,
  (length s < f)%nat -> (length s <= n)%nat -> step_ok n (until_hey f s).
Proof.
  induction f as [|f IH]; intros s n Hlt Hn; [lia|].
  cbn [until_hey]. apply read_cases; [exact safe_err|]. intros fs s1 Hlen.
  destruct (op_type (dec_op fs) =? HEY); [cbn; lia|apply IH; lia].
Qed.

Lemma apply_block_range_out bs maxoff tgt fi bi span :
  in_range tgt fi = false -> apply_block_range bs maxoff tgt fi bi span = Stop (Panic SPoolGetSize).
Proof.
  rewrite in_range_nth_size. unfold apply_block_range.
  destruct (nth_size tgt fi); [discriminate|reflexivity].
Qed.

Lemma apply_block_range_safe : forall bs maxoff tgt fi bi span,
  0 < bs -> in_range tgt fi = true -> step_safe (fun _ => True) (apply_block_range bs maxoff tgt fi bi span).
Proof.
  intros bs maxoff tgt fi bi span Hbs. rewrite in_range_nth_size. unfold apply_block_range.
  destruct (nth_size tgt fi) as [fileSize|]; [intros _|discriminate].
  assert (Hz : (bs =? 0) = false) by lia. rewrite Hz, andb_false_r.
  destruct ((wrap64 (bs * bi) <? 0) || (wrap64 (bs * bi) >? maxoff)); [exact safe_err|exact I].
Qed.

(** validateOp refuses exactly the ops with which pool.GetSize panicked *)
Lemma apply_op_fixes bs maxoff tgt op :
  fixes (0 < bs) (fun _ => True) (apply_op false bs maxoff tgt op) (apply_op true bs maxoff tgt op).
Proof.
  unfold apply_op. cbn [andb]. destruct (op_type op =? BLOCK_RANGE); cbn [andb].
  - destruct (in_range tgt (op_file op)) eqn:Hin; cbn [negb].
    + apply fixes_refl. intros Hbs. apply apply_block_range_safe; assumption.
    + rewrite apply_block_range_out by assumption. apply fixes_panic.
  - apply fixes_refl. intros _. destruct (op_type op =? DATA); [exact I|exact safe_err].
Qed.

Lemma relay_fixes : forall f bs maxoff tgt w s n,
  fixes (0 < bs /\ (length s < f)%nat /\ (length s <= n)%nat) (fun s' => (length s' < n)%nat)
        (relay f false bs maxoff tgt w s) (relay f true bs maxoff tgt w s).
Proof.
  induction f as [|f IH]; intros bs maxoff tgt w s n; [split; [reflexivity|lia]|].
  cbn [relay]. apply read_cases_both; [apply fixes_err|]. intros fs s1 Hlen.
  destruct (op_type (dec_op fs) =? HEY); [apply fixes_refl; cbn [step_safe]; lia|].
  apply (fixes_bind _ _ _ _ _ _ _ _ (apply_op_fixes bs maxoff tgt (dec_op fs)) (fun k => IH bs maxoff tgt (w + k) s1 n)). lia.
Qed.

Lemma is_full_file_op_range bs tgt outSize op :
  match is_full_file_op bs tgt outSize op with
  | None => (op_type op =? BLOCK_RANGE) && negb (in_range tgt (op_file op)) = true
  | Some true => (op_type op =? BLOCK_RANGE) && negb (in_range tgt (op_file op)) = false
  | Some false => True
  end.
Proof.
  unfold is_full_file_op. rewrite in_range_nth_size.
  destruct (op_type op =? BLOCK_RANGE); cbn [negb andb]; [|exact I].
  destruct (op_block op =? 0); cbn [negb]; [|exact I].
  destruct (nth_size tgt (op_file op)) as [tsz|]; [|reflexivity].
  destruct (tsz =? outSize); cbn [negb]; [|exact I].
  destruct (op_span op =? num_blocks bs outSize); [reflexivity|exact I].
Qed.

Lemma process_rsync_fixes f bs maxoff tgt outSize s :
  fixes (0 < bs /\ (length s < f)%nat) (fun s' => (length s' < length s)%nat)
        (process_rsync f false bs maxoff tgt outSize s) (process_rsync f true bs maxoff tgt outSize s).
Proof.
  unfold process_rsync. apply read_cases_both; [apply fixes_err|]. intros fs s1 Hlen. cbn [andb].
  pose proof (is_full_file_op_range bs tgt outSize (dec_op fs)) as Hff.
  destruct (is_full_file_op bs tgt outSize (dec_op fs)) as [[|]|].
  - rewrite Hff. apply fixes_refl. intros (_ & Hlt). apply until_hey_ok; lia.
  - destruct ((op_type (dec_op fs) =? BLOCK_RANGE) && negb (in_range tgt (op_file (dec_op fs)))) eqn:Hv.
    + (* refused by validateOp: before the fix this op reached pool.GetSize *)
      apply andb_prop in Hv. destruct Hv as [Hty Hin]. apply negb_true_iff in Hin.
      unfold apply_op. cbn [andb]. rewrite Hty, apply_block_range_out by assumption. apply fixes_panic.
    + apply (fixes_bind _ _ _ _ _ _ _ _ (apply_op_fixes bs maxoff tgt (dec_op fs))
                        (fun k => relay_fixes f bs maxoff tgt k s1 (length s))). lia.
  - rewrite Hff. apply fixes_panic.
Qed.

Lemma controls_ok : forall f oldSize off w s n,
  (length s < f)%nat -> (length s <= n)%nat ->
  step_safe (fun ws => (length (snd ws) < n)%nat) (controls f oldSize off w s).
Proof.
  induction f as [|f IH]; intros oldSize off w s n Hlt Hn; [lia|].
  cbn [controls]. apply read_cases; [exact safe_err|]. intros fs s1 Hlen.
  destruct (c_eof (dec_ctl fs)); [cbn; lia|].
  destruct ((off <? 0) || (off >? oldSize)); [exact safe_err|].
  destruct ((0 <? c_add (dec_ctl fs)) && (off + c_add (dec_ctl fs) >? oldSize)); [exact safe_err|].
  apply IH; lia.
Qed.

(** the sentinel SyncOp that closes a bsdiff series *)
Lemma sentinel_ok n s2 (k : list field -> stream -> step stream) :
  (length s2 < n)%nat ->
  (forall fs2 s3, k fs2 s3 = Cont s3 \/ k fs2 s3 = Stop Err) ->
  step_ok n (match read s2 with Some (fs2, s3) => k fs2 s3 | None => Stop Err end).
Proof.
  intros Hlt Hk. apply read_cases; [exact safe_err|]. intros fs2 s3 Hlen.
  destruct (Hk fs2 s3) as [-> | ->]; [cbn; lia|exact safe_err].
Qed.

(** the check of the header's index stands where targetPool.GetReadSeeker panicked *)
Lemma process_bsdiff_fixes f tgt outSize s :
  fixes (length s < f)%nat (fun s' => (length s' < length s)%nat)
        (process_bsdiff f false tgt outSize s) (process_bsdiff f true tgt outSize s).
Proof.
  unfold process_bsdiff. apply read_cases_both; [apply fixes_err|]. intros fs s1 Hlen.
  destruct (nth_size tgt (dec_bh fs)) as [oldSize|]; [|apply fixes_panic].
  apply fixes_refl. intros Hlt.
  pose proof (controls_ok f oldSize 0 0 s1 (length s1) ltac:(lia) (le_n _)) as Hc.
  destruct (controls f oldSize 0 0 s1) as [[w s2]|r]; [|exact Hc].
  apply sentinel_ok; [cbn in Hc; lia|]. intros fs2 s3.
  destruct (negb (op_type (dec_op fs2) =? HEY)); [auto|]. destruct (negb (w =? outSize)); auto.
Qed.

Lemma until_eof_ok : forall f s n,
  (length s < f)%nat -> (length s <= n)%nat -> step_ok n (until_eof f s).
Proof.
  induction f as [|f IH]; intros s n Hlt Hn; [lia|].
  cbn [until_eof]. apply read_cases; [exact safe_err|]. intros fs s1 Hlen.
  destruct (c_eof (dec_ctl fs)); [cbn; lia|apply IH; lia].
Qed.

Lemma skip_file_ok : forall f kind s, (length s < f)%nat -> step_ok (length s) (skip_file f kind s).
Proof.
  intros f kind s Hlt. unfold skip_file.
  destruct (kind =? BSDIFF); [|apply until_hey_ok; lia].
  apply read_cases; [exact safe_err|]. intros fs s1 Hlen.
  pose proof (until_eof_ok f s1 (length s1) ltac:(lia) (le_n _)) as Hc.
  destruct (until_eof f s1) as [s2|r]; [|exact Hc].
  apply sentinel_ok; [cbn in Hc; lia|]. intros fs2 s3.
  destruct (op_type (dec_op fs2) =? HEY); auto.
Qed.

(** Resume on the series of one file, behind its header: the [let r := ...] of [Malformed.resume]
    under a name; [resume_fixes] applies the lemma about [series] to that [let] by conversion *)
Definition series (f : nat) (fx : bool) (bs maxoff : Z) (tgt : list Z) (wl : option (list Z))
           (idx kind outSize : Z) (s : stream) : step stream :=
  if negb (whitelisted wl idx) then skip_file f kind s
  else if kind =? RSYNC then process_rsync f fx bs maxoff tgt outSize s
  else process_bsdiff f fx tgt outSize s.

Lemma series_fixes f bs maxoff tgt wl idx kind outSize s :
  fixes (0 < bs /\ (length s < f)%nat) (fun s' => (length s' < length s)%nat)
        (series f false bs maxoff tgt wl idx kind outSize s) (series f true bs maxoff tgt wl idx kind outSize s).
Proof.
  unfold series. destruct (negb (whitelisted wl idx)); [apply fixes_refl; intros (_ & Hlt); apply skip_file_ok, Hlt|].
  destruct (kind =? RSYNC); [apply process_rsync_fixes|].
  apply (fixes_weaken _ _ _ _ _ (process_bsdiff_fixes f tgt outSize s)). intros [_ Hlt]. exact Hlt.
Qed.

Lemma resume_fixes f bs maxoff tgt wl : forall srcs idx s,
  fixes_res (0 < bs /\ (length s < f)%nat)
            (resume f false bs maxoff tgt wl idx srcs s) (resume f true bs maxoff tgt wl idx srcs s).
Proof.
  induction srcs as [|outSize rest IH]; intros idx s; [apply fixes_res_refl; intros _; exact safe_ok|].
  cbn [resume]. apply read_cases_both; [apply fixes_res_err|]. intros fs s1 Hlen.
  destruct (negb (sh_file (dec_sh fs) =? idx)); [apply fixes_res_err|].
  destruct (negb ((sh_type (dec_sh fs) =? RSYNC) || (sh_type (dec_sh fs) =? BSDIFF)));
    [apply fixes_res_err|].
  refine (fixes_loop _ _ _ (length s1) _ _ _ _ (series_fixes f bs maxoff tgt wl idx (sh_type (dec_sh fs)) outSize s1)
                     (fun s2 => IH (idx + 1) s2) _ _); [lia|intros; lia].
Qed.

Lemma analyze_ops_fixes : forall f tgt s n,
  fixes ((length s < f)%nat /\ (length s <= n)%nat) (fun s' => (length s' < n)%nat)
        (analyze_ops f false tgt s) (analyze_ops f true tgt s).
Proof.
  induction f as [|f IH]; intros tgt s n; [split; [reflexivity|lia]|].
  cbn [analyze_ops]. apply read_cases_both; [apply fixes_err|]. intros fs s1 Hlen.
  pose proof (fixes_weaken _ ((length s < S f)%nat /\ (length s <= n)%nat) _ _ _ (IH tgt s1 n) ltac:(lia)) as Hrec.
  destruct (op_type (dec_op fs) =? BLOCK_RANGE).
  - destruct (in_range tgt (op_file (dec_op fs))); [exact Hrec|apply fixes_panic].
  - destruct (op_type (dec_op fs) =? DATA); [exact Hrec|]. apply fixes_refl. intros (_ & Hn).
    destruct (op_type (dec_op fs) =? HEY); [cbn [step_safe]; lia|exact safe_err].
Qed.

(** whatever the op loop of the analysis accepts, the copy loop of the second pass accepts,
    and it stops at the same frame; and the analysis never stops with Ok *)
Lemma analyze_ops_until_hey : forall f fx tgt s,
  match analyze_ops f fx tgt s with
  | Cont s2 => until_hey f s = Cont s2
  | Stop r => r <> Ok
  end.
Proof.
  induction f as [|f IH]; intros fx tgt s; [discriminate|].
  cbn [analyze_ops until_hey]. destruct (read s) as [[fs s1]|]; [|discriminate].
  destruct (op_type (dec_op fs) =? HEY) eqn:Hh.
  - (* the end marker is neither a block range nor data *)
    replace (op_type (dec_op fs) =? BLOCK_RANGE) with false by (unfold BLOCK_RANGE, HEY in *; lia).
    replace (op_type (dec_op fs) =? DATA) with false by (unfold DATA, HEY in *; lia). reflexivity.
  - destruct (op_type (dec_op fs) =? BLOCK_RANGE).
    + destruct (in_range tgt (op_file (dec_op fs))); [apply IH|destruct fx; discriminate].
    + destruct (op_type (dec_op fs) =? DATA); [apply IH|discriminate].
Qed.

Lemma analyze_fixes f tgt : forall srcs idx s,
  fixes_res (length s < f)%nat (analyze f false tgt idx srcs s) (analyze f true tgt idx srcs s).
Proof.
  induction srcs as [|sz rest IH]; intros idx s; [apply fixes_res_refl; intros _; exact safe_ok|].
  cbn [analyze]. apply read_cases_both; [apply fixes_res_err|]. intros fs s1 Hlen.
  destruct (negb (sh_file (dec_sh fs) =? idx)); [apply fixes_res_err|].
  refine (fixes_loop _ _ _ (length s1) _ _ _ _ (analyze_ops_fixes f tgt s1 (length s1)) (fun s2 => IH (idx + 1) s2) _ _);
    [lia|intros; lia].
Qed.

Lemma optimize_pass_follows f fx tgt : forall srcs idx s,
  analyze f fx tgt idx srcs s = Ok -> optimize_pass f idx srcs s = Ok.
Proof.
  induction srcs as [|sz rest IH]; intros idx s H; [reflexivity|].
  cbn [analyze] in H. cbn [optimize_pass].
  destruct (read s) as [[fs s1]|]; [|discriminate].
  destruct (negb (sh_file (dec_sh fs) =? idx)); [discriminate|].
  pose proof (analyze_ops_until_hey f fx tgt s1) as Ha.
  destruct (analyze_ops f fx tgt s1) as [s2|x]; [rewrite Ha; apply IH; assumption|contradiction].
Qed.

Lemma rediff_fixes f tgt src s :
  fixes_res (length s < f)%nat (rediff f false tgt src s) (rediff f true tgt src s).
Proof.
  destruct (analyze_fixes f tgt src 0 s) as [Hc Hs]. unfold rediff. split.
  - intros Hnp. rewrite Hc; [reflexivity|]. intros st He. rewrite He in Hnp. exact (Hnp st eq_refl).
  - intros Hlt. specialize (Hs Hlt). destruct (analyze f true tgt 0 src s) eqn:He; try exact Hs.
    rewrite (optimize_pass_follows _ _ _ _ _ _ He). exact safe_ok.
Qed.

Lemma read_blocks_err : forall k n s r, read_blocks k n s = Stop r -> r = Err.
Proof.
  induction k as [|k IH]; intros n s r H; cbn in H; [discriminate|].
  destruct (read_hash s) as [s1| |]; [eauto|discriminate|congruence].
Qed.

Lemma read_signature_err : forall bs sizes n s r, read_signature bs sizes n s = Stop r -> r = Err.
Proof.
  intros bs sizes. induction sizes as [|sz rest IH]; intros n s r H; cbn [read_signature] in H; [discriminate|].
  destruct (num_blocks bs sz =? 0).
  - destruct (read_hash s) as [s1| |]; [eauto|discriminate|congruence].
  - destruct (read_blocks (Z.to_nat (num_blocks bs sz)) n s) as [[n1 s1]|x] eqn:Hb; [eauto|].
    apply read_blocks_err in Hb. congruence.
Qed.

Lemma hash_info_safe : forall bs sizes hashIndex n cap,
  n <= cap -> safe (hash_info true bs sizes hashIndex n cap).
Proof.
  intros bs sizes. induction sizes as [|sz rest IH]; intros hashIndex n cap Hcap; cbn [hash_info].
  - destruct (hashIndex =? n); auto with c10.
  - destruct (sz =? 0); [apply IH; assumption|]. cbn [andb].
    destruct (hashIndex + num_blocks bs sz >? n) eqn:Hgt; [exact safe_err|].
    assert (Hc : (hashIndex + num_blocks bs sz >? cap) = false) by lia.
    rewrite Hc. apply IH. assumption.
Qed.

Lemma num_blocks_nonneg : forall bs sz, 0 < bs -> 0 <= sz -> 0 <= num_blocks bs sz.
Proof. intros bs sz Hbs Hsz. unfold num_blocks. apply Z.quot_pos; lia. Qed.

Lemma hash_info_past_end : forall bs sizes hashIndex n cap,
  0 < bs -> Forall (fun z => 0 <= z) sizes -> n < hashIndex ->
  no_panic (hash_info false bs sizes hashIndex n cap) -> hash_info false bs sizes hashIndex n cap = Err.
Proof.
  intros bs sizes. induction sizes as [|sz rest IH]; intros hashIndex n cap Hbs Hall Hlt Hnp; cbn [hash_info] in *.
  - assert (He : (hashIndex =? n) = false) by lia. rewrite He. reflexivity.
  - inversion Hall as [|? ? Hsz Hrest]; subst.
    destruct (sz =? 0); [apply IH; try assumption; lia|]. cbn [andb] in *.
    destruct (hashIndex + num_blocks bs sz >? cap).
    + exfalso. eapply Hnp. reflexivity.
    + pose proof (num_blocks_nonneg bs sz Hbs Hsz). apply IH; try assumption; lia.
Qed.

Lemma hash_info_conservative : forall bs sizes hashIndex n cap,
  0 < bs -> Forall (fun z => 0 <= z) sizes -> n <= cap ->
  no_panic (hash_info false bs sizes hashIndex n cap) ->
  hash_info true bs sizes hashIndex n cap = hash_info false bs sizes hashIndex n cap.
Proof.
  intros bs sizes. induction sizes as [|sz rest IH]; intros hashIndex n cap Hbs Hall Hcap Hnp; cbn [hash_info] in *; [reflexivity|].
  inversion Hall as [|? ? Hsz Hrest]; subst.
  destruct (sz =? 0); [apply IH; assumption|]. cbn [andb] in *.
  destruct (hashIndex + num_blocks bs sz >? cap) eqn:Hc.
  - exfalso. eapply Hnp. reflexivity.
  - destruct (hashIndex + num_blocks bs sz >? n) eqn:Hn.
    + symmetry. apply hash_info_past_end; try assumption. lia.
    + apply IH; assumption.
Qed.

(** Non-vacuity: valid streams are accepted (and the same streams cut short are errors) *)

Example patcher_accepts_valid :
  (* file 0: block range [0,2) of old file 0 then 5 fresh bytes; file 1: full-file op (rename of old
     file 1); file 2: bsdiff against old file 0 (add 100, copy 7, seek 10; add 20; eof) + sentinel *)
  let s := [ G []; G [(4, V 2)]; G [(1, V 1); (5, L 5)]; G [(1, V 2049)];
             G [(16, V 1)]; G [(2, V 1); (4, V 1)]; G [(1, V 2049)];
             G [(1, V 1); (16, V 2)]; G []; G [(1, L 100); (2, L 7); (3, V 10)]; G [(1, L 20)]; G [(4, V 1)]; G [(1, V 2049)] ] in
  patcher (S (length s)) true 65536 (2^44) [70000; 10] [70005; 10; 127] None s = Ok
  /\ patcher (S (length s)) false 65536 (2^44) [70000; 10] [70005; 10; 127] None s = Ok
  /\ patcher (S (length s)) true 65536 (2^44) [70000; 10] [70005; 10; 127] None (firstn 9 s) = Err.
Proof. vm_compute. repeat split; reflexivity. Qed.

(** a series that is skipped (file not whitelisted) is read according to its kind: the header of
    this bsdiff series, decoded as a SyncOp, would read as the end marker (targetIndex 2049) *)
Example patcher_skips_bsdiff_series :
  let s := [ G [(1, V 1)]; G [(1, V 2049)]; G [(1, L 100); (3, V 5)]; G [(4, V 1)]; G [(1, V 2049)];
             G [(16, V 1)]; G [(1, V 1); (5, L 10)]; G [(1, V 2049)] ] in
  patcher (S (length s)) true 65536 (2^44) [100] [100; 10] (Some [1]) s = Ok
  /\ patcher (S (length s)) true 65536 (2^44) [100] [100; 10] (Some [1]) (firstn 3 s) = Err
  /\ patcher (S (length s)) true 65536 (2^44) [100] [100; 10] (Some [1])
       [ G [(1, V 1)]; G [(1, V 2049)]; G [(4, V 1)]; G [(1, V 1)] ] = Err.
Proof. vm_compute. repeat split; reflexivity. Qed.

Example signature_accepts_valid :
  signature true 65536 (fun n => n) [70000; 0; 10] [G [(1, V 1)]; G [(1, V 2)]; G []; G [(2, L 16)]] = Ok
  /\ signature true 65536 (fun n => n) [70000; 0; 10] [G [(1, V 1)]; G [(1, V 2)]; G []] = Err.
Proof. vm_compute. split; reflexivity. Qed.

Example overlay_accepts_valid :
  overlay_patch 5 (2^44) (2^44) 0 [G []; G [(2, V 100)]; G [(1, V 1); (3, L 30)]; G [(1, V 2040)]] = Ok
  /\ overlay_patch 5 (2^44) (2^44) 0 [G []; G [(2, V (2^64 - 1))]; G [(1, V 2040)]] = Err.
Proof. vm_compute. split; reflexivity. Qed.
