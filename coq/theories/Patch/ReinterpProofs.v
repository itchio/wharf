(** Lemmas about the schema-level marshalling model: reading a frame as the type it was
    written as gives the message back (for field values Go's types can hold), and
    [data_span1_reads_as_eof]: a SyncOp{DATA, blockSpan 1} read as a Control has eof set. *)
From Coq Require Import ZifyBool.
From Wharf Require Import Base.Prelude Patch.Reinterp.
Local Open Scope Z_scope.

Lemma i64_roundtrip v : i64_ok v -> i64_of_u64 (u64_of_i64 v) = v.
Proof.
  unfold i64_ok, i64_of_u64, u64_of_i64. intros H.
  destruct (Z.ltb_spec (v mod 2^64) (2^63)) as [L|L]; Z.div_mod_to_equations; lia.
Qed.

Lemma i32_roundtrip v : i32_ok v -> i32_of_u64 (u64_of_i64 v) = v.
Proof.
  unfold i32_ok, i32_of_u64, u64_of_i64. intros H.
  cbv zeta.
  destruct (Z.ltb_spec ((v mod 2^64) mod 2^32) (2^31)) as [L|L]; Z.div_mod_to_equations; lia.
Qed.

Lemma get_varint_app n l1 l2 acc : get_varint n (l1 ++ l2) acc = get_varint n l2 (get_varint n l1 acc).
Proof.
  revert acc. induction l1 as [|[k [u|b]] l1 IH]; intros acc; cbn [get_varint app]; auto.
Qed.
Lemma get_bytes_app n l1 l2 acc : get_bytes n (l1 ++ l2) acc = get_bytes n l2 (get_bytes n l1 acc).
Proof.
  revert acc. induction l1 as [|[k [u|b]] l1 IH]; intros acc; cbn [get_bytes app]; auto.
Qed.

Lemma get_varint_f_varint n k v acc :
  get_varint n (f_varint k v) acc = if (k =? n) && negb (v =? 0) then u64_of_i64 v else acc.
Proof.
  unfold f_varint. destruct (v =? 0); cbn [get_varint negb]; destruct (k =? n); reflexivity.
Qed.
Lemma get_varint_f_bytes n k b acc : get_varint n (f_bytes k b) acc = acc.
Proof. destruct b; reflexivity. Qed.
Lemma get_varint_f_bool n k b acc :
  get_varint n (f_bool k b) acc = if (k =? n) && b then 1 else acc.
Proof. destruct b; cbn [f_bool get_varint]; destruct (k =? n); reflexivity. Qed.
Lemma get_bytes_f_varint n k v acc : get_bytes n (f_varint k v) acc = acc.
Proof. unfold f_varint. destruct (v =? 0); reflexivity. Qed.
Lemma get_bytes_f_bool n k b acc : get_bytes n (f_bool k b) acc = acc.
Proof. destruct b; reflexivity. Qed.
Lemma get_bytes_f_bytes n k b acc :
  get_bytes n (f_bytes k b) acc = if (k =? n) && negb (match b with [] => true | _ => false end) then b else acc.
Proof. destruct b; cbn [f_bytes get_bytes negb]; [rewrite Bool.andb_false_r|destruct (k =? n)]; reflexivity. Qed.

Lemma u64_zero_or v : (if negb (v =? 0) then u64_of_i64 v else 0) = u64_of_i64 v.
Proof. destruct (Z.eqb_spec v 0) as [->|]; reflexivity. Qed.

Ltac simp_get :=
  repeat (rewrite ?get_varint_app, ?get_bytes_app, ?get_varint_f_varint, ?get_varint_f_bytes, ?get_varint_f_bool,
                  ?get_bytes_f_varint, ?get_bytes_f_bool, ?get_bytes_f_bytes);
  cbn [Z.eqb Pos.eqb andb]; rewrite ?u64_zero_or.

Lemma as_sh_own m : pmsg_ok (MSH m) -> as_sh (MSH m) = m.
Proof.
  destruct m as [t f]. cbn [pmsg_ok sh_type sh_file]. intros [Ht Hf].
  unfold as_sh, dec_sh, fields_of, fields_sh. cbn [sh_type sh_file]. simp_get.
  rewrite i32_roundtrip, i64_roundtrip by assumption. reflexivity.
Qed.

Lemma as_so_own m : pmsg_ok (MSO m) -> as_so (MSO m) = m.
Proof.
  destruct m as [t f b s d]. cbn [pmsg_ok so_type so_file so_block so_span]. intros (Ht & Hf & Hb & Hs).
  unfold as_so, dec_so, fields_of, fields_so. cbn [so_type so_file so_block so_span so_data]. simp_get.
  rewrite i32_roundtrip, !i64_roundtrip by assumption.
  destruct d; reflexivity.
Qed.

Lemma as_bh_own m : pmsg_ok (MBH m) -> as_bh (MBH m) = m.
Proof.
  destruct m as [t]. cbn [pmsg_ok bh_target]. intros Ht.
  unfold as_bh, dec_bh, fields_of, fields_bh. cbn [bh_target]. simp_get.
  rewrite i64_roundtrip by assumption. reflexivity.
Qed.

Lemma as_ct_own m : pmsg_ok (MCT m) -> as_ct (MCT m) = m.
Proof.
  destruct m as [a c s e]. cbn [pmsg_ok ct_seek]. intros Hs.
  unfold as_ct, dec_ct, fields_of, fields_ct. cbn [ct_add ct_copy ct_seek ct_eof]. simp_get.
  rewrite i64_roundtrip by assumption.
  destruct a, c, e; reflexivity.
Qed.

(** SyncOp.blockSpan and Control.eof share field 4 / varint: a DATA op with span 1 reads as an
    eof Control (also observed on golang/protobuf by the [reinterp] correspondence) *)
Lemma data_span1_reads_as_eof : ct_eof (as_ct (MSO (mkSO T_DATA 0 0 1 []))) = true.
Proof. vm_compute. reflexivity. Qed.
