(** Lemmas used by every proof about Patch/Patcher.v (C01, C07, C10, C17 and the Compose files):
    [znth]; the fresh bowl's primitives on a prepared tree ([file_ready], [prepared_ready]);
    the combinators [sim] / [on_snd] for "the second run succeeds whenever the first does";
    Section Rel: "processing a file only touches that file's path and only depends on what
    is there" (as a relation between two runs); Section Local: the same of one run
    ([process_local]) and the invariant it gives, [all_ready]; Section Skip: "whatever a successful
    processing of a series consumes, skipping it consumes too"; [cut_of] and Section Prefix: a loop
    run on a prefix of its messages (the base of C01's truncation theorem). *)
From Coq Require Import ZifyBool ZifyNat.
From Wharf Require Import Base.Prelude Bowl.Fresh Bowl.FreshProofs Patch.Reinterp
  Patch.Stream Patch.Patcher Patch.Whitelist.
Local Open Scope Z_scope.

Lemma znth_Some {A} (l : list A) i x : znth l i = Some x -> 0 <= i < Z.of_nat (length l).
Proof.
  unfold znth. destruct (Z.ltb_spec i 0) as [Hlt|Hge]; [discriminate|]. intros Hn.
  assert (Hs : nth_error l (Z.to_nat i) <> None) by (rewrite Hn; discriminate).
  apply nth_error_Some in Hs. lia.
Qed.

Lemma znth_in_range {A} (l : list A) i : 0 <= i < Z.of_nat (length l) -> exists x, znth l i = Some x.
Proof.
  intros Hr. unfold znth. destruct (Z.ltb_spec i 0) as [Hlt|Hge]; [lia|].
  destruct (nth_error l (Z.to_nat i)) eqn:E; [eexists; reflexivity|].
  apply nth_error_None in E. lia.
Qed.

Lemma znth_In {A} (l : list A) i x : znth l i = Some x -> In x l.
Proof. unfold znth. destruct (i <? 0); [discriminate|]. apply nth_error_In. Qed.

Lemma znth_NoDup_fst {A B} (l : list (A * B)) i j a b b' :
  NoDup (map fst l) -> znth l i = Some (a, b) -> znth l j = Some (a, b') -> i = j.
Proof.
  intros ND Hi Hj. pose proof (znth_Some _ _ _ Hi) as Ri. pose proof (znth_Some _ _ _ Hj) as Rj.
  unfold znth in *. destruct (i <? 0); [discriminate|]. destruct (j <? 0); [discriminate|].
  assert (E : Z.to_nat i = Z.to_nat j).
  { apply (proj1 (NoDup_nth_error (map fst l)) ND).
    - rewrite map_length. lia.
    - rewrite !nth_error_map, Hi, Hj. reflexivity. }
  lia.
Qed.

Lemma znth_of_nat {A} (l : list A) k : znth l (Z.of_nat k) = nth_error l k.
Proof. unfold znth. destruct (Z.ltb_spec (Z.of_nat k) 0); [lia|]. rewrite Nat2Z.id. reflexivity. Qed.

Lemma znth_app_length {A} (l r : list A) x : znth (l ++ x :: r) (Z.of_nat (length l)) = Some x.
Proof.
  rewrite znth_of_nat, nth_error_app2, Nat.sub_diag by lia. reflexivity.
Qed.


(** what Prepare leaves for every file of a well-formed container, and what processing keeps:
    the path holds a regular file and everything above it is a directory *)
Definition file_ready (t : tree) (p : path) : Prop :=
  p <> [] /\ (forall q, In q (proper_prefixes p) -> tlookup t q = Some Dir) /\ exists d, tlookup t p = Some (File d).

Lemma proper_prefix_neq p q : In q (proper_prefixes p) -> q <> p.
Proof.
  intros H ->. apply proper_prefixes_in in H. destruct H as (b & H & _ & Hb).
  apply Hb. apply (f_equal (@length N)) in H. rewrite app_length in H.
  destruct b; [reflexivity|cbn in H; lia].
Qed.

Lemma entry_open_ready t p : file_ready t p -> entry_open t p = Ok t.
Proof.
  intros (Hp & Hd & d & Hf). unfold entry_open. destruct p as [|x p']; [contradiction|].
  rewrite mkdir_all_noop by exact Hd. cbn [bind]. rewrite Hf. reflexivity.
Qed.

Lemma transpose_write_ready t p data : file_ready t p -> transpose_write t p data = Ok (tset t p (File data)).
Proof.
  intros (Hp & Hd & d & Hf). unfold transpose_write. destruct p as [|x p']; [contradiction|].
  rewrite mkdir_all_noop by exact Hd. cbn [bind]. rewrite Hf. reflexivity.
Qed.

Lemma entry_write_file t p off data d :
  tlookup t p = Some (File d) -> entry_write t p off data = Ok (tset t p (File (pwrite d off data))).
Proof. intros H. unfold entry_write. rewrite H. reflexivity. Qed.

(** writer.Write on a path that holds a file: it cannot fail, moves the offset by what it wrote,
    logs nothing and touches that path only (an empty write does not even reach the file) *)
Lemma w_write_file w data raw :
  tlookup (p_tree (w_st w)) (w_path w) = Some (File raw) ->
  exists w', w_write w data = Ok w' /\ w_path w' = w_path w /\ w_off w' = (w_off w + length data)%nat /\
    p_trace (w_st w') = p_trace (w_st w) /\
    tlookup (p_tree (w_st w')) (w_path w) =
      Some (File (match data with [] => raw | _ => pwrite raw (w_off w) data end)) /\
    (forall q, q <> w_path w -> tlookup (p_tree (w_st w')) q = tlookup (p_tree (w_st w)) q).
Proof.
  intros Hf. unfold w_write. destruct data as [|b data].
  - exists w. rewrite Nat.add_0_r. auto 6.
  - rewrite (entry_write_file _ _ _ _ _ Hf). cbn [bind]. eexists. split; [reflexivity|].
    cbn [w_st w_path w_off p_tree p_trace]. rewrite tlookup_tset_same. repeat split.
    intros q Hq. apply tlookup_tset_other. congruence.
Qed.

Lemma pool_open_ok oldC olds t d : pool_open oldC olds t = Ok d -> znth olds t = Some d.
Proof.
  unfold pool_open. destruct (znth (c_files oldC) t); [|discriminate].
  destruct (znth olds t); [|discriminate]. intros [= ->]. reflexivity.
Qed.

Lemma open_writer_ready newC s idx p sz :
  znth (c_files newC) idx = Some (p, sz) -> file_ready (p_tree s) p ->
  open_writer newC s idx = Ok (mkW (ev s (EvWriter idx)) p 0).
Proof.
  intros Hi R. unfold open_writer. rewrite Hi, (entry_open_ready (p_tree (ev s (EvWriter idx))) p R). reflexivity.
Qed.

Lemma file_ready_frame t t' p pj :
  file_ready t pj -> (forall q, q <> p -> tlookup t' q = tlookup t q) ->
  (exists d, tlookup t p = Some (File d)) -> (exists d', tlookup t' p = Some (File d')) ->
  file_ready t' pj.
Proof.
  intros (Hne & Hd & d & Hf) Hfr (d0 & H0) (d1 & H1). split; [assumption|]. split.
  - intros q Hq. destruct (path_eq_dec q p) as [->|Hn].
    + rewrite (Hd p Hq) in H0. discriminate.
    + rewrite Hfr by assumption. apply Hd. assumption.
  - destruct (path_eq_dec pj p) as [->|Hn]; [exists d1; assumption|].
    exists d. rewrite Hfr by assumption. assumption.
Qed.

(** [r2] succeeds whenever [r1] does, with related results: the form of "a run from a related
    state does the same" and of "skipping consumes what processing consumed" *)
Definition sim {A B} (R : A -> B -> Prop) (r1 : res A) (r2 : res B) : Prop :=
  forall a, r1 = Ok a -> exists b, r2 = Ok b /\ R a b.

Lemma sim_ok {A B} (R : A -> B -> Prop) a b : R a b -> sim R (Ok a) (Ok b).
Proof. intros H ? [= <-]. exists b. split; [reflexivity|exact H]. Qed.

Lemma sim_err {A B} (R : A -> B -> Prop) r2 : sim R Err r2.
Proof. intros ? [=]. Qed.

Lemma sim_panic {A B} (R : A -> B -> Prop) r2 : sim R Panic r2.
Proof. intros ? [=]. Qed.
(* [auto] closes the branches where the first computation fails *)
#[local] Hint Resolve sim_err sim_panic : core.

Lemma sim_bind {A B A' B'} (R : A -> B -> Prop) (S : A' -> B' -> Prop) r1 r2 f g :
  sim R r1 r2 -> (forall a b, R a b -> sim S (f a) (g b)) -> sim S (bind r1 f) (bind r2 g).
Proof.
  intros H Hf a' E. destruct r1 as [a| |]; try discriminate.
  destruct (H a eq_refl) as (b & -> & Hab). exact (Hf a b Hab a' E).
Qed.

Lemma sim_bind_l {A B A'} (S : A' -> B -> Prop) (r1 : res A) f r2 :
  (forall a, sim S (f a) r2) -> sim S (bind r1 f) r2.
Proof. intros Hf a' E. destruct r1 as [a| |]; try discriminate. exact (Hf a a' E). Qed.

Definition on_snd {X A B} (R : A -> B -> Prop) (x : X * A) (y : X * B) : Prop :=
  fst x = fst y /\ R (snd x) (snd y).

Lemma sim_on_snd {X A B} (R : A -> B -> Prop) r1 r2 (x : X) a :
  sim (on_snd R) r1 r2 -> r1 = Ok (x, a) -> exists b, r2 = Ok (x, b) /\ R a b.
Proof.
  intros H E. destruct (H _ E) as ([x' b] & -> & Ex & Hab). cbn [fst] in Ex. subst x'.
  exists b. split; [reflexivity|exact Hab].
Qed.

Lemma sim_fst {X A} r1 r2 (x : X) (a : A) : sim (fun y z => fst y = z) r1 r2 -> r1 = Ok (x, a) -> r2 = Ok x.
Proof. intros H E. destruct (H _ E) as (b & -> & <-). reflexivity. Qed.

Section Rel.
  Variables (bs : Z) (oldC newC : container) (olds : list (list byte)).
  Variables (p : path) (idx sz : Z).
  Variables (t10 t20 : tree) (tr1 tr2 : list event).
  Hypothesis Hidx : znth (c_files newC) idx = Some (p, sz).
  Hypothesis R10 : file_ready t10 p.
  Hypothesis R20 : file_ready t20 p.

  (** the two states hold the same file at [p], are unchanged elsewhere, and have logged the
      same calls since the start of this file, all of them about file [idx] *)
  Definition srel (s1 s2 : pst) : Prop :=
    (exists d, tlookup (p_tree s1) p = Some (File d) /\ tlookup (p_tree s2) p = Some (File d)) /\
    (forall q, q <> p -> tlookup (p_tree s1) q = tlookup t10 q) /\
    (forall q, q <> p -> tlookup (p_tree s2) q = tlookup t20 q) /\
    (exists e, p_trace s1 = tr1 ++ e /\ p_trace s2 = tr2 ++ e /\ Forall (bowl_ev_for idx) e).

  Definition wrel (w1 w2 : wst) : Prop :=
    w_path w1 = p /\ w_path w2 = p /\ w_off w1 = w_off w2 /\ srel (w_st w1) (w_st w2).

  Lemma wrel_intro s1 s2 off : srel s1 s2 -> wrel (mkW s1 p off) (mkW s2 p off).
  Proof. intros H. exact (conj eq_refl (conj eq_refl (conj eq_refl H))). Qed.

  Lemma wrel_inv w1 w2 : wrel w1 w2 -> exists s1 s2 off, w1 = mkW s1 p off /\ w2 = mkW s2 p off /\ srel s1 s2.
  Proof.
    destruct w1 as [s1 p1 o1], w2 as [s2 p2 o2]. intros (P1 & P2 & Ho & Hs). cbn [w_path w_off w_st] in *. subst.
    exists s1, s2, o2. split; [reflexivity|]. split; [reflexivity|exact Hs].
  Qed.

  Lemma srel_ready s1 s2 : srel s1 s2 -> file_ready (p_tree s1) p /\ file_ready (p_tree s2) p.
  Proof.
    intros ((d & H1 & H2) & F1 & F2 & _). split.
    - apply (file_ready_frame t10 _ p p R10 F1); [apply R10|exists d; assumption].
    - apply (file_ready_frame t20 _ p p R20 F2); [apply R20|exists d; assumption].
  Qed.

  Lemma srel_ev s1 s2 e : bowl_ev_for idx e -> srel s1 s2 -> srel (ev s1 e) (ev s2 e).
  Proof.
    intros He (Hf & F1 & F2 & (e0 & E1 & E2 & Hall)). unfold ev. cbn [p_tree p_trace].
    repeat split; try assumption.
    exists (e0 ++ [e]). rewrite E1, E2, !app_assoc. repeat split. apply Forall_app. split; [assumption|repeat constructor; assumption].
  Qed.

  Lemma srel_set s1 s2 d :
    srel s1 s2 -> srel (mkP (tset (p_tree s1) p (File d)) (p_trace s1)) (mkP (tset (p_tree s2) p (File d)) (p_trace s2)).
  Proof.
    intros (Hf & F1 & F2 & He). unfold srel. cbn [p_tree p_trace]. repeat split.
    - exists d. rewrite !tlookup_tset_same. split; reflexivity.
    - intros q Hq. rewrite tlookup_tset_other by congruence. apply F1. assumption.
    - intros q Hq. rewrite tlookup_tset_other by congruence. apply F2. assumption.
    - assumption.
  Qed.

  Lemma w_write_rel w1 w2 data : wrel w1 w2 -> sim wrel (w_write w1 data) (w_write w2 data).
  Proof.
    intros Hw. unfold w_write. destruct data as [|b data]; [apply sim_ok, Hw|].
    destruct (wrel_inv _ _ Hw) as (s1 & s2 & off & -> & -> & Hs). cbn [w_st w_path w_off].
    pose proof Hs as ((d & L1 & L2) & _).
    rewrite (entry_write_file _ _ _ _ _ L1), (entry_write_file _ _ _ _ _ L2). cbn [bind].
    apply sim_ok, wrel_intro, (srel_set s1 s2), Hs.
  Qed.

  Lemma apply_range_rel w1 w2 f i s :
    wrel w1 w2 -> sim wrel (apply_range bs oldC olds w1 f i s) (apply_range bs oldC olds w2 f i s).
  Proof.
    intros Hw. destruct (wrel_inv _ _ Hw) as (s1 & s2 & off & -> & -> & Hs). unfold apply_range. cbn [w_st w_path w_off].
    destruct (znth (c_files oldC) f) as [[pf fsz]|]; auto.
    destruct (znth olds f) as [d|]; auto.
    destruct (bs * i <? 0); auto.
    apply w_write_rel, wrel_intro. apply srel_ev; [exact I|]. apply srel_ev; [exact I|exact Hs].
  Qed.

  Lemma apply_op_rel w1 w2 o :
    wrel w1 w2 -> sim wrel (apply_op bs oldC olds w1 o) (apply_op bs oldC olds w2 o).
  Proof.
    intros Hw. unfold apply_op.
    destruct (so_type o =? T_BLOCK_RANGE); [apply apply_range_rel, Hw|].
    destruct (so_type o =? T_DATA); [apply w_write_rel, Hw|apply sim_err].
  Qed.

  Lemma relay_rel ms : forall w1 w2,
    wrel w1 w2 -> sim (on_snd srel) (relay bs oldC olds ms w1) (relay bs oldC olds ms w2).
  Proof.
    induction ms as [|m ms IH]; intros w1 w2 Hw; cbn [relay]; auto.
    destruct (so_type (as_so m) =? HEY); [apply sim_ok; split; [reflexivity|apply Hw]|].
    destruct (negb (validate_op oldC (as_so m))); auto.
    apply (sim_bind wrel); [apply apply_op_rel, Hw|exact IH].
  Qed.

  Lemma bs_apply_rel old off c w1 w2 :
    wrel w1 w2 -> sim (on_snd wrel) (bs_apply old off c w1) (bs_apply old off c w2).
  Proof.
    intros Hw. unfold bs_apply.
    destruct ((off <? 0) || (off >? Z.of_nat (length old))); auto.
    destruct (off + Z.of_nat (length (ct_add c)) >? Z.of_nat (length old)); auto.
    apply (sim_bind wrel); [apply w_write_rel, Hw|intros wa wa2 Hwa].
    apply (sim_bind wrel); [apply w_write_rel, Hwa|intros wb wb2 Hwb].
    apply sim_ok. split; [reflexivity|exact Hwb].
  Qed.

  Lemma ctrl_loop_rel old ms : forall off w1 w2,
    wrel w1 w2 -> sim (on_snd wrel) (ctrl_loop old off ms w1) (ctrl_loop old off ms w2).
  Proof.
    induction ms as [|m ms IH]; intros off w1 w2 Hw; cbn [ctrl_loop]; auto.
    destruct (ct_eof (as_ct m)); [apply sim_ok; split; [reflexivity|exact Hw]|].
    apply (sim_bind (on_snd wrel)); [apply bs_apply_rel, Hw|].
    intros [o1 wa] [o2 wb] [Eo Hwab]. cbn [fst snd] in *. subst o2. apply IH, Hwab.
  Qed.

  Lemma open_writer_rel s1 s2 : srel s1 s2 -> sim wrel (open_writer newC s1 idx) (open_writer newC s2 idx).
  Proof.
    intros Hs. destruct (srel_ready _ _ Hs) as [Ra Rb].
    rewrite (open_writer_ready newC s1 idx p sz Hidx Ra), (open_writer_ready newC s2 idx p sz Hidx Rb).
    apply sim_ok, wrel_intro, srel_ev; [reflexivity|exact Hs].
  Qed.

  Lemma transpose_rel s1 s2 tgt :
    srel s1 s2 -> sim srel (transpose oldC newC olds s1 idx tgt) (transpose oldC newC olds s2 idx tgt).
  Proof.
    intros Hs. unfold transpose.
    destruct (pool_open oldC olds tgt) as [d| |]; cbn [bind]; auto.
    rewrite Hidx.
    assert (Hs2 : srel (ev (ev s1 (EvTranspose idx tgt)) (EvRead tgt)) (ev (ev s2 (EvTranspose idx tgt)) (EvRead tgt)))
      by (apply srel_ev; [exact I|]; apply srel_ev; [reflexivity|exact Hs]).
    destruct (srel_ready _ _ Hs2) as [Ra Rb].
    rewrite (transpose_write_ready _ _ _ Ra), (transpose_write_ready _ _ _ Rb). cbn [bind].
    apply sim_ok, (srel_set _ _ d Hs2).
  Qed.

  Lemma process_rsync_rel ms s1 s2 :
    srel s1 s2 -> sim (on_snd srel) (process_rsync bs oldC newC olds idx ms s1) (process_rsync bs oldC newC olds idx ms s2).
  Proof.
    intros Hs. unfold process_rsync. destruct ms as [|m ms]; auto.
    destruct (negb (validate_op oldC (as_so m))); auto.
    destruct (is_full_file_op bs oldC newC idx (as_so m)) as [[|]| |]; cbn [bind]; auto.
    - apply (sim_bind srel); [apply transpose_rel, Hs|intros sa sb Hs'].
      destruct (until_marker ms) as [r'| |]; cbn [bind]; auto.
      apply sim_ok. split; [reflexivity|exact Hs'].
    - apply (sim_bind wrel); [apply open_writer_rel, Hs|intros w1 w2 Hw].
      apply (sim_bind wrel); [apply apply_op_rel, Hw|apply relay_rel].
  Qed.

  Lemma process_bsdiff_rel ms s1 s2 :
    srel s1 s2 -> sim (on_snd srel) (process_bsdiff oldC newC olds idx ms s1) (process_bsdiff oldC newC olds idx ms s2).
  Proof.
    intros Hs. unfold process_bsdiff. destruct ms as [|m ms]; auto.
    destruct ((bh_target (as_bh m) <? 0) || (bh_target (as_bh m) >=? Z.of_nat (length (c_files oldC)))); auto.
    destruct (pool_open oldC olds (bh_target (as_bh m))) as [old| |]; cbn [bind]; auto.
    apply (sim_bind wrel); [apply open_writer_rel, srel_ev; [exact I|exact Hs]|intros w1 w2 Hw].
    apply (sim_bind (on_snd wrel)); [apply ctrl_loop_rel, Hw|].
    intros [r1 wa] [r2 wb] [Er (_ & _ & Ho & Hs')]. cbn [fst snd] in *. subst r2.
    destruct r1 as [|m2 r2]; auto.
    destruct (negb (so_type (as_so m2) =? HEY)); auto.
    rewrite Hidx, Ho. destruct (Z.of_nat (w_off wb) =? sz); [apply sim_ok; split; [reflexivity|exact Hs']|apply sim_err].
  Qed.
End Rel.

Lemma srel_start p idx t1 t2 tr1 tr2 :
  file_ready t1 p -> tlookup t1 p = tlookup t2 p -> srel p idx t1 t2 tr1 tr2 (mkP t1 tr1) (mkP t2 tr2).
Proof.
  intros (_ & _ & d & Hf) E. unfold srel. cbn [p_tree p_trace]. repeat split; try reflexivity.
  - exists d. split; [|rewrite <- E]; assumption.
  - exists []. rewrite !app_nil_r. repeat split. constructor.
Qed.

Lemma srel_refl p idx t tr : file_ready t p -> srel p idx t t tr tr (mkP t tr) (mkP t tr).
Proof. intros R. apply srel_start; [exact R|reflexivity]. Qed.

Section Local.
  Variables (bs : Z) (oldC newC : container) (olds : list (list byte)).

  Lemma process_rel p idx sz t10 t20 tr1 tr2 kind ms s1 s2 r s1' :
    znth (c_files newC) idx = Some (p, sz) -> file_ready t10 p -> file_ready t20 p ->
    srel p idx t10 t20 tr1 tr2 s1 s2 -> process_file bs oldC newC olds kind idx ms s1 = Ok (r, s1') ->
    exists s2', process_file bs oldC newC olds kind idx ms s2 = Ok (r, s2') /\ srel p idx t10 t20 tr1 tr2 s1' s2'.
  Proof.
    intros Hi R1 R2 Hs. apply sim_on_snd. unfold process_file.
    destruct (kind =? SH_RSYNC); [eapply process_rsync_rel|eapply process_bsdiff_rel]; eassumption.
  Qed.

  (* one run; Properties/C17.v [processing_is_local] is [process_rel], the two-run form *)
  Lemma process_local p idx sz kind ms s r s' :
    znth (c_files newC) idx = Some (p, sz) -> file_ready (p_tree s) p ->
    process_file bs oldC newC olds kind idx ms s = Ok (r, s') ->
    (exists d, tlookup (p_tree s') p = Some (File d)) /\
    (forall q, q <> p -> tlookup (p_tree s') q = tlookup (p_tree s) q) /\
    exists e, p_trace s' = p_trace s ++ e /\ Forall (bowl_ev_for idx) e.
  Proof.
    destruct s as [t tr]. cbn [p_tree p_trace]. intros Hi R H.
    destruct (process_rel p idx sz t t tr tr _ ms _ _ r s' Hi R R (srel_refl p idx t tr R) H)
      as (_ & _ & (d & Hd & _) & F & _ & e & Et & _ & He).
    split; [exists d; exact Hd|]. split; [exact F|]. exists e. split; assumption.
  Qed.

  (** every file of the new container is where Prepare put it: kept by every processing *)
  Definition all_ready (t : tree) : Prop :=
    forall j p sz, znth (c_files newC) j = Some (p, sz) -> file_ready t p.

  Lemma all_ready_frame i p sz t t' :
    znth (c_files newC) i = Some (p, sz) -> all_ready t ->
    (forall q, q <> p -> tlookup t' q = tlookup t q) -> (exists d, tlookup t' p = Some (File d)) -> all_ready t'.
  Proof.
    intros Hi Hall Hfr Hd j pj szj Hj.
    apply (file_ready_frame t t' p pj (Hall _ _ _ Hj) Hfr); [apply (Hall _ _ _ Hi)|exact Hd].
  Qed.

  Lemma process_keeps_ready kind idx p sz ms s r s' :
    znth (c_files newC) idx = Some (p, sz) -> all_ready (p_tree s) ->
    process_file bs oldC newC olds kind idx ms s = Ok (r, s') -> all_ready (p_tree s').
  Proof.
    intros Hi Hall H. destruct (process_local p idx sz kind ms s r s' Hi (Hall _ _ _ Hi) H) as (Hd & Hfr & _).
    exact (all_ready_frame idx p sz _ _ Hi Hall Hfr Hd).
  Qed.
End Local.

Section Skip.
  Variables (bs : Z) (oldC newC : container) (olds : list (list byte)).

  Let same_rest {A} (x : list pmsg * A) (r : list pmsg) : Prop := fst x = r.

  Lemma until_marker_skip ms : until_marker ms = skip_rsync ms.
  Proof. induction ms as [|m ms IH]; cbn [until_marker skip_rsync]; [reflexivity|]. rewrite IH. reflexivity. Qed.

  Lemma relay_skip ms : forall w, sim same_rest (relay bs oldC olds ms w) (skip_rsync ms).
  Proof.
    induction ms as [|m ms IH]; intros w; cbn [relay skip_rsync]; auto.
    destruct (so_type (as_so m) =? HEY); [apply sim_ok; reflexivity|].
    destruct (negb (validate_op oldC (as_so m))); auto.
    apply sim_bind_l, IH.
  Qed.

  Lemma apply_op_not_hey w o w' : apply_op bs oldC olds w o = Ok w' -> (so_type o =? HEY) = false.
  Proof.
    unfold apply_op. destruct (Z.eqb_spec (so_type o) T_BLOCK_RANGE) as [->|]; [reflexivity|].
    destruct (Z.eqb_spec (so_type o) T_DATA) as [->|]; [reflexivity|discriminate].
  Qed.

  Lemma process_rsync_skip idx ms s r s' :
    process_rsync bs oldC newC olds idx ms s = Ok (r, s') -> skip_rsync ms = Ok r.
  Proof.
    apply sim_fst. unfold process_rsync. destruct ms as [|m ms]; auto. cbn [skip_rsync].
    destruct (negb (validate_op oldC (as_so m))); auto.
    destruct (is_full_file_op bs oldC newC idx (as_so m)) as [[|]| |] eqn:Ef; cbn [bind]; auto.
    - (* only a block range is a full-file op *)
      assert (Et : (so_type (as_so m) =? HEY) = false).
      { unfold is_full_file_op in Ef. destruct (Z.eqb_spec (so_type (as_so m)) T_BLOCK_RANGE) as [->|]; [reflexivity|discriminate]. }
      rewrite Et. rewrite <- (until_marker_skip ms). apply sim_bind_l. intros sa.
      destruct (until_marker ms); cbn [bind]; [apply sim_ok; reflexivity|apply sim_err|apply sim_panic].
    - apply sim_bind_l. intros w.
      destruct (apply_op bs oldC olds w (as_so m)) as [w'| |] eqn:Ea; cbn [bind]; auto.
      rewrite (apply_op_not_hey _ _ _ Ea). apply relay_skip.
  Qed.

  Lemma ctrl_loop_skip old ms : forall off w, sim same_rest (ctrl_loop old off ms w) (skip_ctrls ms).
  Proof.
    induction ms as [|m ms IH]; intros off w; cbn [ctrl_loop skip_ctrls]; auto.
    destruct (ct_eof (as_ct m)); [apply sim_ok; reflexivity|].
    apply sim_bind_l. intros ow. apply IH.
  Qed.

  Lemma process_bsdiff_skip idx ms s r s' :
    process_bsdiff oldC newC olds idx ms s = Ok (r, s') -> skip_bsdiff ms = Ok r.
  Proof.
    apply sim_fst. unfold process_bsdiff, skip_bsdiff. destruct ms as [|m ms]; auto.
    destruct ((bh_target (as_bh m) <? 0) || (bh_target (as_bh m) >=? Z.of_nat (length (c_files oldC)))); auto.
    apply sim_bind_l. intros old. apply sim_bind_l. intros w.
    apply (sim_bind same_rest); [apply ctrl_loop_skip|]. intros [r1 w1] r' <-. cbn [fst snd].
    destruct r1 as [|m2 r2]; auto.
    destruct (so_type (as_so m2) =? HEY); cbn [negb]; auto.
    destruct (znth (c_files newC) idx) as [[pp size]|]; auto.
    destruct (Z.of_nat (w_off w1) =? size); [apply sim_ok; reflexivity|apply sim_err].
  Qed.
End Skip.

(** [r2] is the run of [r1] with the last messages [q] taken away: where [r1] succeeds leaving
    [r' ++ q], [r2] runs out of messages or succeeds with the same state leaving [r'] *)
Definition cut_of {A} (q : list pmsg) (r1 r2 : res (list pmsg * A)) : Prop :=
  forall r st, r1 = Ok (r, st) -> r2 = Err \/ exists r', r2 = Ok (r', st) /\ r = r' ++ q.

Lemma cut_ok {A} q r (st : A) : cut_of q (Ok (r ++ q, st)) (Ok (r, st)).
Proof. intros ? ? [= <- <-]. right. exists r. split; reflexivity. Qed.

Lemma cut_out {A} q (r1 : res (list pmsg * A)) : cut_of q r1 Err.
Proof. intros ? ? _. left. reflexivity. Qed.

Lemma cut_err {A} q (r2 : res (list pmsg * A)) : cut_of q Err r2.
Proof. intros ? ? [=]. Qed.

Lemma cut_panic {A} q (r2 : res (list pmsg * A)) : cut_of q Panic r2.
Proof. intros ? ? [=]. Qed.

Lemma cut_bind {A B} q (x : res B) (f g : B -> res (list pmsg * A)) :
  (forall b, cut_of q (f b) (g b)) -> cut_of q (bind x f) (bind x g).
Proof. intros H. destruct x as [b| |]; [apply H|apply cut_err|apply cut_panic]. Qed.

Section Prefix.
  Variables (bs : Z) (oldC newC : container) (olds : list (list byte)).

  Lemma until_marker_prefix {A} p (st : A) : forall q,
    cut_of q (bind (until_marker (p ++ q)) (fun r => Ok (r, st))) (bind (until_marker p) (fun r => Ok (r, st))).
  Proof.
    induction p as [|m p IH]; intros q; cbn [app until_marker]; [apply cut_out|].
    destruct (so_type (as_so m) =? HEY); [apply cut_ok|apply IH].
  Qed.

  Lemma relay_prefix p : forall q w, cut_of q (relay bs oldC olds (p ++ q) w) (relay bs oldC olds p w).
  Proof.
    induction p as [|m p IH]; intros q w; cbn [app relay]; [apply cut_out|].
    destruct (so_type (as_so m) =? HEY); [apply cut_ok|].
    destruct (negb (validate_op oldC (as_so m))); [apply cut_err|].
    apply cut_bind. intros w'. apply IH.
  Qed.

  Lemma process_rsync_prefix idx p q s :
    cut_of q (process_rsync bs oldC newC olds idx (p ++ q) s) (process_rsync bs oldC newC olds idx p s).
  Proof.
    destruct p as [|m p]; [apply cut_out|]. cbn [app]. unfold process_rsync.
    destruct (negb (validate_op oldC (as_so m))); [apply cut_err|].
    destruct (is_full_file_op bs oldC newC idx (as_so m)) as [[|]| |]; cbn [bind]; [| |apply cut_err|apply cut_panic].
    - apply cut_bind. intros s'. apply until_marker_prefix.
    - apply cut_bind. intros w. apply cut_bind. intros w'. apply relay_prefix.
  Qed.

  Lemma ctrl_loop_prefix old p : forall q off w, cut_of q (ctrl_loop old off (p ++ q) w) (ctrl_loop old off p w).
  Proof.
    induction p as [|m p IH]; intros q off w; cbn [app ctrl_loop]; [apply cut_out|].
    destruct (ct_eof (as_ct m)); [apply cut_ok|]. apply cut_bind. intros ow. apply IH.
  Qed.

  Lemma process_bsdiff_prefix idx p q s :
    cut_of q (process_bsdiff oldC newC olds idx (p ++ q) s) (process_bsdiff oldC newC olds idx p s).
  Proof.
    destruct p as [|m p]; [apply cut_out|]. cbn [app]. unfold process_bsdiff.
    destruct ((bh_target (as_bh m) <? 0) || (bh_target (as_bh m) >=? Z.of_nat (length (c_files oldC)))); [apply cut_err|].
    apply cut_bind. intros old. apply cut_bind. intros w.
    (* the sentinel and the size check look at the first message left and at the writer only *)
    intros r st H. apply bind_ok in H as ([r0 w0] & E & H). cbn [fst snd] in H.
    destruct (ctrl_loop_prefix old p q 0 w r0 w0 E) as [-> |(r' & -> & ->)]; cbn [bind fst snd]; [left; reflexivity|].
    destruct r' as [|m2 r2]; [left; reflexivity|]. cbn [app] in H. right.
    destruct (negb (so_type (as_so m2) =? HEY)); [discriminate|].
    destruct (znth (c_files newC) idx) as [[pp size]|]; [|discriminate].
    destruct (Z.of_nat (w_off w0) =? size); [|discriminate].
    injection H as <- <-. exists r2. split; reflexivity.
  Qed.

  Lemma process_file_prefix kind idx p q s :
    cut_of q (process_file bs oldC newC olds kind idx (p ++ q) s) (process_file bs oldC newC olds kind idx p s).
  Proof. unfold process_file. destruct (kind =? SH_RSYNC); [apply process_rsync_prefix|apply process_bsdiff_prefix]. Qed.
End Prefix.

Lemma prepared_ready c t0 j p sz :
  wf_container c -> same_tree t0 (ctree c) ->
  znth (c_files c) j = Some (p, sz) ->
  file_ready t0 p /\ tlookup t0 p = Some (File (zeros (Z.to_nat sz))).
Proof.
  intros WF Ht Hj. apply znth_In in Hj.
  assert (Hpath : In p (c_paths c)) by (apply (file_in_paths c (p, sz)); assumption).
  destruct WF as (ND & NR & PC & SZ).
  assert (Hf : tlookup t0 p = Some (File (zeros (Z.to_nat sz)))).
  { rewrite Ht. apply ctree_file; [repeat split; assumption|assumption]. }
  split; [|assumption]. split; [intros ->; contradiction|]. split.
  - intros q Hq. rewrite Ht. apply ctree_dir. apply (PC p); assumption.
  - eexists. eassumption.
Qed.
