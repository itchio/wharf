(** Byte-level lemmas for C01: [pwrite] of consecutive chunks, the opSize / lastSize arithmetic
    of wsync.ApplySingleFull on in-bounds ranges, and the full-file-op lemma. *)
From Coq Require Import ZifyBool ZifyNat.
From Wharf Require Import Base.Prelude Base.Seg Base.BlockArith Bowl.Fresh Patch.Stream Patch.Patcher.
Local Open Scope Z_scope.

Lemma zeros_length n : length (zeros n) = n.
Proof. apply repeat_length. Qed.

Lemma zeros_app a b : zeros (a + b) = zeros a ++ zeros b.
Proof. unfold zeros. apply repeat_app. Qed.

Lemma skipn_zeros k n : skipn k (zeros n) = zeros (n - k).
Proof.
  unfold zeros. revert n. induction k as [|k IH]; intros n; [rewrite Nat.sub_0_r; reflexivity|].
  destruct n as [|n]; [reflexivity|]. cbn [repeat skipn Nat.sub]. apply IH.
Qed.

Lemma pwrite_next (w data : list byte) (L : nat) :
  (length w + length data <= L)%nat ->
  pwrite (w ++ zeros (L - length w)) (length w) data = (w ++ data) ++ zeros (L - length (w ++ data)).
Proof.
  intros H. unfold pwrite.
  rewrite firstn_app, firstn_all, Nat.sub_diag, firstn_O, app_nil_r.
  rewrite app_length, zeros_length.
  replace (length w - (length w + (L - length w)))%nat with 0%nat by lia. cbn [zeros repeat app].
  rewrite skipn_app, app_length.
  rewrite (skipn_all2 w) by lia. cbn [app].
  replace (length w + length data - length w)%nat with (length data) by lia.
  rewrite skipn_zeros. rewrite <- app_assoc. do 3 f_equal. lia.
Qed.

Lemma pwrite_nil (d : list byte) (off : nat) : (off <= length d)%nat -> pwrite d off [] = d.
Proof.
  intros H. unfold pwrite. replace (off - length d)%nat with 0%nat by lia. cbn [zeros repeat app length].
  rewrite Nat.add_0_r. apply firstn_skipn.
Qed.

Lemma num_blocks_pos bs L : 0 < bs -> 0 <= L -> num_blocks bs L = (L + bs - 1) / bs.
Proof. exact (count_quot bs L). Qed.

Lemma num_blocks_le bs L : 0 < bs -> 0 <= L -> 0 <= num_blocks bs L <= L.
Proof.
  intros Hb HL. rewrite num_blocks_pos by assumption. split; [apply Z.div_pos; lia | apply count_le; nia].
Qed.

(* [i + s <= num_blocks] alone puts the last block of the range inside the file *)
Lemma op_size_in_bounds bs L i s :
  0 < bs -> 0 <= L -> i + s <= num_blocks bs L ->
  op_size bs L i s = Z.min (bs * s) (L - bs * i).
Proof.
  intros Hb HL H. rewrite num_blocks_pos in H by assumption.
  assert (Hlast : bs * (i + (s - 1)) < L) by (apply count_lt; lia).
  unfold op_size. cbv zeta. rewrite block_size_rem by assumption. lia.
Qed.

Lemma slice_seg (d : list byte) from len : slice d from len = seg d (Z.to_nat from) (Z.to_nat len).
Proof. reflexivity. Qed.

Lemma slice_min (d : list byte) from len :
  0 <= from -> slice d from (Z.min len (Z.of_nat (length d) - from)) = slice d from len.
Proof. intros Hf. rewrite !slice_seg, (seg_min d _ (Z.to_nat len)). f_equal. lia. Qed.

Lemma apply_slice_denote bs (d : list byte) i s :
  0 < bs -> 0 <= i -> i + s <= num_blocks bs (Z.of_nat (length d)) ->
  slice d (bs * i) (op_size bs (Z.of_nat (length d)) i s) = slice d (bs * i) (bs * s).
Proof.
  intros Hb Hi H. rewrite op_size_in_bounds by (try assumption; lia).
  apply slice_min. nia.
Qed.

Lemma slice_length (d : list byte) from len :
  0 <= from -> 0 <= len -> Z.of_nat (length (slice d from len)) = Z.max 0 (Z.min len (Z.of_nat (length d) - from)).
Proof. intros Hf Hl. rewrite slice_seg, seg_length. lia. Qed.

Lemma slice_whole bs (d : list byte) :
  0 < bs -> slice d (bs * 0) (bs * num_blocks bs (Z.of_nat (length d))) = d.
Proof. intros Hb. rewrite Z.mul_0_r. apply seg_all. rewrite num_blocks_pos by lia. pose proof (count_covers bs (Z.of_nat (length d)) Hb). lia. Qed.

Lemma full_file_op bs olds f s rest (d data : list byte) :
  0 < bs -> znth olds f = Some d -> length d = length data ->
  s = num_blocks bs (Z.of_nat (length data)) ->
  replay bs olds (OpRange f 0 s :: rest) = data ->
  d = data /\ replay bs olds rest = [].
Proof.
  intros Hb Hd Hlen -> Hrep. unfold replay in Hrep. cbn [flat_map denote] in Hrep. rewrite Hd in Hrep.
  rewrite <- Hlen in Hrep. rewrite slice_whole in Hrep by assumption. fold (replay bs olds rest) in Hrep.
  assert (Hl : length (d ++ replay bs olds rest) = length data) by (rewrite Hrep; reflexivity).
  rewrite app_length in Hl.
  assert (E : replay bs olds rest = []) by (apply length_zero_iff_nil; lia).
  rewrite E, app_nil_r in Hrep. split; assumption.
Qed.

(** wsync.ApplySingleFull on an in-bounds range: sizes the pool, opens the file, and writes
    exactly the bytes the range denotes *)
Lemma apply_single_replays_lemma bs oldC olds w f i s (d : list byte) pf :
  0 < bs -> znth (c_files oldC) f = Some (pf, Z.of_nat (length d)) -> znth olds f = Some d ->
  0 <= i -> i + s <= num_blocks bs (Z.of_nat (length d)) ->
  apply_range bs oldC olds w f i s =
  w_write (mkW (ev (ev (w_st w) (EvSize f)) (EvRead f)) (w_path w) (w_off w)) (denote bs olds (OpRange f i s)).
Proof.
  intros Hbs Hc Hd Hi Hle. unfold apply_range. rewrite Hc, Hd.
  destruct (Z.ltb_spec (bs * i) 0) as [Hneg|_]; [nia|].
  rewrite apply_slice_denote by assumption. cbn [denote w_st w_path w_off]. rewrite Hd. reflexivity.
Qed.
