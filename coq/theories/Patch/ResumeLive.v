(** Liveness of checkpoint delivery (Patch/Resume.v) for a source that serves a pending
    request at its very next read (the seek source: [emit] always true) and a consumer that
    always asks ([sched] always true): of any two consecutive iterations of a relay loop
    (rsync or bsdiff series) at least one hands a checkpoint to the consumer.  (It cannot be
    every iteration: PopCheckpoint puts the reader back to Idle after WantSave has been called
    in the same iteration, so the next request is only issued one iteration later.) *)
From Wharf Require Import Base.Prelude Patch.Resume Patch.ResumeStep.

Section Live.
  Variables RAW WS WCK : Type.

  Local Notation always := (fun _ : nat => true).
  Local Notation state := (state RAW WS WCK).

  Definition in_loop (p : phase WS) : bool :=
    match p with PRsLoop _ _ | PBsLoop _ _ _ _ => true | _ => false end.

  Definition rd_inv (r : reader) : Prop := r_st r = Waiting -> r_want r = true.

  Lemma rd_read_inv : forall emit r, rd_inv r -> rd_inv (rd_read emit r).
  Proof.
    intros emit [p st wn sr] H. unfold rd_read, rd_inv in *. simpl in *. destruct (wn && emit p)%bool; simpl; easy.
  Qed.

  Lemma rd_save_inv : forall ask r, rd_inv r -> rd_inv (snd (rd_save ask r)).
  Proof. intros [|] [p [| |] wn sr] H; unfold rd_inv in *; cbn in *; auto; easy. Qed.

  (** an iteration that pops nothing has at least forwarded the request (now or earlier); if
      the source answers it during the read that follows, the next iteration pops that *)
  Lemma second_iter_pops : forall emit r, rd_inv r -> emit (r_pos r) = true -> fst (rd_save true r) = None ->
    fst (rd_save true (rd_read emit (snd (rd_save true r)))) <> None.
  Proof.
    intros emit [p [| |] wn sr] H He E; unfold rd_inv in H; cbn in *; try discriminate; unfold rd_read; cbn.
    - rewrite He. discriminate.
    - rewrite (H eq_refl), He. discriminate.
  Qed.

  Lemma asks_in_loop : forall s : state, in_loop (s_ph _ _ _ s) = true -> asks _ _ _ always s = true.
  Proof. intros s. unfold asks. destruct (s_ph _ _ _ s); auto. Qed.
End Live.

Section Happen.
  Variables D RAW WS WCK : Type.
  Variable dlen : D -> N.
  Variable blocksize : N.
  Variables tsize ssize : N -> N.
  Variable range_data : N -> N -> N -> D.
  Variable bs_data : N -> Z -> D -> D -> D.
  Variable w_open  : N -> option (N * WCK) -> RAW -> option (WS * RAW).
  Variable w_write : N -> WS -> RAW -> D -> WS * RAW.
  Variable w_save  : N -> WS -> RAW -> (N * WCK) * WS * RAW.
  Variable w_final : N -> WS -> RAW -> RAW.
  Variable w_tell  : WS -> N.
  Variable fresh : bool.
  Variable is_overlay : N -> bool.
  Variable copy_old : N -> RAW.
  Variables emit stop : nat -> bool.

  Local Notation always := (fun _ : nat => true).
  Local Notation stepL := (step D RAW WS WCK dlen blocksize tsize ssize range_data bs_data w_open w_write w_save w_final w_tell fresh is_overlay copy_old emit always stop).

  (** C03, liveness: the consumer always asks, and the source answers a pending request during
      the read of the first of two consecutive relay iterations (the seek source does so at
      every read); then one of the two hands a checkpoint to the consumer *)
  Lemma saves_happen_lemma : forall (s : state RAW WS WCK) m s' m' r,
    in_loop WS (s_ph _ _ _ s) = true -> rd_inv (s_rd _ _ _ s) -> emit (r_pos (s_rd _ _ _ s)) = true ->
    stepL s m = Running _ _ _ s' -> in_loop WS (s_ph _ _ _ s') = true -> stepL s' m' = r ->
    match r with
    | Running _ _ _ s'' | Stopped _ _ _ s'' => length (s_offers _ _ _ s) < length (s_offers _ _ _ s'')
    | _ => True
    end.
  Proof.
    intros s m s' m' r Hl Hinv He H1 Hl' H2.
    pose proof (step_reads D RAW WS WCK dlen blocksize tsize ssize range_data bs_data w_open w_write w_save w_final w_tell
                           fresh is_overlay copy_old emit always stop) as Hstep.
    pose proof (Hstep s m) as A. rewrite H1, (asks_in_loop _ _ _ s Hl) in A. destruct A as (Erd & G1).
    pose proof (Hstep s' m') as B. unfold reads in B. rewrite H2, (asks_in_loop _ _ _ s' Hl'), Erd in B.
    apply grows_length in G1. pose proof (second_iter_pops emit _ Hinv He) as Hp.
    destruct (fst (rd_save true (s_rd RAW WS WCK s))); destruct (fst (rd_save true (rd_read _ _)));
      try (now elim Hp); (destruct r; auto; [destruct B as (_ & B)|]; apply grows_length in B; lia).
  Qed.
End Happen.
