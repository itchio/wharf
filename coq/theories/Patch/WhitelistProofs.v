(** C17 - the simulation between the full run of a patch and the run of the same patch with a
    whitelist.  [G i tf tw] relates the two trees before file [i]: equal at the selected files and
    at those still to come.  [run_rel] carries it through the Resume loop: skipping a file consumes
    the messages its processing consumes ([process_skip]), and processing a file changes its own
    path only and logs calls about it only ([PatcherProofs.process_local]).  [select_only_selected]: what the
    whitelisted run keeps of the full run's trace names selected files only. *)
From Coq Require Import ZifyBool ZifyNat.
From Wharf Require Import Base.Prelude Bowl.Fresh Bowl.FreshProofs Patch.Reinterp Patch.Stream Patch.Patcher
     Patch.Whitelist Patch.PatcherProofs.
Local Open Scope Z_scope.

Section Whitelist.
  Variables (bs : Z) (oldC newC : container) (olds : list (list byte)) (W : list Z).
  Hypothesis WF : wf_container newC.

  Let files := c_files newC.
  Let ND : NoDup (map fst files) := files_nodup newC WF.

  Definition G (i : Z) (tf tw : tree) : Prop :=
    all_ready newC tf /\ all_ready newC tw /\
    (forall j pj szj, znth files j = Some (pj, szj) -> (i <= j \/ wl_mem W j = true) -> tlookup tf pj = tlookup tw pj).

  Let process := process_file bs oldC newC olds.

  Lemma process_skip kind idx ms s r s' :
    (kind =? SH_RSYNC) || (kind =? SH_BSDIFF) = true ->
    process kind idx ms s = Ok (r, s') -> skip_file kind ms = Ok r.
  Proof.
    intros Hk H. unfold process, process_file, skip_file in *.
    destruct (Z.eqb_spec kind SH_RSYNC) as [->|Hn].
    - cbn. eapply process_rsync_skip; eassumption.
    - cbn [orb] in Hk. rewrite Hk. eapply process_bsdiff_skip; eassumption.
  Qed.

  Lemma G_step i p sz tf tw tf1 tw1 :
    znth files i = Some (p, sz) -> G i tf tw ->
    (forall q, q <> p -> tlookup tf1 q = tlookup tf q) -> (exists d, tlookup tf1 p = Some (File d)) ->
    (forall q, q <> p -> tlookup tw1 q = tlookup tw q) -> (exists d, tlookup tw1 p = Some (File d)) ->
    (wl_mem W i = true -> tlookup tf1 p = tlookup tw1 p) ->
    G (i + 1) tf1 tw1.
  Proof.
    intros Hfile (Rf & Rw & HGa) Ff Hdf Fw Hdw Hsel.
    split; [exact (all_ready_frame newC i p sz tf tf1 Hfile Rf Ff Hdf)|].
    split; [exact (all_ready_frame newC i p sz tw tw1 Hfile Rw Fw Hdw)|].
    intros j pj szj Hj Hs. destruct (Z.eq_dec j i) as [->|Hne].
    - rewrite Hfile in Hj. injection Hj as <- <-. apply Hsel. destruct Hs as [Hs|Hs]; [lia|exact Hs].
    - assert (Hp : pj <> p) by (intros ->; apply Hne; eapply znth_NoDup_fst; eassumption).
      rewrite Ff, Fw by exact Hp. apply (HGa j pj szj Hj). destruct Hs as [Hs|Hs]; [left; lia|right; exact Hs].
  Qed.

  (** one turn of the Resume loop in both runs: the whitelisted run processes a selected file as
      the full run does, and skips exactly the messages the full run consumed otherwise *)
  Lemma run_files_step k i m ms sf sw tchf tchw res :
    0 <= i < Z.of_nat (length files) -> G i (p_tree sf) (p_tree sw) ->
    run_files bs oldC newC olds None (S k) i (m :: ms) sf tchf = Ok res ->
    exists r sf1 sw1 e,
      run_files bs oldC newC olds None (S k) i (m :: ms) sf tchf =
        run_files bs oldC newC olds None k (i + 1) r sf1 (tchf + 1) /\
      run_files bs oldC newC olds (Some W) (S k) i (m :: ms) sw tchw =
        run_files bs oldC newC olds (Some W) k (i + 1) r sw1 (tchw + if wl_mem W i then 1 else 0) /\
      p_trace sf1 = p_trace sf ++ e /\ p_trace sw1 = p_trace sw ++ (if wl_mem W i then e else []) /\
      Forall (bowl_ev_for i) e /\ G (i + 1) (p_tree sf1) (p_tree sw1).
  Proof.
    intros Hi HG H. cbn [run_files] in *.
    destruct (Z.eqb_spec (sh_file (as_sh m)) i) as [Efi|]; cbn [negb] in *; [|discriminate].
    destruct ((sh_type (as_sh m) =? SH_RSYNC) || (sh_type (as_sh m) =? SH_BSDIFF)) eqn:Ekind; cbn [negb] in *; [|discriminate].
    cbn [wl_skip] in *. rewrite Efi. fold (wl_mem W i).
    destruct (process_file bs oldC newC olds (sh_type (as_sh m)) i ms sf) as [[r sf1]| |] eqn:Ep; cbn [bind fst snd] in *; try discriminate.
    destruct (znth_in_range files i Hi) as [[p sz] Hfile].
    destruct sf as [tf trf], sw as [tw trw]. cbn [p_tree p_trace] in *.
    destruct HG as (HRf & HRw & HGa). pose proof (HRf i p sz Hfile) as Rf. pose proof (HRw i p sz Hfile) as Rw.
    exists r, sf1. destruct (wl_mem W i) eqn:EW; cbn [negb].
    - assert (Hs0 : srel p i tf tw trf trw (mkP tf trf) (mkP tw trw))
        by (apply srel_start; [exact Rf|apply (HGa i p sz Hfile); left; lia]).
      destruct (process_rel bs oldC newC olds p i sz tf tw trf trw _ ms _ _ r sf1 Hfile Rf Rw Hs0 Ep)
        as (sw1 & Epw & (d & Hdf & Hdw) & Ff & Fw & e & Etrf & Etrw & He).
      exists sw1, e. rewrite Epw. cbn [bind fst snd]. repeat (split; [reflexivity || assumption|]).
      apply (G_step i p sz tf tw); try assumption;
        [exact (conj HRf (conj HRw HGa))|exists d; exact Hdf|exists d; exact Hdw|intros _; rewrite Hdf, Hdw; reflexivity].
    - destruct (process_local bs oldC newC olds p i sz _ ms (mkP tf trf) r sf1 Hfile Rf Ep) as (Hd1 & Ff & e & Etr & He).
      exists (mkP tw trw), e. rewrite (process_skip _ _ _ _ _ _ Ekind Ep). cbn [bind p_trace p_tree].
      rewrite Z.add_0_r, app_nil_r. repeat (split; [reflexivity || assumption|]).
      apply (G_step i p sz tf tw); try assumption; [exact (conj HRf (conj HRw HGa))|intros; reflexivity|apply Rw|rewrite EW; discriminate].
  Qed.

  Lemma run_rel k : forall i ms sf sw tchf tchw sf' tchf',
    0 <= i -> i + Z.of_nat k = Z.of_nat (length files) ->
    G i (p_tree sf) (p_tree sw) ->
    run_files bs oldC newC olds None k i ms sf tchf = Ok (sf', tchf') ->
    exists sw' segs,
      run_files bs oldC newC olds (Some W) k i ms sw tchw = Ok (sw', tchw + wl_count W i k) /\
      tchf' = tchf + Z.of_nat k /\
      G (i + Z.of_nat k) (p_tree sf') (p_tree sw') /\
      length segs = k /\
      p_trace sf' = p_trace sf ++ concat segs /\
      p_trace sw' = p_trace sw ++ wl_select W i segs /\
      (forall m seg, nth_error segs m = Some seg -> Forall (bowl_ev_for (i + Z.of_nat m)) seg).
  Proof.
    induction k as [|k IH]; intros i ms sf sw tchf tchw sf' tchf' Hi Hn HG H.
    - cbn [run_files] in *. injection H as <- <-. exists sw, []. cbn [wl_count wl_select concat length].
      rewrite !Z.add_0_r, !app_nil_r. repeat (split; [reflexivity || exact HG|]).
      intros [|m] seg; discriminate.
    - destruct ms as [|m ms]; [discriminate|].
      destruct (run_files_step k i m ms sf sw tchf tchw _ ltac:(lia) HG H)
        as (r & sf1 & sw1 & e & Ef & Ew & Etf & Etw & He & HG1).
      rewrite Ef in H. rewrite Ew.
      destruct (IH (i + 1) r sf1 sw1 (tchf + 1) (tchw + if wl_mem W i then 1 else 0) sf' tchf' ltac:(lia) ltac:(lia) HG1 H)
        as (sw' & segs & Hrun & Htch & HG' & Hlen & Htrf & Htrw & Hsegs).
      exists sw', (e :: segs). cbn [wl_count wl_select concat length].
      split; [rewrite Hrun; do 2 f_equal; lia|]. split; [lia|].
      split; [replace (i + Z.of_nat (S k)) with (i + 1 + Z.of_nat k) by lia; assumption|].
      split; [lia|]. split; [rewrite Htrf, Etf, <- app_assoc; reflexivity|].
      split; [rewrite Htrw, Etw, <- app_assoc; reflexivity|].
      intros [|m'] seg Hseg; cbn [nth_error] in Hseg.
      + injection Hseg as <-. rewrite Z.add_0_r. assumption.
      + replace (i + Z.of_nat (S m')) with (i + 1 + Z.of_nat m') by lia. eapply Hsegs; eassumption.
  Qed.

  Lemma G_start t0 : same_tree t0 (ctree newC) -> G 0 t0 t0.
  Proof.
    intros H0. assert (R : all_ready newC t0) by (intros j pj szj Hj; apply (prepared_ready newC t0 j pj szj WF H0 Hj)).
    split; [exact R|]. split; [exact R|reflexivity].
  Qed.
End Whitelist.

Definition ev_selected (W : list Z) (e : event) : Prop :=
  match e with EvWriter i => wl_mem W i = true | EvTranspose i _ => wl_mem W i = true | _ => True end.

Lemma select_only_selected W segs : forall i,
  (forall m seg, nth_error segs m = Some seg -> Forall (bowl_ev_for (i + Z.of_nat m)) seg) ->
  Forall (ev_selected W) (wl_select W i segs).
Proof.
  induction segs as [|s segs IH]; intros i H; cbn [wl_select]; [constructor|].
  apply Forall_app. split.
  - destruct (wl_mem W i) eqn:E; [|constructor].
    specialize (H 0%nat s eq_refl). rewrite Z.add_0_r in H.
    eapply Forall_impl; [|exact H]. intros [j|j t|j|j]; cbn [bowl_ev_for ev_selected]; try trivial; intros ->; assumption.
  - apply IH. intros m seg Hm. replace (i + 1 + Z.of_nat m) with (i + Z.of_nat (S m)) by lia. apply H. exact Hm.
Qed.
