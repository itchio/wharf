(** Model of the patch as a MESSAGE LIST (repo/pwr/diff.go:WritePatch; wire framing and codec
    are C13's): header, old ("target") container, new ("source") container, then per new file

        SyncHeader{RSYNC, fileIndex}  ++  one SyncOp per differ operation  ++  HEY_YOU_DID_IT

    The rsync differ itself (wsync.ComputeDiff + the block library built from the old
    signature) is modelled and proved elsewhere (C11); here it is an abstract function
    [differ pref data] (preferred old-file index, content of the new file) whose output is
    only constrained by the hypothesis [diff_ok] below:
    "the ops of a file replay to that file against the old files, ranges in bounds".
    Definitions only. *)
From Wharf Require Import Base.Prelude Bowl.Fresh Patch.Reinterp.
Local Open Scope Z_scope.

(** wsync operations *)
Inductive op := OpRange (file index span : Z) | OpData (data : list byte).

Definition znth {A} (l : list A) (i : Z) : option A :=
  if i <? 0 then None else nth_error l (Z.to_nat i).

(** pwr.ComputeNumBlocks *)
Definition num_blocks (bs size : Z) : Z := Z.quot (size + bs - 1) bs.

(** the bytes an operation stands for: blocks [index, index+span) of old file [file], the last
    block of the file possibly short *)
Definition slice (d : list byte) (from len : Z) : list byte :=
  firstn (Z.to_nat len) (skipn (Z.to_nat from) d).
Definition denote (bs : Z) (olds : list (list byte)) (o : op) : list byte :=
  match o with
  | OpData d => d
  | OpRange f i s => match znth olds f with
                     | Some d => slice d (bs * i) (bs * s)
                     | None => []
                     end
  end.
Definition replay (bs : Z) (olds : list (list byte)) (ops : list op) : list byte :=
  flat_map (denote bs olds) ops.

(** a range is in bounds when it names an old file and blocks that exist, at least one *)
Definition range_ok (bs : Z) (olds : list (list byte)) (o : op) : Prop :=
  match o with
  | OpData _ => True
  | OpRange f i s => exists d, znth olds f = Some d /\ 0 <= i /\ 1 <= s /\ i + s <= num_blocks bs (Z.of_nat (length d))
  end.

(** what C01 assumes of the differ (proved of wsync.ComputeDiff by C11): for every new file
    it emits at least one operation (an empty DATA op for an empty file), the operations
    replay to the file against the old files, and every range is in bounds *)
Definition diff_ok (bs : Z) (olds : list (list byte)) (differ : Z -> list byte -> list op) : Prop :=
  forall pref data,
    differ pref data <> [] /\ replay bs olds (differ pref data) = data /\ Forall (range_ok bs olds) (differ pref data).

(** what Go's int64 fields can hold: fewer than 2^63 files, each shorter than 2^63 bytes *)
Definition fits63 (b : build) : Prop :=
  Z.of_nat (length (files_of b)) <= 2^63 /\ Forall (fun d => Z.of_nat (length d) < 2^63) (contents_of b).

(** makeOpsWriter: one SyncOp per operation *)
Definition op_msg (o : op) : pmsg :=
  match o with
  | OpRange f i s => MSO (mkSO T_BLOCK_RANGE f i s [])
  | OpData d => MSO (mkSO T_DATA 0 0 0 d)
  end.
Definition hey_msg : pmsg := MSO (mkSO HEY 0 0 0 []).

(** targetContainerPathToIndex: a Go map filled in index order, so the LAST old file with the
    path wins; -1 when the path is not in the old build *)
Fixpoint preferred_from (files : list (path * Z)) (p : path) (i acc : Z) : Z :=
  match files with
  | [] => acc
  | (q, _) :: r => preferred_from r p (i + 1) (if path_eqb q p then i else acc)
  end.
Definition preferred_index (oldC : container) (p : path) : Z := preferred_from (c_files oldC) p 0 (-1).

(** frames of a whole patch *)
Inductive frame := FHeader (algo quality : Z) | FContainer (c : container) | FMsg (m : pmsg).

Section Write.
  Variable differ : Z -> list byte -> list op.

  Definition file_series (oldC : container) (i : Z) (f : path * list byte) : list pmsg :=
    MSH (mkSH SH_RSYNC i) :: map op_msg (differ (preferred_index oldC (fst f)) (snd f)) ++ [hey_msg].

  Fixpoint all_series (oldC : container) (i : Z) (fs : list (path * list byte)) : list pmsg :=
    match fs with
    | [] => []
    | f :: r => file_series oldC i f ++ all_series oldC (i + 1) r
    end.

  (** WritePatch: the messages after the two containers *)
  Definition patch_msgs (old new : build) : list pmsg :=
    all_series (container_of old) 0 (files_of new).

  Definition write_patch (algo quality : Z) (old new : build) : list frame :=
    FHeader algo quality :: FContainer (container_of old) :: FContainer (container_of new)
    :: map FMsg (patch_msgs old new).
End Write.

(** patcher.New: header, two containers; everything after them is the per-file part *)
Fixpoint frames_msgs (fs : list frame) : option (list pmsg) :=
  match fs with
  | [] => Some []
  | FMsg m :: r => option_map (cons m) (frames_msgs r)
  | _ => None
  end.
Definition read_patch (fs : list frame) : option (Z * Z * container * container * list pmsg) :=
  match fs with
  | FHeader a q :: FContainer t :: FContainer s :: r =>
    option_map (fun ms => (a, q, t, s, ms)) (frames_msgs r)
  | _ => None
  end.
