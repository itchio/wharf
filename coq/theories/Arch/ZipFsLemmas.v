(** C19 — lemmas about paths and the file-system model of Arch/Zip.v: what [lookup] returns after
    [del], [upd], the filter of RemoveAll and MkdirAll ([mkdir_all_spec]).  [fs_remove], [fs_create],
    [fs_append] and [fs_symlink] are [del] / [upd] behind a test on [lookup] and [parent_ok]
    ([parent_ok_spec]); their users unfold them.  At the end, [set_nth] (the worker array of the
    pool, also of Conc/Collector.v) and sums over it. *)
From Wharf Require Import Base.Prelude Base.ListLemmas Arch.Zip.

(** [path_eqb] and [is_prefix] are, up to conversion, [list_eqb] and [prefixb] of Base/ListLemmas.v
    at [N.eqb]; their basic facts are instances of the lemmas there. *)
Lemma path_eqb_eq p q : path_eqb p q = true <-> p = q.
Proof. apply (list_eqb_eq N.eqb N.eqb_eq). Qed.

Lemma path_eqb_refl p : path_eqb p p = true.
Proof. apply (list_eqb_refl N.eqb N.eqb_eq). Qed.

Lemma path_eqb_neq p q : path_eqb p q = false <-> p <> q.
Proof. apply (list_eqb_neq N.eqb N.eqb_eq). Qed.

Lemma path_eqb_sym p q : path_eqb p q = path_eqb q p.
Proof. apply (list_eqb_sym N.eqb N.eqb_eq). Qed.

Lemma existsb_path_eqb q l : existsb (path_eqb q) l = true <-> In q l.
Proof. apply (existsb_list_eqb N.eqb N.eqb_eq). Qed.

Lemma path_eq_dec (p q : path) : {p = q} + {p <> q}.
Proof. apply (list_eqb_dec N.eqb N.eqb_eq). Qed.

Lemma is_prefix_spec p q : is_prefix p q = true <-> exists r, q = p ++ r.
Proof. apply (prefixb_spec N.eqb N.eqb_eq). Qed.

Lemma is_prefix_refl p : is_prefix p p = true.
Proof. apply (prefixb_refl N.eqb N.eqb_eq). Qed.

Lemma is_prefix_trans p q r : is_prefix p q = true -> is_prefix q r = true -> is_prefix p r = true.
Proof.
  intros H1 H2. apply is_prefix_spec in H1. apply is_prefix_spec in H2. destruct H1 as [a ->]. destruct H2 as [b ->].
  apply is_prefix_spec. exists (a ++ b). symmetry. apply app_assoc.
Qed.

Lemma is_prefix_antisym p q : is_prefix p q = true -> is_prefix q p = true -> p = q.
Proof.
  intros H1 H2. apply is_prefix_spec in H1. apply is_prefix_spec in H2. destruct H1 as [a ->]. destruct H2 as [b H].
  rewrite <- app_assoc in H. assert (E : p ++ [] = p ++ a ++ b) by (rewrite app_nil_r; exact H).
  apply app_inv_head in E. symmetry in E. apply app_eq_nil in E. destruct E as [-> _]. symmetry. apply app_nil_r.
Qed.

Lemma is_prefix_nil_r p : is_prefix p [] = true -> p = [].
Proof. destruct p; [reflexivity|discriminate]. Qed.

Lemma is_prefix_comparable p q r :
  is_prefix p r = true -> is_prefix q r = true -> is_prefix p q = true \/ is_prefix q p = true.
Proof.
  intros H1 H2. apply is_prefix_spec in H1. destruct H1 as [a ->]. apply is_prefix_spec in H2. destruct H2 as [b E].
  destruct (app_cut p a q b E) as [[l [-> _]]|[x [l [-> _]]]]; [left|right]; apply is_prefix_spec; eexists; reflexivity.
Qed.

Lemma in_prefixes q p : In q (prefixes p) <-> q <> [] /\ is_prefix q p = true.
Proof.
  revert q. induction p as [|a p IH]; intros q; cbn [prefixes].
  - split; [contradiction|]. intros [H1 H2]. apply is_prefix_nil_r in H2. contradiction.
  - split.
    + intros [H|H].
      * subst. split; [discriminate|]. cbn [is_prefix]. rewrite N.eqb_refl. reflexivity.
      * apply in_map_iff in H. destruct H as [q' [<- H]]. apply IH in H. destruct H as [_ H].
        split; [discriminate|]. cbn [is_prefix]. rewrite N.eqb_refl. assumption.
    + intros [H1 H2]. destruct q as [|b q]; [contradiction|]. cbn [is_prefix] in H2.
      apply andb_true_iff in H2. destruct H2 as [E H2]. apply N.eqb_eq in E. subst.
      destruct q as [|c q]; [left; reflexivity|right].
      apply in_map. apply IH. split; [discriminate|assumption].
Qed.

Lemma parent_app p a : parent (p ++ [a]) = p.
Proof. unfold parent. apply removelast_last. Qed.

Lemma parent_snoc p : p <> [] -> exists a, p = parent p ++ [a].
Proof. intro H. unfold parent. exists (last p 0%N). apply app_removelast_last. assumption. Qed.

Lemma strict_prefix_parent q p :
  p <> [] -> (is_prefix q p = true /\ q <> p <-> is_prefix q (parent p) = true).
Proof.
  intro Hp. destruct (parent_snoc p Hp) as [a E]. set (pp := parent p) in *. clearbody pp. subst p. split.
  - intros [H1 H2]. apply is_prefix_spec in H1. destruct H1 as [r H1].
    destruct (snoc_cases r) as [->|[r' [b ->]]]; [rewrite app_nil_r in H1; congruence|].
    rewrite app_assoc in H1. apply app_inj_tail in H1. destruct H1 as [-> _]. apply is_prefix_spec. exists r'. reflexivity.
  - intro H. apply is_prefix_spec in H. destruct H as [r ->]. split.
    + apply is_prefix_spec. exists (r ++ [a]). symmetry. apply app_assoc.
    + rewrite <- app_assoc. apply app_neq_self. destruct r; discriminate.
Qed.

Lemma is_prefix_parent_self p : p <> [] -> is_prefix p (parent p) = false.
Proof.
  intro H. destruct (is_prefix p (parent p)) eqn:E; [|reflexivity].
  apply (strict_prefix_parent p p H) in E. destruct E as [_ E]. congruence.
Qed.

Lemma lookup_filter (P : path -> bool) f q :
  lookup (filter (fun x => negb (P (fst x))) f) q = if P q then None else lookup f q.
Proof. exact (assoc_filter_negb N.eqb N.eqb_eq P f q). Qed.

Lemma lookup_In f p n : lookup f p = Some n -> In (p, n) f.
Proof. apply (assoc_In N.eqb N.eqb_eq). Qed.

Lemma lookup_del f p q : lookup (del f p) q = if path_eqb q p then None else lookup f q.
Proof. apply (lookup_filter (fun k => path_eqb k p)). Qed.

Lemma lookup_upd f p n q : lookup (upd f p n) q = if path_eqb q p then Some n else lookup f q.
Proof. rewrite (path_eqb_sym q p). exact (assoc_put N.eqb N.eqb_eq f p n q). Qed.

Lemma lookup_remove_all f p q :
  lookup (filter (fun x => negb (is_prefix p (fst x))) f) q = if is_prefix p q then None else lookup f q.
Proof. apply (lookup_filter (is_prefix p)). Qed.

Definition add_dir (g : fs) (q : path) : fs := match lookup g q with None => (q, Dir) :: g | Some _ => g end.

Lemma lookup_add_dirs l : forall f q,
  lookup (fold_left add_dir l f) q =
  match lookup f q with
  | None => if existsb (path_eqb q) l then Some Dir else None
  | x => x
  end.
Proof.
  induction l as [|k l IH]; intros f q; cbn [fold_left existsb].
  - destruct (lookup f q); reflexivity.
  - rewrite IH. unfold add_dir. destruct (lookup f k) eqn:Ek.
    + destruct (lookup f q) eqn:Eq; [reflexivity|]. destruct (path_eqb q k) eqn:E; [|reflexivity].
      apply path_eqb_eq in E. subst. congruence.
    + cbn [lookup]. rewrite (path_eqb_sym k q). destruct (path_eqb q k) eqn:E.
      * apply path_eqb_eq in E. subst. rewrite Ek. reflexivity.
      * cbn [orb]. reflexivity.
Qed.

Lemma existsb_prefixes q p : existsb (path_eqb q) (prefixes p) = negb (path_eqb q []) && is_prefix q p.
Proof.
  apply eq_true_iff_eq. rewrite existsb_path_eqb, in_prefixes, andb_true_iff, negb_true_iff, path_eqb_neq. reflexivity.
Qed.

Lemma mkdir_all_spec p f :
  (forall q, q <> [] -> is_prefix q p = true -> dir_or_none (lookup f q) = true) ->
  exists f', fs_mkdir_all p f = Some f' /\
    forall q, lookup f' q = match lookup f q with
                            | None => if negb (path_eqb q []) && is_prefix q p then Some Dir else None
                            | x => x
                            end.
Proof.
  intro H. unfold fs_mkdir_all.
  assert (E : forallb (fun q => dir_or_none (lookup f q)) (prefixes p) = true).
  { apply forallb_forall. intros q Hq. apply in_prefixes in Hq. destruct Hq. apply H; assumption. }
  rewrite E. eexists. split; [reflexivity|]. intro q.
  change (fun g q0 => match lookup g q0 with None => (q0, Dir) :: g | Some _ => g end) with add_dir.
  rewrite lookup_add_dirs. rewrite existsb_prefixes. reflexivity.
Qed.

Lemma parent_ok_spec p f : parent_ok p f = true <-> (parent p = [] \/ lookup f (parent p) = Some Dir).
Proof.
  unfold parent_ok. destruct (parent p) as [|a r] eqn:E.
  - split; [left; reflexivity|reflexivity].
  - split.
    + destruct (lookup f (a :: r)) as [[]|]; try discriminate. right. reflexivity.
    + intros [H|H]; [discriminate|]. rewrite H. reflexivity.
Qed.

Lemma nth_error_set_nth_eq {A} (l : list A) t x : t < length l -> nth_error (set_nth l t x) t = Some x.
Proof.
  revert t. induction l as [|a l IH]; intros t H; [simpl in H; lia|].
  destruct t; cbn [set_nth nth_error]; [reflexivity|]. apply IH. simpl in H. lia.
Qed.

Lemma nth_error_set_nth_neq {A} (l : list A) t t' x : t <> t' -> nth_error (set_nth l t x) t' = nth_error l t'.
Proof.
  revert t t'. induction l as [|a l IH]; intros t t' H; [reflexivity|].
  destruct t; destruct t'; cbn [set_nth nth_error]; try reflexivity; try congruence.
  apply IH. congruence.
Qed.

Lemma length_set_nth {A} (l : list A) t x : length (set_nth l t x) = length l.
Proof. revert t. induction l as [|a l IH]; intros t; [reflexivity|]. destruct t; cbn [set_nth length]; [reflexivity|]. rewrite IH. reflexivity. Qed.

Lemma nth_error_set_nth {A} (l : list A) t t' x y :
  nth_error (set_nth l t x) t' = Some y -> (t = t' /\ y = x) \/ (t <> t' /\ nth_error l t' = Some y).
Proof.
  intro H. destruct (Nat.eq_dec t t') as [->|Hne].
  - left. split; [reflexivity|]. assert (Hl : t' < length l).
    { rewrite <- (length_set_nth l t' x). apply nth_error_Some. congruence. }
    rewrite nth_error_set_nth_eq in H by assumption. congruence.
  - right. split; [assumption|]. rewrite nth_error_set_nth_neq in H by assumption. assumption.
Qed.

Definition sumw {W} (g : W -> nat) (ws : list W) : nat := fold_right (fun w a => g w + a) 0 ws.

Lemma sumw_set_nth {W} (g : W -> nat) ws t w w' :
  nth_error ws t = Some w -> sumw g (set_nth ws t w') + g w = sumw g ws + g w'.
Proof.
  revert t. induction ws as [|a ws IH]; intros t H; [destruct t; discriminate|].
  destruct t; cbn [set_nth nth_error sumw fold_right] in *.
  - injection H as ->. lia.
  - specialize (IH t H). unfold sumw in IH. lia.
Qed.

Lemma sumw_zero {W} (g : W -> nat) ws : (forall w, In w ws -> g w = 0) -> sumw g ws = 0.
Proof.
  induction ws as [|a ws IH]; intro H; [reflexivity|]. cbn [sumw fold_right]. fold (sumw g ws).
  rewrite (H a (or_introl eq_refl)), IH; [reflexivity|]. intros w Hw. apply H. right. assumption.
Qed.
