(** C19 — proofs about the extraction worker pool of Arch/Zip.v.

    The central object is the invariant [Inv] of a running extraction over a well-formed entry
    list: the directory has the right shape (only paths the archive covers, directories where
    directories are expected, closed under parents), every busy worker is at a known stage of
    its entry's job, busy workers hold distinct entries, and every entry whose file-system work
    is over is on disk, complete.  It holds initially (on the empty directory, or on whatever a
    previous interrupted run left behind) and is preserved by every step of every worker under
    every schedule.  [RInv] adds that every index at or below the resume file is such an entry
    (contiguous watermark, or a single worker), [CInv] accounts for the counters; together
    they give the results of Properties/C19.v.

    Also here: that some worker can always move and the extraction can always return
    ([no_deadlock], [can_finish], by the measure [remaining]); [resumable], [entries_above] and
    [chunk_each], which the statements of Properties/C19.v use; [wf_entriesb], which decides
    [wf_entries] for the concrete witnesses; and the archive order: [compress] permutes the
    entries, and neither [wf_entries] nor [spec_fs] depends on their order ([compress_lemma]). *)
From Wharf Require Import Base.Prelude Base.ListLemmas Base.StepSystem Arch.Zip Arch.ZipFsLemmas.

Lemma inner_dir_spec es q :
  inner_dir es q = true <-> q <> [] /\ exists e, In e es /\ is_prefix q (epath e) = true /\ q <> epath e.
Proof.
  unfold inner_dir. destruct q as [|a q]; [split; [discriminate|intros [H _]; contradiction]|].
  rewrite existsb_exists. split.
  - intros [e [He Hp]]. apply andb_true_iff in Hp. destruct Hp as [Hp Hne]. apply negb_true_iff, path_eqb_neq in Hne.
    split; [discriminate|]. exists e. repeat split; assumption.
  - intros [_ [e [He [Hp Hne]]]]. exists e. split; [assumption|]. apply path_eqb_neq in Hne. rewrite Hp, Hne. reflexivity.
Qed.

Section Shape.
  Variable es : list entry.
  Hypothesis Hwf : wf_entries es.

  Definition covered (q : path) : Prop := q <> [] /\ exists e, In e es /\ is_prefix q (epath e) = true.

  (** a path that has to be a directory if it exists *)
  Definition dirlike (q : path) : Prop :=
    q <> [] /\ exists e, In e es /\ is_prefix q (epath e) = true /\ (q <> epath e \/ ekind e = KDir).

  Definition closed (f : fs) : Prop :=
    forall q r, lookup f q <> None -> r <> [] -> is_prefix r q = true -> r <> q -> lookup f r = Some Dir.

  Record shape (f : fs) : Prop := mkShape {
    sh_cov : forall q, lookup f q <> None -> covered q;
    sh_dir : forall q, dirlike q -> dir_or_none (lookup f q) = true;
    sh_closed : closed f }.

  (** what a step of the worker holding the entry at [pj] may do to the directory: leave a
      cell alone, create a directory that had to be one, or rewrite its own (non-directory) cell *)
  Definition frame (pj : path) (f f' : fs) : Prop :=
    forall q, lookup f' q = lookup f q \/ (dirlike q /\ lookup f q = None /\ lookup f' q = Some Dir) \/ (q = pj /\ ~ dirlike pj).

  Lemma path_index_inj i j e e' :
    nth_error es i = Some e -> nth_error es j = Some e' -> epath e = epath e' -> i = j.
  Proof.
    intros Hi Hj E. destruct Hwf as [Hn _]. rewrite NoDup_nth_error in Hn. apply Hn.
    - rewrite map_length. apply nth_error_Some. congruence.
    - rewrite !nth_error_map, Hi, Hj. cbn. congruence.
  Qed.

  Lemma entry_unique e e' : In e es -> In e' es -> epath e = epath e' -> e = e'.
  Proof.
    intros H H' E. apply In_nth_error in H. destruct H as [i Hi]. apply In_nth_error in H'. destruct H' as [j Hj].
    rewrite (path_index_inj i j e e' Hi Hj E) in Hi. congruence.
  Qed.

  Lemma entry_at_spec q e : entry_at es q = Some e <-> In e es /\ epath e = q.
  Proof.
    unfold entry_at. split.
    - intro H. apply find_some in H. destruct H as [H1 H2]. apply path_eqb_eq in H2. split; assumption.
    - intros [H1 H2]. destruct (find (fun e0 => path_eqb (epath e0) q) es) as [e'|] eqn:E.
      + apply find_some in E. destruct E as [E1 E2]. apply path_eqb_eq in E2. f_equal.
        apply entry_unique; [assumption|assumption|congruence].
      + pose proof (find_none _ _ E e H1) as X. cbn in X. rewrite H2, path_eqb_refl in X. discriminate X.
  Qed.

  Lemma entry_path_nonnil e : In e es -> epath e <> [].
  Proof. destruct Hwf as [_ [H _]]. apply H. Qed.

  Lemma dirlike_covered q : dirlike q -> covered q.
  Proof. intros [H1 [e [H2 [H3 _]]]]. split; [assumption|]. exists e. split; assumption. Qed.

  Lemma entry_covered e : In e es -> covered (epath e).
  Proof. intro H. split; [apply entry_path_nonnil; assumption|]. exists e. split; [assumption|apply is_prefix_refl]. Qed.

  Lemma nondir_not_dirlike e : In e es -> ekind e <> KDir -> ~ dirlike (epath e).
  Proof.
    intros He Hk [_ [e' [He' [Hp Hor]]]]. destruct Hwf as [_ [_ H3]].
    destruct (path_eq_dec (epath e) (epath e')) as [E|E].
    - assert (e = e') by (apply entry_unique; assumption). subst e'. destruct Hor as [Hor|Hor]; [congruence|contradiction].
    - apply Hk. eapply H3; eassumption.
  Qed.

  Lemma nondir_no_desc e q : In e es -> ekind e <> KDir -> is_prefix (epath e) q = true -> q <> epath e -> ~ covered q.
  Proof.
    intros He Hk Hp Hne [_ [e' [He' Hp']]]. destruct Hwf as [_ [_ H3]].
    apply Hk. apply (H3 e e' He He').
    - eapply is_prefix_trans; eassumption.
    - intro E. apply Hne. apply is_prefix_antisym; [rewrite E; assumption|assumption].
  Qed.

  Lemma strict_prefix_dirlike e r : In e es -> r <> [] -> is_prefix r (epath e) = true -> r <> epath e -> dirlike r.
  Proof. intros He Hr Hp Hne. split; [assumption|]. exists e. repeat split; try assumption. left. assumption. Qed.

  Lemma dir_entry_dirlike e : In e es -> ekind e = KDir -> dirlike (epath e).
  Proof.
    intros He Hk. split; [apply entry_path_nonnil; assumption|]. exists e. repeat split; try assumption.
    - apply is_prefix_refl.
    - right. assumption.
  Qed.

  Lemma prefix_of_dirlike q r : dirlike q -> r <> [] -> is_prefix r q = true -> dirlike r.
  Proof.
    intros [_ [e [He [Hp Hor]]]] Hr Hrq. split; [assumption|]. exists e. split; [assumption|]. split.
    - eapply is_prefix_trans; eassumption.
    - destruct (path_eq_dec r (epath e)) as [E|E]; [|left; assumption].
      right. destruct Hor as [Hor|Hor]; [|assumption]. exfalso. apply Hor.
      apply is_prefix_antisym; [assumption|]. rewrite <- E. assumption.
  Qed.

  Lemma parent_prefix_dirlike e r : In e es -> r <> [] -> is_prefix r (parent (epath e)) = true -> dirlike r.
  Proof.
    intros He Hr Hp. apply (strict_prefix_parent r (epath e) (entry_path_nonnil e He)) in Hp. destruct Hp as [H1 H2].
    eapply strict_prefix_dirlike; eassumption.
  Qed.

  Lemma shape_empty : shape [].
  Proof.
    split.
    - intros q H. exfalso. apply H. reflexivity.
    - intros q _. reflexivity.
    - intros q r H. exfalso. apply H. reflexivity.
  Qed.

  Lemma closed_set f f' p v :
    closed f -> (forall q, lookup f' q = if path_eqb q p then v else lookup f q) ->
    (forall q, lookup f q <> None -> is_prefix p q = true -> q = p) ->
    (v <> None -> forall r, r <> [] -> is_prefix r p = true -> r <> p -> lookup f r = Some Dir) ->
    closed f'.
  Proof.
    intros Hc L Hbelow Hanc q r H Hr Hp Hne. rewrite L in H. rewrite L.
    destruct (path_eqb r p) eqn:E2.
    - exfalso. apply path_eqb_eq in E2. subst r. apply Hne. symmetry.
      destruct (path_eqb q p) eqn:E; [apply path_eqb_eq; assumption|apply Hbelow; assumption].
    - destruct (path_eqb q p) eqn:E; [|apply (Hc q r); assumption].
      apply path_eqb_eq in E. subst q. apply Hanc; assumption.
  Qed.

  Lemma closed_remove_all f p : closed f -> closed (filter (fun x => negb (is_prefix p (fst x))) f).
  Proof.
    intros Hc q r H Hr Hp Hne. rewrite lookup_remove_all in H. rewrite lookup_remove_all.
    destruct (is_prefix p q) eqn:E1; [congruence|]. destruct (is_prefix p r) eqn:E2; [|apply (Hc q r); assumption].
    rewrite (is_prefix_trans p r q E2 Hp) in E1. discriminate E1.
  Qed.

  Lemma closed_mkdir f f' p :
    closed f -> (forall q, q <> [] -> is_prefix q p = true -> dir_or_none (lookup f q) = true) ->
    (forall q, lookup f' q = match lookup f q with
                             | None => if negb (path_eqb q []) && is_prefix q p then Some Dir else None
                             | x => x
                             end) ->
    closed f'.
  Proof.
    intros Hc Hd L q r H Hr Hp Hne. rewrite L in H. rewrite L.
    assert (Hrd : lookup f r = Some Dir \/ (lookup f r = None /\ is_prefix r p = true)).
    { destruct (lookup f q) eqn:El.
      - left. apply (Hc q r); try assumption. congruence.
      - destruct (path_eqb q []) eqn:E1; cbn [negb andb] in H; [congruence|].
        destruct (is_prefix q p) eqn:E2; [|congruence].
        assert (Hrp : is_prefix r p = true) by (eapply is_prefix_trans; eassumption).
        pose proof (Hd r Hr Hrp) as X.
        destruct (lookup f r) as [[]|]; try discriminate; [left; reflexivity|right; split; [reflexivity|assumption]]. }
    destruct Hrd as [-> | [-> Hrp]]; [reflexivity|].
    apply path_eqb_neq in Hr. rewrite Hr, Hrp. reflexivity.
  Qed.

  Lemma shape_spec f :
    shape f -> (forall e, In e es -> lookup f (epath e) = Some (enode e)) -> forall q, lookup f q = spec_fs es q.
  Proof.
    intros Hs Hall q. unfold spec_fs. destruct (entry_at es q) as [e|] eqn:Ef.
    - apply entry_at_spec in Ef. destruct Ef as [He <-]. apply Hall. assumption.
    - destruct (inner_dir es q) eqn:Ei.
      + apply inner_dir_spec in Ei. destruct Ei as [Hq [e [He [Hp Hne]]]].
        apply (sh_closed f Hs (epath e) q); try assumption. rewrite (Hall e He). discriminate.
      + destruct (lookup f q) as [n|] eqn:El; [|reflexivity]. exfalso.
        destruct (sh_cov f Hs q) as [Hq [e [He Hp]]]; [congruence|].
        destruct (path_eq_dec q (epath e)) as [E|E].
        * assert (X : entry_at es q = Some e) by (apply entry_at_spec; split; [assumption|symmetry; assumption]). congruence.
        * assert (X : inner_dir es q = true) by (apply inner_dir_spec; split; [assumption|]; exists e; repeat split; assumption).
          congruence.
  Qed.

  Lemma frame_refl pj f : frame pj f f.
  Proof. intro q. left. reflexivity. Qed.

  Definition keeps (pj : path) (f : fs) (r : option fs) (Q : fs -> Prop) : Prop :=
    exists f', r = Some f' /\ shape f' /\ frame pj f f' /\ Q f'.

  Lemma keeps_stay pj f (Q : fs -> Prop) : shape f -> Q f -> keeps pj f (Some f) Q.
  Proof. intros Hs HQ. exists f. split; [reflexivity|]. split; [assumption|]. split; [apply frame_refl|assumption]. Qed.

  Lemma keeps_impl pj f r (Q Q' : fs -> Prop) : (forall f', Q f' -> Q' f') -> keeps pj f r Q -> keeps pj f r Q'.
  Proof. intros H [f' [E [Hs [Hf HQ]]]]. exists f'. auto. Qed.

  Lemma nothing_below_entry f e q :
    shape f -> In e es -> ekind e <> KDir -> lookup f q <> None -> is_prefix (epath e) q = true -> q = epath e.
  Proof.
    intros Hs He Hk Hq Hp. destruct (path_eq_dec q (epath e)) as [E|E]; [assumption|].
    exfalso. apply (nondir_no_desc e q He Hk Hp E). apply (sh_cov f Hs). assumption.
  Qed.

  Lemma shape_set_cell f f' e v :
    shape f -> In e es -> ekind e <> KDir ->
    (forall q, lookup f' q = if path_eqb q (epath e) then v else lookup f q) ->
    (v <> None -> lookup f (epath e) <> None \/ parent_ok (epath e) f = true) ->
    keeps (epath e) f (Some f') (fun g => lookup g (epath e) = v).
  Proof.
    intros Hs He Hk L Hpar.
    exists f'. split; [reflexivity|]. split; [split|split].
    - intros q H. rewrite L in H. destruct (path_eqb q (epath e)) eqn:E.
      + apply path_eqb_eq in E. subst q. apply entry_covered. assumption.
      + apply (sh_cov f Hs). assumption.
    - intros q H. rewrite L. destruct (path_eqb q (epath e)) eqn:E.
      + apply path_eqb_eq in E. subst q. exfalso. eapply nondir_not_dirlike; eassumption.
      + apply (sh_dir f Hs). assumption.
    - apply (closed_set f f' (epath e) v (sh_closed f Hs) L (fun q => nothing_below_entry f e q Hs He Hk)). intros Hv r Hr Hp Hne.
      destruct (Hpar Hv) as [Hex|Hpo]; [apply (sh_closed f Hs (epath e) r); assumption|].
      apply parent_ok_spec in Hpo.
      assert (Hrp : is_prefix r (parent (epath e)) = true).
      { apply (strict_prefix_parent r (epath e) (entry_path_nonnil e He)). split; assumption. }
      destruct Hpo as [Hpo|Hpo].
      + rewrite Hpo in Hrp. apply is_prefix_nil_r in Hrp. contradiction.
      + destruct (path_eq_dec r (parent (epath e))) as [->|Hne2]; [assumption|].
        apply (sh_closed f Hs (parent (epath e)) r); try assumption. congruence.
    - intro q. rewrite L. destruct (path_eqb q (epath e)) eqn:E; [|left; reflexivity].
      right. right. split; [apply path_eqb_eq; assumption|apply nondir_not_dirlike; assumption].
    - rewrite L, path_eqb_refl. reflexivity.
  Qed.

  Lemma remove_all_entry f e :
    shape f -> In e es -> ekind e <> KDir ->
    keeps (epath e) f (fs_remove_all (epath e) f) (fun f' => lookup f' (epath e) = None).
  Proof.
    intros Hs He Hk.
    assert (L : forall q, lookup (filter (fun x => negb (is_prefix (epath e) (fst x))) f) q = if path_eqb q (epath e) then None else lookup f q).
    { intro q. rewrite lookup_remove_all. destruct (path_eqb q (epath e)) eqn:E.
      - apply path_eqb_eq in E. subst q. rewrite is_prefix_refl. reflexivity.
      - destruct (is_prefix (epath e) q) eqn:E2; [|reflexivity].
        destruct (lookup f q) eqn:El; [|reflexivity]. apply path_eqb_neq in E.
        destruct E. apply (nothing_below_entry f e q Hs He Hk); [congruence|assumption]. }
    apply (shape_set_cell f _ e None Hs He Hk L). congruence.
  Qed.

  Lemma write_entry f e n :
    shape f -> In e es -> ekind e <> KDir ->
    (lookup f (epath e) <> None \/ parent_ok (epath e) f = true) ->
    keeps (epath e) f (Some (upd f (epath e) n)) (fun f' => lookup f' (epath e) = Some n).
  Proof.
    intros Hs He Hk Hpar. apply (shape_set_cell f _ e (Some n) Hs He Hk); [intro q; apply lookup_upd|intros _; assumption].
  Qed.

  Lemma shape_mkdir_all f p pj :
    shape f -> (forall q, q <> [] -> is_prefix q p = true -> dirlike q) ->
    keeps pj f (fs_mkdir_all p f)
      (fun f' => (p <> [] -> lookup f' p = Some Dir) /\ (forall q, is_prefix q p = false -> lookup f' q = lookup f q)).
  Proof.
    intros Hs Hd. destruct (mkdir_all_spec p f) as [f' [E L]].
    { intros q H1 H2. apply (sh_dir f Hs). apply Hd; assumption. }
    assert (V : forall q, lookup f' q = lookup f q \/ (dirlike q /\ lookup f q = None /\ lookup f' q = Some Dir)).
    { intro q. rewrite L. destruct (lookup f q) eqn:El; [left; reflexivity|].
      destruct (path_eqb q []) eqn:E1; cbn [negb andb]; [left; reflexivity|].
      destruct (is_prefix q p) eqn:E2; [|left; reflexivity].
      right. split; [|split; reflexivity]. apply Hd; [apply path_eqb_neq|]; assumption. }
    exists f'. split; [assumption|]. split; [split|split; [|split]].
    - intros q H. destruct (V q) as [Eq|[Hq _]]; [rewrite Eq in H; apply (sh_cov f Hs); assumption|apply dirlike_covered; assumption].
    - intros q H. destruct (V q) as [->|[_ [_ ->]]]; [apply (sh_dir f Hs); assumption|reflexivity].
    - apply (closed_mkdir f f' p (sh_closed f Hs)); [|exact L].
      intros q H1 H2. apply (sh_dir f Hs). apply Hd; assumption.
    - intro q. destruct (V q) as [Eq|Eq]; [left|right; left]; assumption.
    - intro Hp. rewrite L. pose proof (sh_dir f Hs p (Hd p Hp (is_prefix_refl p))) as X.
      destruct (lookup f p) as [[]|]; try discriminate X; [reflexivity|].
      apply path_eqb_neq in Hp. rewrite Hp, is_prefix_refl. reflexivity.
    - intros q H. rewrite L, H, andb_false_r. destruct (lookup f q); reflexivity.
  Qed.

  Lemma mkdir_parent_entry f e pj :
    shape f -> In e es -> lookup f (epath e) = None ->
    keeps pj f (fs_mkdir_all (parent (epath e)) f) (fun f' => lookup f' (epath e) = None /\ parent_ok (epath e) f' = true).
  Proof.
    intros Hs He Hnone. eapply keeps_impl; [|apply (shape_mkdir_all f (parent (epath e)) pj Hs); intro q; apply parent_prefix_dirlike; assumption].
    intros f' [Hp Hq]. split.
    - rewrite Hq; [assumption|]. apply is_prefix_parent_self. apply entry_path_nonnil. assumption.
    - apply parent_ok_spec. destruct (path_eq_dec (parent (epath e)) []) as [En|En]; [left|right; apply Hp]; assumption.
  Qed.

  Lemma frame_dir pj f f' q : frame pj f f' -> dirlike q -> lookup f q = Some Dir -> lookup f' q = Some Dir.
  Proof.
    intros H Hd Hl. destruct (H q) as [E|[[_ [E _]]|[E1 E2]]]; [congruence|congruence|]. subst. contradiction.
  Qed.

  Lemma frame_other pj f f' q : frame pj f f' -> ~ dirlike q -> q <> pj -> lookup f' q = lookup f q.
  Proof. intros H Hd Hne. destruct (H q) as [E|[[E _]|[E1 E2]]]; [assumption|contradiction|contradiction]. Qed.

  Lemma frame_entry pj f f' e :
    frame pj f f' -> In e es -> epath e <> pj -> lookup f (epath e) = Some (enode e) -> lookup f' (epath e) = Some (enode e).
  Proof.
    intros H He Hne Hl. destruct (ekind e) eqn:Ek.
    - assert (enode e = Dir) as En by (destruct e; try discriminate; reflexivity). rewrite En in *.
      eapply frame_dir; try eassumption. apply dir_entry_dirlike; assumption.
    - rewrite (frame_other pj f f'); try assumption. apply nondir_not_dirlike; [assumption|congruence].
    - rewrite (frame_other pj f f'); try assumption. apply nondir_not_dirlike; [assumption|congruence].
  Qed.

  Lemma frame_parent_ok pj f f' e :
    frame pj f f' -> In e es -> parent_ok (epath e) f = true -> parent_ok (epath e) f' = true.
  Proof.
    intros H He Hp. apply parent_ok_spec in Hp. apply parent_ok_spec.
    destruct (path_eq_dec (parent (epath e)) []) as [E|E]; [left; assumption|right].
    destruct Hp as [Hp|Hp]; [contradiction|].
    eapply frame_dir; try eassumption.
    eapply parent_prefix_dirlike; try eassumption. apply is_prefix_refl.
  Qed.
End Shape.

(** the directory after the system call [op] makes, if any; [None]: the call fails *)
Definition fs_after (seen : option node) (op : mop) (f : fs) : option fs :=
  match op with
  | MMkRemove p => match seen with None | Some Dir => Some f | Some _ => fs_remove p f end
  | MMkMkdir p => match seen with Some Dir => Some f | _ => fs_mkdir_all p f end
  | MRemoveAll p => fs_remove_all p f
  | MMkdirAll p => fs_mkdir_all p f
  | MCreate p => fs_create p f
  | MAppend p c => fs_append p c f
  | MSymlink p d => fs_symlink p d f
  | _ => Some f
  end.

Definition seen_after (seen : option node) (op : mop) (f : fs) : option node :=
  match op with MLstat p => lookup f p | _ => seen end.

Section PoolProofs.
  Variable es : list entry.
  Variable chunk : list N -> list (list N).
  Variable racy wmark : bool.
  Hypothesis Hwf : wf_entries es.
  Hypothesis Hchunk : forall d, concat (chunk d) = d.

  Local Notation job := (job chunk racy).
  Local Notation step := (step es chunk racy wmark).
  Local Notation exec := (exec wmark).
  Local Notation shape := (shape es).
  Local Notation dirlike := (dirlike es).
  Local Notation frame := (frame es).
  Local Notation keeps := (keeps es).

  Lemma progress_only s i :
    exists r a m, progress wmark s i = mkS (sfs s) (snext s) (sworkers s) (scounts s) r a m (sdone s) (slast0 s) (serr s).
  Proof. unfold progress. destruct wmark; [destruct (existsb _ _)|]; repeat eexists. Qed.

  (** worker [w] after it has performed [op] in state [s] *)
  Definition moved (s : state) (w : worker) (op : mop) (rest : list mop) : worker :=
    mkW rest (widx w) (seen_after (wseen w) op (sfs s)) (match op with MCountLoad k => get_count k (scounts s) | _ => wreg w end).

  (** the state in which [exec] finds the resume file: [MProgress] has written it *)
  Definition resume_at (s : state) (op : mop) : state := match op with MProgress j => progress wmark s j | _ => s end.

  Definition counts_after (s : state) (w : worker) (op : mop) : nat * nat * nat :=
    match op with
    | MCount k => set_count k (S (get_count k (scounts s))) (scounts s)
    | MCountStore k => set_count k (S (wreg w)) (scounts s)
    | _ => scounts s
    end.

  Lemma exec_eq s t w op rest :
    exec s t w op rest =
      mkS (match fs_after (wseen w) op (sfs s) with Some f' => f' | None => sfs s end) (snext s)
          (set_nth (sworkers s) t (moved s w op rest)) (counts_after s w op)
          (sresume (resume_at s op)) (sahead (resume_at s op)) (swm (resume_at s op))
          (match op with MEntryDone _ => S (sdone s) | _ => sdone s end) (slast0 s)
          (match fs_after (wseen w) op (sfs s) with Some _ => serr s | None => true end).
  Proof.
    unfold moved. destruct op; cbn [Zip.exec fs_after seen_after resume_at counts_after];
      try match goal with |- context [match wseen w with _ => _ end] => destruct (wseen w) as [[]|] end;
      try match goal with |- context [with_fs _ ?r] => destruct r end;
      try reflexivity.
    destruct (progress_only s i) as (r & a & m & ->). reflexivity.
  Qed.

  Lemma exec_workers s t w op rest : sworkers (exec s t w op rest) = set_nth (sworkers s) t (moved s w op rest).
  Proof. rewrite exec_eq. reflexivity. Qed.

  Lemma exec_snext s t w op rest : snext (exec s t w op rest) = snext s.
  Proof. rewrite exec_eq. reflexivity. Qed.

  Lemma exec_slast0 s t w op rest : slast0 (exec s t w op rest) = slast0 s.
  Proof. rewrite exec_eq. reflexivity. Qed.

  Lemma exec_fs s t w op rest :
    sfs (exec s t w op rest) = match fs_after (wseen w) op (sfs s) with Some f' => f' | None => sfs s end /\
    serr (exec s t w op rest) = match fs_after (wseen w) op (sfs s) with Some _ => serr s | None => true end.
  Proof. rewrite exec_eq. split; reflexivity. Qed.

  Lemma step_cases s t :
    step s t = s \/
    (exists w e, serr s = false /\ nth_error (sworkers s) t = Some w /\ wops w = [] /\ nth_error es (snext s) = Some e /\
       step s t = mkS (sfs s) (S (snext s))
                      (set_nth (sworkers s) t (mkW (if skipped (slast0 s) (snext s) then skip_job (snext s) e else job (snext s) e)
                                                   (snext s) (wseen w) (wreg w)))
                      (scounts s) (sresume s) (sahead s) (swm s) (sdone s) (slast0 s) false) \/
    (exists w op rest, serr s = false /\ nth_error (sworkers s) t = Some w /\ wops w = op :: rest /\ step s t = exec s t w op rest).
  Proof.
    unfold Zip.step. destruct (serr s) eqn:Herr; [left; reflexivity|].
    destruct (nth_error (sworkers s) t) as [w|]; [|left; reflexivity].
    destruct (wops w) as [|op rest] eqn:Hops.
    - destruct (nth_error es (snext s)) as [e|]; [|left; reflexivity]. right. left. exists w, e. repeat split. assumption.
    - right. right. exists w, op, rest. repeat split. assumption.
  Qed.

  Definition is_count (op : mop) : bool :=
    match op with MCount _ | MCountLoad _ | MCountStore _ => true | _ => false end.
  Definition is_sync (op : mop) : bool :=
    match op with MProgress _ | MEntryDone _ => true | _ => false end.
  Definition fsops (ops : list mop) : list mop := filter (fun op => negb (is_count op)) ops.
  Definition no_fs (ops : list mop) : bool := forallb (fun op => is_count op || is_sync op) ops.

  Lemma fsops_cons op rest : fsops (op :: rest) = if is_count op then fsops rest else op :: fsops rest.
  Proof. unfold fsops. cbn [filter]. destruct (is_count op); reflexivity. Qed.

  Lemma fsops_app a b : fsops (a ++ b) = fsops a ++ fsops b.
  Proof. unfold fsops. apply filter_app. Qed.

  Lemma no_fs_fsops l : no_fs (fsops l) = no_fs l.
  Proof.
    induction l as [|op l IH]; [reflexivity|]. rewrite fsops_cons. unfold no_fs in *. cbn [forallb].
    destruct (is_count op) eqn:E; cbn [orb andb]; [assumption|]. cbn [forallb]. rewrite E. cbn [orb]. rewrite IH. reflexivity.
  Qed.

  Lemma fsops_count_ops k : fsops (count_ops racy k) = [].
  Proof. unfold count_ops. destruct racy; reflexivity. Qed.

  Lemma fsops_appends p cs : fsops (map (MAppend p) cs) = map (MAppend p) cs.
  Proof. induction cs as [|c cs IH]; [reflexivity|]. cbn [map]. rewrite fsops_cons. cbn [is_count]. rewrite IH. reflexivity. Qed.

  (** where worker is in the job of its entry, and what is already true of the directory *)
  Inductive stage (i : nat) (seen : option node) (f : fs) : entry -> list mop -> Prop :=
  | SD0 p : stage i seen f (EDir p) [MLstat p; MMkRemove p; MMkMkdir p; MProgress i]
  | SD1 p : seen = None \/ (seen = Some Dir /\ lookup f p = Some Dir) ->
            stage i seen f (EDir p) [MMkRemove p; MMkMkdir p; MProgress i]
  | SD2 p : seen = None \/ (seen = Some Dir /\ lookup f p = Some Dir) ->
            stage i seen f (EDir p) [MMkMkdir p; MProgress i]
  | SD3 p : lookup f p = Some Dir -> stage i seen f (EDir p) [MProgress i]
  | SL0 p d : stage i seen f (ELink p d) [MRemoveAll p; MMkdirAll (parent p); MSymlink p d; MProgress i; MEntryDone i]
  | SL1 p d : lookup f p = None ->
              stage i seen f (ELink p d) [MMkdirAll (parent p); MSymlink p d; MProgress i; MEntryDone i]
  | SL2 p d : lookup f p = None -> parent_ok p f = true ->
              stage i seen f (ELink p d) [MSymlink p d; MProgress i; MEntryDone i]
  | SL3 p d : lookup f p = Some (Link d) -> stage i seen f (ELink p d) [MProgress i; MEntryDone i]
  | SF0 p d : stage i seen f (EFile p d)
                (MRemoveAll p :: MMkdirAll (parent p) :: MCreate p :: map (MAppend p) (chunk d) ++ [MProgress i; MEntryDone i])
  | SF1 p d : lookup f p = None ->
              stage i seen f (EFile p d)
                (MMkdirAll (parent p) :: MCreate p :: map (MAppend p) (chunk d) ++ [MProgress i; MEntryDone i])
  | SF2 p d : lookup f p = None -> parent_ok p f = true ->
              stage i seen f (EFile p d) (MCreate p :: map (MAppend p) (chunk d) ++ [MProgress i; MEntryDone i])
  | SF3 p d c1 c2 : chunk d = c1 ++ c2 -> lookup f p = Some (File (concat c1)) ->
              stage i seen f (EFile p d) (map (MAppend p) c2 ++ [MProgress i; MEntryDone i])
  | SDone e : lookup f (epath e) = Some (enode e) -> stage i seen f e [MEntryDone i]
  | SEnd e : lookup f (epath e) = Some (enode e) -> stage i seen f e [].

  Lemma stage_job i seen f e : stage i seen f e (fsops (job i e)).
  Proof.
    destruct e as [p|p d|p d]; unfold Zip.job.
    - rewrite !fsops_app, fsops_count_ops. apply SD0.
    - rewrite !fsops_app, fsops_count_ops, fsops_appends. apply SF0.
    - rewrite !fsops_app, fsops_count_ops. apply SL0.
  Qed.

  Lemma no_fs_job i e : no_fs (job i e) = false.
  Proof.
    unfold Zip.job, count_ops. destruct e; destruct racy; reflexivity.
  Qed.

  Lemma stage_nofs_good i seen f e ops : stage i seen f e ops -> no_fs ops = true -> lookup f (epath e) = Some (enode e).
  Proof.
    intros H Hn. destruct H; try discriminate Hn; try assumption.
    destruct c2 as [|c c2]; [|discriminate Hn]. rewrite app_nil_r in H. rewrite <- H, Hchunk in H0. exact H0.
  Qed.

  Lemma stage_progress i seen f e j ops : stage i seen f e (MProgress j :: ops) -> j = i /\ no_fs ops = true.
  Proof.
    intro H. inversion H; subst; try (split; reflexivity).
    destruct c2 as [|c c2]; cbn [map app] in *; [|discriminate].
    match goal with X : _ = MProgress j :: ops |- _ => injection X as <- <- end. split; reflexivity.
  Qed.

  Lemma stage_next i seen f e op rest :
    shape f -> In e es -> stage i seen f e (fsops (op :: rest)) ->
    keeps (epath e) f (fs_after seen op f) (fun f' => stage i (seen_after seen op f) f' e (fsops rest)).
  Proof.
    intros Hsh He Hst. rewrite fsops_cons in Hst.
    assert (Stay : forall seen' ops, stage i seen' f e ops -> keeps (epath e) f (Some f) (fun f' => stage i seen' f' e ops)).
    { intros seen' ops. apply (keeps_stay es (epath e) f (fun f' => stage i seen' f' e ops) Hsh). }
    destruct (is_count op) eqn:Ec; [destruct op; try discriminate Ec; apply Stay; assumption|].
    clear Ec. remember (op :: fsops rest) as l eqn:El. remember (fsops rest) as ops eqn:Eops. clear Eops rest.
    destruct Hst as [p|p Hor|p Hor|p Hl|p d|p d Hl|p d Hl Hpo|p d Hl|p d|p d Hl|p d Hl Hpo|p d c1 c2 Hck Hl|e Hl|e Hl];
      try (injection El as <- <-); cbn [epath ekind fs_after seen_after] in *.
    - apply Stay. apply SD1.
      pose proof (sh_dir es _ Hsh p (dir_entry_dirlike es Hwf (EDir p) He eq_refl)) as X.
      destruct (lookup f p) as [[]|]; try discriminate X; [right; split; reflexivity|left; reflexivity].
    - (* remove only when lstat saw a non-directory *)
      destruct Hor as [->|[-> Hl]]; apply Stay; apply SD2; [left|right; split]; trivial.
    - (* MkdirAll unless lstat saw a directory *)
      destruct Hor as [->|[-> Hl]]; [|apply Stay; apply SD3; assumption].
      pose proof (dir_entry_dirlike es Hwf (EDir p) He eq_refl) as Hd.
      eapply keeps_impl; [|apply (shape_mkdir_all es f p p Hsh); intros q Hq Hqp; eapply prefix_of_dirlike; eassumption].
      intros f' [Hp _]. apply SD3. apply Hp. apply Hd.
    - apply Stay. apply (SEnd _ _ _ (EDir p)). assumption.
    - eapply keeps_impl; [|apply (remove_all_entry es Hwf f (ELink p d) Hsh He); discriminate].
      intros f' L. apply SL1. assumption.
    - eapply keeps_impl; [|apply (mkdir_parent_entry es Hwf f (ELink p d) p Hsh He Hl)].
      intros f' [L Hpo]. apply SL2; assumption.
    - unfold fs_symlink. rewrite Hpo, Hl.
      eapply keeps_impl; [|apply (write_entry es Hwf f (ELink p d) (Link d) Hsh He); [discriminate|right; assumption]].
      intros f' L. apply SL3. assumption.
    - apply Stay. apply (SDone _ _ _ (ELink p d)). assumption.
    - eapply keeps_impl; [|apply (remove_all_entry es Hwf f (EFile p d) Hsh He); discriminate].
      intros f' L. apply SF1. assumption.
    - eapply keeps_impl; [|apply (mkdir_parent_entry es Hwf f (EFile p d) p Hsh He Hl)].
      intros f' [L Hpo]. apply SF2; assumption.
    - unfold fs_create. rewrite Hpo, Hl.
      eapply keeps_impl; [|apply (write_entry es Hwf f (EFile p d) (File []) Hsh He); [discriminate|right; assumption]].
      intros f' L. apply (SF3 _ _ _ p d [] (chunk d)); [reflexivity|assumption].
    - (* a write, or progress once everything is written *)
      destruct c2 as [|c c2]; cbn [map app] in El; injection El as <- <-; cbn [fs_after seen_after].
      + apply Stay. apply (SDone _ _ _ (EFile p d)). cbn [epath enode].
        rewrite app_nil_r in Hck. rewrite <- Hck, Hchunk in Hl. assumption.
      + unfold fs_append. rewrite Hl.
        eapply keeps_impl; [|apply (write_entry es Hwf f (EFile p d) (File (concat c1 ++ c)) Hsh He);
                              [discriminate|left; cbn [epath]; congruence]].
        intros f' L. apply (SF3 _ _ _ p d (c1 ++ [c]) c2).
        * rewrite Hck, <- app_assoc. reflexivity.
        * rewrite concat_app. cbn [concat]. rewrite app_nil_r. assumption.
    - apply Stay. apply SEnd. assumption.
    - discriminate El.
  Qed.

  Lemma stage_frame pj f f' i seen e ops :
    frame pj f f' -> In e es -> epath e <> pj -> stage i seen f e ops -> stage i seen f' e ops.
  Proof.
    intros Hf He Hne Hst.
    assert (Hnd : ekind e <> KDir -> lookup f' (epath e) = lookup f (epath e)).
    { intro Hk. apply (frame_other es pj f f'); try assumption. apply nondir_not_dirlike; assumption. }
    assert (Hdd : ekind e = KDir -> lookup f (epath e) = Some Dir -> lookup f' (epath e) = Some Dir).
    { intros Hk Hv. eapply frame_dir; try eassumption. apply dir_entry_dirlike; assumption. }
    pose proof (frame_parent_ok es Hwf pj f f' e Hf He) as Hpo.
    pose proof (frame_entry es Hwf pj f f' e Hf He Hne) as Hdone.
    destruct Hst; cbn [epath ekind] in *; try rewrite <- Hnd in * by discriminate.
    2,3: destruct H as [H|[H1 H2]].
    all: econstructor; eauto.
  Qed.

  Definition busy (w : worker) : Prop := wops w <> [].

  Definition wvalid (s : state) (w : worker) : Prop :=
    busy w ->
    widx w < snext s /\ exists e, nth_error es (widx w) = Some e /\
      (if skipped (slast0 s) (widx w) then wops w = [MEntryDone (widx w)]
       else stage (widx w) (wseen w) (sfs s) e (fsops (wops w))).

  (** the file-system work for entry i is over (or was never needed) *)
  Definition fsdone (s : state) (i : nat) : Prop :=
    skipped (slast0 s) i = true \/
    (i < snext s /\ forall t w, nth_error (sworkers s) t = Some w -> busy w -> widx w = i -> no_fs (wops w) = true).

  Record Inv (s : state) : Prop := mkInv {
    inv_err : serr s = false;
    inv_shape : shape (sfs s);
    inv_next : snext s <= length es;
    inv_w : forall t w, nth_error (sworkers s) t = Some w -> wvalid s w;
    inv_uniq : forall t1 t2 w1 w2, nth_error (sworkers s) t1 = Some w1 -> nth_error (sworkers s) t2 = Some w2 ->
                 busy w1 -> busy w2 -> widx w1 = widx w2 -> t1 = t2;
    inv_done : forall i e, nth_error es i = Some e -> fsdone s i -> lookup (sfs s) (epath e) = Some (enode e) }.

  Lemma fsdone_nofs s i t w :
    fsdone s i -> skipped (slast0 s) i = false -> nth_error (sworkers s) t = Some w -> widx w = i -> no_fs (wops w) = true.
  Proof.
    intros [H|[_ H]] Hsk Hn Hi; [congruence|]. destruct (wops w) as [|o r] eqn:E; [reflexivity|]. rewrite <- E.
    apply (H t w Hn); [unfold busy; rewrite E; discriminate|assumption].
  Qed.

  Lemma busy_tl w w' : wops w' = tl (wops w) -> busy w' -> busy w.
  Proof. unfold busy. intros H Hb E. rewrite E in H. cbn in H. contradiction. Qed.

  Lemma uniq_set_nth ws t w' :
    (forall t1 t2 w1 w2, nth_error ws t1 = Some w1 -> nth_error ws t2 = Some w2 -> busy w1 -> busy w2 -> widx w1 = widx w2 -> t1 = t2) ->
    (forall t2 w2, nth_error ws t2 = Some w2 -> busy w2 -> widx w2 = widx w' -> t2 = t) ->
    forall t1 t2 w1 w2, nth_error (set_nth ws t w') t1 = Some w1 -> nth_error (set_nth ws t w') t2 = Some w2 ->
      busy w1 -> busy w2 -> widx w1 = widx w2 -> t1 = t2.
  Proof.
    intros Hu Hn t1 t2 w1 w2 H1 H2 B1 B2 E. apply nth_error_set_nth in H1. apply nth_error_set_nth in H2.
    destruct H1 as [[<- ->]|[N1 H1]]; destruct H2 as [[<- ->]|[N2 H2]].
    - reflexivity.
    - symmetry. apply (Hn t2 w2); congruence.
    - apply (Hn t1 w1); congruence.
    - apply (Hu t1 t2 w1 w2); assumption.
  Qed.

  Lemma inv_local s t w op rest e :
    Inv s -> nth_error (sworkers s) t = Some w -> wops w = op :: rest -> nth_error es (widx w) = Some e ->
    keeps (epath e) (sfs s) (fs_after (wseen w) op (sfs s))
      (fun f' => if skipped (slast0 s) (widx w) then f' = sfs s
                 else stage (widx w) (seen_after (wseen w) op (sfs s)) f' e (fsops rest)) ->
    Inv (exec s t w op rest).
  Proof.
    intros HI Hn Hops Hne [f' [Ef [Hsh [Hfr Hst]]]].
    assert (Hb : busy w) by (unfold busy; rewrite Hops; discriminate).
    rewrite exec_eq. rewrite Ef, (inv_err s HI).
    assert (Ht : t < length (sworkers s)) by (apply nth_error_Some; congruence).
    destruct (inv_w s HI t w Hn Hb) as [Hlt [e0 [Hne0 Hv]]]. assert (e0 = e) by congruence. subst e0.
    split; cbn [serr sfs snext sworkers slast0].
    - reflexivity.
    - assumption.
    - apply (inv_next s HI).
    - intros t' w2 Hn2. apply nth_error_set_nth in Hn2. destruct Hn2 as [[<- ->]|[Hne2 Hn2]];
        unfold wvalid; cbn [serr sfs snext sworkers slast0 moved wops widx wseen].
      + intro Hb'. split; [assumption|]. exists e. split; [assumption|].
        destruct (skipped (slast0 s) (widx w)); [|assumption].
        exfalso. apply Hb'. cbn [moved wops]. rewrite Hops in Hv. congruence.
      + intro Hb2. destruct (inv_w s HI t' w2 Hn2 Hb2) as [V1 [e2 [V2 V3]]]. split; [assumption|].
        exists e2. split; [assumption|]. destruct (skipped (slast0 s) (widx w2)); [assumption|].
        (* another busy worker holds another entry, at another path: its stage survives the frame *)
        eapply stage_frame; try eassumption.
        * eapply nth_error_In; eassumption.
        * intro E. apply Hne2. apply (inv_uniq s HI t t' w w2); try assumption.
          symmetry. eapply path_index_inj; eassumption.
    - apply uniq_set_nth; [apply (inv_uniq s HI)|].
      intros t2 w2 H2 B2 E. apply (inv_uniq s HI t2 t w2 w); assumption.
    - intros k ek Hk Hfd. destruct (Nat.eq_dec k (widx w)) as [->|Hne2].
      + assert (ek = e) by congruence. subst ek. destruct (skipped (slast0 s) (widx w)) eqn:Hsk.
        * rewrite Hst. apply (inv_done s HI _ e Hne). left. assumption.
        * apply (stage_nofs_good _ _ _ _ _ Hst). rewrite no_fs_fsops.
          exact (fsdone_nofs _ (widx w) t _ Hfd Hsk (nth_error_set_nth_eq _ _ _ Ht) eq_refl).
      + apply (frame_entry es Hwf (epath e) (sfs s) f' ek Hfr); [eapply nth_error_In; eassumption| |].
        { intro E. apply Hne2. eapply path_index_inj; eassumption. }
        apply (inv_done s HI k ek Hk).
        destruct Hfd as [Hsk|[Hlt2 Hall]]; [left; assumption|right]. split; [assumption|].
        intros t2 w2 Hn2 Hb2 Hi2. apply (Hall t2 w2); try assumption.
        cbn [sworkers]. rewrite nth_error_set_nth_neq; [assumption|]. intro E. subst t2. congruence.
  Qed.

  Lemma inv_dispatch s t w e :
    Inv s -> nth_error (sworkers s) t = Some w -> wops w = [] -> nth_error es (snext s) = Some e -> Inv (step s t).
  Proof.
    intros HI Hn Hidle Hne. unfold Zip.step. rewrite (inv_err s HI), Hn, Hidle, Hne.
    assert (Ht : t < length (sworkers s)) by (apply nth_error_Some; congruence).
    split; cbn [serr sfs snext sworkers slast0].
    - reflexivity.
    - apply (inv_shape s HI).
    - apply Nat.le_succ_l. apply nth_error_Some. congruence.
    - intros t' w2 Hn2. apply nth_error_set_nth in Hn2. destruct Hn2 as [[<- ->]|[Hne2 Hn2]]; unfold wvalid; cbn [serr sfs snext sworkers slast0 wops widx wseen].
      + intro Hb. split; [lia|]. exists e. split; [assumption|]. unfold busy in Hb. cbn [wops] in Hb.
        destruct (skipped (slast0 s) (snext s)).
        * destruct e; cbn [skip_job] in *; [contradiction|reflexivity|reflexivity].
        * apply stage_job.
      + intro Hb. destruct (inv_w s HI t' w2 Hn2 Hb) as [V1 V2]. split; [lia|assumption].
    - apply uniq_set_nth; [apply (inv_uniq s HI)|].
      intros t2 w2 H2 B2 E. cbn [widx] in E. destruct (inv_w s HI t2 w2 H2 B2) as [V _]. lia.
    - intros k ek Hk Hfd. apply (inv_done s HI k ek Hk). destruct (skipped (slast0 s) k) eqn:Esk; [left; assumption|right].
      destruct (Nat.eq_dec k (snext s)) as [->|Hne2].
      + (* the entry just handed out: its job has file-system work left *)
        exfalso. epose proof (fsdone_nofs _ _ t _ Hfd Esk (nth_error_set_nth_eq _ _ _ Ht) eq_refl) as X.
        cbn [wops] in X. rewrite Esk, no_fs_job in X. discriminate X.
      + destruct Hfd as [Hsk|[Hlt Hall]]; cbn [serr sfs snext sworkers slast0] in *; [congruence|]. split; [lia|].
        intros t2 w2 Hn2 Hb2 Hi2. apply (Hall t2 w2); try assumption.
        rewrite nth_error_set_nth_neq; [assumption|]. intro E. subst t2. unfold busy in Hb2. congruence.
  Qed.

  Theorem inv_step s t : Inv s -> Inv (step s t).
  Proof.
    intro HI.
    destruct (step_cases s t) as [->|[(w & e & _ & Hn & Hidle & Hne & _)|(w & op & rest & Herr & Hn & Hops & ->)]];
      [assumption|apply (inv_dispatch s t w e); assumption|].
    assert (Hb : busy w) by (unfold busy; rewrite Hops; discriminate).
    destruct (inv_w s HI t w Hn Hb) as [Hlt [e [Hne Hv]]]. rewrite Hops in Hv.
    apply (inv_local s t w op rest e HI Hn Hops Hne). destruct (skipped (slast0 s) (widx w)).
    - injection Hv as -> ->. apply keeps_stay; [apply (inv_shape s HI)|reflexivity].
    - apply stage_next; [apply (inv_shape s HI)|eapply nth_error_In; eassumption|assumption].
  Qed.

  Lemma run_invariant (P : state -> Prop) :
    (forall s t, P s -> P (step s t)) -> forall sched s, P s -> P (run es chunk racy wmark sched s).
  Proof. exact (run_keeps step P). Qed.

  Theorem inv_run sched : forall s, Inv s -> Inv (run es chunk racy wmark sched s).
  Proof. apply run_invariant. intros s t. apply inv_step. Qed.

  (** a directory from which an extraction can be (re)started with the resume file holding
      [last]: well-shaped, and every entry at or below [last] complete *)
  Definition resumable (f : fs) (last : option nat) : Prop :=
    shape f /\ forall i e, nth_error es i = Some e -> skipped last i = true -> lookup f (epath e) = Some (enode e).

  Lemma nth_error_repeat {A} (x y : A) n t : nth_error (repeat x n) t = Some y -> y = x.
  Proof. intro H. apply nth_error_In in H. apply repeat_spec in H. assumption. Qed.

  Theorem init_inv f last workers : resumable f last -> Inv (init f last workers).
  Proof.
    intros [Hsh Hdone]. unfold init. split; cbn [serr sfs snext sworkers slast0].
    - reflexivity.
    - assumption.
    - lia.
    - intros t w Hn Hb. apply nth_error_repeat in Hn. subst w. unfold busy in Hb. cbn in Hb. contradiction.
    - intros t1 t2 w1 w2 H1 _ B1. apply nth_error_repeat in H1. subst w1. unfold busy in B1. cbn in B1. contradiction.
    - intros i e Hi [Hsk|[Hlt _]]; cbn [serr sfs snext sworkers slast0] in *; [|lia]. apply (Hdone i e); assumption.
  Qed.

  Lemma resumable_empty : resumable [] None.
  Proof. split; [apply shape_empty|]. intros i e _ H. discriminate H. Qed.

  Lemma all_idle_spec s : all_idle s = true -> forall w, In w (sworkers s) -> wops w = [].
  Proof. unfold all_idle. rewrite forallb_forall. intros H w Hw. apply H in Hw. destruct (wops w); [reflexivity|discriminate]. Qed.

  Lemma finished_true s : finished es s = true -> snext s = length es /\ forall w, In w (sworkers s) -> wops w = [].
  Proof.
    unfold finished. rewrite !andb_true_iff, Nat.eqb_eq. intros [[_ Hnext] Hidle]. split; [assumption|apply all_idle_spec; assumption].
  Qed.

  Theorem finished_spec s : Inv s -> finished es s = true -> forall q, lookup (sfs s) q = spec_fs es q.
  Proof.
    intros HI Hfin. apply finished_true in Hfin. destruct Hfin as [Hnext Hid].
    assert (Hall : forall e, In e es -> lookup (sfs s) (epath e) = Some (enode e)).
    { intros e He. apply In_nth_error in He. destruct He as [i Hi]. apply (inv_done s HI i e Hi). right. split.
      - rewrite Hnext. apply nth_error_Some. congruence.
      - intros t w Hn Hb. exfalso. apply Hb. apply (Hid w). eapply nth_error_In. eassumption. }
    apply (shape_spec es Hwf); [apply (inv_shape s HI)|assumption].
  Qed.

  (** every index the resume state skips satisfies [P]: those at or below the resume file and, in
      the repaired code, the watermark (which is the file) and the indices finished ahead of it *)
  Definition resume_ok (P : nat -> Prop) (s : state) : Prop :=
    (forall i, skipped (sresume s) i = true -> P i) /\
    (wmark = true -> swm s = sresume s /\ forall i, In i (sahead s) -> P i).

  Definition RInv (s : state) : Prop := resume_ok (fsdone s) s.

  Lemma resume_ok_mono (P P' : nat -> Prop) s : (forall i, P i -> P' i) -> resume_ok P s -> resume_ok P' s.
  Proof. intros H [H1 H2]. split; [auto|]. intro Hw. destruct (H2 Hw). auto. Qed.

  Lemma resume_ok_same (P : nat -> Prop) s s' :
    sresume s' = sresume s /\ swm s' = swm s /\ sahead s' = sahead s -> resume_ok P s -> resume_ok P s'.
  Proof. unfold resume_ok. intros (-> & -> & ->) H. exact H. Qed.

  Lemma advance_spec (P : nat -> Prop) ahead : forall fuel wm,
    (forall i, skipped wm i = true -> P i) -> (forall i, In i ahead -> P i) ->
    forall i, skipped (advance fuel wm ahead) i = true -> P i.
  Proof.
    induction fuel as [|fuel IH]; intros wm H1 H2 i Hi; cbn [advance] in Hi; [apply H1; assumption|].
    destruct (existsb (Nat.eqb (next_of wm)) ahead) eqn:E; [|apply H1; assumption].
    apply (IH (Some (next_of wm))); try assumption.
    intros j Hj. cbn [skipped] in Hj. apply Nat.leb_le in Hj.
    apply existsb_exists in E. destruct E as [x [Hx Ex]]. apply Nat.eqb_eq in Ex. subst x.
    destruct wm as [k|]; cbn [next_of] in *.
    - destruct (Nat.eq_dec j (S k)) as [->|Hne]; [apply H2; assumption|]. apply H1. cbn [skipped]. apply Nat.leb_le. lia.
    - assert (j = 0) by lia. subst j. apply H2. assumption.
  Qed.

  Lemma no_fs_tl ops : no_fs ops = true -> no_fs (tl ops) = true.
  Proof. destruct ops as [|o r]; [reflexivity|]. unfold no_fs. cbn [forallb tl]. intro H. apply andb_true_iff in H. apply H. Qed.

  Lemma fsdone_step s t i : fsdone s i -> fsdone (step s t) i.
  Proof.
    intro H. destruct (step_cases s t) as [->|[(w & e & _ & Hn & Hidle & Hne & ->)|(w & op & rest & _ & Hn & Hops & ->)]]; [assumption| |].
    - destruct H as [Hsk|[Hlt Hall]]; [left; assumption|right]. cbn [snext sworkers]. split; [lia|].
      intros t2 w2 Hn2 Hb2 Hi2. apply nth_error_set_nth in Hn2.
      destruct Hn2 as [[<- ->]|[Hne2 Hn2]]; [cbn [widx] in Hi2; lia|]. apply (Hall t2 w2); assumption.
    - destruct H as [Hsk|[Hlt Hall]]; [left; rewrite exec_slast0; assumption|right]. rewrite exec_snext. split; [assumption|].
      intros t2 w2 Hn2 Hb2 Hi2. rewrite exec_workers in Hn2.
      apply nth_error_set_nth in Hn2. destruct Hn2 as [[<- ->]|[Hne Hn2]]; [|apply (Hall t2 w2); assumption].
      cbn [moved wops widx] in *. change rest with (tl (op :: rest)). rewrite <- Hops. apply no_fs_tl. apply (Hall t w); try assumption.
      unfold busy. rewrite Hops. discriminate.
  Qed.

  (** the operation that writes the resume file comes after the entry's file-system work *)
  Lemma progress_op s t w j rest :
    Inv s -> nth_error (sworkers s) t = Some w -> wops w = MProgress j :: rest ->
    j = widx w /\ widx w < snext s /\ fsdone s j.
  Proof.
    intros HI Hn Hops. assert (Hb : busy w) by (unfold busy; rewrite Hops; discriminate).
    destruct (inv_w s HI t w Hn Hb) as [Hlt [e [Hne Hv]]].
    destruct (skipped (slast0 s) (widx w)) eqn:Hsk; [rewrite Hops in Hv; discriminate Hv|].
    rewrite Hops, fsops_cons in Hv. cbn [is_count] in Hv. apply stage_progress in Hv.
    destruct Hv as [-> Hnf]. split; [reflexivity|]. split; [assumption|]. right. split; [assumption|].
    intros t2 w2 Hn2 Hb2 Hi2. rewrite (inv_uniq s HI t2 t w2 w Hn2 Hn Hb2 Hb Hi2) in Hn2.
    assert (w2 = w) by congruence. subst w2. rewrite Hops. rewrite no_fs_fsops in Hnf. exact Hnf.
  Qed.

  Lemma progress_ok (P : nat -> Prop) s j :
    resume_ok P s -> P j -> (wmark = false -> forall i, i < j -> P i) -> resume_ok P (progress wmark s j).
  Proof.
    intros [H1 H2] Hj Hlow. unfold resume_ok, progress. destruct wmark.
    - destruct (H2 eq_refl) as [E Ha].
      assert (Ha' : forall i, In i (j :: sahead s) -> P i) by (intros i [<-|Hi]; auto).
      assert (Hadv : forall i, skipped (advance (S (length (j :: sahead s))) (swm s) (j :: sahead s)) i = true -> P i).
      { apply advance_spec; [rewrite E; assumption|assumption]. }
      cbn [advance] in *. destruct (existsb _ _); cbn [sresume swm sahead]; (split; [assumption|intros _; split; [congruence|assumption]]).
    - cbn [sresume swm sahead]. split; [|discriminate]. intros i Hi. cbn [skipped] in Hi. apply Nat.leb_le in Hi.
      destruct (Nat.eq_dec i j) as [->|Hne]; [assumption|apply Hlow; [reflexivity|lia]].
  Qed.

  Theorem rinv_step s t :
    Inv s -> RInv s -> (wmark = true \/ length (sworkers s) <= 1) -> RInv (step s t).
  Proof.
    intros HI HR Hmode. apply (resume_ok_mono (fsdone s)); [intro i; apply fsdone_step|].
    destruct (step_cases s t) as [->|[(w & e & _ & _ & _ & _ & ->)|(w & op & rest & _ & Hn & Hops & ->)]];
      [exact HR|exact HR|].
    apply (resume_ok_same _ (resume_at s op)); [rewrite exec_eq; repeat split|].
    (* only writeProgress touches the resume state, and the entry's file-system work was over before *)
    destruct op as [| | | | | | | | | | |j|]; try exact HR. cbn [resume_at].
    destruct (progress_op s t w j rest HI Hn Hops) as [-> [Hlt Hdj]]. apply progress_ok; [exact HR|exact Hdj|].
    intros Hw i Hi. destruct Hmode as [Hm|Hm]; [congruence|].
    right. split; [lia|]. intros t2 w2 Hn2 Hb2 Hi2. exfalso.
    assert (t2 < length (sworkers s) /\ t < length (sworkers s)) by (split; apply nth_error_Some; congruence).
    assert (t2 = t) by lia. subst t2. assert (w2 = w) by congruence. subst w2. lia.
  Qed.

  Lemma step_workers_length s t : length (sworkers (step s t)) = length (sworkers s).
  Proof.
    destruct (step_cases s t) as [->|[(w & e & _ & _ & _ & _ & ->)|(w & op & rest & _ & _ & _ & ->)]]; [reflexivity| |].
    - apply length_set_nth.
    - rewrite exec_workers. apply length_set_nth.
  Qed.

  Lemma step_slast0 s t : slast0 (step s t) = slast0 s.
  Proof.
    destruct (step_cases s t) as [->|[(w & e & _ & _ & _ & _ & ->)|(w & op & rest & _ & _ & _ & ->)]]; try reflexivity.
    apply exec_slast0.
  Qed.

  Theorem rinv_init f last workers : RInv (init f last workers).
  Proof.
    unfold init. split; cbn [sresume swm sahead slast0].
    - intros i Hi. left. assumption.
    - intros _. split; [reflexivity|intros i []].
  Qed.

  Theorem rinv_run sched : forall s,
    Inv s -> RInv s -> (wmark = true \/ length (sworkers s) <= 1) ->
    RInv (run es chunk racy wmark sched s).
  Proof.
    intros s HI HR Hm.
    refine (proj1 (proj2 (run_keeps step (fun s => Inv s /\ RInv s /\ (wmark = true \/ length (sworkers s) <= 1))
                            _ sched s (conj HI (conj HR Hm))))).
    intros s0 t (H1 & H2 & H3). rewrite step_workers_length. auto using inv_step, rinv_step.
  Qed.

  (** whatever is on disk, with whatever the resume file says, when the process dies can be
      restarted from *)
  Theorem crash_state_resumable s : Inv s -> RInv s -> resumable (sfs s) (sresume s).
  Proof.
    intros HI HR. split; [apply (inv_shape s HI)|]. intros i e Hi Hsk.
    apply (inv_done s HI i e Hi). apply (proj1 HR). assumption.
  Qed.

  Local Notation remaining := (remaining es chunk racy).

  Lemma length_skip_job i e : length (skip_job i e) <= length (job i e).
  Proof. destruct e; cbn [skip_job Zip.job]; rewrite ?app_length; cbn [length]; lia. Qed.

  Lemma step_busy_decreases s t w :
    serr s = false -> nth_error (sworkers s) t = Some w -> wops w <> [] -> remaining (step s t) < remaining s.
  Proof.
    intros Herr Hn Hb. unfold Zip.step. rewrite Herr, Hn. destruct (wops w) as [|op rest] eqn:Hops; [contradiction|].
    unfold Zip.remaining, pending. rewrite exec_snext, exec_workers.
    pose proof (sumw_set_nth (fun w => length (wops w)) (sworkers s) t w (moved s w op rest) Hn) as X. unfold sumw in X.
    cbn [moved wops] in X. rewrite Hops in X. cbn [length] in X. lia.
  Qed.

  Lemma step_dispatch_decreases s t w :
    serr s = false -> nth_error (sworkers s) t = Some w -> wops w = [] -> snext s < length es ->
    remaining (step s t) < remaining s.
  Proof.
    intros Herr Hn Hidle Hlt. unfold Zip.step. rewrite Herr, Hn, Hidle.
    destruct (nth_error es (snext s)) as [e|] eqn:Hne; [|apply nth_error_None in Hne; lia].
    unfold Zip.remaining, pending. cbn [snext sworkers].
    rewrite (skipn_nth_error es (snext s) e Hne). cbn [future].
    match goal with |- context [set_nth (sworkers s) t ?W] => pose proof (sumw_set_nth (fun w => length (wops w)) (sworkers s) t w W Hn) as X end.
    unfold sumw in X. cbn [wops] in X. rewrite Hidle in X. cbn [length] in X.
    pose proof (length_skip_job (snext s) e). destruct (skipped (slast0 s) (snext s)); lia.
  Qed.

  Theorem no_deadlock s :
    Inv s -> sworkers s <> [] -> finished es s = false ->
    exists t, t < length (sworkers s) /\ remaining (step s t) < remaining s.
  Proof.
    intros HI Hw Hfin. unfold finished in Hfin. rewrite (inv_err s HI) in Hfin. cbn [negb andb] in Hfin.
    destruct (all_idle s) eqn:Hidle.
    - rewrite andb_true_r in Hfin. apply Nat.eqb_neq in Hfin. pose proof (inv_next s HI).
      destruct (sworkers s) as [|w ws] eqn:Ews; [contradiction|]. exists 0. split; [cbn; lia|].
      apply (step_dispatch_decreases s 0 w).
      + apply (inv_err s HI).
      + rewrite Ews. reflexivity.
      + apply (all_idle_spec s Hidle w). rewrite Ews. left. reflexivity.
      + lia.
    - apply forallb_false_exists in Hidle. destruct Hidle as [w [Hin Hb]].
      apply In_nth_error in Hin. destruct Hin as [t Hn].
      exists t. split; [apply nth_error_Some; congruence|].
      apply (step_busy_decreases s t w); [apply (inv_err s HI)|assumption|]. intro E. rewrite E in Hb. discriminate Hb.
  Qed.

  Theorem can_finish s :
    Inv s -> sworkers s <> [] -> exists sched, finished es (run es chunk racy wmark sched s) = true.
  Proof.
    intros HI Hw.
    apply (progress_terminates step (fun s => Inv s /\ sworkers s <> []) (finished es) remaining); [| |split; assumption].
    - intros s0 t [HI0 Hw0]. split; [apply inv_step; assumption|].
      intro E. apply Hw0. apply length_zero_iff_nil. rewrite <- (step_workers_length s0 t), E. reflexivity.
    - intros s0 [HI0 Hw0] Hfin. destruct (no_deadlock s0 HI0 Hw0 Hfin) as [t [_ Hlt]]. exists t. assumption.
  Qed.

  Theorem terminates : forall n s,
    remaining s <= n -> Inv s -> sworkers s <> [] ->
    exists sched, finished es (run es chunk racy wmark sched s) = true.
  Proof. intros n s _. apply can_finish. Qed.
End PoolProofs.

Lemma get_set_count k k' v c :
  get_count k (set_count k' v c) = if is_kind k (match k' with KDir => EDir [] | KFile => EFile [] [] | KLink => ELink [] [] end) then v else get_count k c.
Proof. destruct c as [[a b] d]. destruct k; destruct k'; reflexivity. Qed.

(** The counts are exact only for the repaired code (increments under a mutex): [racy] is [false]
    throughout this section; Properties/C19.v [counts_refuted] is the lost update of the other. *)
Section Counters.
  Variable es : list entry.
  Variable chunk : list N -> list (list N).
  Variable wmark : bool.

  Local Notation job := (job chunk false).
  Local Notation step := (step es chunk false wmark).
  Local Notation exec := (exec wmark).

  Definition kind_eqb (k k' : kind) : bool :=
    match k, k' with KDir, KDir | KFile, KFile | KLink, KLink => true | _, _ => false end.
  Definition is_mcount (k : kind) (op : mop) : bool := match op with MCount k' => kind_eqb k k' | _ => false end.
  Definition cnt (k : kind) (ops : list mop) : nat := length (filter (is_mcount k) ops).
  Definition pendc (k : kind) : list worker -> nat := sumw (fun w => cnt k (wops w)).
  Fixpoint futc (last0 : option nat) (k : kind) (i : nat) (l : list entry) : nat :=
    match l with
    | [] => 0
    | e :: r => (if skipped last0 i then 0 else if is_kind k e then 1 else 0) + futc last0 k (S i) r
    end.
  Definition plain_op (op : mop) : bool := match op with MCountLoad _ | MCountStore _ => false | _ => true end.

  Record CInv (s : state) : Prop := mkCInv {
    cinv_sum : forall k, get_count k (scounts s) + pendc k (sworkers s) + futc (slast0 s) k (snext s) (skipn (snext s) es)
                         = futc (slast0 s) k 0 es;
    cinv_ops : forall t w, nth_error (sworkers s) t = Some w -> forallb plain_op (wops w) = true }.

  Lemma pendc_set_nth k ws t w w' :
    nth_error ws t = Some w -> pendc k (set_nth ws t w') + cnt k (wops w) = pendc k ws + cnt k (wops w').
  Proof. apply (sumw_set_nth (fun w => cnt k (wops w))). Qed.

  Lemma cnt_job k i e : cnt k (job i e) = if is_kind k e then 1 else 0.
  Proof.
    change (is_kind k e) with (kind_eqb k (ekind e)). unfold Zip.job, count_ops, cnt.
    destruct e; cbn [app ekind]; rewrite ?filter_app; cbn [filter is_mcount app].
    - destruct (kind_eqb k KDir); reflexivity.
    - assert (X : filter (is_mcount k) (map (MAppend p) (chunk d)) = []).
      { induction (chunk d) as [|c l IH]; [reflexivity|]. cbn [map filter is_mcount]. assumption. }
      destruct (kind_eqb k KFile); cbn [app length filter is_mcount]; rewrite ?filter_app, X; reflexivity.
    - destruct (kind_eqb k KLink); reflexivity.
  Qed.

  Lemma cnt_skip_job k i e : cnt k (skip_job i e) = 0.
  Proof. destruct e; reflexivity. Qed.

  Lemma plain_job i e : forallb plain_op (job i e) = true.
  Proof.
    unfold Zip.job, count_ops. destruct e; cbn [app]; rewrite ?forallb_app; cbn [forallb plain_op andb]; try reflexivity.
    assert (X : forallb plain_op (map (MAppend p) (chunk d)) = true).
    { induction (chunk d) as [|c l IH]; [reflexivity|]. cbn [map forallb plain_op andb]. assumption. }
    rewrite forallb_app, X. reflexivity.
  Qed.

  Lemma plain_skip_job i e : forallb plain_op (skip_job i e) = true.
  Proof. destruct e; reflexivity. Qed.

  Lemma exec_counts s t w op rest :
    plain_op op = true ->
    forall k, get_count k (scounts (exec s t w op rest)) = get_count k (scounts s) + (if is_mcount k op then 1 else 0).
  Proof.
    intros Hp k. rewrite exec_eq. cbn [scounts]. destruct op; try discriminate Hp; cbn [counts_after is_mcount]; try lia.
    destruct (scounts s) as [[a b] c]. destruct k, k0; cbn; lia.
  Qed.

  Theorem cinv_step s t : CInv s -> CInv (step s t).
  Proof.
    intro HC.
    destruct (step_cases es chunk false wmark s t) as [->|[(w & e & _ & Hn & Hops & Hne & ->)|(w & op & rest & _ & Hn & Hops & ->)]]; [assumption| |].
    - split; cbn [scounts sworkers slast0 snext].
      + intro k. pose proof (cinv_sum s HC k) as X. rewrite (skipn_nth_error es (snext s) e Hne) in X. cbn [futc] in X.
        match goal with |- context [set_nth (sworkers s) t ?W] => pose proof (pendc_set_nth k (sworkers s) t w W Hn) as Y end.
        cbn [wops] in Y. rewrite Hops in Y. unfold cnt at 1 in Y. cbn [filter length] in Y.
        destruct (skipped (slast0 s) (snext s)); [rewrite cnt_skip_job in Y|rewrite cnt_job in Y]; lia.
      + intros t2 w2 Hn2. apply nth_error_set_nth in Hn2. destruct Hn2 as [[<- ->]|[_ Hn2]]; [|apply (cinv_ops s HC t2 w2 Hn2)].
        cbn [wops]. destruct (skipped (slast0 s) (snext s)); [apply plain_skip_job|apply plain_job].
    - pose proof (cinv_ops s HC t w Hn) as Hpl. rewrite Hops in Hpl. cbn [forallb] in Hpl. apply andb_true_iff in Hpl. destruct Hpl as [Hp Hpr].
      split.
      + intro k. rewrite (exec_counts s t w op rest Hp k), exec_workers, exec_snext, exec_slast0.
        pose proof (cinv_sum s HC k) as X. pose proof (pendc_set_nth k (sworkers s) t w (moved s w op rest) Hn) as Y.
        cbn [moved wops] in Y. rewrite Hops in Y. unfold cnt in Y. cbn [filter] in Y.
        destruct (is_mcount k op); cbn [length] in Y; lia.
      + intros t2 w2 Hn2. rewrite exec_workers in Hn2. apply nth_error_set_nth in Hn2. destruct Hn2 as [[<- ->]|[_ Hn2]]; [|apply (cinv_ops s HC t2 w2 Hn2)].
        assumption.
  Qed.

  Theorem cinv_init f last workers : CInv (init f last workers).
  Proof.
    unfold init. split; cbn [scounts sworkers slast0 snext].
    - intro k. cbn [skipn get_count]. unfold pendc. rewrite sumw_zero; [destruct k; reflexivity|].
      intros w Hw. apply repeat_spec in Hw. subst w. reflexivity.
    - intros t w Hn. apply nth_error_repeat in Hn. subst w. reflexivity.
  Qed.

  Theorem cinv_run sched : forall s, CInv s -> CInv (run es chunk false wmark sched s).
  Proof. apply run_invariant. intros s t. apply cinv_step. Qed.

  (** the entries a run extracts: those above the index found in the resume file *)
  Definition entries_above (last : option nat) (l : list entry) : list entry :=
    match last with None => l | Some k => skipn (S k) l end.

  Lemma futc_none k l : forall i, futc None k i l = length (filter (is_kind k) l).
  Proof. induction l as [|e l IH]; intro i; [reflexivity|]. cbn [futc skipped filter]. rewrite IH. destruct (is_kind k e); reflexivity. Qed.

  Lemma futc_some n k l : forall i, futc (Some n) k i l = length (filter (is_kind k) (skipn (S n - i) l)).
  Proof.
    induction l as [|e l IH]; intro i; [rewrite skipn_nil; reflexivity|]. cbn [futc skipped]. rewrite IH.
    destruct (Nat.leb i n) eqn:E.
    - apply Nat.leb_le in E. replace (S n - i) with (S (n - i)) by lia. cbn [skipn]. replace (S n - S i) with (n - i) by lia. reflexivity.
    - apply Nat.leb_gt in E. replace (S n - i) with 0 by lia. replace (S n - S i) with 0 by lia. cbn [skipn filter].
      destruct (is_kind k e); reflexivity.
  Qed.

  Theorem counts_finished s :
    CInv s -> finished es s = true -> scounts s = kind_counts (entries_above (slast0 s) es).
  Proof.
    intros HC Hfin. apply finished_true in Hfin. destruct Hfin as [Hnext Hidle].
    assert (P0 : forall k, pendc k (sworkers s) = 0).
    { intro k. apply sumw_zero. intros w Hw. rewrite (Hidle w Hw). reflexivity. }
    assert (X : forall k, get_count k (scounts s) = length (filter (is_kind k) (entries_above (slast0 s) es))).
    { intro k. pose proof (cinv_sum s HC k) as Y. rewrite P0, Hnext, skipn_all in Y. cbn [futc] in Y.
      unfold entries_above. destruct (slast0 s) as [n|].
      - rewrite futc_some in Y. rewrite Nat.sub_0_r in Y. lia.
      - rewrite futc_none in Y. lia. }
    unfold kind_counts. rewrite <- (X KDir), <- (X KFile), <- (X KLink). destruct (scounts s) as [[a b] c]. reflexivity.
  Qed.
End Counters.

Lemma run_workers_length es chunk racy wmark sched s :
  length (sworkers (run es chunk racy wmark sched s)) = length (sworkers s).
Proof.
  apply (run_invariant es chunk racy wmark (fun s' => length (sworkers s') = length (sworkers s))); [|reflexivity].
  intros s' t E. rewrite step_workers_length. exact E.
Qed.

Lemma init_workers_length f last w : length (sworkers (init f last w)) = w.
Proof. unfold init. cbn [sworkers]. apply repeat_length. Qed.

(** extraction into a directory left by an earlier interrupted extraction (or an empty one):
    no helper fails, whatever the schedule; when it returns the directory is the archive's
    tree; and it can always return (no deadlock) *)
Theorem restart_lemma :
  forall (es : list entry) (chunk : list N -> list (list N)) (racy wmark : bool),
    wf_entries es -> (forall d, concat (chunk d) = d) ->
    forall (f : fs) (last : option nat), resumable es f last ->
    forall (workers : nat) (sched : list nat),
      let s := run es chunk racy wmark sched (init f last workers) in
      serr s = false /\
      (finished es s = true -> forall q, lookup (sfs s) q = spec_fs es q) /\
      (0 < workers -> exists more, finished es (run es chunk racy wmark more s) = true).
Proof.
  intros es chunk racy wmark Hwf Hchunk f last Hres workers sched s.
  assert (HI : Inv es chunk s) by (apply (inv_run es chunk racy wmark Hwf Hchunk); apply init_inv; assumption).
  split; [apply (inv_err es chunk s HI)|]. split.
  - apply (finished_spec es chunk); assumption.
  - intro Hw. apply (can_finish es chunk racy wmark Hwf Hchunk); [assumption|].
    intro E. assert (X : length (sworkers s) = workers) by (unfold s; rewrite run_workers_length; apply init_workers_length).
    rewrite E in X. cbn in X. lia.
Qed.

(** the state an interrupted extraction leaves behind can be restarted from: with the
    contiguous watermark for any number of workers, with the original resume file for one *)
Theorem interrupted_resumable_lemma :
  forall (es : list entry) (chunk : list N -> list (list N)) (racy wmark : bool),
    wf_entries es -> (forall d, concat (chunk d) = d) ->
    forall (f : fs) (last : option nat), resumable es f last ->
    forall (workers : nat), wmark = true \/ workers <= 1 ->
    forall (sched : list nat),
      let s := run es chunk racy wmark sched (init f last workers) in
      resumable es (sfs s) (sresume s).
Proof.
  intros es chunk racy wmark Hwf Hchunk f last Hres workers Hmode sched s.
  apply (crash_state_resumable es chunk wmark).
  - apply (inv_run es chunk racy wmark Hwf Hchunk). apply init_inv. assumption.
  - apply (rinv_run es chunk racy wmark Hwf Hchunk).
    + apply init_inv. assumption.
    + apply rinv_init.
    + rewrite init_workers_length. assumption.
Qed.

Lemma run_slast0 es chunk racy wmark sched s : slast0 (run es chunk racy wmark sched s) = slast0 s.
Proof.
  apply (run_invariant es chunk racy wmark (fun s' => slast0 s' = slast0 s)); [|reflexivity].
  intros s' t E. rewrite step_slast0. exact E.
Qed.

Definition wf_entriesb (es : list entry) : bool :=
  ListLemmas.nodupb N.eqb (map epath es) &&
  forallb (fun e => negb (path_eqb (epath e) [])) es &&
  forallb (fun e => forallb (fun e' => implb (is_prefix (epath e) (epath e') && negb (path_eqb (epath e) (epath e'))) (is_kind KDir e)) es) es.

Lemma wf_entriesb_sound es : wf_entriesb es = true -> wf_entries es.
Proof.
  unfold wf_entriesb. intro H. apply andb_true_iff in H. destruct H as [H H3]. apply andb_true_iff in H. destruct H as [H1 H2].
  split; [apply (ListLemmas.nodupb_NoDup N.eqb N.eqb_eq); assumption|]. split.
  - intros e He. rewrite forallb_forall in H2. apply H2 in He. apply negb_true_iff in He. apply path_eqb_neq. assumption.
  - intros e e' He He' Hp Hne. rewrite forallb_forall in H3. specialize (H3 e He). rewrite forallb_forall in H3. specialize (H3 e' He').
    rewrite Hp in H3. apply path_eqb_neq in Hne. rewrite Hne in H3. cbn [negb andb implb] in H3.
    destruct e; try discriminate H3; reflexivity.
Qed.

Definition chunk_each (d : list N) : list (list N) := map (fun x => [x]) d.

Lemma chunk_each_ok d : concat (chunk_each d) = d.
Proof. induction d as [|x d IH]; [reflexivity|]. unfold chunk_each in *. cbn [map concat app]. rewrite IH. reflexivity. Qed.

(** non-vacuity: a tree with a nested directory, an empty directory, an empty file, a file
    and a dangling symlink is well formed, and three workers extract it *)
Example extract_example :
  let es := [EDir [1%N]; EFile [1%N; 2%N] [5%N; 6%N]; EDir [3%N]; EFile [4%N] []; ELink [1%N; 5%N] [9%N]] in
  wf_entries es /\
  let s := run es chunk_each false true (concat (repeat [2; 0; 1] 20)) (init [] None 3) in
  finished es s = true /\ scounts s = (2, 2, 1) /\ sresume s = Some 4.
Proof. split; [apply wf_entriesb_sound; vm_compute; reflexivity|]. vm_compute. repeat split; reflexivity. Qed.

From Coq Require Import Permutation.

Lemma insert_entry_perm e l : Permutation (insert_entry e l) (e :: l).
Proof.
  induction l as [|x l IH]; [apply Permutation_refl|]. cbn [insert_entry].
  destruct (path_leb (epath e) (epath x)); [apply Permutation_refl|].
  eapply Permutation_trans; [apply perm_skip; exact IH|apply perm_swap].
Qed.

Lemma sort_entries_perm l : Permutation (sort_entries l) l.
Proof.
  induction l as [|x l IH]; [apply Permutation_refl|]. cbn [sort_entries fold_right]. fold (sort_entries l).
  eapply Permutation_trans; [apply insert_entry_perm|apply perm_skip; exact IH].
Qed.

Lemma kinds_partition l :
  Permutation (filter (is_kind KDir) l ++ filter (is_kind KFile) l ++ filter (is_kind KLink) l) l.
Proof.
  induction l as [|e l IH]; [apply Permutation_refl|]. destruct e; simpl.
  - apply perm_skip. exact IH.
  - apply Permutation_sym. apply Permutation_cons_app. apply Permutation_sym. exact IH.
  - rewrite app_assoc. apply Permutation_sym. apply Permutation_cons_app. apply Permutation_sym.
    rewrite <- app_assoc. exact IH.
Qed.

Lemma compress_perm fl tree : Permutation (compress fl tree) tree.
Proof.
  destruct fl; cbn [compress]; try apply sort_entries_perm.
  eapply Permutation_trans; [|apply kinds_partition].
  repeat apply Permutation_app; apply sort_entries_perm.
Qed.

Lemma wf_entries_perm l l' : Permutation l l' -> wf_entries l -> wf_entries l'.
Proof.
  intros Hp [H1 [H2 H3]]. split; [|split].
  - eapply Permutation_NoDup; [apply Permutation_map; exact Hp|assumption].
  - intros e He. apply H2. eapply Permutation_in; [apply Permutation_sym; exact Hp|assumption].
  - intros e e' He He'. apply H3; (eapply Permutation_in; [apply Permutation_sym; exact Hp|assumption]).
Qed.

Lemma spec_fs_perm l l' q : Permutation l l' -> wf_entries l -> spec_fs l q = spec_fs l' q.
Proof.
  intros Hp Hwf. pose proof (wf_entries_perm l l' Hp Hwf) as Hwf'.
  assert (Hin : forall e, In e l <-> In e l').
  { intro e. split; apply Permutation_in; [|apply Permutation_sym]; assumption. }
  assert (E1 : entry_at l q = entry_at l' q).
  { assert (H : forall e, entry_at l q = Some e <-> entry_at l' q = Some e).
    { intro e. rewrite (entry_at_spec l Hwf), (entry_at_spec l' Hwf'), (Hin e). reflexivity. }
    destruct (entry_at l q) as [e|]; [symmetry; apply H; reflexivity|].
    destruct (entry_at l' q) as [e'|]; [apply H|]; reflexivity. }
  assert (E2 : inner_dir l q = inner_dir l' q).
  { apply eq_true_iff_eq. rewrite !inner_dir_spec.
    split; intros [Hq [e [He X]]]; (split; [assumption|]); exists e; (split; [apply Hin|]; assumption). }
  unfold spec_fs. rewrite E1, E2. reflexivity.
Qed.

Theorem compress_lemma :
  forall (fl : flavor) (tree : list entry),
    wf_entries tree -> wf_entries (compress fl tree) /\ forall q, spec_fs (compress fl tree) q = spec_fs tree q.
Proof.
  intros fl tree Hwf. pose proof (compress_perm fl tree) as Hp. split.
  - eapply wf_entries_perm; [apply Permutation_sym; exact Hp|assumption].
  - intro q. symmetry. apply spec_fs_perm; [apply Permutation_sym; exact Hp|assumption].
Qed.
