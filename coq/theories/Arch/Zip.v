(** C19 — model of archiver/zip.go (ExtractZip: worker pool, resume file), of the helpers
    Mkdir / Symlink / CopyFile of archiver/archiver.go over a small private file-system
    model, and of the entry order produced by CompressZip / CompressTar (walk order) and
    containerarchiver.CompressZip (dirs, files, symlinks).  Definitions only; the proofs are
    in Arch/ZipFsLemmas.v (the file-system operations) and Arch/ZipProofs.v (the pool).

    Granularity: one micro-step = one system call of a helper (RemoveAll, MkdirAll, open,
    one write, symlink, lstat, remove), one counter access, the write of the resume file, or
    the OnEntryDone callback.  Workers interleave at that granularity under an explicit
    schedule (a list of worker ids); a crash is the end of the schedule.  Not modelled: file
    modes, progress reporting, DryRun, Windows. *)
From Wharf Require Import Base.Prelude.

Definition name := N.
Definition path := list name.

Inductive node := Dir | File (d : list N) | Link (dest : list N).
Inductive entry := EDir (p : path) | EFile (p : path) (d : list N) | ELink (p : path) (dest : list N).
Inductive kind := KDir | KFile | KLink.

Definition epath (e : entry) : path := match e with EDir p | EFile p _ | ELink p _ => p end.
Definition enode (e : entry) : node := match e with EDir _ => Dir | EFile _ d => File d | ELink _ d => Link d end.
Definition ekind (e : entry) : kind := match e with EDir _ => KDir | EFile _ _ => KFile | ELink _ _ => KLink end.

Definition path_eqb : path -> path -> bool := list_eqb N.eqb.

(** [is_prefix p q]: p is a (not necessarily proper) prefix of q *)
Fixpoint is_prefix (p q : path) : bool :=
  match p, q with
  | [], _ => true
  | a :: p', b :: q' => N.eqb a b && is_prefix p' q'
  | _ :: _, [] => false
  end.

Definition parent (p : path) : path := removelast p.

(** non-empty prefixes of p, shortest first, p itself last *)
Fixpoint prefixes (p : path) : list path :=
  match p with
  | [] => []
  | a :: r => [a] :: map (cons a) (prefixes r)
  end.

Definition node_eqb (a b : node) : bool :=
  match a, b with
  | Dir, Dir => true
  | File x, File y => nlist_eqb x y
  | Link x, Link y => nlist_eqb x y
  | _, _ => false
  end.

(** * File system: the directory being extracted into; the root (path []) always exists *)
Definition fs := list (path * node).

Fixpoint lookup (f : fs) (q : path) : option node :=
  match f with
  | [] => None
  | (p, n) :: r => if path_eqb p q then Some n else lookup r q
  end.

Definition del (f : fs) (p : path) : fs := filter (fun x => negb (path_eqb (fst x) p)) f.
Definition upd (f : fs) (p : path) (n : node) : fs := (p, n) :: del f p.

Definition dir_or_none (o : option node) : bool := match o with None | Some Dir => true | _ => false end.

Definition parent_ok (p : path) (f : fs) : bool :=
  match parent p with
  | [] => true
  | pp => match lookup f pp with Some Dir => true | _ => false end
  end.

(** os.RemoveAll: the path and everything below it; no error when absent (nor below a regular
    file, where Linux says ENOTDIR: [zip_remove_all_differs] of Properties/C19.v) *)
Definition fs_remove_all (p : path) (f : fs) : option fs :=
  Some (filter (fun x => negb (is_prefix p (fst x))) f).

(** os.Remove of a file or symlink (ENOENT / directory: error — archiver.Mkdir only calls it
    on something lstat has shown not to be a directory) *)
Definition fs_remove (p : path) (f : fs) : option fs :=
  match lookup f p with
  | Some (File _) | Some (Link _) => Some (del f p)
  | _ => None
  end.

(** os.MkdirAll: creates the missing components; ENOTDIR when a component is a file.  A
    component that is a symlink is an error here (the real call would follow it; no entry of
    an archive made from a tree lies below a symlink). *)
Definition fs_mkdir_all (p : path) (f : fs) : option fs :=
  if forallb (fun q => dir_or_none (lookup f q)) (prefixes p)
  then Some (fold_left (fun g q => match lookup g q with None => (q, Dir) :: g | Some _ => g end) (prefixes p) f)
  else None.

(** os.OpenFile(O_CREATE|O_TRUNC|O_WRONLY) *)
Definition fs_create (p : path) (f : fs) : option fs :=
  if parent_ok p f
  then match lookup f p with
       | None | Some (File _) => Some (upd f p (File []))
       | _ => None
       end
  else None.

(** one Write call of io.Copy on the open file *)
Definition fs_append (p : path) (c : list N) (f : fs) : option fs :=
  match lookup f p with
  | Some (File d) => Some (upd f p (File (d ++ c)))
  | _ => None
  end.

(** os.Symlink: EEXIST when something is there *)
Definition fs_symlink (p : path) (dest : list N) (f : fs) : option fs :=
  if parent_ok p f
  then match lookup f p with
       | None => Some (upd f p (Link dest))
       | _ => None
       end
  else None.

(** * Workers *)
Inductive mop :=
| MLstat (p : path)                  (* archiver.Mkdir: os.Lstat *)
| MMkRemove (p : path)               (* archiver.Mkdir: os.Remove when lstat saw a non-directory *)
| MMkMkdir (p : path)                (* archiver.Mkdir: os.MkdirAll unless lstat saw a directory *)
| MRemoveAll (p : path)
| MMkdirAll (p : path)
| MCreate (p : path)
| MAppend (p : path) (c : list N)
| MSymlink (p : path) (dest : list N)
| MCount (k : kind)                  (* synchronised increment *)
| MCountLoad (k : kind)              (* the two halves of an unsynchronised [x++] *)
| MCountStore (k : kind)
| MProgress (i : nat)                (* writeProgress(fileIndex) *)
| MEntryDone (i : nat).              (* settings.OnEntryDone *)

Record worker := mkW { wops : list mop; widx : nat; wseen : option node; wreg : nat }.

Definition idle_worker : worker := mkW [] 0 None 0.

Record state := mkS {
  sfs : fs;
  snext : nat;                       (* next index the dispatcher hands out *)
  sworkers : list worker;
  scounts : nat * nat * nat;         (* dirCount, regCount, symlinkCount *)
  sresume : option nat;              (* content of the resume file; None: absent / -1 *)
  sahead : list nat;                 (* repaired code: indices finished in this run *)
  swm : option nat;                  (* repaired code: resumeIndex, the contiguous watermark *)
  sdone : nat;                       (* number of OnEntryDone callbacks *)
  slast0 : option nat;               (* lastDoneIndex read from the resume file at start *)
  serr : bool                        (* a helper failed: the extraction returns an error *)
}.

Definition get_count (k : kind) (c : nat * nat * nat) : nat :=
  let '(d, f, l) := c in match k with KDir => d | KFile => f | KLink => l end.
Definition set_count (k : kind) (v : nat) (c : nat * nat * nat) : nat * nat * nat :=
  let '(d, f, l) := c in match k with KDir => (v, f, l) | KFile => (d, v, l) | KLink => (d, f, v) end.

Definition next_of (w : option nat) : nat := match w with None => 0 | Some k => S k end.

(** the watermark moves over every finished index directly above it *)
Fixpoint advance (fuel : nat) (wm : option nat) (ahead : list nat) : option nat :=
  match fuel with
  | O => wm
  | S f => if existsb (Nat.eqb (next_of wm)) ahead then advance f (Some (next_of wm)) ahead else wm
  end.

Definition skipped (last0 : option nat) (i : nat) : bool :=
  match last0 with None => false | Some l => Nat.leb i l end.

Fixpoint set_nth {A} (l : list A) (n : nat) (x : A) : list A :=
  match l, n with
  | [], _ => []
  | _ :: r, O => x :: r
  | a :: r, S n' => a :: set_nth r n' x
  end.

Section Pool.
  Variable entries : list entry.
  (** how io.Copy slices a file's content into Write calls: any function will do *)
  Variable chunk : list N -> list (list N).
  (** [racy = true]: the counters of the unchanged code (x++ from several goroutines);
      [false]: the repaired code (increment under a mutex) *)
  Variable racy : bool.
  (** [wmark = false]: the resume file of the unchanged code (index finished last by any
      worker); [true]: the repaired code (contiguous watermark) *)
  Variable wmark : bool.

  Definition count_ops (k : kind) : list mop :=
    if racy then [MCountLoad k; MCountStore k] else [MCount k].

  (** what a worker does for entry i (zip.go, the closure inside the worker loop) *)
  Definition job (i : nat) (e : entry) : list mop :=
    match e with
    | EDir p => [MLstat p; MMkRemove p; MMkMkdir p] ++ count_ops KDir ++ [MProgress i]
    | ELink p d => [MRemoveAll p; MMkdirAll (parent p); MSymlink p d] ++ count_ops KLink ++ [MProgress i; MEntryDone i]
    | EFile p d => count_ops KFile ++ [MRemoveAll p; MMkdirAll (parent p); MCreate p]
                   ++ map (MAppend p) (chunk d) ++ [MProgress i; MEntryDone i]
    end.

  (** an entry at or below lastDoneIndex: only done(file) is called *)
  Definition skip_job (i : nat) (e : entry) : list mop :=
    match e with EDir _ => [] | _ => [MEntryDone i] end.

  Definition set_worker (s : state) (t : nat) (w : worker) : state :=
    mkS (sfs s) (snext s) (set_nth (sworkers s) t w) (scounts s) (sresume s) (sahead s) (swm s) (sdone s) (slast0 s) (serr s).

  Definition with_fs (s : state) (r : option fs) : state :=
    match r with
    | Some f => mkS f (snext s) (sworkers s) (scounts s) (sresume s) (sahead s) (swm s) (sdone s) (slast0 s) (serr s)
    | None => mkS (sfs s) (snext s) (sworkers s) (scounts s) (sresume s) (sahead s) (swm s) (sdone s) (slast0 s) true
    end.

  Definition with_counts (s : state) (c : nat * nat * nat) : state :=
    mkS (sfs s) (snext s) (sworkers s) c (sresume s) (sahead s) (swm s) (sdone s) (slast0 s) (serr s).

  Definition progress (s : state) (i : nat) : state :=
    if wmark
    then let ahead := i :: sahead s in
         let wm := advance (S (length ahead)) (swm s) ahead in
         if existsb (Nat.eqb (next_of (swm s))) ahead
         then mkS (sfs s) (snext s) (sworkers s) (scounts s) wm ahead wm (sdone s) (slast0 s) (serr s)
         else mkS (sfs s) (snext s) (sworkers s) (scounts s) (sresume s) ahead (swm s) (sdone s) (slast0 s) (serr s)
    else mkS (sfs s) (snext s) (sworkers s) (scounts s) (Some i) (sahead s) (swm s) (sdone s) (slast0 s) (serr s).

  (** worker [t] (holding [w], whose next operation is [op]) performs [op] *)
  Definition exec (s : state) (t : nat) (w : worker) (op : mop) (rest : list mop) : state :=
    let w' := mkW rest (widx w) (wseen w) (wreg w) in
    match op with
    | MLstat p => set_worker s t (mkW rest (widx w) (lookup (sfs s) p) (wreg w))
    | MMkRemove p =>
        match wseen w with
        | None | Some Dir => set_worker s t w'
        | Some _ => set_worker (with_fs s (fs_remove p (sfs s))) t w'
        end
    | MMkMkdir p =>
        match wseen w with
        | Some Dir => set_worker s t w'
        | _ => set_worker (with_fs s (fs_mkdir_all p (sfs s))) t w'
        end
    | MRemoveAll p => set_worker (with_fs s (fs_remove_all p (sfs s))) t w'
    | MMkdirAll p => set_worker (with_fs s (fs_mkdir_all p (sfs s))) t w'
    | MCreate p => set_worker (with_fs s (fs_create p (sfs s))) t w'
    | MAppend p c => set_worker (with_fs s (fs_append p c (sfs s))) t w'
    | MSymlink p d => set_worker (with_fs s (fs_symlink p d (sfs s))) t w'
    | MCount k => set_worker (with_counts s (set_count k (S (get_count k (scounts s))) (scounts s))) t w'
    | MCountLoad k => set_worker s t (mkW rest (widx w) (wseen w) (get_count k (scounts s)))
    | MCountStore k => set_worker (with_counts s (set_count k (S (wreg w)) (scounts s))) t w'
    | MProgress i => set_worker (progress s i) t w'
    | MEntryDone i =>
        set_worker (mkS (sfs s) (snext s) (sworkers s) (scounts s) (sresume s) (sahead s) (swm s) (S (sdone s)) (slast0 s) (serr s)) t w'
    end.

  (** one step of worker [t]: an idle worker receives the next index from the dispatcher
      (when there is one); a busy worker performs its next operation.  After a failure
      nothing moves any more (the extraction returns the error). *)
  Definition step (s : state) (t : nat) : state :=
    if serr s then s else
    match nth_error (sworkers s) t with
    | None => s
    | Some w =>
        match wops w with
        | [] =>
            match nth_error entries (snext s) with
            | None => s
            | Some e =>
                let i := snext s in
                let ops := if skipped (slast0 s) i then skip_job i e else job i e in
                mkS (sfs s) (S i) (set_nth (sworkers s) t (mkW ops i (wseen w) (wreg w)))
                    (scounts s) (sresume s) (sahead s) (swm s) (sdone s) (slast0 s) (serr s)
            end
        | op :: rest => exec s t w op rest
        end
    end.

  Definition run (sched : list nat) (s : state) : state := fold_left step sched s.

  (** extraction starts on directory content [f] with the resume file holding [last] *)
  Definition init (f : fs) (last : option nat) (workers : nat) : state :=
    mkS f 0 (repeat idle_worker workers) (0, 0, 0) last [] last 0 last false.

  Definition all_idle (s : state) : bool := forallb (fun w => match wops w with [] => true | _ => false end) (sworkers s).

  (** ExtractZip has returned without error *)
  Definition finished (s : state) : bool :=
    negb (serr s) && Nat.eqb (snext s) (length entries) && all_idle s.

  (** remaining micro-steps (dispatch included): the measure that shows absence of deadlock *)
  Definition pending (s : state) : nat :=
    fold_right (fun w a => length (wops w) + a) 0 (sworkers s).
  Fixpoint future (i : nat) (es : list entry) : nat :=
    match es with
    | [] => 0
    | e :: r => S (length (job i e)) + future (S i) r
    end.
  Definition remaining (s : state) : nat := pending s + future (snext s) (skipn (snext s) entries).
End Pool.

(** * What the archive must extract to *)
Definition entry_at (es : list entry) (q : path) : option entry :=
  find (fun e => path_eqb (epath e) q) es.

(** q is a proper, non-empty prefix of the path of some entry *)
Definition inner_dir (es : list entry) (q : path) : bool :=
  match q with
  | [] => false
  | _ => existsb (fun e => is_prefix q (epath e) && negb (path_eqb q (epath e))) es
  end.

Definition spec_fs (es : list entry) (q : path) : option node :=
  match entry_at es q with
  | Some e => Some (enode e)
  | None => if inner_dir es q then Some Dir else None
  end.

(** well-formed entry lists (what compressing a directory tree yields): non-empty pairwise
    distinct paths, and nothing below a file or a symlink *)
Definition wf_entries (es : list entry) : Prop :=
  NoDup (map epath es) /\
  (forall e, In e es -> epath e <> []) /\
  (forall e e', In e es -> In e' es -> is_prefix (epath e) (epath e') = true -> epath e <> epath e' -> ekind e = KDir).

(** * Archive order *)
Inductive flavor := FWalk | FContainer | FTar.

(** component-wise lexicographic order, a prefix first: the pre-order of a walk that visits
    the children of every directory by increasing name *)
Fixpoint path_leb (p q : path) : bool :=
  match p, q with
  | [], _ => true
  | _ :: _, [] => false
  | a :: p', b :: q' => if N.ltb a b then true else if N.eqb a b then path_leb p' q' else false
  end.

Fixpoint insert_entry (e : entry) (l : list entry) : list entry :=
  match l with
  | [] => [e]
  | x :: r => if path_leb (epath e) (epath x) then e :: l else x :: insert_entry e r
  end.
Definition sort_entries (l : list entry) : list entry := fold_right insert_entry [] l.

Definition is_kind (k : kind) (e : entry) : bool :=
  match k, ekind e with KDir, KDir | KFile, KFile | KLink, KLink => true | _, _ => false end.

(** CompressZip / CompressTar (FWalk / FTar): filepath.Walk order; containerarchiver.CompressZip: the
    container's dirs, then files, then symlinks, each in walk order *)
Definition compress (fl : flavor) (tree : list entry) : list entry :=
  match fl with
  | FWalk | FTar => sort_entries tree
  | FContainer => sort_entries (filter (is_kind KDir) tree) ++ sort_entries (filter (is_kind KFile) tree)
                  ++ sort_entries (filter (is_kind KLink) tree)
  end.

Definition kind_counts (es : list entry) : nat * nat * nat :=
  (length (filter (is_kind KDir) es), length (filter (is_kind KFile) es), length (filter (is_kind KLink) es)).
