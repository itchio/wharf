(** Proofs about the signing models: CreateSignature equals the reference [sign_file] for every
    chunking of the file, ComputeSignatureToWriter equals [sign_all], the fan-out preserves the
    stream, and the diff-time producer writes exactly the stripped reference signature.
    Defines the conditions on sources in the C04 statements: [nonempty_chunks], [src_ok],
    [src_content], [src_nonempty], [src_fan_ok]. *)
From Wharf Require Import Base.Prelude Base.BlocksLemmas Sig.Scan Sig.ScanProofs Sig.Sign Sig.Fanout Sig.SigFile.
Local Open Scope N_scope.

Section FanOutWrites.
  Variable maxE : nat.
  Hypothesis maxE_pos : (1 <= maxE)%nat.
  Variable slice : nat.
  Hypothesis slice_pos : (0 < slice)%nat.

  Definition nonempty_chunks (chunks : list (list N)) : Prop := Forall (fun c : list N => c <> []) chunks.

  Lemma runs_ok_mono (M : nat) (chunks : list (list N)) : forall k k',
    (k <= k')%nat -> runs_ok M k chunks -> runs_ok M k' chunks.
  Proof.
    induction chunks as [|[|x c] r IH]; intros k k' Hk Hr; [exact I| |exact Hr].
    cbn [runs_ok] in *. destruct k as [|a]; [contradiction|]. destruct k' as [|b]; [lia|].
    apply (IH a b); [lia|exact Hr].
  Qed.

  (** the copy loop adds at most one empty Write to a run of empty reads (the Write of the
      final (0, io.EOF) read): budget and tolerance both grow by one *)
  Lemma copy_writes_spec fuel : forall (rd : reader N) (m k : nat),
    runs_ok m k (rchunks rd) ->
    (length (concat (rchunks rd)) + length (rchunks rd) < fuel)%nat ->
    exists ws : list (list N), copy_writes slice fuel rd = (ws, true) /\ concat ws = concat (rchunks rd) /\
               runs_ok (S m) (S k) ws.
  Proof.
    clear maxE_pos.
    induction fuel as [|f IH]; intros rd m k Hr Hf; [lia|]. cbn [copy_writes].
    pose proof (rd_read_spec m k slice rd slice_pos Hr) as P.
    destruct (rd_read slice rd) as [[d e] rd']. destruct P as (Hc & _ & P).
    rewrite <- Hc, app_length in *.
    destruct e as [[|x]|]; [|contradiction|destruct d as [|y d]].
    - (* io.EOF: the last Write, possibly empty *)
      exists [d]. rewrite P. repeat split. destruct d; exact I.
    - destruct P as (k' & -> & E & Hr'). rewrite E in Hf.
      destruct (IH rd' m k' Hr' ltac:(cbn [length] in Hf; lia)) as (ws & -> & Hcw & Hrw).
      exists ([] :: ws). repeat split; assumption.
    - destruct P as [Hn Hr'].
      destruct (IH rd' m m Hr' ltac:(cbn [length] in Hf; lia)) as (ws & -> & Hcw & Hrw).
      exists ((y :: d) :: ws). cbn [concat]. rewrite Hcw. repeat split. exact Hrw.
  Qed.

  (** every pipe reader is served the upstream bytes; its runs of empty reads are at most one
      longer than upstream's *)
  Theorem fan_writes_spec_runs chunks eofl :
    runs_ok (maxE - 1) (maxE - 1) chunks ->
    exists ws : list (list N), fan_writes slice chunks eofl = (ws, true) /\ concat ws = concat chunks /\ runs_ok maxE maxE ws.
  Proof.
    intros Hr. replace maxE with (S (maxE - 1)) by lia.
    apply (copy_writes_spec (fan_fuel chunks) (mkrd chunks eofl) _ _ Hr).
    unfold fan_fuel. cbn [rchunks]. lia.
  Qed.

  Theorem fan_writes_spec chunks eofl :
    nonempty_chunks chunks ->
    exists ws : list (list N), fan_writes slice chunks eofl = (ws, true) /\ concat ws = concat chunks /\ runs_ok maxE maxE ws.
  Proof. intros Hne. apply fan_writes_spec_runs, runs_ok_nonempty, Hne. Qed.
End FanOutWrites.

Section SignProofs.
  Context {H : Type}.
  Variable bs : N.
  Hypothesis bs_pos : 0 < bs.
  Variable weak : list N -> N.
  Variable strong : list N -> H.
  Variable maxE : nat.

  Lemma blocks_nonempty (l : list N) : l <> [] -> blocks (N.to_nat bs) l <> [].
  Proof. intros Hl. rewrite blocks_cons by (lia || assumption). discriminate. Qed.

  Theorem create_signature_spec fileIndex chunks eofl :
    runs_ok maxE maxE chunks ->
    create_signature bs weak strong maxE fileIndex chunks eofl =
    (sign_file bs weak strong fileIndex (concat chunks), SEof).
  Proof.
    intros Hr. unfold create_signature, sign_file. rewrite (scan_blocks_any_buffer maxE (N.to_nat bs) ltac:(lia) _ (le_n _)) by exact Hr.
    destruct (concat chunks) as [|x l]; [reflexivity|].
    rewrite blocks_cons by (lia || discriminate). reflexivity.
  Qed.

  Definition src_ok (src : list (list N) * bool) : Prop := runs_ok maxE maxE (fst src).
  Definition src_content (src : list (list N) * bool) : list N := concat (fst src).

  (** ComputeSignatureToWriter ([compute_signature] is index 0), whatever read sizes the pool's readers choose *)
  Lemma compute_signature_from_spec srcs : forall fileIndex,
    Forall src_ok srcs ->
    compute_signature_from bs weak strong maxE fileIndex srcs =
    (sign_all_from bs weak strong fileIndex (map src_content srcs), SEof).
  Proof.
    induction srcs as [|[chunks eofl] r IH]; intros fileIndex F; [reflexivity|].
    inversion F as [|? ? Hok Fr]; subst. cbn [compute_signature_from map sign_all_from].
    rewrite create_signature_spec by exact Hok. rewrite IH by exact Fr. reflexivity.
  Qed.

  Theorem compute_signature_spec srcs :
    Forall src_ok srcs ->
    compute_signature bs weak strong maxE srcs = (sign_all bs weak strong (map src_content srcs), SEof).
  Proof. apply compute_signature_from_spec. Qed.

  Variable slice : nat.
  Hypothesis slice_pos : (0 < slice)%nat.
  Hypothesis maxE_pos : (1 <= maxE)%nat.

  Definition src_nonempty (src : list (list N) * bool) : Prop := nonempty_chunks (fst src).
  (** what the fan-out tolerates from the pool's reader: runs of at most [maxE - 1] empty reads *)
  Definition src_fan_ok (src : list (list N) * bool) : Prop := runs_ok (maxE - 1) (maxE - 1) (fst src).

  Lemma src_nonempty_fan_ok src : src_nonempty src -> src_fan_ok src.
  Proof. intros Hne. apply runs_ok_nonempty, Hne. Qed.

  Lemma diff_time_from_spec srcs : forall fileIndex,
    Forall src_fan_ok srcs ->
    diff_time_from bs weak strong maxE slice fileIndex srcs =
    Some (write_signature (sign_all_from bs weak strong fileIndex (map src_content srcs))).
  Proof.
    induction srcs as [|[chunks eofl] r IH]; intros fileIndex F; [reflexivity|].
    inversion F as [|? ? Hok Fr]; subst. cbn [diff_time_from map sign_all_from].
    destruct (fan_writes_spec_runs maxE maxE_pos slice slice_pos chunks eofl Hok) as (ws & Hw & Hc & Hr). rewrite Hw.
    rewrite create_signature_spec by exact Hr. rewrite IH by exact Fr.
    unfold write_signature, src_content. cbn [fst]. rewrite Hc, map_app. reflexivity.
  Qed.

  Theorem diff_time_signature_spec srcs :
    Forall src_fan_ok srcs ->
    diff_time_signature bs weak strong maxE slice srcs =
    Some (write_signature (sign_all bs weak strong (map src_content srcs))).
  Proof. apply diff_time_from_spec. Qed.
End SignProofs.
