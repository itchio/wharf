(** Proofs about ComputeHashInfo on a well-formed signature: every non-empty file gets exactly
    the hashes of its blocks, an empty file consumes its one hash and gets no group, and the
    final count check passes.  Defines [groups_from], the groups the C04 statements expect. *)
From Wharf Require Import Base.Prelude Base.ListLemmas Sig.Sign Sig.SigFile Sig.SigFileProofs Sig.HashInfo.
Local Open Scope N_scope.

Section HashInfoProofs.
  Context {H : Type}.
  Variable bs : N.
  Hypothesis bs_pos : 0 < bs.
  Variable weak : list N -> N.
  Variable strong : list N -> H.

  Notation sign_file' := (sign_file bs weak strong).
  Notation sign_all_from' := (sign_all_from bs weak strong).

  Fixpoint groups_from (fileIndex : N) (files : list (list N)) : list (option (list (blockhash H))) :=
    match files with
    | [] => []
    | f :: r => (match f with [] => None | _ => Some (sign_file' fileIndex f) end) :: groups_from (fileIndex + 1) r
    end.

  Lemma hash_blocks_length fi j (toks : list (list N)) : length (hash_blocks bs weak strong fi j toks) = length toks.
  Proof. revert j. induction toks as [|t r IH]; intros j; cbn [hash_blocks length]; [reflexivity|]. rewrite IH. reflexivity. Qed.

  Lemma hash_blocks_nth fi (toks : list (list N)) : forall j k b,
    nth_error toks k = Some b ->
    nth_error (hash_blocks bs weak strong fi j toks) k = Some (hash_block bs weak strong fi (j + N.of_nat k) b).
  Proof.
    clear bs_pos.
    induction toks as [|t r IH]; intros j k b Hn; [destruct k; discriminate|].
    destruct k as [|k]; cbn [nth_error hash_blocks] in *.
    - inversion Hn; subst. rewrite N.add_0_r. reflexivity.
    - rewrite (IH (j + 1) k b Hn). replace (j + 1 + N.of_nat k) with (j + N.of_nat (S k)) by lia. reflexivity.
  Qed.

  Lemma sign_file_length fi (f : list N) :
    N.of_nat (length (sign_file' fi f)) = N.max 1 (num_blocks bs (N.of_nat (length f))).
  Proof.
    destruct f as [|x f']; cbn [sign_file].
    - cbn [length N.of_nat]. rewrite (num_blocks_0 bs bs_pos). reflexivity.
    - rewrite hash_blocks_length, (blocks_length bs bs_pos).
      pose proof (num_blocks_pos bs bs_pos (N.of_nat (length (x :: f'))) ltac:(cbn [length]; lia)). lia.
  Qed.

  Lemma firstn_skipn_middle {X} (pre g rest : list X) : firstn (length g) (skipn (length pre) (pre ++ g ++ rest)) = g.
  Proof. rewrite skipn_app_exact. apply firstn_app_exact. Qed.

  (** [pre]: the hashes of the files already seen *)
  Lemma hi_loop_spec files : forall fi (pre : list (blockhash H)) ix, ix = N.of_nat (length pre) ->
    hi_loop bs (map (fun f : list N => N.of_nat (length f)) files) (pre ++ sign_all_from' fi files) ix =
    Some (groups_from fi files, N.of_nat (length (pre ++ sign_all_from' fi files))).
  Proof.
    induction files as [|f r IH]; intros fi pre ix ->; cbn [map hi_loop sign_all_from groups_from].
    - rewrite app_nil_r. reflexivity.
    - destruct f as [|x f'].
      + cbn [length N.of_nat N.eqb]. rewrite app_assoc, IH by (rewrite app_length; cbn [sign_file length]; lia).
        reflexivity.
      + pose proof (sign_file_length fi (x :: f')) as Hlen.
        pose proof (num_blocks_pos bs bs_pos (N.of_nat (length (x :: f'))) ltac:(cbn [length]; lia)) as Hp.
        rewrite N.max_r in Hlen by lia.
        destruct (N.eqb_spec (N.of_nat (length (x :: f'))) 0); [cbn [length] in *; lia|].
        rewrite (proj2 (N.ltb_ge _ _)) by (rewrite !app_length; lia).
        rewrite <- Hlen, !Nat2N.id, firstn_skipn_middle, app_assoc, IH by (rewrite app_length; lia). reflexivity.
  Qed.

  Lemma groups_from_nth files : forall fi i f,
    nth_error files i = Some f ->
    nth_error (groups_from fi files) i =
    Some (match f with [] => None | _ => Some (sign_file' (fi + N.of_nat i) f) end).
  Proof.
    clear bs_pos.
    induction files as [|g r IH]; intros fi i f Hn; [destruct i; discriminate|].
    destruct i as [|i]; cbn [nth_error groups_from] in *.
    - inversion Hn; subst. rewrite N.add_0_r. reflexivity.
    - rewrite (IH (fi + 1) i f Hn). replace (fi + 1 + N.of_nat i) with (fi + N.of_nat (S i)) by lia. reflexivity.
  Qed.
End HashInfoProofs.
