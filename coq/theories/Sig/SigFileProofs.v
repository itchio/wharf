(** Proofs about the signature file: reading back what was written from the reference signature
    gives the reference signature, including the re-derived file index, block index and
    ShortSize. *)
From Wharf Require Import Base.Prelude Base.BlocksLemmas Base.BlockArith Sig.Sign Sig.SigFile.
Local Open Scope N_scope.

(** the empty list / a first block then the rest; cf. [block_ind] (Base/BlocksLemmas.v), which
    splits into shorter than a block / at least a block *)
Lemma blocks_ind {A} (bs : nat) (Hbs : (0 < bs)%nat) (P : list A -> Prop) :
  P [] -> (forall l, l <> [] -> P (skipn bs l) -> P l) -> forall l, P l.
Proof.
  intros H0 Hs l. induction l as [l Hl|l Hl IH] using (block_ind bs Hbs).
  - destruct l; [exact H0|]. apply Hs; [discriminate|]. rewrite skipn_all2 by lia. exact H0.
  - apply Hs; [|exact IH]. intros ->. cbn [length] in Hl. lia.
Qed.

Section SigFileProofs.
  Context {H : Type}.
  Variable bs : N.
  Hypothesis bs_pos : 0 < bs.
  Variable weak : list N -> N.
  Variable strong : list N -> H.

  Local Notation bsn := (N.to_nat bs).

  Lemma num_blocks_0 : num_blocks bs 0 = 0.
  Proof. unfold num_blocks. apply N.div_small. lia. Qed.

  Lemma num_blocks_step n : bs <= n -> num_blocks bs n = 1 + num_blocks bs (n - bs).
  Proof.
    intros Hn. unfold num_blocks. replace (n + bs - 1) with ((n - bs + bs - 1) + 1 * bs) by lia.
    rewrite N.div_add by lia. lia.
  Qed.

  Lemma num_blocks_small n : 0 < n <= bs -> num_blocks bs n = 1.
  Proof. intros Hn. pose proof (count_lt_N bs n 0 bs_pos). pose proof (count_lt_N bs n 1 bs_pos). unfold num_blocks. lia. Qed.

  Lemma num_blocks_pos n : 0 < n -> 0 < num_blocks bs n.
  Proof. intros Hn. apply (count_lt_N bs n 0 bs_pos). lia. Qed.

  Lemma blocks_length {A} (l : list A) :
    length (blocks bsn l) = N.to_nat (num_blocks bs (N.of_nat (length l))).
  Proof.
    rewrite blocks_count by lia. unfold num_blocks.
    rewrite N2Nat.inj_div, N2Nat.inj_sub, N2Nat.inj_add, Nat2N.id. reflexivity.
  Qed.

  (** the block loop of ReadSignature on the hashes of a file's blocks; [t] = what is left of
      the file from block [j] on (only ShortSize needs an argument) *)
  Lemma read_blocks_spec (t : list N) : forall fileIndex size j rest,
    N.of_nat (length t) = size - j * bs ->
    read_blocks bs fileIndex size (length (blocks bsn t)) j
                (write_signature (hash_blocks bs weak strong fileIndex j (blocks bsn t)) ++ rest) =
    (hash_blocks bs weak strong fileIndex j (blocks bsn t), rest).
  Proof.
    induction t as [|t Ht IH] using (blocks_ind bsn ltac:(lia)); intros fileIndex size j rest Hsize; [reflexivity|].
    rewrite blocks_cons by (lia || exact Ht).
    cbn [length hash_blocks write_signature map app read_blocks].
    change (map (fun h : blockhash H => (bh_weak h, bh_strong h))) with (@write_signature H).
    rewrite IH by (rewrite skipn_length; lia).
    unfold hash_block. cbn [bh_weak bh_strong]. rewrite firstn_length. do 3 f_equal.
    assert (0 < length t)%nat by (destruct t; [congruence|cbn [length]; lia]).
    destruct (N.ltb_spec size ((j + 1) * bs)), (N.ltb_spec (N.of_nat (Nat.min bsn (length t))) bs); try lia.
    symmetry. apply N.mod_unique with (q := j); lia.
  Qed.

  Lemma write_signature_app (a b : list (blockhash H)) :
    write_signature (a ++ b) = write_signature a ++ write_signature b.
  Proof. apply map_app. Qed.

  Lemma read_files_spec files : forall fileIndex,
    read_files bs fileIndex (map (fun f : list N => N.of_nat (length f)) files)
               (write_signature (sign_all_from bs weak strong fileIndex files)) =
    sign_all_from bs weak strong fileIndex files.
  Proof.
    induction files as [|f r IH]; intros fileIndex; [reflexivity|].
    cbn [map read_files sign_all_from]. rewrite write_signature_app.
    destruct f as [|x f'].
    - (* an empty file *)
      cbn [length N.of_nat]. rewrite num_blocks_0. cbn [N.eqb sign_file write_signature map app].
      rewrite IH. unfold hash_block. cbn [bh_weak bh_strong length N.of_nat]. destruct (0 <? bs); reflexivity.
    - pose proof (num_blocks_pos (N.of_nat (length (x :: f'))) ltac:(cbn [length]; lia)) as Hp.
      destruct (N.eqb_spec (num_blocks bs (N.of_nat (length (x :: f')))) 0); [lia|].
      cbn [sign_file]. rewrite <- blocks_length, read_blocks_spec, IH by lia. reflexivity.
  Qed.

End SigFileProofs.
