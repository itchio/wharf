(** Proofs about validating an undamaged copy against the build's own signature: every block
    of every file produces a healthy marker and nothing else, whatever the slicing of the
    writes; in error mode every write passes.  Built on the validating-pool results of C18
    (Val/VPoolProofs.v: [wound_mode_list], [equal_passes_lemma]).  Defines [slicings_of], the
    condition on the writes in [pristine_valid]. *)
From Wharf Require Import Base.Prelude Val.VPool Val.VPoolProofs.
From Wharf Require Import Sig.Sign Sig.HashInfoProofs Sig.Validate.
Local Open Scope N_scope.

Lemma to_nat_of_N (n : N) : Z.to_nat (Z.of_N n) = N.to_nat n.
Proof. lia. Qed.

Section ValidateProofs.
  Context {H : Type}.
  Variable bs : N.
  Hypothesis bs_pos : 0 < bs.
  Variable weak : list N -> N.
  Variable strong : list N -> H.
  Variable seqb : H -> H -> bool.
  Hypothesis seqb_refl : forall h, seqb h h = true.     (* bytes.Equal(x, x) *)
  Variable maxWound : Z.

  Notation bhash := (block_hash weak strong).
  Notation peqb := (pair_eqb seqb).
  Notation healthy_all := (Forall (fun w => healthy w = true)).

  Lemma peqb_refl p : peqb p p = true.
  Proof. unfold pair_eqb. rewrite N.eqb_refl, seqb_refl. reflexivity. Qed.

  Lemma pairs_of_hash_blocks fi j (toks : list (list N)) :
    map (fun h : blockhash H => (bh_weak h, bh_strong h)) (hash_blocks bs weak strong fi j toks) = map bhash toks.
  Proof. revert j. induction toks as [|t r IH]; intros j; cbn [hash_blocks map]; [reflexivity|]. rewrite IH. reflexivity. Qed.

  Lemma wounds_from_own fi size (bl : list (list N)) :
    healthy_all (wounds_from (Z.of_N bs) bhash peqb fi size (map bhash bl) 0 bl).
  Proof. apply wounds_from_healthy. cbn [Nat.add]. intros j b Hj. rewrite vae_map, Hj. apply peqb_refl. Qed.

  Lemma wounds_from_own_length fi size g i (bl : list (list N)) :
    length (wounds_from (Z.of_N bs) bhash peqb fi size g i bl) = length bl.
  Proof. apply wounds_from_length. Qed.

  Lemma aggregate_healthy (ws : list wound) : healthy_all ws -> aggregate maxWound None ws = ws.
  Proof.
    induction 1 as [|w r Hw _ IH]; [reflexivity|]. cbn [aggregate].
    unfold healthy in Hw. destruct (wk w); try discriminate. rewrite IH. reflexivity.
  Qed.

  Notation groups_of files := (groups_from bs weak strong 0 files).

  Lemma group_of_file files i f : nth_error files i = Some f ->
    group_of (groups_of files) i = map bhash (blocks (N.to_nat bs) f).
  Proof.
    intros Hn. unfold group_of. rewrite (groups_from_nth bs weak strong files 0 i f Hn).
    destruct f as [|x f']; [reflexivity|].
    unfold sign_file. apply pairs_of_hash_blocks.
  Qed.

  (** one file whose group holds the hashes of its own blocks: its blocks' healthy markers, no
      size wound *)
  Theorem validate_file_own groups i f (ws : list (list N)) :
    group_of groups i = map bhash (blocks (N.to_nat bs) f) -> concat ws = f ->
    let wl := validate_file bs weak strong seqb maxWound groups i (N.of_nat (length f)) ws in
    healthy_all wl /\ length wl = length (blocks (N.to_nat bs) f).
  Proof.
    intros Hg Hc. cbn zeta. unfold validate_file.
    rewrite (wound_mode_list (Z.of_N bs) ltac:(lia)).
    rewrite to_nat_of_N, Hc, Hg, N.eqb_refl, app_nil_r, aggregate_healthy by apply wounds_from_own.
    split; [apply wounds_from_own|apply wounds_from_length].
  Qed.

  (** the slicing of each file's content into Write calls (io.Copy's reads) is arbitrary *)
  Definition slicings_of (files : list (list N)) (slicings : list (list (list N))) : Prop :=
    Forall2 (fun f ws => concat ws = f) files slicings.

  Lemma validate_files_own groups : forall files slicings fi,
    (forall i f, nth_error files i = Some f -> group_of groups (fi + i) = map bhash (blocks (N.to_nat bs) f)) ->
    slicings_of files slicings ->
    healthy_all (validate_files_from bs weak strong seqb maxWound groups fi
                                     (map (fun f : list N => N.of_nat (length f)) files) slicings).
  Proof.
    induction files as [|f r IH]; intros slicings fi Hg Hs; inversion Hs as [|? ws ? sl Hc Hr]; subst;
      cbn [map validate_files_from]; [constructor|].
    apply Forall_app. split.
    - pose proof (Hg 0%nat _ eq_refl) as H0. rewrite Nat.add_0_r in H0.
      apply (validate_file_own groups fi _ ws H0 eq_refl).
    - apply IH; [|exact Hr]. intros i g Hi. rewrite Nat.add_succ_comm. apply Hg, Hi.
  Qed.

  Lemma guardian_healthy wl : healthy_all wl -> guardian wl = true.
  Proof. intros Hh. apply forallb_forall, Forall_forall, Hh. Qed.

  Lemma wounds_written_healthy wl : healthy_all wl -> wounds_written wl = [].
  Proof.
    induction 1 as [|w r Hw _ IH]; [reflexivity|]. cbn [wounds_written filter]. rewrite Hw. exact IH.
  Qed.

  (** error mode (a validating pool without wound channel, as the patcher uses it): writing the
      signed content of file [i] in any slicing passes unchanged *)
  Theorem pristine_passes_error_mode files i f (ws : list (list N)) :
    nth_error files i = Some f -> concat ws = f ->
    vpool_error (Z.of_N bs) bhash peqb (group_of (groups_of files) i) ws =
    (Done, length ws, blocks (N.to_nat bs) f).
  Proof.
    intros Hn Hc. rewrite (group_of_file files i f Hn).
    rewrite (equal_passes_lemma (Z.of_N bs) ltac:(lia)); rewrite to_nat_of_N, Hc; [reflexivity|].
    intros k b Hk. rewrite vae_map, Hk. apply peqb_refl.
  Qed.
End ValidateProofs.
