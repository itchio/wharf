(** Proofs about the scanner model: with splitfunc and a buffer of [bs] bytes (or more) the
    tokens are the blocks of the input, for every chunking of the input.
    Defines [runs_ok], the condition on chunkings in the C04 statements ([runs_ok maxE maxE
    chunks]: tolerance, then what is left of it in the current run of empty reads), and the
    invariant [inv] and measure [mu] of the scanner loop. *)
From Wharf Require Import Base.Prelude Base.BlocksLemmas Sig.Scan.

Lemma splitfunc_full {A} bs (w : list A) atEOF : bs <= length w ->
  splitfunc bs w atEOF = (bs, Some (firstn bs w), None).
Proof. intros Hl. unfold splitfunc. destruct (Nat.leb_spec bs (length w)); [reflexivity|lia]. Qed.

Lemma splitfunc_short {A} bs (w : list A) atEOF : length w < bs ->
  splitfunc bs w atEOF =
  if atEOF then match w with _ :: _ => (length w, Some w, None) | [] => (0, None, Some REof) end
  else (0, None, None).
Proof. intros Hl. unfold splitfunc. destruct (Nat.leb_spec bs (length w)); [lia|reflexivity]. Qed.

(** the first half of Scan's loop body, for any split function *)
Section Offer.
  Context {A : Type}.
  Variable maxE : nat.
  Variable split : split_fn A.

  Lemma offer_tok (s : sc A) adv t :
    split (swin s) (is_some (serror s)) = (adv, Some t, None) -> 0 < adv <= length (swin s) ->
    offer maxE split s = OTok t (mksc (sstart s + adv) (skipn adv (swin s)) (serror s) 0).
  Proof.
    intros E Ha. unfold offer. rewrite E.
    destruct (Nat.ltb_spec 0 (length (swin s))); [|lia].
    destruct (Nat.ltb_spec (length (swin s)) adv); [lia|].
    destruct (Nat.ltb_spec 0 adv); [|lia]. rewrite orb_true_r. reflexivity.
  Qed.

  Lemma offer_fall (s : sc A) : serror s = None -> split (swin s) false = (0, None, None) -> offer maxE split s = OFall s.
  Proof.
    intros He E. unfold offer. rewrite He. cbn [is_some]. rewrite E, orb_false_r, Nat.add_0_r, <- He.
    destruct s, (0 <? _); reflexivity.
  Qed.
End Offer.

Section ScanProofs.
  Context {A : Type}.
  Variable maxE : nat.

  (** no more than [maxE] consecutive empty chunks ((0, nil) reads); [budget] = how many more
      the current run may contain *)
  Fixpoint runs_ok (budget : nat) (chunks : list (list A)) : Prop :=
    match chunks with
    | [] => True
    | [] :: r => match budget with O => False | S b => runs_ok b r end
    | (_ :: _) :: r => runs_ok maxE r
    end.

  Lemma runs_ok_nonempty_head k c r : c <> [] -> runs_ok k (c :: r) = runs_ok maxE r.
  Proof. destruct c; [congruence|reflexivity]. Qed.

  Lemma runs_ok_nonempty k chunks : Forall (fun c : list A => c <> []) chunks -> runs_ok k chunks.
  Proof.
    intros F. revert k. induction F as [|c r Hc _ IH]; intros k; [exact I|].
    rewrite runs_ok_nonempty_head by exact Hc. apply IH.
  Qed.

  Lemma rd_read_nil space (rd : reader A) : rchunks rd = [] -> rd_read space rd = ([], Some REof, rd).
  Proof. intros E. unfold rd_read. rewrite E. reflexivity. Qed.

  Lemma rd_read_empty space (rd : reader A) r : rchunks rd = [] :: r -> rd_read space rd = ([], None, mkrd r (reof rd)).
  Proof. intros E. unfold rd_read. rewrite E. reflexivity. Qed.

  Lemma rd_read_data space (rd : reader A) c r :
    rchunks rd = c :: r -> c <> [] -> 0 < space ->
    exists d e rd', rd_read space rd = (d, e, rd') /\ d <> [] /\ length d <= space /\
      d ++ concat (rchunks rd') = concat (rchunks rd) /\ reof rd' = reof rd /\
      length (rchunks rd') <= length (rchunks rd) /\
      ((e = None /\ (runs_ok maxE r -> runs_ok maxE (rchunks rd')) /\
        (Forall (fun c : list A => c <> []) r -> Forall (fun c : list A => c <> []) (rchunks rd'))) \/
       (e = Some REof /\ rchunks rd' = [])).
  Proof.
    intros E Hc Hs. destruct rd as [ch eof]. cbn [rchunks reof] in *. subst ch.
    destruct c as [|x c]; [congruence|]. destruct space as [|sp]; [lia|].
    unfold rd_read. cbn [rchunks reof length Nat.min firstn skipn].
    set (m := Nat.min sp (length c)). pose proof (firstn_skipn m c) as Hfs.
    assert (Hl : length (x :: firstn m c) <= S sp) by (cbn [length]; rewrite firstn_length; lia).
    destruct (skipn m c) as [|y t].
    - (* the chunk is used up; io.EOF may come with the last bytes of the last chunk *)
      rewrite app_nil_r in Hfs. rewrite Hfs in *.
      destruct r as [|c2 r2]; [destruct eof|]; eexists _, _, _; (split; [reflexivity|]);
        cbn [rchunks reof concat app length]; rewrite ?app_nil_r; (repeat split; [discriminate|trivial..|]); try lia;
        [right|left|left]; auto.
    - eexists _, _, _. split; [reflexivity|]. cbn [rchunks reof concat length]. rewrite app_assoc. cbn [app]. rewrite Hfs.
      repeat split; [discriminate|trivial..|]. left. repeat split; trivial. intros F. constructor; [discriminate|exact F].
  Qed.

  Lemma rd_read_spec k space (rd : reader A) : 0 < space -> runs_ok k (rchunks rd) ->
    let '(d, e, rd') := rd_read space rd in
    d ++ concat (rchunks rd') = concat (rchunks rd) /\ length d <= space /\
    match e, d with
    | Some REof, _ => rchunks rd' = []
    | Some (RErr _), _ => False
    | None, [] => exists k', k = S k' /\ rchunks rd = [] :: rchunks rd' /\ runs_ok k' (rchunks rd')
    | None, _ :: _ => length (rchunks rd') <= length (rchunks rd) /\ runs_ok maxE (rchunks rd')
    end.
  Proof.
    intros Hs Hr. destruct (rchunks rd) as [|[|x c] r] eqn:E.
    - rewrite (rd_read_nil space rd E), E. repeat split. cbn [length]. lia.
    - rewrite (rd_read_empty space rd r E). destruct k as [|k']; [contradiction|]. repeat split; [cbn [length]; lia|].
      exists k'. repeat split. exact Hr.
    - (* a read of data: [rd_read_data], with the empty-read budget full again behind a non-empty chunk *)
      destruct (rd_read_data space rd (x :: c) r E ltac:(discriminate) Hs)
        as (d & e & rd' & -> & Hd & Hl & Hc & _ & Hn & [(-> & Hr' & _)|(-> & Er)]); rewrite <- E.
      + destruct d as [|y d]; [congruence|]. auto.
      + auto.
  Qed.

  Lemma read_loop_unfold k space (rd : reader A) :
    read_loop k space rd =
    let '(d, e, rd') := rd_read space rd in
    match e with
    | Some e' => (d, Some e', rd')
    | None => match d with
              | _ :: _ => (d, None, rd')
              | [] => match k with
                      | O => ([], Some (RErr ErrNoProgress), rd')
                      | S k' => read_loop k' space rd'
                      end
              end
    end.
  Proof. destruct k; reflexivity. Qed.

  (** the read loop of Scan: it delivers some bytes, or the end of the input; never
      ErrNoProgress when the runs of empty reads are short enough *)
  Lemma read_loop_spec k : forall space (rd : reader A),
    0 < space -> runs_ok k (rchunks rd) ->
    let '(d, e, rd') := read_loop k space rd in
    d ++ concat (rchunks rd') = concat (rchunks rd) /\ length d <= space /\
    length (rchunks rd') <= length (rchunks rd) /\
    match e with
    | None => d <> [] /\ runs_ok maxE (rchunks rd')
    | Some REof => rchunks rd' = []
    | Some (RErr _) => False
    end.
  Proof.
    induction k as [k IH] using lt_wf_ind. intros space rd Hs Hr. rewrite read_loop_unfold.
    pose proof (rd_read_spec k space rd Hs Hr) as P.
    destruct (rd_read space rd) as [[d e] rd']. destruct P as (Hc & Hl & P).
    destruct e as [[|x]|]; [|contradiction|destruct d as [|y d]].
    - repeat split; trivial. rewrite P. cbn [length]. lia.
    - destruct P as (k' & -> & E & Hr'). specialize (IH k' ltac:(lia) space rd' Hs Hr').
      rewrite E. destruct (read_loop k' space rd') as [[d e] rd'']. cbn [concat app length]. intuition lia.
    - repeat split; try apply P; trivial. discriminate.
  Qed.

  Variable bs : nat.
  Hypothesis bs_pos : 0 < bs.

  Lemma blocks_exact_app (w r : list A) : length w = bs -> blocks bs (w ++ r) = w :: blocks bs r.
  Proof. intros E. rewrite (blocks_app_full bs bs_pos) by lia. now rewrite firstn_all2, skipn_all2 by lia. Qed.

  Lemma blocks_one (w : list A) : w <> [] -> length w <= bs -> blocks bs w = [w].
  Proof. exact (BlocksLemmas.blocks_one bs bs_pos w). Qed.

  (** CreateSignature's buffer has exactly [bs] bytes; any buffer that holds a block does *)
  Section Buffer.
    Variable cap : nat.
    Hypothesis cap_bs : bs <= cap.
    Notation iter := (scan_iter cap maxE (@splitfunc A bs)).

    Lemma iter_full (s : sc A) rd : bs <= length (swin s) ->
      iter s rd = Tok (firstn bs (swin s)) (mksc (sstart s + bs) (skipn bs (swin s)) (serror s) 0) rd.
    Proof.
      intros Hl. unfold scan_iter. rewrite (offer_tok _ _ s bs (firstn bs (swin s))); [reflexivity| |lia].
      apply splitfunc_full, Hl.
    Qed.

    Lemma iter_short_noerr (s : sc A) rd : serror s = None -> length (swin s) < bs ->
      iter s rd = refill cap maxE s rd.
    Proof.
      intros He Hl. unfold scan_iter. rewrite offer_fall; [reflexivity|exact He|]. exact (splitfunc_short bs _ false Hl).
    Qed.

    Lemma iter_eof_short (s : sc A) rd e : serror s = Some e -> 0 < length (swin s) < bs ->
      iter s rd = Tok (swin s) (mksc (sstart s + length (swin s)) [] (Some e) 0) rd.
    Proof.
      intros He Hl. unfold scan_iter.
      rewrite (offer_tok _ _ s (length (swin s)) (swin s)), skipn_all, He; [reflexivity| |lia].
      rewrite He, splitfunc_short by lia. destruct (swin s); [cbn in Hl; lia|reflexivity].
    Qed.

    Lemma iter_eof_empty (s : sc A) rd : serror s = Some REof -> swin s = [] ->
      exists s', iter s rd = Stop s' /\ serror s' = Some REof.
    Proof.
      intros He Hw. unfold scan_iter, offer. rewrite He, Hw, splitfunc_short by exact bs_pos.
      eexists. split; reflexivity.
    Qed.

    Lemma refill_spec (s : sc A) rd : serror s = None -> sstart s + length (swin s) <= cap -> length (swin s) < bs ->
      exists st2, st2 + length (swin s) < cap /\
        refill cap maxE s rd =
        let '(d, e, rd') := read_loop maxE (cap - (st2 + length (swin s))) rd in
        Cont (mksc st2 (swin s ++ d)
                   (match e with Some e' => set_err None e' | None => None end)
                   (match e, d with None, _ :: _ => 0 | _, _ => sempties s end)) rd'.
    Proof.
      intros He Hi Hl. unfold refill. rewrite He. cbn [is_some].
      destruct ((0 <? sstart s) && ((sstart s + length (swin s) =? cap) || (cap / 2 <? sstart s))) eqn:Esh;
        cbn [sstart swin serror sempties].
      - exists 0. destruct (Nat.eqb_spec (0 + length (swin s)) cap); [lia|]. split; [lia|reflexivity].
      - exists (sstart s). destruct (Nat.eqb_spec (sstart s + length (swin s)) cap) as [E|E].
        + (* a full buffer that starts after 0 would have been shifted *)
          destruct (Nat.ltb_spec 0 (sstart s)); [discriminate Esh|lia].
        + rewrite He. split; [lia|reflexivity].
    Qed.

    Definition inv (s : sc A) (rd : reader A) : Prop :=
      sstart s + length (swin s) <= cap /\
      match serror s with
      | None => runs_ok maxE (rchunks rd)
      | Some REof => rchunks rd = []
      | Some (RErr _) => False
      end.

    Definition mu (s : sc A) (rd : reader A) : nat :=
      2 * length (concat (rchunks rd)) + length (swin s) + length (rchunks rd) +
      match serror s with None => 2 | Some _ => 1 end.

    Lemma scan_all_spec fuel : forall s rd, inv s rd -> mu s rd < fuel ->
      scan_all cap maxE (splitfunc bs) fuel s rd = (blocks bs (swin s ++ concat (rchunks rd)), SEof).
    Proof.
      induction fuel as [|f IH]; intros s rd [Hi He] Hm; [lia|]. cbn [scan_all]. unfold mu in Hm.
      destruct (Nat.le_gt_cases bs (length (swin s))) as [Hfull|Hshort].
      - (* a block in the window *)
        rewrite iter_full, (blocks_app_full bs bs_pos) by exact Hfull.
        rewrite IH; [reflexivity| |].
        + split; cbn [sstart swin serror]; [rewrite skipn_length; lia|exact He].
        + unfold mu. cbn [swin serror]. rewrite skipn_length. lia.
      - destruct (serror s) as [[|x]|] eqn:Eerr; [| contradiction |].
        + (* the reader has reported io.EOF: the rest of the window is the last token *)
          rewrite He. cbn [concat]. rewrite app_nil_r.
          destruct (swin s) as [|y w] eqn:Ew.
          * destruct (iter_eof_empty s rd Eerr Ew) as (s' & -> & ->). reflexivity.
          * rewrite (iter_eof_short s rd REof Eerr), Ew, blocks_one by (rewrite ?Ew; cbn [length] in *; (lia || discriminate)).
            rewrite IH; [rewrite He; reflexivity|split; cbn [sstart swin serror length] in *; [lia|exact He]|].
            unfold mu. cbn [swin serror length] in *. lia.
        + (* more input is needed *)
          rewrite iter_short_noerr by assumption.
          destruct (refill_spec s rd Eerr Hi Hshort) as (st2 & Hst & ->).
          pose proof (read_loop_spec maxE (cap - (st2 + length (swin s))) rd ltac:(lia) He) as P.
          destruct (read_loop _ _ rd) as [[d e] rd']. destruct P as (Hc & Hl & Hn & P).
          rewrite <- Hc, app_length in Hm. rewrite <- Hc, app_assoc.
          apply IH.
          * split; cbn [sstart swin serror]; [rewrite app_length; lia|].
            destruct e as [[|x]|]; [exact P|contradiction|apply P].
          * unfold mu. cbn [swin serror]. rewrite app_length.
            destruct e as [[|x]|]; [rewrite P; cbn [set_err concat length]; lia|contradiction|].
            destruct d; [now destruct P|]. cbn [length] in *. lia.
    Qed.

    Theorem scan_blocks_any_buffer chunks eofl : runs_ok maxE chunks ->
      scan cap maxE (splitfunc bs) chunks eofl = (blocks bs (concat chunks), SEof).
    Proof.
      intros Hr. unfold scan. rewrite scan_all_spec.
      - reflexivity.
      - split; [cbn; lia|exact Hr].
      - unfold mu, scan_fuel. cbn [rchunks swin serror length]. lia.
    Qed.
  End Buffer.

  Theorem scan_chunking_indep c1 c2 e1 e2 : runs_ok maxE c1 -> runs_ok maxE c2 -> concat c1 = concat c2 ->
    scan bs maxE (splitfunc bs) c1 e1 = scan bs maxE (splitfunc bs) c2 e2.
  Proof. intros H1 H2 E. rewrite !(scan_blocks_any_buffer bs (le_n bs)) by assumption. rewrite E. reflexivity. Qed.
End ScanProofs.
