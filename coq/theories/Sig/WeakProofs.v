(** The three formulations of the weak hash agree: [beta_hash] (Go's uint32 arithmetic, the
    model of wsync.βhash), [beta_plain] (the same sums without wrap-around) and [beta_prefix]
    (running sums) are each [WeakSum.weak] of the block - for blocks of any length: Go's wrapping
    [uint32] subtraction makes the factor [(len - i) mod 2^32] also when [uint32(len-1) < uint32(i)]. *)
From Coq Require Import ZifyBool ZifyNat ZifyN.
From Wharf Require Import Base.Prelude Base.WeakSum Sig.Weak.
Local Open Scope N_scope.

Definition M32 : N := 4294967296.

Lemma u32_mod x : u32 x = x mod M32.
Proof. exact (mask32_mod x). Qed.

Lemma low16_mod x : low16 x = x mod M16.
Proof. exact (mask16_mod x). Qed.

Lemma mod32_mod16 x : (x mod M32) mod M16 = x mod M16.
Proof. exact (mod_two32_two16 x). Qed.

(** Go's [uint32] subtraction is subtraction modulo 2^32 (stated with the operands of the loop:
    [x], [y] arbitrary naturals reduced by the conversions, [y <= x]) *)
Lemma sub32_mod x y : y <= x -> sub32 (u32 x) (u32 y) = (x - y) mod M32.
Proof. unfold sub32. rewrite !u32_mod. exact (sub_two32 x y). Qed.

(** the factor [uint32(len(block)-1) - uint32(i) + 1] is [(len - i) mod 2^32] whenever
    [i < len], however long the block *)
Lemma beta_factor len i : i < len -> u32 (sub32 (u32 (len - 1)) (u32 i) + 1) = (len - i) mod M32.
Proof.
  intros Hi. rewrite sub32_mod by lia. rewrite u32_mod.
  rewrite N.add_mod_idemp_l by discriminate. f_equal. lia.
Qed.

Lemma beta_step_a a v : u32 (a + u32 v) = (a + v) mod M32.
Proof. rewrite !u32_mod. apply N.add_mod_idemp_r. discriminate. Qed.

Lemma beta_step_b len i b v : i < len ->
  u32 (b + u32 (u32 (sub32 (u32 (len - 1)) (u32 i) + 1) * u32 v)) = (b + (len - i) * v) mod M32.
Proof.
  intros Hi. rewrite beta_factor, !u32_mod by exact Hi.
  rewrite <- N.mul_mod, N.add_mod_idemp_r by discriminate. reflexivity.
Qed.

Lemma low16_lt x : low16 x < M16.
Proof. rewrite low16_mod. apply N.mod_lt. discriminate. Qed.

(** β = (a % _M) + (_M * (b % _M)) does not wrap *)
Lemma beta_combine a b : u32 (low16 a + u32 (M16 * low16 b)) = low16 a + M16 * low16 b.
Proof.
  pose proof (low16_lt a) as Ha. pose proof (low16_lt b) as Hb. rewrite !u32_mod. unfold M32, M16 in *.
  rewrite (N.mod_small (65536 * _)), N.mod_small by lia. reflexivity.
Qed.

Lemma beta_loop_closed l len i a b :
  i + N.of_nat (length l) = len ->
  beta_loop len i (a mod M32) (b mod M32) l = ((a + sum1 l) mod M32, (b + sum2 l) mod M32).
Proof.
  apply (accumulate beta_loop (fun x => x mod M32)); [reflexivity|].
  intros. cbn [beta_loop]. rewrite beta_step_a, beta_step_b, !N.add_mod_idemp_l by (assumption || discriminate).
  reflexivity.
Qed.

Lemma plain_loop_closed l len i a b :
  i + N.of_nat (length l) = len -> plain_loop len i a b l = (a + sum1 l, b + sum2 l).
Proof. apply (accumulate plain_loop (fun x => x)); reflexivity. Qed.

Lemma prefix_loop_closed l : forall a c,
  prefix_loop a c l = (a + sum1 l, c + N.of_nat (length l) * a + sum2 l).
Proof.
  induction l as [|v r IH]; intros a c; cbn [prefix_loop sum1 sum2]; [|rewrite IH]; cbn [length]; f_equal; lia.
Qed.

Lemma beta_hash_closed block : beta_hash block = weak block.
Proof.
  unfold beta_hash.
  rewrite (beta_loop_closed block _ 0 0 0), beta_combine, !low16_mod, !mod32_mod16 by lia. reflexivity.
Qed.

Lemma beta_plain_closed block : beta_plain block = weak block.
Proof. unfold beta_plain. rewrite plain_loop_closed, !low16_mod by lia. reflexivity. Qed.

Lemma beta_prefix_closed block : beta_prefix block = weak block.
Proof. unfold beta_prefix. rewrite prefix_loop_closed, N.mul_0_r, !N.add_0_l, !low16_mod. reflexivity. Qed.

Theorem beta_hash_plain (block : list N) : beta_hash block = beta_plain block.
Proof. rewrite beta_plain_closed. apply beta_hash_closed. Qed.

Theorem beta_plain_prefix (block : list N) : beta_plain block = beta_prefix block.
Proof. rewrite beta_prefix_closed. apply beta_plain_closed. Qed.

Lemma beta_loop_plain (l : list N) : forall len i a b,
  i + N.of_nat (length l) = len ->
  beta_loop len i (a mod M32) (b mod M32) l =
  let '(a', b') := plain_loop len i a b l in (a' mod M32, b' mod M32).
Proof. intros len i a b Hi. rewrite plain_loop_closed by exact Hi. apply beta_loop_closed, Hi. Qed.

Lemma plain_loop_prefix (l : list N) : forall len i a b c,
  len = i + N.of_nat (length l) ->
  fst (plain_loop len i a b l) = fst (prefix_loop a c l) /\
  snd (plain_loop len i a b l) + N.of_nat (length l) * a + c = snd (prefix_loop a c l) + b.
Proof.
  intros len i a b c Hlen. rewrite plain_loop_closed, prefix_loop_closed by (symmetry; exact Hlen).
  cbn [fst snd]. split; [reflexivity|lia].
Qed.
