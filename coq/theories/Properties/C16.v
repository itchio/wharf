(** C16 — validation always terminates and a clean verdict is never caused by interruption.
    The model (goroutines of pwr.ValidatorContext.Validate, the per-file wound relay, the wounds
    consumers, the channels) is Heal/Protocol.v; each theorem is derived here in a few lines from
    the lemmas of Heal/ProtocolProofs.v (measure, invariant, progress), Heal/ProtocolSafety.v and
    Heal/ProtocolClean.v (what the invariants say about errors owed and wounds pending).

    A run is [run p acts (init p)]: [p] fixes the channel capacity, what the dir/symlink pass
    finds, whether the worker's pool can be opened, what each file yields (whole-file wound,
    block markers before / after the size check, size wound, I/O error), the consumer (an
    arbitrary automaton) and whether ctx is cancelled before the call; [acts] is the schedule:
    which goroutine moves, which ready select branch it takes, and when the environment
    cancels ctx ([ACancel], at any position).  [Inv] of [no_reachable_deadlock] is defined in
    Heal/ProtocolProofs.v. *)
From Coq Require Import List Arith Bool.
Import ListNotations.
From Wharf Require Import Heal.Protocol Heal.ProtocolProofs Heal.ProtocolSafety Heal.ProtocolClean.

(** Validation returns: every execution has at most [measure (init p)] steps (so every maximal
    execution is finite), and a reachable state in which Validate has not returned always has
    an enabled goroutine step (no deadlock) - whatever the number of wounds, the consumer, the
    cancellation instant, the directory state, the interleaving. *)
Theorem validate_terminates :
  forall (p : params) (acts : list action) (s : state),
    1 <= p_cap p -> p_closefail p = false -> run p acts (init p) = Some s ->
    length acts <= measure (init p) /\
    (s_main s = MRet \/ exists a s', a <> ACancel /\ step p a s = Some s').
Proof.
  intros p acts s C CF H. split.
  - apply run_length in H. exact (Nat.le_trans _ _ _ (Nat.le_add_r _ _) H).
  - destruct (s_main s) eqn:M; try (right; apply no_stuck; [exact C | exact (inv_run p acts _ s CF (inv_init p) H) | congruence]).
    left. reflexivity.
Qed.
Print Assumptions validate_terminates.

(** The guard [p_closefail p = false] cannot be dropped.  By reading pwr/validator.go: when
    targetPool.Close() fails in the deferred function of vctx.validate, the function returns
    without sending on workerErrs; Validate then blocks forever on <-workerErrs.  The model
    reaches a state with main waiting and no goroutine step enabled (clean one-file directory,
    nothing cancelled, a consumer that never fails).  Not reproducible on the implementation
    through its public API (the fspool over regular files does not fail to close). *)
Theorem validate_blocks_when_close_fails_refuted :
  exists s, run closefail_params closefail_sched (init closefail_params) = Some s /\
            s_main s = MWaitW /\ forall a, step closefail_params a s = None \/ a = ACancel.
Proof.
  eexists. split; [vm_compute; reflexivity|]. split; [reflexivity|].
  intros a. destruct a; (left; vm_compute; reflexivity) || (right; reflexivity).
Qed.
Print Assumptions validate_blocks_when_close_fails_refuted.

(** the potential function behind it: every step (of any goroutine, and the cancellation)
    strictly decreases [measure], in every state *)
Theorem every_step_decreases_measure :
  forall p a s s', step p a s = Some s' -> measure s' < measure s.
Proof. exact step_decreases. Qed.
Print Assumptions every_step_decreases_measure.

(** no reachable stuck state, stated on the invariant *)
Theorem no_reachable_deadlock :
  forall p s, 1 <= p_cap p -> Inv s -> s_main s <> MRet -> exists a s', a <> ACancel /\ step p a s = Some s'.
  (* [Inv] is preserved by every step when p_closefail p = false: ProtocolProofs.inv_step *)
Proof. exact no_stuck. Qed.
Print Assumptions no_reachable_deadlock.

(** Fail-fast validation (the guardian as repaired in pwr/wounds.go) returning nil implies that
    the directory is clean: the dir/symlink pass found nothing and every file yields healthy
    markers only - for every schedule and cancellation instant. *)
Theorem no_false_valid :
  forall (p : params) (acts : list action) (s : state),
    p_cons p = guardian -> p_closefail p = false -> run p acts (init p) = Some s ->
    s_main s = MRet -> s_ret s = RNil -> clean p = true.
Proof.
  intros p acts s G CF H M R. destruct (clean p) eqn:CL; [reflexivity|].
  destruct (safe_run p acts (init p) s G CF (inv_init p) (safeA_init p) (sgood_init p CL) H) as (_ & SA & HS).
  rewrite (returned_nil_not_sgood s SA M R) in HS. discriminate.
Qed.
Print Assumptions no_false_valid.

(** The unchanged tree (WoundsGuardian.Do returns nil on ctx.Done()) violates it: context
    cancelled before the call, one missing file, Validate returns nil ... *)
Theorem no_false_valid_unfixed_refuted :
  exists p acts s, p_cons p = guardian_unfixed /\ run p acts (init p) = Some s /\
                   s_main s = MRet /\ s_ret s = RNil /\ clean p = false.
Proof.
  exists (mkparams 1 [] false [FWhole] guardian_unfixed true false),
         [ACons; AConsCtx; ACons; AMain; AMainC; AMain; AMain; AMain; AWk; AWk; AWk; AWk; AMain; AMain; AMain].
  eexists. split; [reflexivity|]. split; [vm_compute; reflexivity|]. repeat split.
Qed.
Print Assumptions no_false_valid_unfixed_refuted.

(** ... and so does a cancellation in the middle of the run (two files, the second missing,
    ctx cancelled while the first is being validated). *)
Theorem no_false_valid_unfixed_mid_refuted :
  exists s, run witness_mid witness_mid_sched (init witness_mid) = Some s /\
            s_main s = MRet /\ s_ret s = RNil /\ clean witness_mid = false.
Proof. eexists. split; [vm_compute; reflexivity|]. repeat split. Qed.
Print Assumptions no_false_valid_unfixed_mid_refuted.

(** The converse direction, for the correspondence's outcome sets: a clean directory validated
    fail-fast with a context that is never cancelled (worker pool opens and closes) returns
    nil under every schedule - errors on a valid directory need an interruption. *)
Theorem clean_uninterrupted_nil :
  forall (p : params) (acts : list action) (s : state),
    p_cons p = guardian -> p_closefail p = false -> p_startfail p = false -> p_ctx0 p = false ->
    clean p = true -> ~ In ACancel acts ->
    run p acts (init p) = Some s -> s_main s = MRet -> s_ret s = RNil.
Proof.
  intros p acts s G CF SF C0 CL NC H M.
  pose proof (calm_run p G SF acts (init p) s NC (calm_init p C0 CL) H) as Q.
  unfold calm, owed in Q. destruct (s_ret s); [reflexivity|]. rewrite orb_true_r in Q. discriminate.
Qed.
Print Assumptions clean_uninterrupted_nil.

(** non-vacuity: a damaged directory (3 dir wounds with a channel of capacity 1, a file with a
    bad block) validated fail-fast under a concrete schedule reaches MRet with an error, and a
    clean one reaches MRet with nil *)
Example damaged_run_returns_error :
  exists acts s, run (mkparams 1 [PWound; PWound; PWound] false [FData [FBad false false] FMNone []] guardian false false) acts
                     (init (mkparams 1 [PWound; PWound; PWound] false [FData [FBad false false] FMNone []] guardian false false)) = Some s
                 /\ s_main s = MRet /\ s_ret s = RErr.
Proof.
  exists [ACons; AMain; ACons; ACons; AMain; ACons; AMain; ACons; AMain; AMainC; AMain; AMain; AMain; AWk; AWk; AWk; AWk; AMain; AMain; AMain].
  eexists. split; [vm_compute; reflexivity|]. split; reflexivity.
Qed.

Example clean_run_returns_nil :
  exists acts s, run (mkparams 1 [] false [FData [FHealthy] FMNone []] guardian false false) acts
                     (init (mkparams 1 [] false [FData [FHealthy] FMNone []] guardian false false)) = Some s
                 /\ s_main s = MRet /\ s_ret s = RNil /\ clean (mkparams 1 [] false [FData [FHealthy] FMNone []] guardian false false) = true.
Proof.
  exists [ACons; AMain; AWk; AMainF; AWA; AAR; ARel; ACons; AWk; AWk; AWk; AWk; AAgg; ARel; ARW; AMain; AMain; AWk; AWk; AWk; AMain; AMain; ACons; ACons; AMain].
  eexists. split; [vm_compute; reflexivity|]. repeat split.
Qed.

(** ------------------------------------------------------------------------------------------
    C16 composed with C05 (Compose/ValidateProtocol.v, Compose/ValidateProtocolProofs.v).

    Above, WHAT the passes of Validate find is a parameter ([p_pre], [p_files]).  [params_of]
    builds these parameters from the inputs of C05's validator model (Val/FileVal.v): the
    observation of the actual directory at every signed entry ([ds ls fs]), the block size
    [bs], MaxWoundSize, the block hash; plus the channel capacity [cap], whether pools.New
    fails in the worker, whether targetPool.Close fails, whether ctx is cancelled before the
    call.  The consumer is the repaired guardian.  Unscaled: one [PWound] per deviating
    directory / symlink ([PErr] at an Lstat / Readlink error), per file the raw marker of every
    block (complete blocks before the size check, the short last block after it) with the
    merge decisions AggregateWounds takes on it, [FMShort] for a size mismatch, [FWhole] for an
    entry that is not a regular file or lies below a wounded directory. *)
From Wharf Require Import Base.Prelude Val.VPool Val.FileVal Val.FileValProofs.
From Wharf Require Import Compose.ValidateProtocol Compose.ValidateProtocolProofs.

(** [clean] of the protocol parameters is C05's "validation succeeds and reports nothing" *)
Theorem clean_params_iff_no_report :
  forall (H : Type) (bs : Z), (0 < bs)%Z -> forall (maxWound : Z) (hash : list N -> H) (heqb : H -> H -> bool)
         (cap : nat) (startfail closefail ctx0 : bool) ds ls fs,
    clean (params_of bs maxWound hash heqb cap startfail closefail ctx0 ds ls fs) = true <->
    exists ws, validate bs maxWound hash heqb ds ls fs = Some ws /\ reported ws = [].
Proof.
  intros H bs bs_pos maxWound hash heqb cap sf cf ctx0 ds ls fs.
  unfold params_of. cbn zeta. rewrite (clean_core_iff bs bs_pos), (validate_unfold bs maxWound hash heqb). reflexivity.
Qed.
Print Assumptions clean_params_iff_no_report.

(** End to end ([no_false_valid] o C05's [never_false_valid]): for every schedule of the
    goroutines, every select choice and every cancellation instant ([ctx0], [ACancel] anywhere
    in [acts]), whatever the channel capacity and whether or not the worker's pool opens: if
    fail-fast Validate returns nil then every signed directory is a directory, every symlink
    has the signed destination and every file is a regular file with exactly the signed
    content.  Hypotheses: 0 < bs, the strong hash is injective on the blocks compared, the
    worker's targetPool.Close() does not fail (the [false] argument of [params_of]). *)
Theorem failfast_nil_means_directory_matches :
  forall (H : Type) (bs : Z), (0 < bs)%Z -> forall (maxWound : Z) (hash : list N -> H) (heqb : H -> H -> bool),
    (forall a b, heqb (hash a) (hash b) = true -> a = b) ->
  forall ds ls fs (cap : nat) (startfail ctx0 : bool) (acts : list action) (s : state),
    let p := params_of bs maxWound hash heqb cap startfail false ctx0 ds ls fs in
    run p acts (init p) = Some s -> s_main s = MRet -> s_ret s = RNil ->
    Forall (fun p => snd p = ODir) ds /\
    Forall (fun x => let '(_, want, o) := x in o = OLink want) ls /\
    Forall (fun x => let '(_, signed, o) := x in o = OFile signed) fs.
Proof.
  intros H bs bs_pos maxWound hash heqb hash_inj ds ls fs cap sf ctx0 acts s p Hrun Hm Hr.
  assert (Hc : clean p = true) by (apply (no_false_valid p acts s); [reflexivity|reflexivity|exact Hrun|exact Hm|exact Hr]).
  apply (clean_params_iff_no_report H bs bs_pos) in Hc. destruct Hc as [ws [Hv Hrep]].
  exact (never_false_valid_full bs bs_pos maxWound hash heqb hash_inj ds ls fs ws Hv Hrep).
Qed.
Print Assumptions failfast_nil_means_directory_matches.

(** Conversely ([clean_uninterrupted_nil] o "a matching directory reports nothing"): a matching
    directory validated fail-fast with a context that is never cancelled (the worker's pool
    opens and closes) returns nil under every schedule.  [heqb h h = true] is bytes.Equal(x, x). *)
Theorem matching_directory_uninterrupted_nil :
  forall (H : Type) (bs : Z), (0 < bs)%Z -> forall (maxWound : Z) (hash : list N -> H) (heqb : H -> H -> bool),
    (forall h, heqb h h = true) ->
  forall ds ls fs (cap : nat) (acts : list action) (s : state),
    let p := params_of bs maxWound hash heqb cap false false false ds ls fs in
    (Forall (fun p => snd p = ODir) ds /\
     Forall (fun x => let '(_, want, o) := x in o = OLink want) ls /\
     Forall (fun x => let '(_, signed, o) := x in o = OFile signed) fs) ->
    ~ In ACancel acts ->
    run p acts (init p) = Some s -> s_main s = MRet -> s_ret s = RNil.
Proof.
  intros H bs bs_pos maxWound hash heqb heqb_refl ds ls fs cap acts s p Hmatch Hnc Hrun Hm.
  assert (Hc : clean p = true)
    by (apply (clean_params_iff_no_report H bs bs_pos), (matching_reports_nothing bs bs_pos maxWound hash heqb heqb_refl); exact Hmatch).
  apply (clean_uninterrupted_nil p acts s); try reflexivity; assumption.
Qed.
Print Assumptions matching_directory_uninterrupted_nil.

(** the C05-side half of it: validation of a matching directory succeeds and reports nothing *)
Theorem matching_directory_reports_nothing :
  forall (H : Type) (bs : Z), (0 < bs)%Z -> forall (maxWound : Z) (hash : list N -> H) (heqb : H -> H -> bool),
    (forall h, heqb h h = true) ->
  forall ds ls fs,
    (Forall (fun p => snd p = ODir) ds /\
     Forall (fun x => let '(_, want, o) := x in o = OLink want) ls /\
     Forall (fun x => let '(_, signed, o) := x in o = OFile signed) fs) ->
    exists ws, validate bs maxWound hash heqb ds ls fs = Some ws /\ reported ws = [].
Proof. exact (@matching_reports_nothing). Qed.
Print Assumptions matching_directory_reports_nothing.

(** and the verdict is always reached: with a channel of capacity >= 1 every run on these
    parameters is bounded and never stuck before Validate returns ([validate_terminates]) *)
Theorem failfast_validate_returns :
  forall (H : Type) (bs maxWound : Z) (hash : list N -> H) (heqb : H -> H -> bool)
         ds ls fs (cap : nat) (startfail ctx0 : bool) (acts : list action) (s : state),
    let p := params_of bs maxWound hash heqb cap startfail false ctx0 ds ls fs in
    1 <= cap -> run p acts (init p) = Some s ->
    length acts <= measure (init p) /\
    (s_main s = MRet \/ exists a s', a <> ACancel /\ step p a s = Some s').
Proof.
  intros H bs maxWound hash heqb ds ls fs cap sf ctx0 acts s p Hcap Hrun.
  apply (validate_terminates p acts s); [exact Hcap|reflexivity|exact Hrun].
Qed.
Print Assumptions failfast_validate_returns.

(** [params_of] hands the protocol what the validator model sends.  Files: C16's aggregator
    ([agg_in] run sequentially = [agg_run]) fed the markers of [file_of] emits exactly the
    markers of C05's [file_wounds] (as Healthy / Bad, same order) - except that C05 lists the
    size wound LAST, whereas the worker sends it itself between the two groups of markers (and
    it may overtake what the aggregator and the relay still hold): C05's list is the multiset
    of what is sent for the file, not the channel order. *)
Theorem protocol_file_markers_are_validator_markers :
  forall (H : Type) (bs : Z), (0 < bs)%Z -> forall (maxWound : Z) (hash : list N -> H) (heqb : H -> H -> bool)
         (i : Z) (signed content : list N),
    match file_of bs maxWound hash heqb i signed (OFile content) with
    | FData ws1 mid ws2 =>
        map msg_of (file_wounds bs maxWound hash heqb i signed (OFile content))
        = agg_run false (ws1 ++ ws2) ++ match mid with FMShort => [Bad] | _ => [] end
    | _ => False
    end.
Proof.
  intros H bs bs_pos maxWound hash heqb i signed content.
  cbn [file_of file_wounds]. fold (raw bs hash heqb i signed content).
  rewrite firstn_skipn, (agg_run_aggregate maxWound _ None (raw_kinds bs bs_pos hash heqb i signed content) I).
  destruct (Z.of_nat (length content) =? Z.of_nat (length signed))%Z; [rewrite app_nil_r|rewrite map_app]; reflexivity.
Qed.
Print Assumptions protocol_file_markers_are_validator_markers.

(** Pre-pass: one [PWound] per wound of C05's directory and symlink passes when both succeed,
    otherwise some wounds followed by the early return *)
Theorem protocol_prepass_is_validator_prepass :
  forall (H : Type) (bs maxWound : Z) (hash : list N -> H) (heqb : H -> H -> bool)
         (cap : nat) (startfail closefail ctx0 : bool) ds ls fs,
    match dirs_pass 0 ds, links_pass 0 ls with
    | Some wd, Some wl =>
        p_pre (params_core bs maxWound hash heqb cap startfail closefail ctx0 ds ls fs) = map (fun _ => PWound) (wd ++ wl)
    | _, _ =>
        exists n, p_pre (params_core bs maxWound hash heqb cap startfail closefail ctx0 ds ls fs) = repeat PWound n ++ [PErr]
    end.
Proof. intros H bs maxWound hash heqb cap sf cf ctx0 ds ls fs. exact (pre_items_spec ds ls). Qed.
Print Assumptions protocol_prepass_is_validator_prepass.

(** a tiny build, bs = 4, block hash = the block itself: directory 0, directory 1 (a symlink on
    disk), symlink 0 -> 1, file 0 signed "1234|56" and "1294|5" on disk (block 0 flipped, one
    byte short: the marker of the short block is contiguous with the pending wound), file 1
    below the wounded directory 1 (hidden: whole-file wound although its bytes are the signed ones) *)
Example tiny_build_damaged_params :
  let p := params_of 4%Z 100%Z (fun b : list N => b) nlist_eqb 1 false false false
             [([], ODir); ([0], OLink 7%N)] [([0], 1%N, OLink 1%N)]
             [([0], [1;2;3;4;5;6]%N, OFile [1;2;9;4;5]%N); ([0; 1], [1;2;3]%N, OFile [1;2;3]%N)] in
  p_pre p = [PWound] /\
  p_files p = [FData [FBad false false] FMShort [FBad true false]; FWhole] /\
  clean p = false.
Proof. vm_compute. repeat split. Qed.

(** the same build undamaged: clean parameters, and a concrete schedule under which fail-fast
    Validate returns nil (the hypotheses of [failfast_nil_means_directory_matches] are satisfiable) *)
Example tiny_build_matching_run :
  let p := params_of 4%Z 100%Z (fun b : list N => b) nlist_eqb 1 false false false
             [([], ODir)] [([0], 1%N, OLink 1%N)] [([0], [1;2;3;4;5;6]%N, OFile [1;2;3;4;5;6]%N)] in
  p_pre p = [] /\ p_files p = [FData [FHealthy] FMNone [FHealthy]] /\ clean p = true /\
  exists acts s, run p acts (init p) = Some s /\ s_main s = MRet /\ s_ret s = RNil.
Proof.
  cbv zeta. split; [vm_compute; reflexivity|]. split; [vm_compute; reflexivity|]. split; [vm_compute; reflexivity|].
  exists [ACons; AMain; AWk; AMainF; AWA; AAR; ARel; ACons; AWk; AWk; AWA; AAR; ARel; ACons; AWk; AWk; AAgg; ARel; ARW;
          AMain; AMain; AWk; AWk; AWk; AMain; AMain; ACons; ACons; AMain].
  eexists. split; [vm_compute; reflexivity|]. split; reflexivity.
Qed.
