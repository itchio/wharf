(** C17 - partial application by whitelist produces exactly the selected files.
    Statements and [Print Assumptions]; each theorem is a lemma of the proof files or follows
    from them in a few lines.  Models in Patch/Patcher.v (Resume loop,
    whitelist => skipFile, recording trace), Patch/Reinterp.v (every frame is decoded as the
    type the reader expects), Patch/Whitelist.v (vocabulary), Bowl/Fresh.v; proofs in
    Patch/PatcherProofs.v, Patch/WhitelistProofs.v (which also defines [ev_selected]),
    Patch/ReinterpProofs.v.

    The model follows the patcher AFTER repo commit d56acaa (fix: skipFile follows the series
    kind).  Before it the statement was false: see [skip_v0_desync] below and the corpus case
    of harness/cmd/wharfobs/c17.go. *)
From Wharf Require Import Base.Prelude Bowl.Fresh Bowl.FreshProofs Patch.Reinterp Patch.ReinterpProofs Patch.Stream Patch.Patcher
     Patch.Whitelist Patch.PatcherProofs Patch.WhitelistProofs.
Local Open Scope Z_scope.

(** For EVERY message list (plain, optimized, hand-made - no grammar is assumed), every old
    build, every well-formed new container and every whitelist W: if the patch applies in
    full, then it applies under W, GetTouchedFiles is the number of selected indices, the
    calls the recording bowl / pool see are exactly the selected files' segments of the full
    run's calls (so bowl calls and old-build reads happen only for selected files), and every
    selected file ends up as full application leaves it. *)
Theorem whitelist_exact :
  forall (bs : Z) (oldC newC : container) (olds : list (list byte)) (W : list Z),
    wf_container newC ->
  forall (ms : list pmsg) (t : tree) (touched : Z) (trace : list event),
    apply_fresh bs oldC newC olds None ms = Ok (t, touched, trace) ->
    exists tW segs,
      apply_fresh bs oldC newC olds (Some W) ms
        = Ok (tW, wl_count W 0 (length (c_files newC)), wl_select W 0 segs) /\
      touched = Z.of_nat (length (c_files newC)) /\
      length segs = length (c_files newC) /\ trace = concat segs /\
      (forall i seg, nth_error segs i = Some seg -> Forall (bowl_ev_for (Z.of_nat i)) seg) /\
      (forall i p sz, wl_mem W i = true -> znth (c_files newC) i = Some (p, sz) -> tlookup tW p = tlookup t p).
Proof.
  intros bs oldC newC olds W WF ms t touched trace. unfold apply_fresh.
  destruct (prepare_spec newC WF) as (t0 & E0 & H0). rewrite E0. cbn [bind].
  destruct (run_files bs oldC newC olds None (length (c_files newC)) 0 ms (mkP t0 []) 0) as [[sf' tchf']| |] eqn:Er;
    cbn [bind fst snd]; try discriminate.
  intros [= <- <- <-].
  destruct (run_rel bs oldC newC olds W WF (length (c_files newC)) 0 ms (mkP t0 []) (mkP t0 []) 0 0 sf' tchf')
    as (sw' & segs & Hrun & Htch & HG' & Hlen & Htrf & Htrw & Hsegs); [lia|lia|exact (G_start newC W WF t0 H0)|exact Er|].
  exists (p_tree sw'), segs. rewrite Hrun. cbn [bind fst snd p_trace app] in *. rewrite Htrw.
  split; [reflexivity|]. split; [lia|]. split; [assumption|]. split; [assumption|]. split; [exact Hsegs|].
  intros i p sz HW Hi. symmetry. apply (proj2 (proj2 HG') i p sz Hi). right. assumption.
Qed.
Print Assumptions whitelist_exact.

(** the executable test the correspondence evaluates on the new container of every patch the
    harness makes a C17 claim about implies the hypothesis [wf_container] *)
Theorem wf_container_test_sound : forall c, wf_containerb c = true -> wf_container c.
Proof. exact wf_containerb_sound. Qed.
Print Assumptions wf_container_test_sound.

(** ... in particular every GetWriter / Transpose of the whitelisted run names a selected file *)
Theorem whitelist_bowl_calls_selected_only :
  forall (W : list Z) (segs : list (list event)),
    (forall i seg, nth_error segs i = Some seg -> Forall (bowl_ev_for (Z.of_nat i)) seg) ->
    Forall (ev_selected W) (wl_select W 0 segs).
Proof. intros W segs H. apply select_only_selected. exact H. Qed.
Print Assumptions whitelist_bowl_calls_selected_only.

(** the in-sync part: whatever a successful processing of a series consumes, skipping it
    consumes too (either series kind) *)
Theorem skip_consumes_what_processing_consumes :
  forall (bs : Z) (oldC newC : container) (olds : list (list byte)) (kind idx : Z) (ms : list pmsg) (s : pst)
         (r : list pmsg) (s' : pst),
    (kind =? SH_RSYNC) || (kind =? SH_BSDIFF) = true ->
    process_file bs oldC newC olds kind idx ms s = Ok (r, s') -> skip_file kind ms = Ok r.
Proof. exact process_skip. Qed.
Print Assumptions skip_consumes_what_processing_consumes.

(** processing a file depends only on what its own path holds and changes nothing else:
    two runs that agree there stay in agreement, log the same calls, consume the same frames *)
Theorem processing_is_local :
  forall (bs : Z) (oldC newC : container) (olds : list (list byte)) (p : path) (idx sz : Z)
         (t10 t20 : tree) (tr1 tr2 : list event) (kind : Z) (ms : list pmsg) (s1 s2 : pst) (r : list pmsg) (s1' : pst),
    znth (c_files newC) idx = Some (p, sz) -> file_ready t10 p -> file_ready t20 p ->
    srel p idx t10 t20 tr1 tr2 s1 s2 -> process_file bs oldC newC olds kind idx ms s1 = Ok (r, s1') ->
    exists s2', process_file bs oldC newC olds kind idx ms s2 = Ok (r, s2') /\ srel p idx t10 t20 tr1 tr2 s1' s2'.
Proof. exact process_rel. Qed.
Print Assumptions processing_is_local.

(** the schema-derived decoding table: a frame read as its own type is itself ... *)
Theorem reinterpret_own_type :
  forall m, pmsg_ok m ->
    match m with
    | MSH x => as_sh m = x | MSO x => as_so m = x | MBH x => as_bh m = x | MCT x => as_ct m = x
    end.
Proof. destruct m as [x|x|x|x]; intros H; [apply as_sh_own|apply as_so_own|apply as_bh_own|apply as_ct_own]; exact H. Qed.
Print Assumptions reinterpret_own_type.

(** ... a BsdiffHeader read as a SyncOp carries its target index into the op type (field 1,
    varint, in both), so target index 2049 reads as the end marker; a Control never does *)
Theorem bsdiff_header_read_as_sync_op :
  forall t, so_type (as_so (MBH (mkBH t))) = i32_of_u64 (u64_of_i64 t).
Proof. intros t. unfold as_so, dec_so, fields_of, fields_bh. cbn [bh_target so_type]. simp_get. reflexivity. Qed.
Theorem bsdiff_header_2049_reads_as_end_marker : so_type (as_so (MBH (mkBH 2049))) = HEY.
Proof. exact (bsdiff_header_read_as_sync_op 2049). Qed.
Theorem control_never_reads_as_end_marker : forall c, so_type (as_so (MCT c)) = 0.
Proof.
  intros [a cp s e]. unfold as_so, dec_so, fields_of, fields_ct. cbn [ct_add ct_copy ct_seek ct_eof so_type]. simp_get.
  reflexivity.
Qed.
Print Assumptions bsdiff_header_read_as_sync_op.
Print Assumptions control_never_reads_as_end_marker.

(** the repaired defect, on the skip function as it was before repo commit d56acaa: a bsdiff
    series against old file #2049 is abandoned right after its header *)
Theorem skip_v0_desync :
  let series := [MBH (mkBH 2049); MCT (mkCT [1%N] [] 0 false); MCT (mkCT [] [] 0 true); hey_msg] in
  skip_file_v0 SH_BSDIFF series = Ok [MCT (mkCT [1%N] [] 0 false); MCT (mkCT [] [] 0 true); hey_msg] /\
  skip_file SH_BSDIFF series = Ok [].
Proof. vm_compute. split; reflexivity. Qed.
Print Assumptions skip_v0_desync.

(** non-vacuity: a patch with a whole-file copy, a bsdiff series against old file 0, a data-only
    file and an empty file; whitelist {1, 3} *)
Example whitelist_exact_example :
  let oldC := mkC [([1%N], 6)] [] [] in
  let newC := mkC [([2%N], 6); ([3%N], 4); ([4%N], 2); ([5%N], 0)] [] [] in
  let olds := [[1;2;3;4;5;6]]%N in
  let ms := [MSH (mkSH 0 0); MSO (mkSO 0 0 0 2 []); hey_msg;
             MSH (mkSH 1 1); MBH (mkBH 0); MCT (mkCT [1;1]%N [9;9]%N 0 false); MCT (mkCT [] [] 0 true); hey_msg;
             MSH (mkSH 0 2); MSO (mkSO 1 0 0 0 [7;7]%N); hey_msg;
             MSH (mkSH 0 3); MSO (mkSO 1 0 0 0 []); hey_msg] in
  wf_container newC /\
  match apply_fresh 4 oldC newC olds None ms with
  | Ok (t, touched, trace) =>
    touched = 4 /\ trace = [EvTranspose 0 0; EvRead 0; EvRead 0; EvWriter 1; EvWriter 2; EvWriter 3] /\
    tlookup t [2]%N = Some (File [1;2;3;4;5;6]%N) /\ tlookup t [3]%N = Some (File [2;3;9;9]%N) /\
    tlookup t [4]%N = Some (File [7;7]%N) /\ tlookup t [5]%N = Some (File [])
  | _ => False
  end /\
  match apply_fresh 4 oldC newC olds (Some [3; 1]) ms with
  | Ok (tW, touched, trace) =>
    touched = 2 /\ trace = [EvRead 0; EvWriter 1; EvWriter 3] /\
    tlookup tW [3]%N = Some (File [2;3;9;9]%N) /\ tlookup tW [5]%N = Some (File []) /\
    tlookup tW [2]%N = Some (File [0;0;0;0;0;0]%N)
  | _ => False
  end.
Proof.
  split.
  - apply wf_container_test_sound. reflexivity.
  - vm_compute. repeat split; reflexivity.
Qed.
