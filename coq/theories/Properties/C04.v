(** C04 - a build validates against its own signature, however that was produced.
    Part 1 (up to [pristine_example]): each theorem is stated here and is a lemma of Sig/*Proofs.v
    or derived from them in a few lines, followed by [Print Assumptions]; models in
    Sig/{Scan,Weak,Sign,Fanout,SigFile,HashInfo,Validate}.v (+ Val/VPool.v of C18).
    Part 2 (from [weak_hash_models_agree]): these models agree with the other models of the same
    Go functions - Wsync/{Weak,Sign}.v (C11), Val/FileVal.v (C05), Patch/Malformed.v (C10);
    lemmas in Compose/ModelsAgree{Hash,Validate,HashInfo}Proofs.v.

    Parameters (universally quantified): the block size [bs] (Go: 64 KiB), the weak hash
    [weak] (Go: wsync.βhash, modelled by Sig/Weak.v [beta_hash]) and the strong hash [strong]
    (MD5), the scanner's tolerance [maxE] for consecutive empty reads (bufio: 100), the fan-out's
    copy buffer [slice] (ctxcopy: 16 KiB).  No theorem depends on what [strong] computes; what
    [weak] computes matters only where the statement says [beta_hash] ([weak_hash_forms],
    [weak_hash_forms_any_length], and part 2).
    A "source" is a pair (chunking delivered by the pool's reader, whether io.EOF comes with the
    last bytes); [src_content] is the concatenation of its chunks. *)
From Wharf Require Import Base.Prelude Base.BlocksLemmas Val.VPool.
From Wharf Require Import Sig.Scan Sig.ScanProofs Sig.Weak Sig.WeakProofs Sig.Sign Sig.Fanout Sig.SigFile Sig.SignProofs
     Sig.SigFileProofs Sig.HashInfo Sig.HashInfoProofs Sig.Validate Sig.ValidateProofs.

(** bufio.Scanner with a buffer of exactly [bs] bytes and splitfunc: for every chunking of the
    input (any read sizes, with or without io.EOF accompanying the last bytes) the tokens are the
    full blocks followed by one short tail, nothing for empty input, and no error. *)
Theorem scan_blocks :
  forall (A : Type) (maxE bs : nat), 0 < bs ->
  forall (chunks : list (list A)) (eofWithLast : bool),
    Forall (fun c : list A => c <> []) chunks ->
    scan bs maxE (splitfunc bs) chunks eofWithLast = (blocks bs (concat chunks), SEof).
Proof.
  intros A maxE bs Hbs chunks eofl F. apply (scan_blocks_any_buffer maxE bs Hbs bs (le_n bs)), runs_ok_nonempty, F.
Qed.
Print Assumptions scan_blocks.

(** ... and also when the reader interleaves (0, nil) reads - as the pipe of the fan-out does
    once per file - as long as no more than [maxE] of them come in a row. *)
Theorem scan_blocks_with_empty_reads :
  forall (A : Type) (maxE bs : nat), 0 < bs ->
  forall (chunks : list (list A)) (eofWithLast : bool),
    runs_ok maxE maxE chunks ->
    scan bs maxE (splitfunc bs) chunks eofWithLast = (blocks bs (concat chunks), SEof).
Proof. intros A maxE bs Hbs. apply (scan_blocks_any_buffer maxE bs Hbs bs (le_n bs)). Qed.
Print Assumptions scan_blocks_with_empty_reads.

(** CreateSignature over any such reader yields the reference signature of the file: one hash
    per block with its index, the weak and strong hash of the block, ShortSize = the length of a
    shorter final block (else 0); one hash of the empty block for an empty file. *)
Theorem create_signature_any_chunking :
  forall (H : Type) (bs : N), (0 < bs)%N ->
  forall (weak : list N -> N) (strong : list N -> H) (maxE : nat) (fileIndex : N) (chunks : list (list N)) (eofWithLast : bool),
    runs_ok maxE maxE chunks ->
    create_signature bs weak strong maxE fileIndex chunks eofWithLast =
    (sign_file bs weak strong fileIndex (concat chunks), SEof).
Proof. exact (@create_signature_spec). Qed.
Print Assumptions create_signature_any_chunking.

Theorem signature_shape :
  forall (H : Type) (bs : N), (0 < bs)%N ->
  forall (weak : list N -> N) (strong : list N -> H) (fi : N) (f : list N),
    match f with
    | [] => sign_file bs weak strong fi f = [mkbh fi 0%N (weak []) (strong []) 0%N]
    | _ :: _ =>
      length (sign_file bs weak strong fi f) = N.to_nat (num_blocks bs (N.of_nat (length f))) /\
      (forall (k : nat) (b : list N),
         nth_error (blocks (N.to_nat bs) f) k = Some b ->
         nth_error (sign_file bs weak strong fi f) k =
           Some (mkbh fi (N.of_nat k) (weak b) (strong b)
                      (if (N.of_nat (length b) <? bs)%N then N.of_nat (length b) else 0%N)) /\
         (S k < length (blocks (N.to_nat bs) f) -> N.of_nat (length b) = bs) /\
         (0 < N.of_nat (length b) <= bs)%N)
    end.
Proof.
  intros H bs Hbs weak strong fi [|x f']; cbn [sign_file].
  - unfold hash_block. cbn [length N.of_nat]. destruct (0 <? bs)%N; reflexivity.
  - split; [rewrite (hash_blocks_length bs weak strong), (blocks_length bs Hbs); reflexivity|].
    intros k b Hn. split; [exact (hash_blocks_nth bs weak strong fi _ 0%N k b Hn)|].
    (* the length of block [k], and [S k] is a block only if more than [S k * bs] bytes exist *)
    pose proof (blocks_nth_length (N.to_nat bs) ltac:(lia) k _ b Hn) as [Hb Hk].
    split; [intros Hk'; apply (blocks_length_iff (N.to_nat bs) ltac:(lia)) in Hk'|]; lia.
Qed.
Print Assumptions signature_shape.

(** number of hashes of a build = sum over the files of max(1, ceil(size / bs)) *)
Theorem signature_count :
  forall (H : Type) (bs : N), (0 < bs)%N ->
  forall (weak : list N -> N) (strong : list N -> H) (files : list (list N)) (fi : N),
    N.of_nat (length (sign_all_from bs weak strong fi files)) =
    fold_right (fun (f : list N) (acc : N) => (N.max 1 (num_blocks bs (N.of_nat (length f))) + acc)%N) 0%N files.
Proof.
  intros H bs Hbs weak strong files. induction files as [|f r IH]; intros fi; [reflexivity|].
  cbn [sign_all_from fold_right]. rewrite app_length, Nat2N.inj_add, IH, (sign_file_length bs Hbs). reflexivity.
Qed.
Print Assumptions signature_count.

(** The signature file stores only (weak, strong); ReadSignature re-derives file index, block
    index and ShortSize from the container's sizes and gets back exactly the signature. *)
Theorem read_write_signature :
  forall (H : Type) (bs : N), (0 < bs)%N ->
  forall (weak : list N -> N) (strong : list N -> H) (files : list (list N)),
    read_signature bs (map (fun f : list N => N.of_nat (length f)) files)
                   (write_signature (sign_all bs weak strong files)) =
    sign_all bs weak strong files.
Proof. intros H bs Hbs weak strong files. apply (read_files_spec bs Hbs). Qed.
Print Assumptions read_write_signature.

(** ComputeHashInfo on such a signature: the count check passes and the group of every
    non-empty file is exactly the list of its block hashes; empty files have no group. *)
Theorem hashinfo_groups :
  forall (H : Type) (bs : N), (0 < bs)%N ->
  forall (weak : list N -> N) (strong : list N -> H) (files : list (list N)),
    compute_hash_info bs (map (fun f : list N => N.of_nat (length f)) files) (sign_all bs weak strong files) =
    HiOk (groups_from bs weak strong 0 files).
Proof.
  intros H bs Hbs weak strong files. unfold compute_hash_info, sign_all.
  pose proof (hi_loop_spec bs Hbs weak strong files 0%N [] 0%N eq_refl) as Hl. cbn [app] in Hl.
  rewrite Hl, N.eqb_refl. reflexivity.
Qed.
Print Assumptions hashinfo_groups.

Theorem hashinfo_group_of_file :
  forall (H : Type) (bs : N) (weak : list N -> N) (strong : list N -> H) (files : list (list N)) (fi : N) (i : nat) (f : list N),
    nth_error files i = Some f ->
    nth_error (groups_from bs weak strong fi files) i =
    Some match f with [] => None | _ :: _ => Some (sign_file bs weak strong (fi + N.of_nat i) f) end.
Proof. exact (@groups_from_nth). Qed.
Print Assumptions hashinfo_group_of_file.

(** Every pipe reader of the fan-out is served the upstream bytes in order; its runs of empty
    reads are at most one longer than the upstream reader's. *)
Theorem fanout_preserves_stream :
  forall maxE : nat, 1 <= maxE -> forall slice : nat, 0 < slice ->
  forall (chunks : list (list N)) (eofWithLast : bool),
    runs_ok (maxE - 1) (maxE - 1) chunks ->
    exists ws, fan_writes slice chunks eofWithLast = (ws, true) /\ concat ws = concat chunks /\ runs_ok maxE maxE ws.
Proof. exact (@fan_writes_spec_runs). Qed.
Print Assumptions fanout_preserves_stream.

(** Both producers: the signature written while diffing (the source read once, in the pool's
    chunking [srcs], through the fan-out) and read back equals what the stand-alone signer
    computes from the same contents read in any other chunking [srcs'] - and both are the
    reference signature.  The chunkings may contain empty reads: runs of at most [maxE] of
    them for the stand-alone signer, [maxE - 1] for the fan-out (which adds one of its own at
    the end of a file); chunkings without empty reads qualify ([chunkings_without_empty_reads]). *)
Theorem both_producers_agree :
  forall (H : Type) (bs : N), (0 < bs)%N ->
  forall (weak : list N -> N) (strong : list N -> H) (maxE : nat), 1 <= maxE ->
  forall slice : nat, 0 < slice ->
  forall srcs srcs' : list (list (list N) * bool),
    Forall (src_fan_ok maxE) srcs -> Forall (src_ok maxE) srcs' ->
    map src_content srcs = map src_content srcs' ->
    exists stream : list (N * H),
      diff_time_signature bs weak strong maxE slice srcs = Some stream /\
      (read_signature bs (map (fun s => N.of_nat (length (src_content s))) srcs) stream, SEof) =
      compute_signature bs weak strong maxE srcs' /\
      read_signature bs (map (fun s => N.of_nat (length (src_content s))) srcs) stream =
      sign_all bs weak strong (map src_content srcs).
Proof.
  intros H bs Hbs weak strong maxE HmaxE slice Hslice srcs srcs' Hd Hs Hc.
  exists (write_signature (sign_all bs weak strong (map src_content srcs))).
  split; [exact (diff_time_signature_spec bs Hbs weak strong maxE slice Hslice HmaxE srcs Hd)|].
  rewrite (compute_signature_spec bs Hbs weak strong maxE srcs' Hs), <- Hc.
  rewrite <- (map_map src_content (fun f : list N => N.of_nat (length f))).
  rewrite (read_write_signature H bs Hbs). split; reflexivity.
Qed.
Print Assumptions both_producers_agree.

Theorem chunkings_without_empty_reads :
  forall (maxE : nat) (src : list (list N) * bool),
    src_nonempty src -> src_fan_ok maxE src /\ src_ok maxE src.
Proof. exact (fun maxE src Hne => conj (src_nonempty_fan_ok maxE src Hne) (runs_ok_nonempty maxE maxE (fst src) Hne)). Qed.
Print Assumptions chunkings_without_empty_reads.

(** Validating an undamaged copy against the signature read back from the build's own
    signature file, whatever the slicing of each file's bytes into writes: ComputeHashInfo
    succeeds, every marker produced is a healthy one, the fail-fast guardian returns no error
    and the wounds writer writes nothing.  ([seqb] is bytes.Equal on strong hashes.) *)
Theorem pristine_valid :
  forall (H : Type) (bs : N), (0 < bs)%N ->
  forall (weak : list N -> N) (strong : list N -> H) (seqb : H -> H -> bool),
    (forall h : H, seqb h h = true) ->
  forall (maxWound : Z) (files : list (list N)) (slicings : list (list (list N))),
    slicings_of files slicings ->
    let sizes := map (fun f : list N => N.of_nat (length f)) files in
    let sig := read_signature bs sizes (write_signature (sign_all bs weak strong files)) in
    exists wl : list wound,
      validate_tree bs weak strong seqb maxWound sizes sig slicings = Some wl /\
      Forall (fun w : wound => healthy w = true) wl /\ guardian wl = true /\ wounds_written wl = [].
Proof.
  intros H bs Hbs weak strong seqb Hrefl maxWound files slicings Hs. cbn zeta.
  rewrite (read_write_signature H bs Hbs). unfold validate_tree. rewrite (hashinfo_groups H bs Hbs).
  eexists. split; [reflexivity|].
  pose proof (validate_files_own bs Hbs weak strong seqb Hrefl maxWound _ files slicings 0
                (fun i f Hi => group_of_file bs weak strong files i f Hi) Hs) as Hh.
  split; [exact Hh|]. split; [apply guardian_healthy, Hh|apply wounds_written_healthy, Hh].
Qed.
Print Assumptions pristine_valid.

(** per file: one healthy marker per block *)
Theorem pristine_file_markers :
  forall (H : Type) (bs : N), (0 < bs)%N ->
  forall (weak : list N -> N) (strong : list N -> H) (seqb : H -> H -> bool),
    (forall h : H, seqb h h = true) ->
  forall (maxWound : Z) (files : list (list N)) (i : nat) (f : list N) (ws : list (list N)),
    nth_error files i = Some f -> concat ws = f ->
    let wl := validate_file bs weak strong seqb maxWound (groups_from bs weak strong 0 files) i (N.of_nat (length f)) ws in
    Forall (fun w : wound => healthy w = true) wl /\ length wl = length (blocks (N.to_nat bs) f).
Proof.
  intros H bs Hbs weak strong seqb Hrefl maxWound files i f ws Hn.
  apply (validate_file_own bs Hbs weak strong seqb Hrefl), group_of_file, Hn.
Qed.
Print Assumptions pristine_file_markers.

(** error mode of the validating pool (no wound channel): the signed content passes unchanged *)
Theorem pristine_passes_error_mode :
  forall (H : Type) (bs : N), (0 < bs)%N ->
  forall (weak : list N -> N) (strong : list N -> H) (seqb : H -> H -> bool),
    (forall h : H, seqb h h = true) ->
  forall (files : list (list N)) (i : nat) (f : list N) (ws : list (list N)),
    nth_error files i = Some f -> concat ws = f ->
    vpool_error (Z.of_N bs) (block_hash weak strong) (pair_eqb seqb) (group_of (groups_from bs weak strong 0 files) i) ws =
    (Done, length ws, blocks (N.to_nat bs) f).
Proof. exact (@ValidateProofs.pristine_passes_error_mode). Qed.
Print Assumptions pristine_passes_error_mode.

(** the weak hash in Go's wrapping uint32 arithmetic equals its running-sum form (the form the
    64 KiB correspondence cases evaluate) *)
Theorem weak_hash_forms :
  forall block : list N, (N.of_nat (length block) < 4294967296)%N -> beta_hash block = beta_prefix block.
Proof. intros block _. rewrite beta_hash_plain. apply beta_plain_prefix. Qed.
Print Assumptions weak_hash_forms.

(** ... for a block of any length: since Sig/Weak.v models the [uint32] subtraction
    [uint32(len(block)-1) - uint32(i)] exactly (it wraps), the length bound above is not needed *)
Theorem weak_hash_forms_any_length :
  forall block : list N, beta_hash block = beta_prefix block.
Proof. intros block. rewrite beta_hash_plain. apply beta_plain_prefix. Qed.
Print Assumptions weak_hash_forms_any_length.

(** non-vacuity: bs = 2, files "abc", "", "de" read in chunkings with short reads (and empty
    reads); the diff-time stream read back is the reference signature (strong hash := block),
    and validating the files written in 1- and 2-byte writes yields healthy markers only *)
Example both_producers_example :
  let srcs := [([[1;2]%N; [3]%N], false); ([], false); ([[4]%N; [5]%N], true)] in
  let srcs' := [([[1]%N; []; [2;3]%N], true); ([[]], false); ([[4;5]%N], false)] in
  match diff_time_signature 2 beta_hash (fun b : list N => b) 100 3 srcs with
  | Some stream =>
    (read_signature 2 [3;0;2]%N stream, SEof) = compute_signature 2 beta_hash (fun b : list N => b) 100 srcs' /\
    map (fun h => (bh_file h, bh_block h, bh_short h)) (read_signature 2 [3;0;2]%N stream) =
    [(0,0,0); (0,1,1); (1,0,0); (2,0,0)]%N
  | None => False
  end.
Proof. vm_compute. split; reflexivity. Qed.

Example pristine_example :
  let files := [[1;2;3]%N; []; [4;5]%N] in
  validate_tree 2 beta_hash (fun b : list N => b) nlist_eqb 8%Z [3;0;2]%N
                (sign_all 2 beta_hash (fun b : list N => b) files)
                [[[1]%N; [2;3]%N]; []; [[4]%N; [5]%N]] =
  Some [mkwound WClosed 0 0 2; mkwound WClosed 0 2 3; mkwound WClosed 2 0 2]%Z.
Proof. vm_compute. reflexivity. Qed.

(** ** Agreement with the other models of the same Go functions (pairs 1, 2, 7, 8 of the index
    Compose/ModelsAgree.v)

    wsync.βhash is modelled by Sig/Weak.v [beta_hash] (here) and by Wsync/Weak.v [bhash] /
    [weak_of] (C11, C08); wsync.CreateSignature by Sig/Sign.v (here: the scanner loop
    [create_signature] and the reference [sign_file]) and by Wsync/Sign.v [sign_file] (C11);
    [doOne] of pwr/validator.go by Sig/Validate.v [validate_file] (here) and
    by Val/FileVal.v [file_wounds] (C05).  Each has its own correspondence; these theorems tie
    the transcriptions to each other; so does [hash_info_models_agree] below for
    pwr.ComputeHashInfo (C04 / C10).
    (blockvalidator.go / validatingpool.go exist once, Val/VPool.v: Sig/Validate.v,
    Val/FileVal.v, Val/Safekeeper.v and Compose/ValidateProtocol.v all import it.) *)
From Wharf Require Wsync.Weak Wsync.Sign Val.FileVal
     Compose.ModelsAgreeHashProofs Compose.ModelsAgreeValidateProofs.

(** βhash: equal on EVERY block, whatever its length and the byte values (the C11 triple
    [(β, β1, β2)] is the C04 value and the 16-bit halves of the two sums).  No bound on the length: both
    models follow Go's wrapping [uint32] subtraction ([sub32]) *)
Theorem weak_hash_models_agree :
  forall block : list N,
    beta_hash block = Wsync.Weak.weak_of block /\
    Wsync.Weak.bhash block =
      (beta_hash block, low16 (fst (beta_loop (N.of_nat (length block)) 0 0 0 block)),
       low16 (snd (beta_loop (N.of_nat (length block)) 0 0 0 block))).
Proof. intros block. split; [apply ModelsAgreeHashProofs.weak_of_agrees|apply ModelsAgreeHashProofs.bhash_agrees]. Qed.
Print Assumptions weak_hash_models_agree.

(** the loop bodies at [len = 2^32 + 1], index 1, where [uint32(len-1)] = 0 is less than
    [uint32(i)]: both multiply the byte by 0, as Go does ([0 - uint32(1) + 1] wraps to 0) *)
Example weak_hash_loops_agree_beyond_u32 :
  beta_loop 4294967297 1 0 0 [1%N] = (1%N, 0%N) /\ Wsync.Weak.bhash_loop 4294967297 1 [1%N] 0 0 = (1%N, 0%N).
Proof. split; vm_compute; reflexivity. Qed.

(** CreateSignature: what C04's model of the code writes for a file - over any chunking the
    scanner tolerates - is C11's [sign_file] of the content ([bh_of_ent]: the same five fields in
    the other record), file by file and for a whole container, for every block size [0 < bs] *)
Theorem create_signature_models_agree_any_block_size :
  forall (H : Type) (strong : list N -> H) (bs : N) (maxE : nat),
    (0 < bs)%N ->
    (forall (fileIndex : N) (chunks : list (list N)) (eofWithLast : bool),
       runs_ok maxE maxE chunks ->
       create_signature bs beta_hash strong maxE fileIndex chunks eofWithLast =
       (map ModelsAgreeHashProofs.bh_of_ent (Wsync.Sign.sign_file strong bs fileIndex (concat chunks)), SEof)) /\
    (forall (fileIndex : N) (content : list N),
       map ModelsAgreeHashProofs.bh_of_ent (Wsync.Sign.sign_file strong bs fileIndex content) =
       sign_file bs beta_hash strong fileIndex content) /\
    (forall (olds : list (list N)),
       map ModelsAgreeHashProofs.bh_of_ent (Wsync.Sign.sign_all strong bs 0 olds) = sign_all bs beta_hash strong olds).
Proof.
  intros H strong bs maxE Hpos. split; [|split].
  - intros fi chunks eofl. apply ModelsAgreeHashProofs.create_signature_agrees, Hpos.
  - apply ModelsAgreeHashProofs.sign_file_agrees.
  - intros olds. apply ModelsAgreeHashProofs.sign_all_agrees.
Qed.
Print Assumptions create_signature_models_agree_any_block_size.

(** ... with the bound [bs <= 2^32] of the Go block size as a second hypothesis, which is not used *)
Theorem create_signature_models_agree :
  forall (H : Type) (strong : list N -> H) (bs : N) (maxE : nat),
    (0 < bs)%N -> (bs <= 4294967296)%N ->
    (forall (fileIndex : N) (chunks : list (list N)) (eofWithLast : bool),
       runs_ok maxE maxE chunks ->
       create_signature bs beta_hash strong maxE fileIndex chunks eofWithLast =
       (map ModelsAgreeHashProofs.bh_of_ent (Wsync.Sign.sign_file strong bs fileIndex (concat chunks)), SEof)) /\
    (forall (fileIndex : N) (content : list N),
       map ModelsAgreeHashProofs.bh_of_ent (Wsync.Sign.sign_file strong bs fileIndex content) =
       sign_file bs beta_hash strong fileIndex content) /\
    (forall (olds : list (list N)),
       map ModelsAgreeHashProofs.bh_of_ent (Wsync.Sign.sign_all strong bs 0 olds) = sign_all bs beta_hash strong olds).
Proof. intros H strong bs maxE Hpos _. exact (create_signature_models_agree_any_block_size H strong bs maxE Hpos). Qed.
Print Assumptions create_signature_models_agree.

(** [doOne]: C04's [validate_file] against the groups of a real signature and C05's
    [file_wounds] against the signed content give the same wounds for EVERY content of the file
    on disk - shorter, equal in length, or longer than the signed one: Sig/Validate.v orders
    the bounds of the size wound as pwr/validator.go does (repo commit ccb6315).  The damaged-file
    behaviour of Sig/Validate.v is thereby C05's, whose correspondence group [val] compares it
    with Go; C04's own group [vfile] compares [validate_tree] with Go on shorter / longer /
    damaged files as well *)
Theorem validate_file_models_agree :
  forall (H : Type) (bs : N) (weak : list N -> N) (strong : list N -> H) (seqb : H -> H -> bool) (maxWound : Z)
         (files : list (list N)) (i : nat) (signed content : list N),
    nth_error files i = Some signed ->
    validate_file bs weak strong seqb maxWound (groups_from bs weak strong 0 files) i (N.of_nat (length signed)) [content] =
    Val.FileVal.file_wounds (Z.of_N bs) maxWound (block_hash weak strong) (pair_eqb seqb) (Z.of_nat i) signed
                            (Val.FileVal.OFile content).
Proof.
  intros H bs weak strong seqb maxWound files i signed content Hn.
  apply ModelsAgreeValidateProofs.validate_file_agrees, ModelsAgreeValidateProofs.group_models_agree_lemma, Hn.
Qed.
Print Assumptions validate_file_models_agree.

(** a file longer than signed: signed [1;2], on disk [1;2;3], block size 2 - the size wound
    (2, 3) in both models *)
Example validate_file_longer_file :
  let weak := fun _ : list N => 0%N in
  let strong := fun b : list N => b in
  validate_file 2 weak strong nlist_eqb 100 (groups_from 2 weak strong 0 [[1; 2]%N]) 0 2 [[1; 2; 3]%N] =
    [mkwound WClosed 0 0 2; mkwound WFile 0 2 2; mkwound WFile 0 2 3]%Z /\
  Val.FileVal.file_wounds 2 100 (block_hash weak strong) (pair_eqb nlist_eqb) 0 [1; 2]%N (Val.FileVal.OFile [1; 2; 3]%N) =
    [mkwound WClosed 0 0 2; mkwound WFile 0 2 2; mkwound WFile 0 2 3]%Z.
Proof. split; vm_compute; reflexivity. Qed.

(** pwr.ComputeHashInfo: this property's [compute_hash_info] (Sig/HashInfo.v) against C10's
    [hash_info] (Patch/Malformed.v: outcome class; [fx] = the code before / after repo commit
    6a06397, [cap] = capacity of the hash slice, at least its length).  (1) The outcome class is
    that of the code as it is ([fx = true]) for every input - in particular a signature with
    fewer hashes than the files need is an error in both; (2) where the model says
    [HiOk] the code before the fix succeeded too; (3) the two versions of the code only differ
    where the model says [HiErr] *)
From Wharf Require Patch.Malformed Compose.ModelsAgreeHashInfoProofs.

Theorem hash_info_models_agree :
  forall (X : Type) (bs : N) (sizes : list N) (hashes : list X),
    (0 < bs)%N ->
    let n := Z.of_nat (length hashes) in
    (forall cap, (n <= cap)%Z ->
       Malformed.hash_info true (Z.of_N bs) (map Z.of_N sizes) 0 n cap =
       match compute_hash_info bs sizes hashes with HiOk _ => Malformed.Ok | HiErr => Malformed.Err end) /\
    (forall gs, compute_hash_info bs sizes hashes = HiOk gs ->
       forall fx cap, (n <= cap)%Z -> Malformed.hash_info fx (Z.of_N bs) (map Z.of_N sizes) 0 n cap = Malformed.Ok) /\
    (forall cap, (n <= cap)%Z ->
       Malformed.hash_info false (Z.of_N bs) (map Z.of_N sizes) 0 n cap <>
       Malformed.hash_info true (Z.of_N bs) (map Z.of_N sizes) 0 n cap ->
       compute_hash_info bs sizes hashes = HiErr).
Proof.
  intros X bs sizes hashes Hbs n. unfold compute_hash_info.
  pose proof (ModelsAgreeHashInfoProofs.hi_loop_agrees bs Hbs hashes sizes 0%N) as H. change (Z.of_N 0) with 0%Z in H. fold n in H.
  destruct (hi_loop bs sizes hashes 0) as [[gs ix]|].
  - replace (Z.of_N ix =? n)%Z with (ix =? N.of_nat (length hashes))%N in H by (unfold n; lia).
    destruct (ix =? N.of_nat (length hashes))%N; (split; [intros cap Hcap; apply H, Hcap|split]).
    + intros gs' _ fx cap Hcap. apply H, Hcap.
    + intros cap Hcap Hne. destruct Hne. rewrite !H by exact Hcap. reflexivity.
    + discriminate.
    + reflexivity.
  - split; [apply H|split; [discriminate|reflexivity]].
Qed.
Print Assumptions hash_info_models_agree.

(** too few hashes: two files of 2 bytes at block size 2 and a single hash - [HiErr] here and an
    error at [fx = true]; [fx = false] (the code before 6a06397) panics *)
Example hash_info_missing_hashes :
  compute_hash_info 2 [2; 2]%N [tt] = HiErr /\
  Malformed.hash_info true 2 [2; 2]%Z 0 1 1 = Malformed.Err /\
  Malformed.hash_info false 2 [2; 2]%Z 0 1 1 = Malformed.Panic Malformed.SHashInfoSlice.
Proof. repeat split. Qed.
