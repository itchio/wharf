(** C11 — rsync operations always reconstruct the source and stay within the old files.
    Statements, each read off [Theorems.diff_ops_spec] in a line or two, and [Print Assumptions].
    Model: Wsync/{Weak,Diff,Library,Sign,Apply}.v
    (a line-by-line transcription of wsync/algo.go, hashes.go, block_library.go after the two
    repairs recorded in known_findings.json); vocabulary: Wsync/Spec.v; proofs: Wsync/*Proofs.v,
    Wsync/Theorems.v.

    [diff_ops shash heqb bs maxData olds src pref] = CreateSignature of every old file,
    NewBlockLibrary, ComputeDiff of [src] with preferred file [pref]; [None] would be "out of
    fuel".  All theorems hold for every block size [bs > 0] and every data-op limit
    [maxData > 0] (Go: 64 KiB and 4 MiB), every list of old files, every source, every preferred
    index, under the hypothesis that the strong hash (MD5) separates the signed blocks from the
    windows of the source it is compared with. *)
From Wharf Require Import Base.Prelude Wsync.Diff Wsync.Apply Wsync.Spec Wsync.ApplyProofs Wsync.Theorems.
Local Open Scope N_scope.

(** the differ terminates and replaying its operations on the old files yields the source *)
Theorem diff_reconstructs :
  forall (H : Type) (shash : list N -> H) (heqb : H -> H -> bool) (bs maxData : N)
         (olds : list (list N)) (src : list N) (pref : option N),
    0 < bs -> 0 < maxData -> (forall x y, heqb x y = true -> x = y) -> strong_injective shash bs olds src ->
    exists ops, diff_ops shash heqb bs maxData olds src pref = Some ops /\
                apply_ops bs olds (map (conc src) ops) = Some src.
Proof.
  intros * Hbs Hmax Hh Hinj.
  destruct (diff_ops_spec H shash heqb bs maxData olds src pref Hbs Hmax Hh Hinj) as (ops & Hd & Hden & Hr & _).
  exists ops. split; [assumption|]. rewrite (apply_ops_den bs olds src Hbs ops Hr), Hden. reflexivity.
Qed.
Print Assumptions diff_reconstructs.

(** every block range names an existing old file, has span >= 1 and index+span <= ceil(len/bs) *)
Theorem ranges_in_bounds :
  forall (H : Type) (shash : list N -> H) (heqb : H -> H -> bool) (bs maxData : N)
         (olds : list (list N)) (src : list N) (pref : option N),
    0 < bs -> 0 < maxData -> (forall x y, heqb x y = true -> x = y) -> strong_injective shash bs olds src ->
    forall ops, diff_ops shash heqb bs maxData olds src pref = Some ops -> Forall (range_ok bs olds) ops.
Proof. intros. edestruct (diff_ops_props H shash heqb bs maxData olds src pref) as (? & ? & ? & ? & ? & ?); eassumption. Qed.
Print Assumptions ranges_in_bounds.

(** consecutive ranges of the same file that continue each other do not occur: they were merged *)
Theorem ranges_merged :
  forall (H : Type) (shash : list N -> H) (heqb : H -> H -> bool) (bs maxData : N)
         (olds : list (list N)) (src : list N) (pref : option N),
    0 < bs -> 0 < maxData -> (forall x y, heqb x y = true -> x = y) -> strong_injective shash bs olds src ->
    forall ops, diff_ops shash heqb bs maxData olds src pref = Some ops -> no_adjacent_mergeable ops.
Proof. intros. edestruct (diff_ops_props H shash heqb bs maxData olds src pref) as (? & ? & ? & ? & ? & ?); eassumption. Qed.
Print Assumptions ranges_merged.

(** an empty data operation can only be the first operation *)
Theorem empty_data_only_leading :
  forall (H : Type) (shash : list N -> H) (heqb : H -> H -> bool) (bs maxData : N)
         (olds : list (list N)) (src : list N) (pref : option N),
    0 < bs -> 0 < maxData -> (forall x y, heqb x y = true -> x = y) -> strong_injective shash bs olds src ->
    forall ops, diff_ops shash heqb bs maxData olds src pref = Some ops -> empty_only_leading ops.
Proof.
  intros * Hbs Hmax Hh Hinj * Hd [|k] o Hn Hemp; [reflexivity|exfalso].
  destruct (diff_ops_props H shash heqb bs maxData olds src pref Hbs Hmax Hh Hinj ops Hd) as (_ & _ & _ & _ & He & _).
  destruct ops as [|a r]; [discriminate|]. cbn [nth_error tl] in *. apply nth_error_In in Hn.
  rewrite Forall_forall in He. specialize (He _ Hn). congruence.
Qed.
Print Assumptions empty_data_only_leading.

(** no data operation exceeds the limit (true of the repaired code: before the repair the
    trailing data operation could reach [maxData + 2*bs - 3] bytes; the Go input that showed it
    is the first corpus case of every run) *)
Theorem data_op_le_max :
  forall (H : Type) (shash : list N -> H) (heqb : H -> H -> bool) (bs maxData : N)
         (olds : list (list N)) (src : list N) (pref : option N),
    0 < bs -> 0 < maxData -> (forall x y, heqb x y = true -> x = y) -> strong_injective shash bs olds src ->
    forall ops, diff_ops shash heqb bs maxData olds src pref = Some ops -> Forall (fun o => data_len o <= maxData) ops.
Proof. intros. edestruct (diff_ops_props H shash heqb bs maxData olds src pref) as (? & ? & ? & ? & ? & ?); eassumption. Qed.
Print Assumptions data_op_le_max.

(** every data operation is a slice of the source *)
Theorem data_in_bounds :
  forall (H : Type) (shash : list N -> H) (heqb : H -> H -> bool) (bs maxData : N)
         (olds : list (list N)) (src : list N) (pref : option N),
    0 < bs -> 0 < maxData -> (forall x y, heqb x y = true -> x = y) -> strong_injective shash bs olds src ->
    forall ops, diff_ops shash heqb bs maxData olds src pref = Some ops ->
      Forall (fun o => match o with OpData s l => s + l <= len src | OpRange _ _ _ => True end) ops.
Proof. intros. edestruct (diff_ops_props H shash heqb bs maxData olds src pref) as (? & ? & ? & ? & ? & ?); eassumption. Qed.
Print Assumptions data_in_bounds.

(** non-vacuity: the executable instantiation (strong hash := the block itself) satisfies the
    hypotheses for every input ... *)
Example hypotheses_inhabited :
  forall bs olds src, strong_injective (fun b : list N => b) bs olds src /\
                      (forall x y, nlist_eqb x y = true -> x = y).
Proof. intros. split; [apply id_strong_injective|exact nlist_eqb_sound]. Qed.

(** ... and a concrete run at tiny parameters with both kinds of operations, a merged range,
    a split trailing data run and the buffer wrap (bs = 2, maxData = 3) *)
Example diff_example :
  diff_ops (fun b : list N => b) nlist_eqb 2 3 [[1;2;3;4;5]] [1;2;3;4;9;9;9;9;9;9;9;5] None
  = Some [OpRange 0 0 2; OpData 4 1; OpData 5 3; OpData 8 3; OpData 11 1].
Proof. vm_compute. reflexivity. Qed.
