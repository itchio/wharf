(** C05 — validation reports every deviation from the signed build and locates it.
    Each theorem about [validate] is derived here, in a few lines, from the theorem of
    Val/FileValProofs.v about [validate_core]; model in Val/FileVal.v (+ Val/VPool.v).
    [bs] = block size, [maxWound] = MaxWoundSize, [hash]/[heqb] = strong+weak hash of a block and
    its comparison; the hypothesis [forall a b, heqb (hash a) (hash b) = true -> a = b] of
    [deviation_located], [never_false_valid] and [failfast_ok_only_if_matching] is the one thing
    assumed of MD5: distinct blocks that are compared have distinct hashes.  The actual
    directory enters as one observation per signed entry
    ([obs]: missing / ENOTDIR / dir / symlink dest / regular file content / other error)
    together with [anc], the indices of its ancestor directories in the container: a wounded
    directory hides everything below it ([woundedDirs], pwr/validator.go: nothing below is looked
    at on disk, it is all wounded). *)
From Wharf Require Import Base.Prelude Val.VPool Val.FileVal Val.FileValProofs.
Local Open Scope Z_scope.

(** Every byte offset below the signed length at which a regular file differs from the signed
    file - or which lies beyond its end - is inside a reported FILE wound naming that file. *)
Theorem deviation_located :
  forall (H : Type) (bs : Z), 0 < bs -> forall (maxWound : Z) (hash : list N -> H) (heqb : H -> H -> bool),
    (forall a b, heqb (hash a) (hash b) = true -> a = b) ->
  forall ds ls fs ws (k : nat) (anc : list nat) (signed content : list N) (o : nat),
    validate bs maxWound hash heqb ds ls fs = Some ws ->
    nth_error fs k = Some (anc, signed, OFile content) ->
    (o < length signed)%nat -> nth_error content o <> nth_error signed o ->
    exists w, In w (reported ws) /\ in_wound (Z.of_nat k) (Z.of_nat o) w.
Proof.
  intros H bs Hbs maxWound hash heqb Hinj ds ls fs ws k anc signed content o. rewrite validate_unfold. intros Hv Hn Ho Hd.
  eapply (deviation_located_lemma bs Hbs maxWound hash heqb Hinj); [exact Hv|rewrite nth_error_map, Hn; reflexivity|assumption|].
  intros c Hc. apply eff_seen in Hc; [|discriminate]. injection Hc as <-. assumption.
Qed.
Print Assumptions deviation_located.

(** A file that is shorter or longer than signed, missing, or not a regular file gets a wound. *)
Theorem file_mismatch_wounded :
  forall (H : Type) (bs : Z) (maxWound : Z) (hash : list N -> H) (heqb : H -> H -> bool),
  forall ds ls fs ws (k : nat) (anc : list nat) (signed : list N) (o : obs),
    validate bs maxWound hash heqb ds ls fs = Some ws ->
    nth_error fs k = Some (anc, signed, o) ->
    (forall c, o = OFile c -> length c <> length signed) ->
    exists w, In w (reported ws) /\ wk w = WFile /\ widx w = Z.of_nat k.
Proof.
  intros H bs maxWound hash heqb ds ls fs ws k anc signed o. rewrite validate_unfold. intros Hv Hn Ho.
  eapply file_mismatch_wounded_lemma; [exact Hv|rewrite nth_error_map, Hn; reflexivity|].
  intros c Hc. apply eff_seen in Hc; [auto|discriminate].
Qed.
Print Assumptions file_mismatch_wounded.

(** A directory / symlink that is missing, of the wrong kind or (symlink) has the wrong
    destination gets a DIR / SYMLINK wound. *)
Theorem dir_mismatch_wounded :
  forall (H : Type) (bs : Z) (maxWound : Z) (hash : list N -> H) (heqb : H -> H -> bool),
  forall ds ls fs ws (k : nat) (anc : list nat) (o : obs),
    validate bs maxWound hash heqb ds ls fs = Some ws ->
    nth_error ds k = Some (anc, o) -> o <> ODir ->
    In (mkwound WDir (Z.of_nat k) 0 0) (reported ws).
Proof.
  intros H bs maxWound hash heqb ds ls fs ws k anc o. rewrite validate_unfold. intros Hv Hn Ho.
  destruct (eff_dirs_spec ds [] _ _ (surjective_pairing _)) as [_ Hnth]. destruct (Hnth k anc o Hn) as [u Hu].
  eapply dir_mismatch_wounded_lemma; [exact Hv|exact Hu|]. intros E. apply eff_seen in E; [auto|discriminate].
Qed.
Print Assumptions dir_mismatch_wounded.

Theorem link_mismatch_wounded :
  forall (H : Type) (bs : Z) (maxWound : Z) (hash : list N -> H) (heqb : H -> H -> bool),
  forall ds ls fs ws (k : nat) (anc : list nat) (want : N) (o : obs),
    validate bs maxWound hash heqb ds ls fs = Some ws ->
    nth_error ls k = Some (anc, want, o) -> o <> OLink want ->
    In (mkwound WSymlink (Z.of_nat k) 0 0) (reported ws).
Proof.
  intros H bs maxWound hash heqb ds ls fs ws k anc want o. rewrite validate_unfold. intros Hv Hn Ho.
  eapply link_mismatch_wounded_lemma; [exact Hv|rewrite nth_error_map, Hn; reflexivity|].
  intros E. apply eff_seen in E; [auto|discriminate].
Qed.
Print Assumptions link_mismatch_wounded.

(** Validation never declares a deviating directory valid: if nothing is reported, every
    signed directory is a directory, every symlink has the signed destination and every file
    is a regular file with exactly the signed content; fail-fast validation returns Ok only then. *)
Theorem never_false_valid :
  forall (H : Type) (bs : Z), 0 < bs -> forall (maxWound : Z) (hash : list N -> H) (heqb : H -> H -> bool),
    (forall a b, heqb (hash a) (hash b) = true -> a = b) ->
  forall ds ls fs ws,
    validate bs maxWound hash heqb ds ls fs = Some ws -> reported ws = [] ->
    Forall (fun p => snd p = ODir) ds /\
    Forall (fun x => let '(_, want, o) := x in o = OLink want) ls /\
    Forall (fun x => let '(_, signed, o) := x in o = OFile signed) fs.
Proof. exact (@never_false_valid_full). Qed.
Print Assumptions never_false_valid.

Theorem failfast_ok_only_if_matching :
  forall (H : Type) (bs : Z), 0 < bs -> forall (maxWound : Z) (hash : list N -> H) (heqb : H -> H -> bool),
    (forall a b, heqb (hash a) (hash b) = true -> a = b) ->
  forall ds ls fs,
    failfast bs maxWound hash heqb ds ls fs = ROk ->
    Forall (fun p => snd p = ODir) ds /\
    Forall (fun x => let '(_, want, o) := x in o = OLink want) ls /\
    Forall (fun x => let '(_, signed, o) := x in o = OFile signed) fs.
Proof.
  intros H bs Hbs maxWound hash heqb Hinj ds ls fs. unfold failfast.
  destruct (validate bs maxWound hash heqb ds ls fs) as [ws|] eqn:Ev; [|discriminate].
  destruct (reported ws) eqn:Er; [|discriminate]. intros _. eapply never_false_valid; eassumption.
Qed.
Print Assumptions failfast_ok_only_if_matching.

(** Every reported wound names an existing entry of its kind and has 0 <= start <= end
    (false on the tree before the "fix:" commit recorded in known_findings.json: a file longer
    than signed produced [written, signed size) with start > end). *)
Theorem wounds_wellformed :
  forall (H : Type) (bs : Z), 0 < bs -> forall (maxWound : Z) (hash : list N -> H) (heqb : H -> H -> bool),
  forall ds ls fs ws w,
    validate bs maxWound hash heqb ds ls fs = Some ws -> In w ws ->
    wellformed w /\
    match wk w with
    | WDir => 0 <= widx w < Z.of_nat (length ds)
    | WSymlink => 0 <= widx w < Z.of_nat (length ls)
    | WFile | WClosed => 0 <= widx w < Z.of_nat (length fs)
    end.
Proof.
  intros H bs Hbs maxWound hash heqb ds ls fs ws w. rewrite validate_unfold. intros Hv Hin.
  destruct (eff_dirs_spec ds [] _ _ (surjective_pairing _)) as [Hlen _].
  pose proof (wounds_wellformed_lemma bs Hbs maxWound hash heqb _ _ _ _ w Hv Hin) as [Hw Hk]. split; [assumption|].
  rewrite !map_length, Hlen in Hk. exact Hk.
Qed.
Print Assumptions wounds_wellformed.

(** AggregateWounds keeps every wounded offset wounded and relays every marker that is not a FILE
    wound (healthy markers, DIR and SYMLINK wounds) untouched. *)
Theorem aggregate_preserves_cover :
  forall (maxSize i o : Z) (ws : list wound) (last : option wound),
    (forall w, In w ws -> widx w = i) ->
    (forall w, In w ws -> wk w = WFile -> wstart w <= wend w) ->
    (forall l, last = Some l -> wk l = WFile /\ widx l = i) ->
    ((exists l, last = Some l /\ in_wound i o l) \/ (exists w, In w ws /\ in_wound i o w)) ->
    exists w', In w' (aggregate maxSize last ws) /\ in_wound i o w'.
Proof.
  intros maxSize i o ws last Hidx Hwf Hlast Hcov. apply Exists_exists, aggregate_covers; try assumption.
  apply Exists_exists. destruct Hcov as [(l & -> & Hl)|(w & Hin & Hw)].
  - exists l. split; [left; reflexivity|assumption].
  - exists w. split; [apply in_or_app; right; assumption|assumption].
Qed.
Print Assumptions aggregate_preserves_cover.

Theorem aggregate_relays_healthy :
  forall (maxSize : Z) (ws : list wound) (last : option wound) (w : wound),
    In w ws -> wk w <> WFile -> In w (aggregate maxSize last ws).
Proof.
  intros maxSize ws. induction ws as [|x r IH]; intros last w Hin Hk; [destruct Hin|].
  destruct Hin as [->|Hin]; [rewrite aggregate_nonfile by assumption; apply in_or_app; right; left; reflexivity|].
  cbn [aggregate]. destruct (wk x); destruct last as [l|]; try (destruct ((wend l <=? wstart x) && (wstart x >=? wstart l)));
    try (destruct (wend _ - wstart _ >=? maxSize)); cbn; auto 6.
Qed.
Print Assumptions aggregate_relays_healthy.

(** non-vacuity: bs = 4, signed "1234|56", actual "1294|5" (one flip, one byte short):
    the run succeeds and reports [0,6) (block 0 flipped, block 1 short: contiguous, merged) and
    the size wound [5,6) *)
Example validate_example :
  option_map (@reported) (validate 4 100 (fun b : list N => b) nlist_eqb [([], ODir)] [([0%nat], 1%N, OLink 1%N)] [([0%nat], [1;2;3;4;5;6]%N, OFile [1;2;9;4;5]%N)])
  = Some [mkwound WFile 0 0 6; mkwound WFile 0 5 6].
Proof. vm_compute. reflexivity. Qed.

(** a wounded directory hides what is below it: dir 0 is a symlink on disk, so the file below
    it is wounded whole although its bytes (seen through the link) are the signed ones *)
Example hidden_subtree_example :
  option_map (@reported) (validate 4 100 (fun b : list N => b) nlist_eqb [([], OLink 7%N)] [] [([0%nat], [1;2;3]%N, OFile [1;2;3]%N)])
  = Some [mkwound WDir 0 0 0; mkwound WFile 0 0 3].
Proof. vm_compute. reflexivity. Qed.
