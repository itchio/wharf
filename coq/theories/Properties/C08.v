(** C08 — data already present in the old build is not sent again.
    Statements, each derived here in a few lines from the lemmas of the proof files, and
    [Print Assumptions].  Model: the C11 model of the differ
    (Wsync/{Weak,Diff,Library,Sign}.v) and Wsync/Account.v (pwr/diff.go makeOpsWriter);
    proofs: Wsync/IdenticalProofs.v, LibraryProofs.v, AccountProofs.v, Theorems.v, WeakProofs.v,
    RollProofs.v; for the edit bound Wsync/EditSpec.v (vocabulary), DiffProofs.v (the loop), SyncProofs.v,
    PieceProofs.v, EditProofs.v, C08EditTheorems.v.

    [account (Z.of_N bs) (sizes_of olds) (0,0) (map aop_of ops) = Some (reused, fresh)] are the
    ReusedBytes / FreshBytes counters of DiffContext after the operations [ops] of one file. *)
From Wharf Require Import Base.Prelude Wsync.Weak Wsync.Diff Wsync.Library Wsync.Sign Wsync.Account Wsync.Spec
     Wsync.LibraryProofs Wsync.Theorems Wsync.AccountProofs Wsync.IdenticalProofs
     Wsync.WeakProofs Wsync.RollProofs.
From Coq Require Import ZifyNat ZifyN.
Local Open Scope N_scope.

(** a source equal to some old file (same path, renamed, duplicated: any index [f], any
    preferred index) is expressed by block ranges only; the one exception is the leading empty
    data operation of an empty file.  Hence a patch between identical builds carries no data. *)
Theorem identical_file_no_fresh :
  forall (H : Type) (shash : list N -> H) (heqb : H -> H -> bool) (bs maxData : N)
         (olds : list (list N)) (src : list N) (pref : option N) (f : N),
    0 < bs -> 0 < maxData -> (forall x y, heqb x y = true <-> x = y) -> strong_injective shash bs olds src ->
    nth_error olds (N.to_nat f) = Some src ->
    forall ops, diff_ops shash heqb bs maxData olds src pref = Some ops ->
      Forall is_range_op ops \/ (src = [] /\ ops = [OpData 0 0]).
Proof.
  intros * Hbs Hmax Hh Hinj Hf * Hd.
  destruct (identical_ops bs maxData olds src _ Hbs Hmax
              (lookup_in_sound H shash heqb bs Hbs (fun x y => proj1 (Hh x y)) olds src pref Hinj)
              (lookup_in_complete H shash heqb bs Hbs (fun x => proj2 (Hh x x) eq_refl) olds src pref f Hf) ops Hd)
    as [Hr|[Hl Ho]]; [left; exact Hr|right].
  split; [|exact Ho]. unfold len in Hl. destruct src; [reflexivity|cbn in Hl; lia].
Qed.
Print Assumptions identical_file_no_fresh.

(** ... and the counters say so: ReusedBytes = size of the file, FreshBytes = 0 *)
Theorem identical_file_counters :
  forall (H : Type) (shash : list N -> H) (heqb : H -> H -> bool) (bs maxData : N)
         (olds : list (list N)) (src : list N) (pref : option N) (f : N),
    0 < bs -> 0 < maxData -> (forall x y, heqb x y = true <-> x = y) -> strong_injective shash bs olds src ->
    nth_error olds (N.to_nat f) = Some src ->
    forall ops, diff_ops shash heqb bs maxData olds src pref = Some ops ->
      account (Z.of_N bs) (sizes_of olds) (0, 0)%Z (map aop_of ops) = Some (Z.of_N (len src), 0%Z).
Proof.
  intros * Hbs Hmax Hh Hinj Hf * Hd.
  destruct (diff_ops_props H shash heqb bs maxData olds src pref Hbs Hmax (fun x y => proj1 (Hh x y)) Hinj ops Hd)
    as (Hden & Hr & Hdat & _).
  assert (Hz : EditSpec.fresh_of ops = 0)
    by (destruct (identical_file_no_fresh H shash heqb bs maxData olds src pref f Hbs Hmax Hh Hinj Hf ops Hd) as [Hrg|[_ ->]];
        [apply fresh_of_ranges; exact Hrg|reflexivity]).
  rewrite (account_den bs olds src Hbs ops 0%Z 0%Z Hr Hdat), Hden, Hz. unfold len. f_equal. f_equal; lia.
Qed.
Print Assumptions identical_file_counters.

(** for every source: the counters never fail on the differ's operations and
    FreshBytes + ReusedBytes = size of the new file *)
Theorem accounting :
  forall (H : Type) (shash : list N -> H) (heqb : H -> H -> bool) (bs maxData : N)
         (olds : list (list N)) (src : list N) (pref : option N),
    0 < bs -> 0 < maxData -> (forall x y, heqb x y = true -> x = y) -> strong_injective shash bs olds src ->
    forall ops, diff_ops shash heqb bs maxData olds src pref = Some ops ->
    exists reused fresh,
      account (Z.of_N bs) (sizes_of olds) (0, 0)%Z (map aop_of ops) = Some (reused, fresh) /\
      (reused + fresh = Z.of_N (len src))%Z.
Proof.
  intros * Hbs Hmax Hh Hinj * Hd.
  destruct (diff_ops_props H shash heqb bs maxData olds src pref Hbs Hmax Hh Hinj ops Hd) as (Hden & Hr & Hdat & _).
  eexists _, _. split; [exact (account_den bs olds src Hbs ops 0%Z 0%Z Hr Hdat)|]. rewrite Hden. unfold len. lia.
Qed.
Print Assumptions accounting.

(** The edit bound.  Full statement:

      edits_fresh_bound : src is obtained from olds[f] by k localized edits introducing n bytes,
        no two consecutive windows of src have equal weak hashes (the differ skips the lookup
        then) ->
        fresh <= n + (2k + 2) * bs.

    It is proved at the end of this file ([edits_fresh_bound], with [hash_invariant_all_along],
    [no_missed_match], [fresh_le_unsynced], [pieces_fresh_bound], [edits_fresh_bound_k1] on the
    way).  Also stated: the case k = 0 ([edits_fresh_bound_partial_k0]: fresh = 0, from
    [identical_file_counters]) and the arithmetic of the rolling hash ([weak_rolling_eq]: the
    uint32 rolling update yields the from-scratch weak hash of the shifted window; per iteration
    [rolling_step_correct]). *)
Theorem edits_fresh_bound_partial_k0 :
  forall (H : Type) (shash : list N -> H) (heqb : H -> H -> bool) (bs maxData : N)
         (olds : list (list N)) (src : list N) (pref : option N) (f : N),
    0 < bs -> 0 < maxData -> (forall x y, heqb x y = true <-> x = y) -> strong_injective shash bs olds src ->
    nth_error olds (N.to_nat f) = Some src ->
    forall ops reused fresh, diff_ops shash heqb bs maxData olds src pref = Some ops ->
      account (Z.of_N bs) (sizes_of olds) (0, 0)%Z (map aop_of ops) = Some (reused, fresh) ->
      (fresh <= 0 + (2 * 0 + 2) * Z.of_N bs)%Z.
Proof.
  intros * Hbs Hmax Hh Hinj Hf * Hd Ha.
  rewrite (identical_file_counters H shash heqb bs maxData olds src pref f Hbs Hmax Hh Hinj Hf ops Hd) in Ha.
  injection Ha as _ <-. lia.
Qed.
Print Assumptions edits_fresh_bound_partial_k0.

(** the rolling checksum stays in sync with the block checksum: rolling the hash of [x :: m]
    by one byte ([x] leaves, [y] enters) gives the from-scratch hash of [m ++ [y]], in the
    uint32 arithmetic of the Go code *)
Theorem weak_rolling_eq :
  forall (x y : N) (m : list N),
    let n := N.of_nat (length (x :: m)) in
    n < W32 -> x < W32 ->
    let '(_, b1, b2) := bhash (x :: m) in
    roll n x y b1 b2 = bhash (m ++ [y]).
Proof. intros x y m n _ _. exact (roll_bhash x y m). Qed.
Print Assumptions weak_rolling_eq.

(** one rolling iteration of ComputeDiff's hash block, on a full window: from the hash of the
    window one byte earlier to the hash of the current window *)
Theorem rolling_step_correct :
  forall (bs : N) (get : N -> N), 0 < bs -> bs < W32 -> (forall i, get i < W32) ->
  forall s : st,
    rolling s = true -> 1 <= base s + sumTail s -> sumTail s + bs <= validTo s ->
    (beta s, beta1 s, beta2 s) = bhash (window get (base s + sumTail s - 1) bs) ->
    aPop s = get (base s + sumTail s - 1) ->
    let s' := fst (hash_step bs get s) in
    (beta s', beta1 s', beta2 s') = bhash (window get (base s + sumTail s) bs).
Proof. intros bs get Hbs _ _ s. exact (hash_step_rolls_correctly bs get s Hbs). Qed.
Print Assumptions rolling_step_correct.

(** non-vacuity: two identical files of 5 bytes at bs = 2 *)
Example identical_example :
  diff_ops (fun b : list N => b) nlist_eqb 2 3 [[7;7;7;7;7]; [1;2;3;4;5]] [1;2;3;4;5] None
  = Some [OpRange 1 0 3].
Proof. vm_compute. reflexivity. Qed.

(** * The edit bound for k >= 1 edits

    Vocabulary ([Wsync/EditSpec.v]): [fresh_of ops] = data bytes of [ops]; [no_weak_repeat bs src] =
    no two consecutive full windows of [src] have the same weak hash (the visible form of "high-
    entropy content": [ComputeDiff] skips the lookup of a window whose rolled hash equals the
    previous one); [not_skipped bs src q] = the same at the single window [q];
    [old_block_at bs olds src q] = the full window of [src] at [q] has the content of a complete
    block of some old file; [sync_points bs olds src qs] = [qs] are non-overlapping such windows,
    none skipped; [apply_edits es old = (src, n)] = [src] results from [old] by the edits [es]
    (overwrite / insert / delete of any length at any offset, one after the other, clipped like the
    generator [c08EditAt] of the harness) which introduce [n] bytes; pieces = a source given as
    a sequence of fresh bytes and stretches copied from old files.
    The statements carry [bs < W32] and [Forall (fun x => x < W32) src] (what Go's types guarantee);
    no proof uses them ([WeakProofs.roll_bhash] needs no bound). *)
From Wharf Require Import Wsync.EditSpec Wsync.DiffProofs Wsync.SyncProofs Wsync.PieceProofs Wsync.EditProofs Wsync.C08EditTheorems.

(** [rolling_step_correct] threaded through the whole loop.  At the head of every iteration
    (any number [n] of iterations from the initial state) a state that is rolling carries the weak
    hash of the full window one byte before the current one and the byte that leaves; and after
    every iteration that is not the last run, [beta] is the weak hash (as computed at signing
    time) of the window that iteration looked up. *)
Theorem hash_invariant_all_along :
  forall (H : Type) (shash : list N -> H) (heqb : H -> H -> bool) (bs maxData : N)
         (olds : list (list N)) (src : list N) (pref : option N),
    0 < bs -> 0 < maxData -> bs < W32 -> (forall x y, heqb x y = true <-> x = y) ->
    strong_injective shash bs olds src -> Forall (fun x => x < W32) src ->
    forall n : N,
    let lookup := lookup_in heqb (sign_all shash bs 0 olds) pref (fun a l => shash (sub src a l)) in
    let s := N.iter n (step bs maxData (get_of src) (len src) lookup) init in
    lastRun s = false ->
    (rolling s = true ->
       1 <= base s + sumTail s /\
       (beta s, beta1 s, beta2 s) = bhash (window (get_of src) (base s + sumTail s - 1) bs) /\
       aPop s = get_of src (base s + sumTail s - 1)) /\
    (lastRun (refill bs maxData (len src) s) = false ->
       beta (step bs maxData (get_of src) (len src) lookup s) = weak_of (sub src (base s + sumTail s) bs)).
Proof.
  intros * Hbs Hmax _ Hh Hinj _ n lookup s Hl.
  pose proof (lookup_in_sound H shash heqb bs Hbs (fun x y => proj1 (Hh x y)) olds src pref Hinj) as Hs.
  pose proof (Head_all_along bs maxData olds src _ Hbs Hmax Hs n Hl) as HH.
  split; [exact (h_hash _ _ _ _ _ HH)|]. intros Hlr. unfold step. rewrite Hl.
  apply (iter_nonlast bs maxData olds src _ Hbs Hmax Hs s HH Hlr).
Qed.
Print Assumptions hash_invariant_all_along.

(** No match is missed: in an iteration that is not the last run (the window is full), a
    window that holds a complete block of an old file and is not skipped by the [β == oldβ]
    shortcut makes the iteration enqueue a one-block range with exactly that content, and the
    window moves on by a block. *)
Theorem no_missed_match :
  forall (H : Type) (shash : list N -> H) (heqb : H -> H -> bool) (bs maxData : N)
         (olds : list (list N)) (src : list N) (pref : option N),
    0 < bs -> 0 < maxData -> bs < W32 -> (forall x y, heqb x y = true <-> x = y) ->
    strong_injective shash bs olds src -> Forall (fun x => x < W32) src ->
    forall n : N,
    let lookup := lookup_in heqb (sign_all shash bs 0 olds) pref (fun a l => shash (sub src a l)) in
    let s := N.iter n (step bs maxData (get_of src) (len src) lookup) init in
    let p := base s + sumTail s in
    lastRun s = false -> lastRun (refill bs maxData (len src) s) = false ->
    old_block_at bs olds src p -> not_skipped bs src p ->
    exists f i e,
      em (step bs maxData (get_of src) (len src) lookup s) = enqueue e (OpRange f i 1) /\
      base (step bs maxData (get_of src) (len src) lookup s) + sumTail (step bs maxData (get_of src) (len src) lookup s) = p + bs /\
      exists old, nth_error olds (N.to_nat f) = Some old /\ bs * i + bs <= len old /\
                  sub old (bs * i) bs = sub src p bs.
Proof.
  intros * Hbs Hmax _ Hh Hinj _ n lookup s p Hl Hlr Hob Hns.
  apply (no_missed_match_loop bs maxData olds src _ Hbs Hmax (lookup_in_sound H shash heqb bs Hbs (fun x y => proj1 (Hh x y)) olds src pref Hinj) n Hl Hlr Hns).
  apply lookup_in_finds; [assumption|intros x; apply Hh; reflexivity|exact Hob].
Qed.
Print Assumptions no_missed_match.

(** ... and an iteration is not the last run as long as its window starts at least two blocks
    less one byte before the end of the source (reads end on multiples of the block size) *)
Theorem not_last_run_far_from_end :
  forall (H : Type) (shash : list N -> H) (heqb : H -> H -> bool) (bs maxData : N)
         (olds : list (list N)) (src : list N) (pref : option N),
    0 < bs -> 0 < maxData -> bs < W32 -> (forall x y, heqb x y = true <-> x = y) ->
    strong_injective shash bs olds src -> Forall (fun x => x < W32) src ->
    forall n : N,
    let lookup := lookup_in heqb (sign_all shash bs 0 olds) pref (fun a l => shash (sub src a l)) in
    let s := N.iter n (step bs maxData (get_of src) (len src) lookup) init in
    lastRun s = false -> base s + sumTail s + 2 * bs <= len src + 1 ->
    lastRun (refill bs maxData (len src) s) = false.
Proof.
  intros * Hbs Hmax _ Hh Hinj _ n lookup s Hl Hfar.
  pose proof (lookup_in_sound H shash heqb bs Hbs (fun x y => proj1 (Hh x y)) olds src pref Hinj) as Hs.
  pose proof (Head_all_along bs maxData olds src _ Hbs Hmax Hs n Hl) as HH.
  destruct (lastRun (refill bs maxData (len src) s)) eqn:E; [|reflexivity].
  destruct (iter_last bs maxData olds src _ Hbs Hmax Hs s HH E) as (H1 & H2 & _). lia.
Qed.
Print Assumptions not_last_run_far_from_end.

(** the counting argument: whatever non-overlapping sync points [qs] the source has w.r.t. the
    old files, all of them but one (the last run) are worth a block that is not sent:
    FreshBytes + bs * (|qs| - 1) <= size of the new file.  No assumption on how [src] came
    about, on other occurrences of old blocks, or on [maxData] (splitting data operations does
    not change the byte count; the buffer wrap is covered by the loop invariant of C11). *)
Theorem fresh_le_unsynced :
  forall (H : Type) (shash : list N -> H) (heqb : H -> H -> bool) (bs maxData : N)
         (olds : list (list N)) (src : list N) (pref : option N) (qs : list N),
    0 < bs -> 0 < maxData -> bs < W32 -> (forall x y, heqb x y = true <-> x = y) ->
    strong_injective shash bs olds src -> Forall (fun x => x < W32) src ->
    sync_points bs olds src qs ->
    forall ops reused fresh, diff_ops shash heqb bs maxData olds src pref = Some ops ->
      account (Z.of_N bs) (sizes_of olds) (0, 0)%Z (map aop_of ops) = Some (reused, fresh) ->
      (fresh + Z.of_N bs * (Z.of_N (len qs) - 1) <= Z.of_N (len src))%Z.
Proof.
  intros * Hbs Hmax _ Hh Hinj _ Hs * Hd Ha.
  pose proof (fresh_le_unsynced_lemma H shash heqb bs maxData olds pref Hbs Hmax Hh src qs Hinj Hs ops Hd) as Hf.
  rewrite (account_fresh_of _ _ _ _ _ _ _ Ha). nia.
Qed.
Print Assumptions fresh_le_unsynced.

(** a new file assembled from fresh bytes and stretches of old files (any files, any order:
    edits, moved and duplicated data): FreshBytes <= the fresh bytes + one block for every end of
    a stretch that is off the block grid of its old file + one block (the last run) *)
Theorem pieces_fresh_bound :
  forall (H : Type) (shash : list N -> H) (heqb : H -> H -> bool) (bs maxData : N)
         (olds : list (list N)) (src : list N) (pref : option N) (pl : list piece),
    0 < bs -> 0 < maxData -> bs < W32 -> (forall x y, heqb x y = true <-> x = y) ->
    strong_injective shash bs olds src -> Forall (fun x => x < W32) src -> no_weak_repeat bs src ->
    Forall (piece_ok olds) pl -> src = flatten olds pl ->
    forall ops reused fresh, diff_ops shash heqb bs maxData olds src pref = Some ops ->
      account (Z.of_N bs) (sizes_of olds) (0, 0)%Z (map aop_of ops) = Some (reused, fresh) ->
      (fresh <= Z.of_N (pieces_fresh pl) + (Z.of_N (pieces_cuts bs pl) + 1) * Z.of_N bs)%Z.
Proof.
  intros * Hbs Hmax _ Hh Hinj _ Hn Hok Hsrc * Hd Ha.
  pose proof (pieces_fresh_bound_lemma H shash heqb bs maxData olds pref Hbs Hmax Hh pl src Hok Hsrc Hinj Hn ops Hd) as Hf.
  rewrite (account_fresh_of _ _ _ _ _ _ _ Ha). nia.
Qed.
Print Assumptions pieces_fresh_bound.

(** One edit (k = 1) - an overwrite, an insertion or a deletion of any length at any offset:
    FreshBytes <= introduced + 4 blocks, whether or not the edit shifts the data behind it *)
Theorem edits_fresh_bound_k1 :
  forall (H : Type) (shash : list N -> H) (heqb : H -> H -> bool) (bs maxData : N)
         (olds : list (list N)) (src : list N) (pref : option N) (f : N) (old : list N) (e : edit),
    0 < bs -> 0 < maxData -> bs < W32 -> (forall x y, heqb x y = true <-> x = y) ->
    strong_injective shash bs olds src -> Forall (fun x => x < W32) src -> no_weak_repeat bs src ->
    nth_error olds (N.to_nat f) = Some old -> src = apply_edit e old ->
    forall ops reused fresh, diff_ops shash heqb bs maxData olds src pref = Some ops ->
      account (Z.of_N bs) (sizes_of olds) (0, 0)%Z (map aop_of ops) = Some (reused, fresh) ->
      (fresh <= Z.of_N (introduced e old) + 4 * Z.of_N bs)%Z.
Proof.
  intros * Hbs Hmax _ Hh Hinj _ Hn Hf He * Hd Ha.
  assert (Hes : apply_edits [e] old = (src, introduced e old + 0)) by (cbn [apply_edits]; rewrite He; reflexivity).
  pose proof (edits_fresh_bound_lemma H shash heqb bs maxData olds pref Hbs Hmax Hh f old [e] src _ Hf Hes Hinj Hn ops Hd) as Hfr.
  rewrite (account_fresh_of _ _ _ _ _ _ _ Ha). unfold len in Hfr. cbn [length] in Hfr. lia.
Qed.
Print Assumptions edits_fresh_bound_k1.

(** THE EDIT BOUND, any number of edits: a new file obtained from old file [f] by the edits
    [es] which introduce [n] bytes, on content without repeated consecutive weak hashes, costs
    FreshBytes <= n + (2k + 2) * bs  with k = number of edits -
    independent of the size of the file, of where the edits are and of whether they shift the
    following data; for every block size, [maxData], preferred file, and other old files. *)
Theorem edits_fresh_bound :
  forall (H : Type) (shash : list N -> H) (heqb : H -> H -> bool) (bs maxData : N)
         (olds : list (list N)) (src : list N) (pref : option N) (f : N) (old : list N) (es : list edit) (n : N),
    0 < bs -> 0 < maxData -> bs < W32 -> (forall x y, heqb x y = true <-> x = y) ->
    strong_injective shash bs olds src -> Forall (fun x => x < W32) src -> no_weak_repeat bs src ->
    nth_error olds (N.to_nat f) = Some old -> apply_edits es old = (src, n) ->
    forall ops reused fresh, diff_ops shash heqb bs maxData olds src pref = Some ops ->
      account (Z.of_N bs) (sizes_of olds) (0, 0)%Z (map aop_of ops) = Some (reused, fresh) ->
      (fresh <= Z.of_N n + (2 * Z.of_nat (length es) + 2) * Z.of_N bs)%Z.
Proof.
  intros * Hbs Hmax _ Hh Hinj _ Hn Hf He * Hd Ha.
  pose proof (edits_fresh_bound_lemma H shash heqb bs maxData olds pref Hbs Hmax Hh f old es src n Hf He Hinj Hn ops Hd) as Hfr.
  rewrite (account_fresh_of _ _ _ _ _ _ _ Ha). unfold len in Hfr. nia.
Qed.
Print Assumptions edits_fresh_bound.

(** non-vacuity: a shifting insertion and a deletion on an 11-byte file at bs = 2; every hypothesis
    of [edits_fresh_bound] holds (the strong hash is the block itself) and 6 data bytes go out *)
Example edits_example :
  let old := [1;2;3;4;5;6;7;8;9;10;11] in
  let src := [1;2;3;50;60;70;4;5;6;8;9;10;11] in
  apply_edits [Insert 3 [50;60;70]; Delete 9 1] old = (src, 3) /\
  no_weak_repeat 2 src /\ Forall (fun x => x < W32) src /\
  strong_injective (fun b : list N => b) 2 [[9;9;9]; old] src /\
  diff_ops (fun b : list N => b) nlist_eqb 2 3 [[9;9;9]; old] src None
  = Some [OpRange 1 0 1; OpData 2 3; OpData 5 2; OpRange 1 2 1; OpData 9 1; OpRange 1 4 2].
Proof.
  cbv zeta. split; [vm_compute; reflexivity|]. split; [apply nwr_b_sound; vm_compute; reflexivity|].
  split; [repeat constructor|]. split; [intros f i blk a l _ _ E; exact E|vm_compute; reflexivity].
Qed.
