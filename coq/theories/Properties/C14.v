(** C14 — an overlay turns the old file into the new file, whatever the write pattern.
    The model is Overlay/Writer.v (writer, bufio protocol, sessions) + Overlay/Patch.v (Patch +
    truncate); each theorem is a lemma of, or derived in a few lines from the lemmas of,
    Overlay/{FastProofs,WindowProofs,WriterProofs,SessionProofs,CodecProofs,SweepProofs}.v.

    [bufSize] (128 KiB in Go) and [threshold] (8 KiB) are arbitrary; the message encoding
    [enc]/[dec] and the [magic] bytes are arbitrary too, as long as a message followed by
    anything decodes to itself ([dec_enc]; proved for the real varint/protobuf encoding in
    [real_codec_is_prefix_code]).  Modelling assumptions (see the headers of the model files):
    the old-file reader returns full reads until the end of the file; reads and writes do not
    fail; the patched file behaves like a POSIX file under forward seek / write / truncate.
    Words of the statements that are defined in the proof files: [not_end] (Overlay/WindowProofs.v),
    [ops_len] (Overlay/WriterProofs.v), [pre] (Overlay/SessionProofs.v). *)
From Wharf Require Import Base.Prelude Overlay.Writer Overlay.Patch Overlay.Codec Overlay.FastProofs
  Overlay.WindowProofs Overlay.WriterProofs Overlay.SessionProofs Overlay.CodecProofs
  Exec.C14Sweep Overlay.SweepProofs.
Local Open Scope N_scope.

(** One session: for any old content, any sequence of Write calls (of any sizes, empty ones
    included) and Flush calls at any points, followed by Finalize: no loop of the writer hangs
    or fails, and applying the overlay file to the old content and truncating at the final
    position gives exactly the concatenation of what was written.  [file0] is whatever the
    overlay file held before (it is opened without O_TRUNC). *)
Theorem overlay_correct :
  forall (bufSize threshold : N) (enc : op -> list byte) (dec : list byte -> option (op * list byte)) (magic : list byte),
    0 < bufSize ->
    (forall o rest, dec (enc o ++ rest) = Some (o, rest)) ->
  forall (old : list byte) (evs : list event) (file0 : list byte),
    let st := finalize bufSize threshold enc (run_events bufSize threshold enc (new_writer enc magic old 0 0) evs) in
    w_fail st = false /\
    patch dec magic old (write_at file0 0 (session_bytes st)) = POk (written evs).
Proof. exact overlay_correct_lemma. Qed.
Print Assumptions overlay_correct.

(** After a Flush (at any point of any session opened at offsets [roff]/[ooff]): ReadOffset()
    is the offset the session started from plus the number of bytes written to the writer
    since, OverlayOffset() is the starting overlay offset plus the number of bytes the writer
    has put into the overlay file, and the buffer is empty. *)
Theorem offsets_exact_after_flush :
  forall (bufSize threshold : N) (enc : op -> list byte) (magic : list byte),
    0 < bufSize ->
  forall (old : list byte) (roff ooff : N) (evs : list event),
    let st := bw_flush bufSize threshold enc (run_events bufSize threshold enc (new_writer enc magic old roff ooff) evs) in
    w_roff st = roff + len (written evs) /\
    w_ooff st = ooff + len (session_bytes st) /\
    w_bn st = 0 /\ w_bbuf st = [] /\ w_fail st = false.
Proof.
  intros bufSize threshold enc magic Hbs old roff ooff evs.
  destruct (session_ok bufSize threshold enc magic Hbs old roff ooff evs) as (ops & Hrel & Hf & Hbn & Hbb). cbv zeta.
  rewrite (rel_session_bytes enc _ _ _ _ Hrel). destruct Hrel as [R1 R2 R3 R4 R5 R6].
  destruct (new_writer_fields enc magic old roff ooff) as (_ & Hro & _).
  rewrite R2, R4, Hro, (new_writer_ooff enc magic old roff ooff), !len_spec, app_length.
  repeat split; try assumption. lia.
Qed.
Print Assumptions offsets_exact_after_flush.

(** Any number of sessions: every session but the last ends with a Flush whose reported
    offsets are where the next one is opened; in between, the overlay file keeps its bytes up
    to the saved overlay offset and *anything* ([stale], chosen per session) after it - the
    lost tail of the dead process, junk, an old end marker.  After the last session's
    Finalize, patch + truncate gives the concatenation of everything written in all sessions. *)
Theorem overlay_sessions :
  forall (bufSize threshold : N) (enc : op -> list byte) (dec : list byte -> option (op * list byte)) (magic : list byte),
    0 < bufSize ->
    (forall o rest, dec (enc o ++ rest) = Some (o, rest)) ->
  forall (old : list byte) (ss : list (list event * list byte)) (last : list event) (file0 : list byte),
    let '(f, fail, _) := run_sessions bufSize threshold enc magic old file0 0 0 ss last in
    fail = false /\
    patch dec magic old f = POk (concat (map (fun s => written (fst s)) ss) ++ written last).
Proof. exact overlay_sessions_lemma. Qed.
Print Assumptions overlay_sessions.

(** The resume point is sound on its own: in a state reachable by earlier sessions ([pre]),
    the overlay cut at the overlay offset reported after a Flush and closed by an end marker
    applies to the old file and gives exactly what has been written so far. *)
Theorem flushed_prefix_applies :
  forall (bufSize threshold : N) (enc : op -> list byte) (dec : list byte -> option (op * list byte)) (magic : list byte),
    0 < bufSize ->
    (forall o rest, dec (enc o ++ rest) = Some (o, rest)) ->
  forall (old file : list byte) (roff ooff : N) (allops : list op) (fed : list byte) (evs : list event) (junk : list byte),
    pre enc magic old file roff ooff allops fed ->
    let st := bw_flush bufSize threshold enc (run_events bufSize threshold enc (new_writer enc magic old roff ooff) evs) in
    patch dec magic old (firstn (N.to_nat (w_ooff st)) (write_at file ooff (session_bytes st)) ++ enc EndMark ++ junk)
    = POk (fed ++ written evs).
Proof. exact flushed_prefix_lemma. Qed.
Print Assumptions flushed_prefix_applies.

(** The core: the messages emitted for one window [buf], compared with what a read of
    [length buf] bytes returned ([rb], shorter only at the end of the old file), applied at a
    cursor standing at the window's start in the old file, write exactly [buf] and leave the
    cursor at the window's end - so their lengths add up to the window and SKIP only ever
    stands for bytes that are the same in the old file and in the window. *)
Theorem window_ok :
  forall (threshold : N) (buf rb rest before : list byte),
    (length rb <= length buf)%nat ->
    ((length rb < length buf)%nat -> rest = []) ->
    apply_ops (write_window threshold rb buf) (before, rb ++ rest) = (rev buf ++ before, rest) /\
    Forall not_end (write_window threshold rb buf).
Proof. exact WindowProofs.window_ok. Qed.
Print Assumptions window_ok.

Theorem window_lengths :
  forall (threshold : N) (buf rb rest : list byte),
    (length rb <= length buf)%nat ->
    ((length rb < length buf)%nat -> rest = []) ->
    ops_len (write_window threshold rb buf) = len buf.
Proof. intros threshold buf rb rest H _. exact (window_len threshold buf rb H). Qed.
Print Assumptions window_lengths.

(** The hypothesis about the encoding holds for the real wire format (uvarint length prefix +
    proto3 fields of OverlayOp) that Exec/C14.v uses: the theorems are not vacuous. *)
Theorem real_codec_is_prefix_code : forall o rest, dec (enc o ++ rest) = Some (o, rest).
Proof. exact dec_enc_real. Qed.
Print Assumptions real_codec_is_prefix_code.

(** The statement of [overlay_correct] / [overlay_sessions] at the executable instantiation (real
    codec), swept over tiny parameters (window 4 / threshold 1 up to 6 bytes, 3/1, 2/0, 1/2):
    every new content over two symbols, every old length, every partition into writes, with and
    without flushes, every two-session split with stale bytes (Exec/C14Sweep.v).  The sweep is
    [true] at every window size > 0, threshold and length ([SweepProofs.sweep_true], from the two
    theorems and [real_codec_is_prefix_code]); it can also be run: [Eval vm_compute in sweep 2 0 5]. *)
Theorem tiny_parameter_sweep :
  sweep 4 1 6 = true /\ sweep 3 1 6 = true /\ sweep 2 0 5 = true /\ sweep 1 2 4 = true.
Proof. repeat apply conj; apply sweep_true; reflexivity. Qed.
Print Assumptions tiny_parameter_sweep.

(** non-vacuity, bufSize 4 / threshold 1: old "aaaaaaaa", new "aaXaaaaY", written as 3+5 bytes
    with a Flush in between; the overlay holds header, SKIP 2, FRESH "X", FRESH "aaaaY"... and
    patching gives the new content *)
Example overlay_example :
  let old := [1;1;1;1;1;1;1;1] in
  let st := finalize 4 1 enc (run_events 4 1 enc (new_writer enc magic old 0 0) [EvWrite [1;1;9]; EvFlush; EvWrite [1;1;1;1;7]]) in
  patch dec magic old (write_at [] 0 (session_bytes st)) = POk [1;1;9;1;1;1;1;7]
  /\ decode_all dec 20 (skipn 4 (session_bytes st)) = Some [Skip 0; Skip 2; Fresh [9]; Skip 4; Fresh [7]; EndMark].
Proof. vm_compute. split; reflexivity. Qed.
