(** C15 — diffing is deterministic and free of data races.
    Each theorem is derived here in a few lines from the lemmas of Conc/FanoutProofs.v,
    Conc/CollectorProofs.v and Conc/PickProofs.v.  Models: Conc/Fanout.v (the per-file
    structure of pwr/diff.go: multiread over two pipes + taskgroup), Conc/Collector.v (the
    dispatcher / workers / collector of bsdiff/diff.go with the hand-back tokens), Conc/Pick.v
    (the target choice of rediff.analyzePatch).

    What is NOT a theorem here, and cannot be one over these models: the absence of Go data
    races (unsynchronised conflicting memory accesses of the compiled program under the Go
    memory model).  The models have one global interleaving semantics with atomic steps; a
    data race is not expressible in them.  That half of the property is runtime evidence: the
    harness runs diff + sign, rediff and bsdiff in a `go build -race` binary on every check
    (checks/props/C15.json, "trusted_base").  The level of C15 is therefore *partial*. *)
From Wharf Require Import Base.Prelude Conc.Fanout Conc.FanoutProofs Conc.Collector Conc.CollectorProofs Conc.Pick Conc.PickProofs.

(** For every upstream chunking (the reads of the source pool, however short, empty reads
    included; [eofdata]: the last read returns its bytes together with io.EOF instead of
    being followed by a read that returns (0, io.EOF)), every pair of consumer buffer sizes and every interleaving of the producer,
    the two consumers and the task group ([sched]; the buffer size of a consumer read is part
    of the schedule): when the end marker is written both consumers have returned and each
    produced exactly what it produces from the whole content read sequentially — provided a
    consumer's output is a function of the bytes it receives, not of their slicing (C11 for
    the differ, C04 for the signer).  And the end marker can always still be reached. *)
Theorem fanout_deterministic :
  forall (O1 O2 : Type) (out1 : list (list N) -> O1) (spec1 : list N -> O1)
         (out2 : list (list N) -> O2) (spec2 : list N -> O2),
    (forall pieces, out1 pieces = spec1 (concat pieces)) ->
    (forall pieces, out2 pieces = spec2 (concat pieces)) ->
    forall (chunks : list (list N)) (eofdata : bool) (sched : list fthread),
      let s := frun sched (init_fanout_eof chunks eofdata) in
      (fmarker s = true -> out1 (fp1 s) = spec1 (concat chunks) /\ out2 (fp2 s) = spec2 (concat chunks)) /\
      (exists more, fmarker (frun more s) = true).
Proof.
  intros O1 O2 out1 spec1 out2 spec2 Hc1 Hc2 chunks eofdata sched s.
  destruct (finv_results _ s (fanout_reachable _ chunks eofdata sched eq_refl)) as [H1 [H2 [H3 H4]]].
  split; [|assumption]. intro Hm. destruct (H3 Hm) as [D1 D2].
  rewrite Hc1, Hc2, (H1 D1), (H2 D2). split; reflexivity.
Qed.
Print Assumptions fanout_deterministic.

(** the bytes themselves: each consumer that has returned received exactly the upstream
    bytes, the marker comes after both, no state is stuck *)
Theorem fanout_bytes :
  forall (chunks : list (list N)) (eofdata : bool) (sched : list fthread),
    let s := frun sched (init_fanout_eof chunks eofdata) in
    (fdone1 s = true -> concat (fp1 s) = concat chunks) /\
    (fdone2 s = true -> concat (fp2 s) = concat chunks) /\
    (fmarker s = true -> fdone1 s = true /\ fdone2 s = true) /\
    (exists more, fmarker (frun more s) = true).
Proof. intros chunks eofdata sched. exact (finv_results _ _ (fanout_reachable _ chunks eofdata sched eq_refl)). Qed.
Print Assumptions fanout_bytes.

(** two runs over the same bytes, sliced differently upstream, ended differently (EOF with
    the last bytes or after them) and scheduled differently, give the same two outputs *)
Theorem fanout_chunking_independent :
  forall (O1 O2 : Type) (out1 : list (list N) -> O1) (spec1 : list N -> O1)
         (out2 : list (list N) -> O2) (spec2 : list N -> O2),
    (forall pieces, out1 pieces = spec1 (concat pieces)) ->
    (forall pieces, out2 pieces = spec2 (concat pieces)) ->
    forall (chunksA chunksB : list (list N)) (eofA eofB : bool) (schedA schedB : list fthread),
      concat chunksA = concat chunksB ->
      let sA := frun schedA (init_fanout_eof chunksA eofA) in
      let sB := frun schedB (init_fanout_eof chunksB eofB) in
      fmarker sA = true -> fmarker sB = true ->
      out1 (fp1 sA) = out1 (fp1 sB) /\ out2 (fp2 sA) = out2 (fp2 sB).
Proof.
  intros O1 O2 out1 spec1 out2 spec2 Hc1 Hc2 chunksA chunksB eofA eofB schedA schedB E sA sB HA HB.
  destruct (fanout_deterministic O1 O2 out1 spec1 out2 spec2 Hc1 Hc2 chunksA eofA schedA) as [XA _].
  destruct (fanout_deterministic O1 O2 out1 spec1 out2 spec2 Hc1 Hc2 chunksB eofB schedB) as [XB _].
  destruct (XA HA) as [A1 A2]. destruct (XB HB) as [B1 B2]. fold sA in A1, A2. fold sB in B1, B2.
  rewrite A1, A2, B1, B2, E. split; reflexivity.
Qed.
Print Assumptions fanout_chunking_independent.

(** For every number of blocks, workers (>= 1), channel capacity (>= 1; 256 in Go), every
    assignment of matches to blocks and every interleaving of the dispatcher, the workers
    and the collector: when the collector closes its output it has forwarded the matches of
    block 0, then of block 1, ... (= [all_matches]), and it can always still get there: no
    reachable state is stuck (a worker's matches channel never holds more than one block's
    output, the hand-back token is never sent twice). *)
Theorem collector_ordered :
  forall (A : Type) (ms : nat -> list A) (nb nw cap : nat),
    0 < nw -> 0 < cap ->
    forall (sched : list cthread),
      let s := crun A ms nb nw cap sched (init_collector A nw) in
      (cclosed A s = true -> cout A s = all_matches A ms nb) /\
      (exists more, cclosed A (crun A ms nb nw cap more s) = true).
Proof.
  intros A ms nb nw cap Hnw Hcap sched.
  apply (kinv_results A ms nb nw cap Hnw Hcap), (kinv_run A ms nb nw cap Hnw), (kinv_init A ms nb nw Hnw).
Qed.
Print Assumptions collector_ordered.

(** non-vacuity *)
Example fanout_instance :
  let s := frun [TProducer; TCons1 2; TCons1 2; TCons2 5; TProducer; TCons1 1; TCons2 1; TProducer; TCons1 4; TCons2 4; TProducer; TCons2 1; TCons1 1; TGroup]
                (init_fanout [[1;2;3]; []]%N) in
  fmarker s = true /\ fp1 s = [[1;2]; [3]; []; []]%N /\ fp2 s = [[1;2;3]; []; []]%N.
Proof. exact fanout_example. Qed.

Example fanout_instance_eofdata :
  let s := frun [TProducer; TCons1 2; TCons1 2; TCons2 5; TProducer; TCons1 1; TCons2 1; TGroup]
                (init_fanout_eof [[1;2;3]]%N true) in
  fmarker s = true /\ fp1 s = [[1;2]; [3]]%N /\ fp2 s = [[1;2;3]]%N.
Proof. exact fanout_example_eofdata. Qed.

Example collector_instance :
  let ms := fun b => match b with 0 => [10; 11; 12] | 1 => [] | 2 => [20] | _ => [30; 31] end in
  let s := crun nat ms 4 2 2 (concat (repeat [CWorker 1; CDispatch; CWorker 0; CCollect] 40)) (init_collector nat 2) in
  cclosed nat s = true /\ cout nat s = [10; 11; 12; 20; 30; 31].
Proof. exact collector_example. Qed.

(** The optimizer's choice of the old file a new file is bsdiff'ed against (rediff.go,
    analyzePatch): the repaired loop visits the candidates by file index, so whatever order
    the Go map hands them out in ([Permutation]) the choice is the same ... *)
Theorem optimize_choice_deterministic :
  forall (l l' : list Pick.cand),
    NoDup (map Pick.cidx l) -> Permutation.Permutation l l' -> Pick.pick_sorted l = Pick.pick_sorted l'.
Proof. intros l l' Hn Hp. unfold pick_sorted. f_equal. apply sort_canonical; assumption. Qed.
Print Assumptions optimize_choice_deterministic.

(** ... while the unchanged loop, which follows the map's order, does not (two old files
    with equal claims on a new file of another name: the corpus case of the harness). *)
Theorem optimize_choice_refuted :
  exists (l l' : list Pick.cand),
    NoDup (map Pick.cidx l) /\ Permutation.Permutation l l' /\ Pick.pick_in_order l <> Pick.pick_in_order l'.
Proof.
  exists [mkCand 0 5 false; mkCand 1 5 false], [mkCand 1 5 false; mkCand 0 5 false].
  split; [repeat constructor; cbn; intuition discriminate|]. split; [apply Permutation.perm_swap|]. cbn. discriminate.
Qed.
Print Assumptions optimize_choice_refuted.
