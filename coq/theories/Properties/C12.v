(** C12 — a bsdiff series applied to the old file yields the new file.
    Each theorem is derived here in a few lines from the lemmas of Bsdiff/ScanProofs.v,
    RoundtripProofs.v, LruProofs.v, PatchIOProofs.v, SuffixProofs.v; models in Bsdiff/Scan.v,
    Patch.v, Lru.v, PatchIO.v, Suffix.v; the executable instance [run_bsd] / [GO_BLOCK] is in
    Exec/C12.v. *)
From Wharf Require Import Base.Prelude Bsdiff.Scan Bsdiff.ScanProofs Bsdiff.Patch Bsdiff.RoundtripProofs Bsdiff.Lru Bsdiff.LruProofs
  Bsdiff.Suffix Bsdiff.SuffixProofs Bsdiff.PatchIO Bsdiff.PatchIOProofs Exec.C12.
Local Open Scope Z_scope.

(** For every old and new byte string, every partition setting, every scan block size and
    every search oracle that answers within range (0 <= pos <= |old|, 0 <= len <= |suffix|; one
    oracle per block, so the statement does not depend on which worker scans which block or on
    what the suffix sort produced), the differ (as repaired) returns a series of non-eof
    controls followed by one eof control - it does not panic and does not run out of fuel -
    and the patcher applied to old with that series returns exactly new. *)
Theorem bsdiff_roundtrip :
  forall (bsz : Z) (search : N -> list byte -> Z * Z) (partitions : Z) (old new : list byte),
    0 < bsz -> 0 <= partitions ->
    (forall bi, search_in_range (len old) (search bi)) ->
    bytes_ok old -> bytes_ok new ->
    exists cs, bsdiff_do bsz search partitions old new = Ok (cs ++ [ctrl_eof]) /\
               Forall (fun c => c_eof c = false) cs /\
               bspatch old (cs ++ [ctrl_eof]) (len new) = Some new.
Proof.
  intros bsz search partitions old new Hb Hp Hr Ho Hn.
  exact (bsdiff_do_gen_roundtrip true bsz search partitions old new Hb Hp Hr Ho Hn (or_introl eq_refl)).
Qed.
Print Assumptions bsdiff_roundtrip.

(** The hypothesis on the oracle is met by the model of the real search (naive partitioned suffix
    array + the code's binary search, Bsdiff/Suffix.v, which the correspondence compares with
    psa.search through the control lists on every run) ... *)
Theorem executable_search_in_range :
  forall (p : Z) (old : list byte), search_in_range (len old) (psa_search (new_psa p old)).
Proof. exact psa_search_in_range. Qed.
Print Assumptions executable_search_in_range.

(** ... so the executable instance that is compared with the code is covered for every input *)
Theorem run_bsd_roundtrip :
  forall (partitions : Z) (old new : list byte),
    0 <= partitions -> bytes_ok old -> bytes_ok new ->
    exists cs, run_bsd partitions old new = Ok (cs ++ [ctrl_eof]) /\
               Forall (fun c => c_eof c = false) cs /\
               bspatch old (cs ++ [ctrl_eof]) (len new) = Some new.
Proof.
  intros partitions old new Hp Ho Hn. unfold run_bsd.
  apply bsdiff_roundtrip; try assumption; [unfold GO_BLOCK; lia|intros bi; apply psa_search_in_range].
Qed.
Print Assumptions run_bsd_roundtrip.

(** The code before the two fix: commits satisfies the same statement only under a guard
    (new empty, or old non-empty and at least as many new bytes as normalised partitions) ... *)
Theorem bsdiff_roundtrip_unfixed_partial :
  forall (bsz : Z) (search : N -> list byte -> Z * Z) (partitions : Z) (old new : list byte),
    0 < bsz -> 0 <= partitions ->
    (forall bi, search_in_range (len old) (search bi)) ->
    bytes_ok old -> bytes_ok new ->
    (new = [] \/ (old <> [] /\ norm_partitions partitions (len old) <= len new)) ->
    exists cs, bsdiff_do_unfixed bsz search partitions old new = Ok (cs ++ [ctrl_eof]) /\
               Forall (fun c => c_eof c = false) cs /\
               bspatch old (cs ++ [ctrl_eof]) (len new) = Some new.
Proof.
  intros bsz search partitions old new Hb Hp Hr Ho Hn Hg.
  exact (bsdiff_do_gen_roundtrip false bsz search partitions old new Hb Hp Hr Ho Hn (or_intror Hg)).
Qed.
Print Assumptions bsdiff_roundtrip_unfixed_partial.

(** ... and without the guard it panics: integer divide by zero (old 16 B, new 3 B, partitions 4)
    and the suffix sorter on an empty old file (old empty, new 3 B); [Panic 3] and [Panic 4] are
    the site codes listed at [res] in Bsdiff/Scan.v.  These two inputs are the first corpus
    cases of the harness. *)
Theorem bsdiff_no_panic_refuted :
  (exists (search : N -> list byte -> Z * Z) (partitions : Z) (old new : list byte),
      0 <= partitions /\ (forall bi, search_in_range (len old) (search bi)) /\ bytes_ok old /\ bytes_ok new /\
      bsdiff_do_unfixed 131072 search partitions old new = Panic 3) /\
  (exists (search : N -> list byte -> Z * Z) (partitions : Z) (old new : list byte),
      0 <= partitions /\ (forall bi, search_in_range (len old) (search bi)) /\ bytes_ok old /\ bytes_ok new /\
      bsdiff_do_unfixed 131072 search partitions old new = Panic 4).
Proof.
  split.
  - exists const_search, 4, [0;1;2;0;1;2;0;1;2;0;1;2;0;1;2;0]%N, [0;1;0]%N.
    split; [lia|]. split; [apply const_search_in_range; apply len_nonneg|].
    split; [repeat constructor|]. split; [repeat constructor|]. exact unfixed_divide_by_zero.
  - exists const_search, 0, [], [0;1;0]%N.
    split; [lia|]. split; [apply const_search_in_range; apply len_nonneg|].
    split; [constructor|]. split; [repeat constructor|]. exact unfixed_empty_old.
Qed.
Print Assumptions bsdiff_no_panic_refuted.

(** Stopping after any number [k] of controls, keeping nothing but the old offset, and
    continuing from that saved offset in a fresh context gives the same remainder:
    the two outputs concatenate to the output of the uninterrupted application. *)
Theorem apply_from_saved_offset :
  forall (old : list byte) (cs : list ctrl) (k : nat) (out : list byte) (off : Z),
    apply_series old 0 cs = Some (out, off) ->
    exists o1 saved o2, resume old k cs = Some (o1, saved, o2) /\ out = o1 ++ o2.
Proof.
  intros old cs k out offf H. rewrite (apply_series_split old cs k) in H. unfold resume.
  destruct (apply_prefix old 0 k cs) as [[[o1 saved] rest]|]; [|discriminate].
  destruct (apply_series old saved rest) as [[o2 off2]|]; [|discriminate].
  injection H as <- _. eexists _, _, _; split; reflexivity.
Qed.
Print Assumptions apply_from_saved_offset.

(** the same, for one split of the series: prefix to [saved], rest from [saved] *)
Theorem apply_prefix_then_rest :
  forall (old : list byte) (cs : list ctrl) (k : nat) (off : Z) (o1 : list byte) (saved : Z) (rest : list ctrl),
    apply_prefix old off k cs = Some (o1, saved, rest) ->
    apply_series old off cs = match apply_series old saved rest with
                              | Some (o2, offf) => Some (o1 ++ o2, offf)
                              | None => None
                              end.
Proof. intros old cs k off o1 saved rest H. rewrite (apply_series_split old cs k off), H. reflexivity. Qed.
Print Assumptions apply_prefix_then_rest.

(** The read cache is transparent: for every chunk size > 0, every number of entries > 0, every
    file and every sequence of reads and seeks (valid or not), lrufile over simplelru returns,
    operation by operation, what a plain in-memory reader returns (bytes, io.EOF exactly when
    the read runs past the end, positions and errors of seeks); it never panics. *)
Theorem lru_transparent :
  forall (chunkSize : Z) (entries : nat) (file : list byte) (ops : list lop),
    0 < chunkSize -> (0 < entries)%nat ->
    exists loads, run_lru chunkSize entries file ops = Some (run_plain file ops, loads).
Proof.
  intros chunkSize entries file ops Hcs Hen. unfold run_lru.
  edestruct (ll_run_ok chunkSize entries file Hcs Hen) as (sf & E); [apply ll_init_inv, repeat_length|].
  rewrite E. eexists; reflexivity.
Qed.
Print Assumptions lru_transparent.

(** The same for ANY bounded cache that meets the contract (Get leaves the map alone, Add binds
    the key, stays within the capacity, evicts at most one other entry and reports it, none
    when the key was bound; the count is sound), whatever its eviction policy, and whatever
    stale bytes the storage slots hold after Reset. *)
Theorem lru_transparent_any_cache :
  forall (cache : Type) (cget : cache -> Z -> option Z * cache) (cadd : cache -> Z -> Z -> cache * option (Z * Z))
         (wf : cache -> Prop) (look : cache -> Z -> option Z) (card : cache -> nat) (cap : nat),
    (forall c k, wf c ->
        fst (cget c k) = look c k /\ wf (snd (cget c k)) /\
        (forall k', look (snd (cget c k)) k' = look c k') /\ card (snd (cget c k)) = card c) ->
    (forall c k v, wf c -> (card c <= cap)%nat ->
        wf (fst (cadd c k v)) /\ (card (fst (cadd c k v)) <= cap)%nat /\ look (fst (cadd c k v)) k = Some v /\
        (look c k <> None -> snd (cadd c k v) = None) /\
        match snd (cadd c k v) with
        | None => forall k', k' <> k -> look (fst (cadd c k v)) k' = look c k'
        | Some (k0, v0) => k0 <> k /\ look c k0 = Some v0 /\ look (fst (cadd c k v)) k0 = None /\
                           forall k', k' <> k -> k' <> k0 -> look (fst (cadd c k v)) k' = look c k'
        end) ->
    (forall c ks, wf c -> NoDup ks -> (forall k, In k ks -> look c k <> None) -> (length ks <= card c)%nat) ->
    forall (chunkSize : Z) (file : list byte) (cempty : cache) (stale : list (list byte)) (ops : list lop),
      0 < chunkSize ->
      wf cempty -> (forall k, look cempty k = None) -> (card cempty <= cap)%nat ->
      length stale = cap -> (forall slot, In slot stale -> len slot = chunkSize) ->
      exists sf, lf_run cache cget cadd chunkSize file (lf_init cache cempty stale) ops = Some (run_plain file ops, sf).
Proof.
  intros cache cget cadd wf look card cap Hg Ha Hp chunkSize file cempty stale ops Hcs Hwf Hl Hc Hlen _.
  eapply lf_run_ok, lf_init_inv; eassumption.
Qed.
Print Assumptions lru_transparent_any_cache.

(** "internal error: could not find room in lrufile cache" (status 2 of a read) is unreachable *)
Theorem lru_never_full :
  forall (chunkSize : Z) (entries : nat) (file : list byte) (ops : list lop),
    0 < chunkSize -> (0 < entries)%nat ->
    exists rs loads, run_lru chunkSize entries file ops = Some (rs, loads) /\
                     forall data st, In (RRead data st) rs -> st <> 2%N.
Proof.
  intros chunkSize entries file ops Hcs Hen.
  destruct (lru_transparent chunkSize entries file ops Hcs Hen) as (loads & E).
  exists (run_plain file ops), loads. split; [exact E|].
  intros data st Hin. eapply run_plain_no_internal_error; eassumption.
Qed.
Print Assumptions lru_never_full.

(** The patcher does not depend on how reads of the old file are cached: [Apply] modelled at the
    level of the seeks and reads it issues (Seek(OldOffset), then CopyBuffer through LimitReader
    and AdderReader with a copy buffer of [bufSize] bytes), reading old through lrufile over
    simplelru with ANY chunk size, number of entries and buffer size, never panics and returns
    exactly what the cache-free definition [bspatch] returns - the same bytes, or an error in
    exactly the same cases. *)
Theorem patch_through_cache :
  forall (chunkSize : Z) (entries : nat) (bufSize : Z) (old : list byte) (cs : list ctrl) (newSize : Z),
    0 < chunkSize -> (0 < entries)%nat -> 0 < bufSize ->
    bspatch_lru chunkSize entries bufSize old cs newSize = Some (bspatch old cs newSize).
Proof.
  intros chunkSize entries bufSize old cs newSize Hcs Hen Hbuf. unfold bspatch_lru.
  apply (bspatch_io_spec _ _ bufSize Hbuf old (fun s cur => ll_inv chunkSize entries old s /\ lf_offset s = cur)) with (cur := 0).
  - intros r cur [HI <-]. exact (ll_inv_off _ _ _ r HI).
  - intros r cur op [HI <-].
    destruct (ll_step_ok chunkSize entries old Hcs Hen r op HI) as (res & s' & E & HI' & Hp).
    exists res, s', (lf_offset s'). unfold lru_step. rewrite E. auto.
  - split; [apply ll_init_inv, repeat_length|reflexivity].
Qed.
Print Assumptions patch_through_cache.

(** non-vacuity: the constant oracle is in range, and on a concrete pair the theorem's objects compute *)
Example bsdiff_roundtrip_example :
  bsdiff_do 131072 const_search 3 [1;2;3;4;5;6]%N [9;1;2]%N = Ok ([([], [9]%N, 0, false); ([0]%N, [], -1, false); ([], [2]%N, 0, false)] ++ [ctrl_eof]) /\
  bspatch [1;2;3;4;5;6]%N [([], [9]%N, 0, false); ([0]%N, [], -1, false); ([], [2]%N, 0, false); ctrl_eof] 3 = Some [9;1;2]%N.
Proof. split; vm_compute; reflexivity. Qed.

Example lru_example :
  run_lru 2 1 [1;2;3;4;5]%N [ORead 3; OSeek (-1) 2; ORead 4; OSeek 9 0; ORead 1]
  = Some ([RRead [1;2;3]%N 0; RSeek 4 0; RRead [5]%N 1; RSeek 0 2; RRead [1]%N 0], [0; 2; 4; 0]).
Proof. vm_compute. reflexivity. Qed.

Example patch_through_cache_example :
  bspatch_lru 2 1 3 [1;2;3;4;5;6]%N [([1;1;1;1;1]%N, [9]%N, -5, false); ([0;0]%N, [], 0, false); ctrl_eof] 8
  = Some (Some [2;3;4;5;6;9;1;2]%N).
Proof. vm_compute. reflexivity. Qed.
