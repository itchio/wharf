(** C01 - diff then apply reproduces the new build exactly.
    Statements and [Print Assumptions]; each theorem is a lemma of the proof files or follows
    from them in a few lines.  Three parts:
    1. with an abstract differ.  Models in Patch/Stream.v (the patch as a message list),
       Patch/Patcher.v (the patcher), Bowl/Fresh.v (Prepare + fresh bowl), Patch/Reinterp.v
       (protobuf decoding); proofs in Bowl/FreshProofs.v, Patch/ApplyProofs.v,
       Patch/ReinterpProofs.v (a frame read as its own type), Patch/PatcherProofs.v ([file_ready],
       [process_local], Section Prefix for the truncation theorems), Patch/DiffApplyProofs.v.
    2. with C11's model of the real differ and no [diff_ok] hypothesis: Compose/DiffApply.v
       (definitions), Compose/RealDifferProofs.v.
    3. on the bytes of the patch file: Compose/PatchBytes.v (definitions),
       Compose/PatchBytesProofs.v, Compose/PatchBytesExample.v.

    The rsync differ is abstract here: [differ pref data] with the hypothesis [diff_ok]
      "for every new file it emits at least one op, its ops replay to the file against the
       old files, every range is in bounds"
    which is what C11 proves of wsync.ComputeDiff.  Wire framing and codecs are C13's: the
    theorem is stated on the message list and, below, for any codec that round-trips. *)
From Wharf Require Import Base.Prelude Bowl.Fresh Bowl.FreshProofs Patch.Reinterp Patch.Stream Patch.Patcher
  Patch.ApplyProofs Patch.DiffApplyProofs.
Local Open Scope Z_scope.

(** For every block size, every well-formed new build, every old build, every differ output
    satisfying [diff_ok]: applying [write_patch old new] to an empty directory succeeds,
    touches every file, and the output tree IS the new build - the same set of paths, the
    same bytes, the same link destinations, nothing else ([tlookup] agrees on every path). *)
Theorem diff_apply_fresh :
  forall (bs : Z) (differ : Z -> list byte -> list op) (old new : build) (algo quality : Z),
    0 < bs -> wf_build new -> fits63 old -> fits63 new -> diff_ok bs (contents_of old) differ ->
    exists t touched trace,
      apply_patch_fresh bs (contents_of old) None (write_patch differ algo quality old new) = Ok (t, touched, trace) /\
      touched = Z.of_nat (length (files_of new)) /\
      forall p, tlookup t p = tlookup new p.
Proof. exact diff_apply_fresh_lemma. Qed.
Print Assumptions diff_apply_fresh.

(** ... under every compression setting: for any encoder / decoder pair of the frame list
    that round-trips (C13), whatever (algorithm, quality) the header carries *)
Theorem diff_apply_fresh_any_codec :
  forall (B : Type) (encode : list frame -> B) (decode : B -> option (list frame)),
    (forall fs, decode (encode fs) = Some fs) ->
  forall (bs : Z) (differ : Z -> list byte -> list op) (old new : build) (algo quality : Z),
    0 < bs -> wf_build new -> fits63 old -> fits63 new -> diff_ok bs (contents_of old) differ ->
    exists fs t touched trace,
      decode (encode (write_patch differ algo quality old new)) = Some fs /\
      apply_patch_fresh bs (contents_of old) None fs = Ok (t, touched, trace) /\
      forall p, tlookup t p = tlookup new p.
Proof.
  intros B encode decode RT bs differ old new algo quality Hbs WF FO FN DOK.
  destruct (diff_apply_fresh bs differ old new algo quality Hbs WF FO FN DOK) as (t & touched & trace & H & _ & Ht).
  exists (write_patch differ algo quality old new), t, touched, trace. split; [apply RT|]. split; assumption.
Qed.
Print Assumptions diff_apply_fresh_any_codec.

(** ApplySingleFull's arithmetic (opSize from the old file's size, the lastSize rule) copies,
    for an in-bounds range, exactly the bytes the range denotes *)
Theorem apply_single_replays :
  forall (bs : Z) (oldC : container) (olds : list (list byte)) (w : wst) (f i s : Z) (d : list byte) (pf : path),
    0 < bs -> znth (c_files oldC) f = Some (pf, Z.of_nat (length d)) -> znth olds f = Some d ->
    0 <= i -> 1 <= s -> i + s <= num_blocks bs (Z.of_nat (length d)) ->
    apply_range bs oldC olds w f i s =
    w_write (mkW (ev (ev (w_st w) (EvSize f)) (EvRead f)) (w_path w) (w_off w)) (denote bs olds (OpRange f i s)).
Proof. intros bs oldC olds w f i s d pf Hb Hc Hd Hi _. exact (apply_single_replays_lemma bs oldC olds w f i s d pf Hb Hc Hd Hi). Qed.
Print Assumptions apply_single_replays.

Theorem op_size_exact :
  forall bs L i s, 0 < bs -> 0 <= L -> 0 <= i -> 1 <= s -> i + s <= num_blocks bs L ->
    op_size bs L i s = Z.min (bs * s) (L - bs * i).
Proof. intros bs L i s Hb HL _ _. apply op_size_in_bounds; assumption. Qed.
Print Assumptions op_size_exact.

(** the full-file-op rule is sound: when the ops of a new file replay to it and the first op
    is a range from block 0 of an old file of the same size covering all its blocks, that old
    file is the new file (so Transpose = copy gives the right content) and the trailing ops
    denote nothing (so ignoring them loses nothing) *)
Theorem full_file_op_is_copy :
  forall (bs : Z) (olds : list (list byte)) (f s : Z) (rest : list op) (d data : list byte),
    0 < bs -> znth olds f = Some d -> length d = length data ->
    s = num_blocks bs (Z.of_nat (length data)) ->
    replay bs olds (OpRange f 0 s :: rest) = data ->
    d = data /\ replay bs olds rest = [].
Proof. exact full_file_op. Qed.
Print Assumptions full_file_op_is_copy.

(** Prepare of a well-formed container into an empty directory lays out its directories,
    zero-filled files of the declared sizes and symlinks, and nothing else *)
Theorem prepare_lays_out_container :
  forall c, wf_container c -> exists t0, prepare c [] = Ok t0 /\ forall q, tlookup t0 q = tlookup (ctree c) q.
Proof. exact prepare_spec. Qed.
Print Assumptions prepare_lays_out_container.

(** the executable well-formedness test that the correspondence evaluates on every generated
    new build implies the hypothesis [wf_build] of [diff_apply_fresh] *)
Theorem wf_build_test_sound : forall b, wf_buildb b = true -> wf_build b.
Proof.
  unfold wf_buildb. intros b H. apply andb_prop in H. destruct H as [H H3]. apply andb_prop in H. destruct H as [H1 H2].
  split; [apply nodup_paths_sound, H1|]. split; [apply negb_existsb_path_eqb, H2|].
  intros p n q Hin Hq. rewrite forallb_forall in H3. specialize (H3 (p, n) Hin). cbn [fst] in H3.
  rewrite forallb_forall in H3. specialize (H3 q Hq).
  destruct (tlookup b q) as [[d| |d]|] eqn:E; try discriminate. apply tlookup_in. assumption.
Qed.
Print Assumptions wf_build_test_sound.

(** non-vacuity: the hypotheses are satisfiable (a differ that sends every file as one DATA op
    is [diff_ok]), and a concrete run with a renamed file (full-file op => Transpose), a file
    made of an old block plus fresh bytes, an empty file, a directory and a symlink *)
Example diff_ok_inhabited : forall bs olds, diff_ok bs olds (fun _ data => [OpData data]).
Proof. exact diff_ok_data_only. Qed.

Example diff_apply_fresh_example :
  let old : build := [([1], File [1;2;3;4;5;6]); ([2], File [9])]%N in
  let new : build := [([5], Dir); ([5;1], File [1;2;3;4;5;6]); ([3], File [1;2;3;4;7;7]); ([4], File []); ([6], Link [65])]%N in
  let differ := fun (pref : Z) (data : list byte) =>
                  if nlist_eqb data [1;2;3;4;5;6]%N then [OpRange 0 0 2]
                  else if nlist_eqb data [1;2;3;4;7;7]%N then [OpRange 0 0 1; OpData [7;7]%N]
                  else [OpData data] in
  wf_buildb new = true /\
  match apply_patch_fresh 4 (contents_of old) None (write_patch differ 2 9 old new) with
  | Ok (t, touched, trace) =>
    touched = 3 /\ trace = [EvTranspose 0 0; EvRead 0; EvWriter 1; EvSize 0; EvRead 0; EvWriter 2] /\
    forallb (fun e => match tlookup t (fst e), snd e with
                      | Some (File a), File b => nlist_eqb a b
                      | Some Dir, Dir => true
                      | Some (Link a), Link b => nlist_eqb a b
                      | _, _ => false end) new = true
  | _ => False
  end.
Proof. vm_compute. repeat split; reflexivity. Qed.

(** ------------------------------------------------------------------------------------------
    C11 composed with C01 at Coq level (Compose/DiffApply.v, Compose/RealDifferProofs.v).

    [real_differ shash heqb bs maxData olds pref data] is C11's model of the real differ
    (CreateSignature of every old file, NewBlockLibrary, ComputeDiff of [data] with preferred
    file index [pref]; Wsync/Spec.v [diff_ops]) seen through pwr/diff.go's makeOpsWriter
    ([tr_op]: ranges keep their three numbers, a data span of the source becomes its bytes).
    It has the type of C01's abstract [differ], so [write_patch (real_differ ...)] is WritePatch
    with the real differ, preferred index ([preferred_index], the path lookup of diff.go)
    included.  C11's block size, indices and spans are [N], C01's are [Z]; bytes are [N] in both. *)
From Wharf Require Import Compose.DiffApply Compose.RealDifferProofs.
From Wharf Require Wsync.Diff Wsync.Apply Wsync.Spec Wsync.ApplyProofs Wsync.Theorems.

(** wsync.ApplySingleFull on a block range was modelled twice (C11: [Wsync.Apply.apply_op],
    C01: the bytes [Patcher.apply_range] writes).  The two agree on EVERY range, in bounds or
    not (same opSize / lastSize arithmetic, same seek, same short read at EOF) ... *)
Theorem apply_single_models_agree :
  forall (bs : Z) (olds : list (list byte)) (f i sp : N),
    0 < bs ->
    Wsync.Apply.apply_op (Z.to_N bs) olds (Wsync.Apply.CRange f i sp) =
    option_map (fun d => slice d (bs * Z.of_N i) (op_size bs (Z.of_nat (length d)) (Z.of_N i) (Z.of_N sp)))
               (znth olds (Z.of_N f)).
Proof. exact apply_op_agrees. Qed.
Print Assumptions apply_single_models_agree.

Theorem apply_range_models_agree :
  forall (bs : Z) (oldC : container) (olds : list (list byte)) (w : wst) (f i sp : N) (d : list byte) (pf : path),
    0 < bs -> znth (c_files oldC) (Z.of_N f) = Some (pf, Z.of_nat (length d)) -> znth olds (Z.of_N f) = Some d ->
    exists x, Wsync.Apply.apply_op (Z.to_N bs) olds (Wsync.Apply.CRange f i sp) = Some x /\
      apply_range bs oldC olds w (Z.of_N f) (Z.of_N i) (Z.of_N sp) =
      w_write (mkW (ev (ev (w_st w) (EvSize (Z.of_N f))) (EvRead (Z.of_N f))) (w_path w) (w_off w)) x.
Proof. exact apply_range_agrees. Qed.
Print Assumptions apply_range_models_agree.

(** ... and on in-bounds operations C11's [apply_ops] (ApplyPatch) of the differ's operations
    is C01's [replay] of their translation *)
Theorem replay_agrees_with_wsync_apply :
  forall (bs : Z) (olds : list (list byte)) (src : list byte) (ops : list Wsync.Diff.op),
    0 < bs -> Forall (Wsync.Spec.range_ok (Z.to_N bs) olds) ops -> Forall (Wsync.ApplyProofs.data_ok src) ops ->
    Wsync.Apply.apply_ops (Z.to_N bs) olds (map (Wsync.Spec.conc src) ops) = Some (replay bs olds (map (tr_op src) ops)).
Proof.
  intros bs olds src ops Hbs Hr Hd. rewrite replay_tr_ops by lia.
  apply Wsync.ApplyProofs.apply_ops_den; [lia|assumption].
Qed.
Print Assumptions replay_agrees_with_wsync_apply.

(** C01's hypothesis about its abstract differ, for one (preferred index, new file), holds of the
    real differ under C11's hypothesis for that file: at least one operation (an empty file
    yields exactly one empty data operation: the trailing-data enqueue of an empty buffer, let
    through by the operation cleaner because nothing was sent before), the operations replay to
    the file, every range is in bounds *)
Theorem real_differ_ok_per_file :
  forall (H : Type) (shash : list N -> H) (heqb : H -> H -> bool) (bs : Z) (maxData : N) (olds : list (list byte)),
    0 < bs -> (0 < maxData)%N -> (forall x y, heqb x y = true -> x = y) ->
  forall (pref : Z) (data : list byte),
    Wsync.Spec.strong_injective shash (Z.to_N bs) olds data ->
    real_differ shash heqb bs maxData olds pref data <> [] /\
    replay bs olds (real_differ shash heqb bs maxData olds pref data) = data /\
    Forall (range_ok bs olds) (real_differ shash heqb bs maxData olds pref data).
Proof. exact real_differ_ok_at. Qed.
Print Assumptions real_differ_ok_per_file.

(** hence [diff_ok] (which quantifies over every preferred index and every file content) *)
Theorem diff_ok_of_real_differ :
  forall (H : Type) (shash : list N -> H) (heqb : H -> H -> bool) (bs : Z) (maxData : N) (olds : list (list byte)),
    0 < bs -> (0 < maxData)%N -> (forall x y, heqb x y = true -> x = y) ->
    (forall data, Wsync.Spec.strong_injective shash (Z.to_N bs) olds data) ->
    diff_ok bs olds (real_differ shash heqb bs maxData olds).
Proof. intros H shash heqb bs maxData olds Hbs Hmax Hsound Hinj pref data. apply real_differ_ok_at; auto. Qed.
Print Assumptions diff_ok_of_real_differ.

(** END TO END, no [diff_ok] hypothesis: for every block size and data-op limit > 0, every old
    build, every well-formed new build (sizes fitting int64), if the strong hash separates the
    blocks of the old build from the windows of each file of the new build (C11's hypothesis,
    needed only for the files WritePatch actually diffs), then applying the patch WritePatch
    produces with the real differ to an empty directory succeeds, touches every file, and the
    output tree IS the new build. *)
Theorem diff_apply_fresh_end_to_end :
  forall (H : Type) (shash : list N -> H) (heqb : H -> H -> bool)
         (bs : Z) (maxData : N) (old new : build) (algo quality : Z),
    0 < bs -> (0 < maxData)%N -> (forall x y, heqb x y = true -> x = y) ->
    Forall (fun data => Wsync.Spec.strong_injective shash (Z.to_N bs) (contents_of old) data) (contents_of new) ->
    wf_build new -> fits63 old -> fits63 new ->
    exists t touched trace,
      apply_patch_fresh bs (contents_of old) None
        (write_patch (real_differ shash heqb bs maxData (contents_of old)) algo quality old new) = Ok (t, touched, trace) /\
      touched = Z.of_nat (length (files_of new)) /\
      forall p, tlookup t p = tlookup new p.
Proof.
  intros H shash heqb bs maxData old new algo quality Hbs Hmax Hsound Hinj WFN FO FN.
  apply write_patch_applies; try assumption. apply real_differ_ok_files; assumption.
Qed.
Print Assumptions diff_apply_fresh_end_to_end.

Theorem diff_apply_fresh_end_to_end_any_codec :
  forall (B : Type) (encode : list frame -> B) (decode : B -> option (list frame)),
    (forall fs, decode (encode fs) = Some fs) ->
  forall (H : Type) (shash : list N -> H) (heqb : H -> H -> bool)
         (bs : Z) (maxData : N) (old new : build) (algo quality : Z),
    0 < bs -> (0 < maxData)%N -> (forall x y, heqb x y = true -> x = y) ->
    Forall (fun data => Wsync.Spec.strong_injective shash (Z.to_N bs) (contents_of old) data) (contents_of new) ->
    wf_build new -> fits63 old -> fits63 new ->
    exists fs t touched trace,
      decode (encode (write_patch (real_differ shash heqb bs maxData (contents_of old)) algo quality old new)) = Some fs /\
      apply_patch_fresh bs (contents_of old) None fs = Ok (t, touched, trace) /\
      forall p, tlookup t p = tlookup new p.
Proof.
  intros B encode decode RT H shash heqb bs maxData old new algo quality Hbs Hmax Hsound Hinj WFN FO FN.
  destruct (diff_apply_fresh_end_to_end H shash heqb bs maxData old new algo quality Hbs Hmax Hsound Hinj WFN FO FN)
    as (t & touched & trace & E & _ & Ht).
  eexists _, t, touched, trace. split; [apply RT|]. split; assumption.
Qed.
Print Assumptions diff_apply_fresh_end_to_end_any_codec.

(** a tiny instance, executed (block size 2, data-op limit 3, strong hash := the block itself):
    an unchanged file under a new path (one merged range over all blocks => Transpose), a file
    with an insertion (range, data split at the limit, range of the last block), an empty
    file (one empty data op), a file whose path exists in the old build (preferred index 1),
    a directory and a symlink; the old build has an empty file (synthetic empty block, never
    matched).  The per-file operations, the calls the patcher makes, the resulting tree ... *)
Definition e2e_old : build := [([1], File [1;2;3;4;5;6]); ([2], File [9;8;7]); ([7], File [])]%N.
Definition e2e_new : build :=
  [([5], Dir); ([5;1], File [1;2;3;4;5;6]); ([3], File [1;2;3;4;7;7;7;7;5;6]); ([4], File []); ([6], Link [65]);
   ([2], File [7;9;8;7;9;8])]%N.
Definition e2e_differ := real_differ (fun b : list N => b) nlist_eqb 2 3 (contents_of e2e_old).

Example diff_apply_fresh_end_to_end_example :
  map (fun f => e2e_differ (preferred_index (container_of e2e_old) (fst f)) (snd f)) (files_of e2e_new)
  = [[OpRange 0 0 3];
     [OpRange 0 0 2; OpData [7]; OpData [7;7;7]; OpRange 0 2 1];
     [OpData []];
     [OpData [7]; OpRange 1 0 1; OpData [7]; OpRange 1 0 1]]%N /\
  match apply_patch_fresh 2 (contents_of e2e_old) None (write_patch e2e_differ 2 9 e2e_old e2e_new) with
  | Ok (t, touched, trace) =>
    touched = 4 /\
    trace = [EvTranspose 0 0; EvRead 0; EvWriter 1; EvSize 0; EvRead 0; EvSize 0; EvRead 0;
             EvWriter 2; EvWriter 3; EvSize 1; EvRead 1; EvSize 1; EvRead 1] /\
    forallb (fun e => match tlookup t (fst e), snd e with
                      | Some (File a), File b => nlist_eqb a b
                      | Some Dir, Dir => true
                      | Some (Link a), Link b => nlist_eqb a b
                      | _, _ => false end) e2e_new = true
  | _ => False
  end.
Proof. vm_compute. repeat split; reflexivity. Qed.

(** the hypotheses of the end-to-end theorems hold of that pair (the identity "hash" is injective) *)
Lemma e2e_inj :
  Forall (fun data => Wsync.Spec.strong_injective (fun b : list N => b) (Z.to_N 2) (contents_of e2e_old) data) (contents_of e2e_new).
Proof. apply Forall_forall. intros data _. apply Wsync.Theorems.id_strong_injective. Qed.
Lemma e2e_wf : wf_build e2e_new.
Proof. apply wf_build_test_sound. vm_compute. reflexivity. Qed.
Lemma e2e_fits_old : fits63 e2e_old.
Proof. split; [vm_compute; discriminate|]. repeat constructor. Qed.
Lemma e2e_fits_new : fits63 e2e_new.
Proof. split; [vm_compute; discriminate|]. repeat constructor. Qed.

(** ... so their conclusions do, without evaluating anything *)
Example diff_apply_fresh_end_to_end_instance :
  exists t touched trace,
    apply_patch_fresh 2 (contents_of e2e_old) None (write_patch e2e_differ 2 9 e2e_old e2e_new) = Ok (t, touched, trace) /\
    touched = Z.of_nat (length (files_of e2e_new)) /\
    forall p, tlookup t p = tlookup e2e_new p.
Proof.
  exact (diff_apply_fresh_end_to_end (list N) (fun b => b) nlist_eqb 2 3%N e2e_old e2e_new 2 9
           eq_refl eq_refl Wsync.Theorems.nlist_eqb_sound e2e_inj e2e_wf e2e_fits_old e2e_fits_new).
Qed.

(** ------------------------------------------------------------------------------------------
    C13 composed with C01 at Coq level (Compose/PatchBytes.v, Compose/PatchBytesProofs.v,
    Compose/PatchBytesExample.v): from MESSAGE LISTS to BYTES.

    [patch_bytes C differ algo quality old new] is the patch FILE pwr.DiffContext.WritePatch
    writes:   magic_enc PatchMagic ++ frame (marshal header) ++ compress (frames of: old
    container, new container, per new file SyncHeader, SyncOps, end marker)   with C13's
    [write_msgs] / [write_stream] for the framing; [C : patch_codecs] is the record of external
    components: a protobuf marshal / unmarshal pair per Go message type (PatchHeader,
    tlc.Container, SyncHeader, SyncOp, BsdiffHeader, Control) and the compressor / decompressor
    by algorithm.  [read_patch_bytes C cap z] is patcher.New + the reads of Resume: ExpectMagic,
    the header, DecompressWire, then C13's [read_stream] delivering the bodies, each unmarshalled
    as the Go type the patcher passes to ReadMessage at that point of the stream ([expect]);
    [apply_patch_bytes] feeds the result to C01's patcher.  The abstract codec of
    [diff_apply_fresh_end_to_end_any_codec] ([decode (encode fs) = Some fs] for EVERY frame list)
    cannot be instantiated by these functions - the bodies do not say which type they are, so
    the typed reader inverts the writer only on frame lists that follow the grammar of a patch;
    what had to be reconciled is listed at the head of Compose/PatchBytes.v.

    Hypotheses, all about external components and all in the statements:
      [codecs_roundtrip C]              unmarshal_T (marshal_T m) = Some m, per message type T
      [compression_roundtrips C a q]    a = NONE, or decompress_a (compress_(a,q) s) = Some s   (C13)
      [bodies_fit C frames]             every marshalled body is shorter than 2^56 bytes (beyond,
                                        the writer panics: C13 [varint_buffer_suffices])
    plus those of [diff_apply_fresh_end_to_end]. *)
From Wharf Require Import Wire.Frame Compose.PatchBytes Compose.PatchBytesProofs Compose.PatchBytesExample.

(** The bridge, in general (rsync and bsdiff series alike): what replaces the unsatisfiable
    "[decode (encode fs) = Some fs] for every frame list".  For every header, pair of containers
    and per-file message list in which every message is of the type the reader expects at its
    position ([grammar_ok]), the file is written and read back as exactly those frames, then
    end of stream. *)
Theorem patch_file_read_write_roundtrip :
  forall (C : patch_codecs), codecs_roundtrip C ->
  forall (cap : N) (algo quality : Z) (tc sc : container) (ms : list pmsg),
    grammar_ok ms -> compression_roundtrips C algo quality ->
    bodies_fit C (FHeader algo quality :: FContainer tc :: FContainer sc :: map FMsg ms) ->
    exists z, patch_file C algo quality (FContainer tc :: FContainer sc :: map FMsg ms) = WOk z /\
              read_patch_bytes C cap z = (FHeader algo quality :: FContainer tc :: FContainer sc :: map FMsg ms, EEOF).
Proof. exact read_patch_bytes_full. Qed.
Print Assumptions patch_file_read_write_roundtrip.

(** what WritePatch emits follows the grammar, whatever the differ *)
Theorem write_patch_follows_grammar :
  forall (differ : Z -> list byte -> list op) (old new : build), grammar_ok (patch_msgs differ old new).
Proof. exact patch_msgs_grammar. Qed.
Print Assumptions write_patch_follows_grammar.

(** For every block size and data-op limit > 0, every old build, every well-formed new build
    (C11's strong-hash hypothesis, sizes fitting int64), every codec record that round-trips
    per message type, every compression setting whose codec round-trips, every initial buffer
    capacity: WritePatch produces a file [z]; reading [z] yields exactly the frames of
    [write_patch] followed by end of stream; and patcher.New + Resume on the BYTES [z] over an
    empty directory succeeds, touches every file, and the output tree IS the new build. *)
Theorem diff_apply_fresh_bytes :
  forall (C : patch_codecs), codecs_roundtrip C ->
  forall (H : Type) (shash : list N -> H) (heqb : H -> H -> bool)
         (bs : Z) (maxData : N) (old new : build) (algo quality : Z) (cap : N),
    0 < bs -> (0 < maxData)%N -> (forall x y, heqb x y = true -> x = y) ->
    Forall (fun data => Wsync.Spec.strong_injective shash (Z.to_N bs) (contents_of old) data) (contents_of new) ->
    wf_build new -> fits63 old -> fits63 new ->
    compression_roundtrips C algo quality ->
    bodies_fit C (write_patch (real_differ shash heqb bs maxData (contents_of old)) algo quality old new) ->
    exists z t touched trace,
      patch_bytes C (real_differ shash heqb bs maxData (contents_of old)) algo quality old new = WOk z /\
      read_patch_bytes C cap z = (write_patch (real_differ shash heqb bs maxData (contents_of old)) algo quality old new, EEOF) /\
      apply_patch_bytes C bs (contents_of old) None cap z = Ok (t, touched, trace) /\
      touched = Z.of_nat (length (files_of new)) /\
      forall p, tlookup t p = tlookup new p.
Proof.
  intros C RT H shash heqb bs maxData old new algo quality cap Hbs Hmax Hsound Hinj WFN FO FN.
  apply (diff_apply_fresh_bytes_abstract_lemma C RT); try assumption. apply real_differ_ok_files; assumption.
Qed.
Print Assumptions diff_apply_fresh_bytes.

(** the same with C01's abstract differ under [diff_ok] *)
Theorem diff_apply_fresh_bytes_abstract_differ :
  forall (C : patch_codecs), codecs_roundtrip C ->
  forall (bs : Z) (differ : Z -> list byte -> list op) (old new : build) (algo quality : Z) (cap : N),
    0 < bs -> wf_build new -> fits63 old -> fits63 new -> diff_ok bs (contents_of old) differ ->
    compression_roundtrips C algo quality ->
    bodies_fit C (write_patch differ algo quality old new) ->
    exists z t touched trace,
      patch_bytes C differ algo quality old new = WOk z /\
      read_patch_bytes C cap z = (write_patch differ algo quality old new, EEOF) /\
      apply_patch_bytes C bs (contents_of old) None cap z = Ok (t, touched, trace) /\
      touched = Z.of_nat (length (files_of new)) /\
      forall p, tlookup t p = tlookup new p.
Proof.
  intros C RT bs differ old new algo quality cap Hbs WFN FO FN DOK.
  apply (diff_apply_fresh_bytes_abstract_lemma C RT); try assumption. apply diff_ok_differ_ok, DOK.
Qed.
Print Assumptions diff_apply_fresh_bytes_abstract_differ.

(** C01's patcher on a proper prefix of the frames of a patch returns an error: not Ok (no
    silently incomplete tree), not a panic (every loop that needs a message and finds the list
    exhausted returns the error of that ReadMessage call; the frames before the cut are those of
    the successful run) *)
Theorem patcher_rejects_truncated_frames :
  forall (bs : Z) (differ : Z -> list byte -> list op) (old new : build) (algo quality : Z) (k : nat),
    0 < bs -> wf_build new -> fits63 old -> fits63 new -> diff_ok bs (contents_of old) differ ->
    (k < length (write_patch differ algo quality old new))%nat ->
    apply_patch_fresh bs (contents_of old) None (firstn k (write_patch differ algo quality old new)) = Err.
Proof. intros * Hbs WFN FO FN DOK. apply apply_truncated_frames; try assumption. apply diff_ok_differ_ok, DOK. Qed.
Print Assumptions patcher_rejects_truncated_frames.

(** A patch file cut at ANY byte never yields a wrong tree silently.  [p] = the bytes before
    the cut ([q <> []] was lost).  With C13's [truncated_stream] (prefix-freeness of the framing):
    the reader obtains the first [k] frames of the patch and then io.EOF / io.ErrUnexpectedEOF -
    never a wrong frame - and the patcher returns an error, or (only possible when the
    decompressor delivered the whole content from the cut stream, e.g. a gzip stream lacking
    only its trailer: the patcher does not read past the last file) the tree of the whole patch.
    Hypothesis about the decompressor ([truncation_prefix]; nothing for NONE): from a cut of
    [compress s] it delivers, if anything, a prefix of [s].  If it never delivers everything
    from a cut stream ([truncation_detected]; NONE always), [k] is smaller than the number of
    frames and the patcher returns an error. *)
Theorem truncated_patch_is_an_error_or_prefix :
  forall (C : patch_codecs), codecs_roundtrip C ->
  forall (H : Type) (shash : list N -> H) (heqb : H -> H -> bool)
         (bs : Z) (maxData : N) (old new : build) (algo quality : Z) (cap : N) (p q : list byte),
    0 < bs -> (0 < maxData)%N -> (forall x y, heqb x y = true -> x = y) ->
    Forall (fun data => Wsync.Spec.strong_injective shash (Z.to_N bs) (contents_of old) data) (contents_of new) ->
    wf_build new -> fits63 old -> fits63 new ->
    truncation_prefix C algo quality ->
    bodies_fit C (write_patch (real_differ shash heqb bs maxData (contents_of old)) algo quality old new) ->
    patch_bytes C (real_differ shash heqb bs maxData (contents_of old)) algo quality old new = WOk (p ++ q) -> q <> [] ->
    exists k e,
      read_patch_bytes C cap p = (firstn k (write_patch (real_differ shash heqb bs maxData (contents_of old)) algo quality old new), e) /\
      (e = EEOF \/ e = EUnexpectedEOF) /\
      (apply_patch_bytes C bs (contents_of old) None cap p = Err \/
       (exists t touched trace, apply_patch_bytes C bs (contents_of old) None cap p = Ok (t, touched, trace) /\
                                forall x, tlookup t x = tlookup new x)) /\
      (truncation_detected C algo quality ->
       (k < length (write_patch (real_differ shash heqb bs maxData (contents_of old)) algo quality old new))%nat /\
       apply_patch_bytes C bs (contents_of old) None cap p = Err).
Proof.
  intros C RT H shash heqb bs maxData old new algo quality cap p q Hbs Hmax Hsound Hinj WFN FO FN HT Hf Hw Hq.
  apply (truncated_patch_abstract_lemma C RT bs _ old new algo quality cap p q); try assumption.
  apply real_differ_ok_files; assumption.
Qed.
Print Assumptions truncated_patch_is_an_error_or_prefix.

(** ... in short, when the decompressor notices a cut (NONE: [truncation_detected_none]) *)
Theorem truncated_patch_is_an_error :
  forall (C : patch_codecs), codecs_roundtrip C ->
  forall (H : Type) (shash : list N -> H) (heqb : H -> H -> bool)
         (bs : Z) (maxData : N) (old new : build) (algo quality : Z) (cap : N) (p q : list byte),
    0 < bs -> (0 < maxData)%N -> (forall x y, heqb x y = true -> x = y) ->
    Forall (fun data => Wsync.Spec.strong_injective shash (Z.to_N bs) (contents_of old) data) (contents_of new) ->
    wf_build new -> fits63 old -> fits63 new ->
    truncation_detected C algo quality ->
    bodies_fit C (write_patch (real_differ shash heqb bs maxData (contents_of old)) algo quality old new) ->
    patch_bytes C (real_differ shash heqb bs maxData (contents_of old)) algo quality old new = WOk (p ++ q) -> q <> [] ->
    apply_patch_bytes C bs (contents_of old) None cap p = Err.
Proof.
  intros C RT H shash heqb bs maxData old new algo quality cap p q Hbs Hmax Hsound Hinj WFN FO FN HD Hf Hw Hq.
  destruct (truncated_patch_is_an_error_or_prefix C RT H shash heqb bs maxData old new algo quality cap p q
              Hbs Hmax Hsound Hinj WFN FO FN (truncation_detected_prefix C algo quality HD) Hf Hw Hq) as (k & e & _ & _ & _ & Hk).
  exact (proj2 (Hk HD)).
Qed.
Print Assumptions truncated_patch_is_an_error.

Theorem uncompressed_patches_detect_truncation :
  forall (C : patch_codecs) (quality : Z), truncation_detected C ALGO_NONE quality.
Proof. exact truncation_detected_none. Qed.

(** non-vacuity: a toy codec record (numbers and length-prefixed lists, identity compressor
    under every algorithm; Compose/PatchBytesExample.v) satisfies the hypotheses ... *)
Example codec_hypotheses_inhabited :
  codecs_roundtrip toy_codecs /\
  (forall algo quality, compression_roundtrips toy_codecs algo quality) /\
  (forall algo quality, truncation_detected toy_codecs algo quality).
Proof.
  split; [exact toy_codecs_roundtrip|]. split; [exact toy_compression_roundtrips|exact toy_truncation_detected].
Qed.

(** ... and on the build pair of [diff_apply_fresh_end_to_end_example], executed: the file is
    written (algorithm 2, quality 9), reading it gives back the frames, applying the BYTES
    gives the new build, and each of its proper prefixes makes the patcher return an error *)
Example diff_apply_fresh_bytes_example :
  match patch_bytes toy_codecs e2e_differ 2 9 e2e_old e2e_new with
  | WOk z =>
    firstn 7 z = [0; 95; 239; 15; 2; 4; 18]%N /\          (* 0x0FEF5F00 little endian; header frame; ... *)
    read_patch_bytes toy_codecs 32768 z = (write_patch e2e_differ 2 9 e2e_old e2e_new, EEOF) /\
    match apply_patch_bytes toy_codecs 2 (contents_of e2e_old) None 32768 z with
    | Ok (t, touched, trace) =>
      touched = 4 /\
      forallb (fun e => match tlookup t (fst e), snd e with
                        | Some (File a), File b => nlist_eqb a b
                        | Some Dir, Dir => true
                        | Some (Link a), Link b => nlist_eqb a b
                        | _, _ => false end) e2e_new = true
    | _ => False
    end /\
    all_cuts_fail 2 (contents_of e2e_old) 32768 z = true
  | WPanic => False
  end.
Proof. vm_compute. repeat split; reflexivity. Qed.

(** ... and the theorem itself instantiated on that pair and that codec *)
Example diff_apply_fresh_bytes_instance :
  exists z t touched trace,
    patch_bytes toy_codecs e2e_differ 2 9 e2e_old e2e_new = WOk z /\
    read_patch_bytes toy_codecs 32768 z = (write_patch e2e_differ 2 9 e2e_old e2e_new, EEOF) /\
    apply_patch_bytes toy_codecs 2 (contents_of e2e_old) None 32768 z = Ok (t, touched, trace) /\
    touched = Z.of_nat (length (files_of e2e_new)) /\
    forall p, tlookup t p = tlookup e2e_new p.
Proof.
  apply (diff_apply_fresh_bytes toy_codecs toy_codecs_roundtrip (list N) (fun b => b) nlist_eqb 2 3%N e2e_old e2e_new 2 9 32768%N
           eq_refl eq_refl Wsync.Theorems.nlist_eqb_sound e2e_inj e2e_wf e2e_fits_old e2e_fits_new).
  - apply toy_compression_roundtrips.
  - unfold bodies_fit. apply Forall_forall. intros f Hin. vm_compute in Hin.
    repeat (destruct Hin as [<-|Hin]; [vm_compute; reflexivity|]). destruct Hin.
Qed.
