(** C09 - applying through the safekeeper never yields a silently wrong result, and an
    undamaged old build is never rejected.
    The model is Val/Safekeeper.v (with Val/VPool.v for ValidateAsError); each theorem is derived
    here, in a few lines, from the lemmas of Val/SafekeeperProofs.v about a run of consumers on one
    pool ([run_steps_sound] and its corollaries).  Second half: the same property for whole
    patch application, from Compose/SafekeeperApplyProofs.v and Patch/DiffApplyProofs.v.

    Vocabulary.  A pool holds the files [sa], each a pair (signed content, content the file has
    now); [files_of bs hash sa] is what the safekeeper knows about them (signed size, block
    hashes) plus what the inner pool serves.  A step (file index, pattern) is one consumer of
    the old-build pool: [PCopy] the fresh bowl's whole-file copy, [PRange b n] a block-range op
    of wsync.ApplySingleFull, [PChunks l] the bsdiff patcher's lrufile loading the chunks [l].
    [run_steps] runs consumers one after the other on the same pool (shared verdict cache,
    shared inner reader) and returns, per step, the pieces served and the outcome.
    [ideal_pieces bs c signed pat] is what that consumer is served on the signed file itself -
    i.e. what the patch was computed against, so that a patch whose every read completes
    with the ideal pieces produces the new build (C01/C12), and any other result is an error. *)
From Wharf Require Import Base.Prelude Val.Safekeeper Val.SafekeeperProofs.
Local Open Scope N_scope.

(** For every block size that is a multiple of the consumers' read size, every signed build,
    every state of the files now (any damage: flips, truncation, extension, emptied files),
    every sequence of consumers (the hypothesis [steps_ok], block ranges inside the signed
    files as in a valid patch, is used by no proof): no step runs
    out of fuel, what a step was served before it stopped is an initial part of what it would
    have been served on the signed file, and a step that completes without error was served
    exactly that.  Hence every file a patch writes is either reported as failed or identical
    to what the patch produces from the signed build. *)
Theorem safekeeper_sound :
  forall (A H : Type) (bs c m : N), 0 < c -> 0 < m -> bs = c * m ->
  forall (hash : list A -> H) (heqb : H -> H -> bool),
    (forall a b, heqb (hash a) (hash b) = true -> a = b) ->
  forall (sa : list (list A * list A)) (steps : list (N * pattern)),
    steps_ok bs sa steps ->
    Forall2 (step_sound bs c sa) steps
            (run_steps bs c hash heqb Fixed (files_of bs hash sa) pool_empty steps).
Proof.
  (* [steps_ok] is not used: a range reaching past the end of the signed file is covered *)
  intros A H bs c m Hc Hm Hbs hash heqb Hinj sa steps _.
  apply (run_steps_fixed bs c m Hc Hm Hbs hash heqb Hinj sa (fun _ => True) True); [intros; apply reads_keep_any|].
  apply pool_ok_empty. exact I.
Qed.
Print Assumptions safekeeper_sound.

(** the same in bytes: the bytes served are a prefix of the signed bytes asked for (the whole
    file / the block range / the chunks), and all of them when the step completes *)
Theorem safekeeper_sound_bytes :
  forall (A H : Type) (bs c m : N) (hash : list A -> H) (heqb : H -> H -> bool)
         (sa : list (list A * list A)) (steps : list (N * pattern)),
    0 < c -> 0 < m -> bs = c * m ->
    (forall a b, heqb (hash a) (hash b) = true -> a = b) ->
    steps_ok bs sa steps ->
    Forall2 (step_sound_bytes bs c sa) steps
            (run_steps bs c hash heqb Fixed (files_of bs hash sa) pool_empty steps).
Proof.
  intros A H bs c m hash heqb sa steps Hc Hm Hbs Hinj Hok.
  pose proof (safekeeper_sound A H bs c m Hc Hm Hbs hash heqb Hinj sa steps Hok) as Hs.
  clear Hok. induction Hs; constructor; [apply step_sound_to_bytes; assumption|assumption].
Qed.
Print Assumptions safekeeper_sound_bytes.

(** Hence "error, or the new build": if no consumer of a run reported an error, every one of
    them was served, byte for byte, what it reads on the signed (undamaged) old build - and
    the patcher's output is a function of what its reads return. *)
Theorem safekeeper_completed_run_is_exact :
  forall (A H : Type) (bs c m : N) (hash : list A -> H) (heqb : H -> H -> bool)
         (sa : list (list A * list A)) (steps : list (N * pattern)),
    0 < c -> 0 < m -> bs = c * m ->
    (forall a b, heqb (hash a) (hash b) = true -> a = b) ->
    steps_ok bs sa steps ->
    let results := run_steps bs c hash heqb Fixed (files_of bs hash sa) pool_empty steps in
    Forall (fun res => snd res = Done) results ->
    map (fun res => concat (fst res)) results = map (ideal_of bs c sa) steps.
Proof.
  intros A H bs c m hash heqb sa steps Hc Hm Hbs Hinj Hok results.
  pose proof (safekeeper_sound_bytes A H bs c m hash heqb sa steps Hc Hm Hbs Hinj Hok) as Hs.
  fold results in Hs. clearbody results. clear Hok.
  induction Hs as [|st res sts rs Hst Hs IH]; intros Hd; [reflexivity|].
  inversion Hd as [|? ? Hd1 Hd2]; subst. cbn [map]. rewrite (IH Hd2). f_equal.
  unfold step_sound_bytes in Hst. unfold ideal_of.
  destruct (nth_error sa (N.to_nat (fst st))) as [[s a]|]; [apply Hst; assumption|subst res; discriminate].
Qed.
Print Assumptions safekeeper_completed_run_is_exact.

(** An undamaged old build is never rejected: every consumer completes (and, by the theorem
    above, with the signed bytes), including the whole-file copy that reads up to EOF and a
    second copy of the same file. *)
Theorem safekeeper_accepts_pristine :
  forall (A H : Type) (bs c m : N), 0 < c -> 0 < m -> bs = c * m ->
  forall (hash : list A -> H) (heqb : H -> H -> bool),
    (forall a b, heqb (hash a) (hash b) = true -> a = b) ->
    (forall a, heqb (hash a) (hash a) = true) ->
  forall (sa : list (list A * list A)),
    (forall s a, In (s, a) sa -> a = s) ->
  forall (steps : list (N * pattern)),
    steps_ok bs sa steps ->
    (forall fi pat, In (fi, pat) steps -> (N.to_nat fi < length sa)%nat) ->
    Forall (fun res => snd res = Done)
           (run_steps bs c hash heqb Fixed (files_of bs hash sa) pool_empty steps).
Proof.
  intros A H bs c m Hc Hm Hbs hash heqb Hinj Hrefl sa Hpr steps _ Hin.
  pose proof (block_size_pos bs c m Hc Hm Hbs) as Hb.
  apply (run_steps_done bs c m Hc Hm Hbs hash heqb Hinj sa cache_true False); [|tauto| |assumption].
  - intros fi s a E0. rewrite (Hpr s a) by (eapply nth_error_In; eassumption).
    apply sk_read_pristine; assumption.
  - apply pool_ok_empty, cache_true_empty.
Qed.
Print Assumptions safekeeper_accepts_pristine.

(** the invariant behind both: a cached "valid" verdict means the block of the file equals the
    signed block in full, i.e. up to the next block boundary or the end of either file *)
Theorem validated_block_is_the_signed_block :
  forall (A H : Type) (bs c m : N), 0 < c -> 0 < m -> bs = c * m ->
  forall (hash : list A -> H) (heqb : H -> H -> bool),
    (forall a b, heqb (hash a) (hash b) = true -> a = b) ->
  forall (signed actual : list A) (ca : cache) (off : N) (ca' : cache) (r : vres) (moved : bool),
    cache_ok bs signed actual ca ->
    validate_block bs hash heqb Fixed (skfile_of bs hash signed actual) ca off = (ca', r, moved) ->
    cache_ok bs signed actual ca' /\ r <> REof /\
    (r = RValid -> slice actual (off / bs * bs) bs = slice signed (off / bs * bs) bs).
Proof. exact (@validate_fixed). Qed.
Print Assumptions validated_block_is_the_signed_block.

(** Both properties were false of the code before the two "fix:" commits (model version
    [Unfixed]); the witnesses, scaled to 64 KiB blocks, are the corpus cases of the harness. *)
Theorem safekeeper_sound_refuted_before_fix :
  exists (sa : list (list N * list N)) steps,
    steps_ok 4 sa steps /\
    ~ Forall2 (step_sound 4 2 sa) steps
        (run_steps 4 2 (fun b : list N => b) nlist_eqb Unfixed (files_of 4 (fun b : list N => b) sa) pool_empty steps).
Proof.
  exists [([1;2;3;4;5], [1;2;3;4;5;9])], [(0, PCopy)]. split.
  - intros fi pat s a [E|[]] _. inversion E; subst. exact I.
  - rewrite unfixed_serves_appended_bytes.
    intros F. inversion F as [|? ? ? ? Hs _]; subst. destruct Hs as [_ [_ Hd]].
    specialize (Hd eq_refl). vm_compute in Hd. discriminate.
Qed.
Print Assumptions safekeeper_sound_refuted_before_fix.

Theorem safekeeper_accepts_pristine_refuted_before_fix :
  exists (sa : list (list N * list N)) steps,
    (forall s a, In (s, a) sa -> a = s) /\ steps_ok 4 sa steps /\
    (forall fi pat, In (fi, pat) steps -> (N.to_nat fi < length sa)%nat) /\
    ~ Forall (fun res => snd res = Done)
        (run_steps 4 2 (fun b : list N => b) nlist_eqb Unfixed (files_of 4 (fun b : list N => b) sa) pool_empty steps).
Proof.
  exists [([1;2;3;4], [1;2;3;4])], [(0, PCopy)]. repeat split.
  - intros s a [E|[]]. inversion E; reflexivity.
  - intros fi pat s a [E|[]] _. inversion E; subst. exact I.
  - intros fi pat [E|[]]. inversion E; subst. cbn. lia.
  - rewrite unfixed_rejects_pristine_block_multiple.
    intros F. inversion F as [|? ? Hd _]; subst. discriminate.
Qed.
Print Assumptions safekeeper_accepts_pristine_refuted_before_fix.

(** non-vacuity: the hypotheses are met by bs = 4, c = 2, the identity as hash; five files
    (pristine block multiple, extended, cut at a boundary, emptied, pristine), eight consumers:
    the damaged ones fail after an initial part of the signed bytes, the pristine ones complete,
    the second copy of the same file included *)
Example safekeeper_example :
  run_steps 4 2 (fun b : list N => b) nlist_eqb Fixed
    (files_of 4 (fun b : list N => b)
       [([1;2;3;4], [1;2;3;4]); ([1;2;3;4;5], [1;2;3;4;5;9]); ([1;2;3;4;5], [1;2;3;4]); ([7;8], []); ([1;2;3;4;5], [1;2;3;4;5])])
    pool_empty [(0, PCopy); (1, PCopy); (2, PCopy); (2, PRange 0 2); (2, PChunks [2]); (3, PCopy); (4, PCopy); (4, PCopy)]
  = [([[1;2];[3;4]], Done); ([[1;2];[3;4]], Failed); ([[1;2];[3;4]], Failed); ([[1;2];[3;4]], Failed); ([], Failed);
     ([], Failed); ([[1;2];[3;4];[5]], Done); ([[1;2];[3;4];[5]], Done)].
Proof. exact fixed_on_the_same_inputs. Qed.

(** C09 composed with C01 at Coq level (Compose/SafekeeperApply.v, Compose/SafekeeperApplyProofs.v):
    the property stated for WHOLE PATCH APPLICATION instead of for sequences of read patterns.

    [apply_patch_fresh_sk bs c entries hash heqb signed actual whitelist frames] is C01's
    [apply_patch_fresh] (Patch/Patcher.v, same control structure) with every access to an old
    file going through the safekeeper pool of this file's model: Transpose = the [PCopy] consumer;
    ApplySingleFull = [range_loop] started at [bs * blockIndex] for [op_size] bytes, where the
    op size is computed from pool.GetSize = the size in the PATCH's container (not the signed
    size that [PRange] uses, not the size on disk) - so the range may start anywhere and reach
    past the end of the signed file: a consumer of its own, [sk_range], with its own soundness
    lemma ([sk_range_sound], from [range_loop_sound] of Val/SafekeeperProofs.v); bsdiff = lrufile (LRU cache of [entries]
    chunks, file size taken from Seek(0, End) on the file ON DISK, Seek checked against it) whose
    every cache miss is the chunk-read consumer [chunk_loop] for one chunk.
    [signed] = the file contents the signature describes, by old file index; [actual] = what is
    on disk now, [Some d] or [None] for a file that is not there.  [extended signed actual] =
    some file on disk is longer than signed. *)
From Wharf Require Import Bowl.Fresh Patch.Reinterp Patch.Stream Patch.Patcher
     Compose.SafekeeperApply Compose.SafekeeperApplyProofs.
From Wharf Require Patch.DiffApplyProofs.

(** For every block size that is a multiple of the read size, every LRU capacity, every
    injective strong hash, every signed old build and every state of it on disk (one state per
    signed file: bytes flipped, truncated, extended, emptied, missing), every whitelist and
    EVERY frame list (well-formed or not): applying the frames through the safekeeper is an
    error, or is exactly - tree, touched count, calls made - what applying them to the signed
    build gives, or (third case) applying them to the signed build is itself an error and some
    file on disk is longer than signed.  (A fuelled loop of the safekeeper model running dry
    would surface as [Panic]; the proof excludes it at every consumer.) *)
Theorem safekeeper_apply_sound :
  forall (H : Type) (bs c m : N) (entries : nat) (hash : list byte -> H) (heqb : H -> H -> bool)
         (signed : list (list byte)) (actual : list (option (list byte))) (whitelist : option (list Z)) (fs : list frame),
    0 < c -> 0 < m -> bs = c * m ->
    (forall a b, heqb (hash a) (hash b) = true -> a = b) ->
    length actual = length signed ->
    let rs := apply_patch_fresh_sk bs c entries hash heqb signed actual whitelist fs in
    let rp := apply_patch_fresh (Z.of_N bs) signed whitelist fs in
    rs = Err \/ rs = rp \/ (rp = Err /\ extended signed actual).
Proof.
  intros H bs c m entries hash heqb signed actual whitelist fs Hc Hm Hbs Hinj Hlen.
  unfold apply_patch_fresh_sk, apply_patch_fresh.
  destruct (read_patch fs) as [[[[[al q] oldC] newC] ms]|]; [|left; reflexivity].
  apply (apply_fresh_sk_sound bs c m); assumption.
Qed.
Print Assumptions safekeeper_apply_sound.

(** The third case cannot be dropped: the two-case statement "an error, or the result on the
    signed build, for every frame list" is FALSE of the faithful model, and of the code (the
    witness scaled to 64 KiB was replayed on the real patcher + NewSafeKeeper: signed file of
    65536 bytes, 100 bytes appended on disk, bsdiff controls (add "", copy [7], seek 65540),
    (add "", copy [8]), eof: "invalid seek to 65540, must be in [0,65536]" on the signed build,
    no error and the output [7 8] through the safekeeper).  lrufile measures the file on disk
    and a control with an empty add string seeks without reading, so no block is checked.
    Only an ill-formed patch does that; see the next two theorems. *)
Theorem safekeeper_apply_two_cases_refuted :
  exists (signed : list (list byte)) (actual : list (option (list byte))) (fs : list frame) r,
    length actual = length signed /\
    apply_patch_fresh_sk 4 2 2 (fun b : list N => b) nlist_eqb signed actual None fs = Ok r /\
    apply_patch_fresh 4 signed None fs = Err.
Proof.
  (* signed [1;2;3;4], on disk [1;2;3;4;5;6]; controls (add "", copy [7], seek 5), (add "", copy [8]), eof *)
  exists [[1;2;3;4]%N], [Some [1;2;3;4;5;6]%N].
  exists ([FHeader 0 0; FContainer ex_oldC; FContainer (mkC [([1%N], 2%Z)] [] []);
           FMsg (MSH (mkSH SH_BSDIFF 0)); FMsg (MBH (mkBH 0));
           FMsg (MCT (mkCT [] [7]%N 5 false)); FMsg (MCT (mkCT [] [8]%N 0 false));
           FMsg (MCT (mkCT [] [] 0 true)); FMsg hey_msg]).
  eexists. split; [reflexivity|]. split; vm_compute; reflexivity.
Qed.
Print Assumptions safekeeper_apply_two_cases_refuted.

(** Whenever the frames apply to the signed build (i.e. for every patch that is valid for the
    build the signature describes): an error, or exactly that result. *)
Theorem safekeeper_apply_exact :
  forall (H : Type) (bs c m : N) (entries : nat) (hash : list byte -> H) (heqb : H -> H -> bool)
         (signed : list (list byte)) (actual : list (option (list byte))) (whitelist : option (list Z)) (fs : list frame),
    0 < c -> 0 < m -> bs = c * m ->
    (forall a b, heqb (hash a) (hash b) = true -> a = b) ->
    length actual = length signed ->
    apply_patch_fresh (Z.of_N bs) signed whitelist fs <> Err ->
    apply_patch_fresh_sk bs c entries hash heqb signed actual whitelist fs = Err \/
    apply_patch_fresh_sk bs c entries hash heqb signed actual whitelist fs = apply_patch_fresh (Z.of_N bs) signed whitelist fs.
Proof.
  intros H bs c m entries hash heqb signed actual whitelist fs Hc Hm Hbs Hinj Hlen Hne.
  destruct (safekeeper_apply_sound H bs c m entries hash heqb signed actual whitelist fs Hc Hm Hbs Hinj Hlen)
    as [E|[E|[E _]]]; auto. contradiction.
Qed.
Print Assumptions safekeeper_apply_exact.

(** Whatever the frames, when no file on disk is longer than signed (flips, truncation, emptied
    and missing files): an error, or the result on the signed build. *)
Theorem safekeeper_apply_sound_no_extension :
  forall (H : Type) (bs c m : N) (entries : nat) (hash : list byte -> H) (heqb : H -> H -> bool)
         (signed : list (list byte)) (actual : list (option (list byte))) (whitelist : option (list Z)) (fs : list frame),
    0 < c -> 0 < m -> bs = c * m ->
    (forall a b, heqb (hash a) (hash b) = true -> a = b) ->
    length actual = length signed ->
    (forall i s a, nth_error signed i = Some s -> nth_error actual i = Some (Some a) -> (length a <= length s)%nat) ->
    apply_patch_fresh_sk bs c entries hash heqb signed actual whitelist fs = Err \/
    apply_patch_fresh_sk bs c entries hash heqb signed actual whitelist fs = apply_patch_fresh (Z.of_N bs) signed whitelist fs.
Proof.
  intros H bs c m entries hash heqb signed actual whitelist fs Hc Hm Hbs Hinj Hlen Hno.
  destruct (safekeeper_apply_sound H bs c m entries hash heqb signed actual whitelist fs Hc Hm Hbs Hinj Hlen)
    as [E|[E|[_ (i & s & a & Hs & Ha & Hl)]]]; auto.
  specialize (Hno i s a Hs Ha). lia.
Qed.
Print Assumptions safekeeper_apply_sound_no_extension.

(** With C01's [diff_apply_fresh]: the patch WritePatch produces from (signed old build, new
    build) - any differ satisfying [diff_ok], which C11 proves of the real one -, applied
    through the safekeeper to whatever the old build has become on disk: an error, or every
    file touched and the output tree IS the new build. *)
Theorem safekeeper_apply_error_or_new_build :
  forall (H : Type) (bs c m : N) (entries : nat) (hash : list byte -> H) (heqb : H -> H -> bool)
         (differ : Z -> list byte -> list op) (old new : build) (algo quality : Z) (actual : list (option (list byte))),
    0 < c -> 0 < m -> bs = c * m ->
    (forall a b, heqb (hash a) (hash b) = true -> a = b) ->
    wf_build new -> fits63 old -> fits63 new -> diff_ok (Z.of_N bs) (contents_of old) differ ->
    length actual = length (contents_of old) ->
    let rs := apply_patch_fresh_sk bs c entries hash heqb (contents_of old) actual None (write_patch differ algo quality old new) in
    rs = Err \/
    exists t touched trace,
      rs = Ok (t, touched, trace) /\ touched = Z.of_nat (length (Fresh.files_of new)) /\
      forall p, tlookup t p = tlookup new p.
Proof.
  intros H bs c m entries hash heqb differ old new algo quality actual Hc Hm Hbs Hinj Hwf Ho Hn Hd Hlen rs.
  assert (Hb : (0 < Z.of_N bs)%Z) by (subst bs; lia).
  destruct (DiffApplyProofs.diff_apply_fresh_lemma (Z.of_N bs) differ old new algo quality Hb Hwf Ho Hn Hd)
    as (t & touched & trace & Hp & Ht & Hl).
  destruct (safekeeper_apply_exact H bs c m entries hash heqb (contents_of old) actual None
              (write_patch differ algo quality old new) Hc Hm Hbs Hinj Hlen) as [E|E].
  - rewrite Hp. discriminate.
  - left. exact E.
  - right. exists t, touched, trace. split; [|split; assumption]. unfold rs. rewrite E. exact Hp.
Qed.
Print Assumptions safekeeper_apply_error_or_new_build.

(** An undamaged old build is never rejected, whatever the frames: the run through the
    safekeeper IS the plain run (never an extra error, never a different result). *)
Theorem safekeeper_apply_accepts_pristine :
  forall (H : Type) (bs c m : N) (entries : nat) (hash : list byte -> H) (heqb : H -> H -> bool)
         (signed : list (list byte)) (whitelist : option (list Z)) (fs : list frame),
    0 < c -> 0 < m -> bs = c * m ->
    (forall a b, heqb (hash a) (hash b) = true -> a = b) ->
    (forall a, heqb (hash a) (hash a) = true) ->
    apply_patch_fresh_sk bs c entries hash heqb signed (map Some signed) whitelist fs =
    apply_patch_fresh (Z.of_N bs) signed whitelist fs.
Proof.
  intros H bs c m entries hash heqb signed whitelist fs Hc Hm Hbs Hinj Hrefl.
  unfold apply_patch_fresh_sk, apply_patch_fresh.
  destruct (read_patch fs) as [[[[[al q] oldC] newC] ms]|]; [|reflexivity].
  apply (apply_fresh_sk_pristine bs c m); assumption.
Qed.
Print Assumptions safekeeper_apply_accepts_pristine.

(** the patcher's block-range consumer (any start that is a multiple of the read size, any
    size): what a completed copy delivered is the signed bytes of that range, up to the end of
    the signed file; [sk_range_sound], from [range_loop_sound] of Val/SafekeeperProofs.v *)
Theorem patcher_range_consumer_sound :
  forall (H : Type) (bs c m : N), 0 < c -> 0 < m -> bs = c * m ->
  forall (hash : list byte -> H) (heqb : H -> H -> bool),
    (forall a b, heqb (hash a) (hash b) = true -> a = b) ->
  forall (signed actual : list byte) (p : pool) (fi off size : N) (r' : rd) (ps : list (list byte)) (o : outcome),
    cache_ok bs signed actual (pcache p fi) -> off mod c = 0 ->
    sk_range bs c hash heqb (skfile_of bs hash signed actual) p fi off size = (r', ps, o) ->
    o <> OutOfFuel /\ cache_ok bs signed actual (rcache r') /\
    (o = Done -> concat ps = Safekeeper.slice signed off size).
Proof. exact (@sk_range_sound). Qed.
Print Assumptions patcher_range_consumer_sound.

(** executed at bs = 4, c = 2, hash = the block: the C01 example patch (a renamed file =>
    Transpose, a file made of an old block plus fresh bytes => ApplySingleFull) on the pristine
    old build gives the new build and is the plain result; truncated / extended / flipped /
    emptied / missing old file: an error; a damaged file the patch does not read: the new
    build; a bsdiff series with one and with two cache entries *)
Example safekeeper_apply_example :
  is_build (ex_run [Some [1;2;3;4;5;6]; Some [9]]) ex_new = true /\
  ex_run [Some [1;2;3;4;5;6]; Some [9]] = apply_patch_fresh 4 (contents_of ex_old) None ex_patch /\
  ex_run [Some [1;2;3;4;5]; Some [9]] = Err /\
  ex_run [Some [1;2;3;4;5;6;6]; Some [9]] = Err /\
  ex_run [Some [1;2;3;0;5;6]; Some [9]] = Err /\
  ex_run [Some []; Some [9]] = Err /\
  ex_run [None; Some [9]] = Err /\
  is_build (ex_run [Some [1;2;3;4;5;6]; Some [8;8]]) ex_new = true /\
  is_build (apply_patch_fresh_sk 4 2 1 ex_idh nlist_eqb [[1;2;3;4]] [Some [1;2;3;4]] None ex_bs_patch)
           [([1], File [2;3;4;7;2;3;4])] = true /\
  apply_patch_fresh_sk 4 2 2 ex_idh nlist_eqb [[1;2;3;4]] [Some [1;2;3;4]] None ex_bs_patch =
  apply_patch_fresh 4 [[1;2;3;4]] None ex_bs_patch /\
  apply_patch_fresh_sk 4 2 2 ex_idh nlist_eqb [[1;2;3;4]] [Some [1;2;3;5]] None ex_bs_patch = Err /\
  apply_patch_fresh_sk 4 2 2 ex_idh nlist_eqb [[1;2;3;4]] [Some [1;2;3]] None ex_bs_patch = Err.
Proof. exact safekeeper_apply_example_lemma. Qed.
