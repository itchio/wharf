(** C13 - messages survive any compression setting; reader checkpoints resume exactly.
    The models are Wire/Uvarint.v, Wire/Frame.v, Wire/Reader.v, Wire/Rewind.v, Wire/SourceEOF.v;
    each theorem is derived here in a few lines from the lemmas of Wire/*Proofs.v.

    External components are hypotheses of the statements: the protobuf codec
    ([unmarshal (marshal m) = Some m]), the compressor/decompressor pair
    ([decompress (compress s) = Some s]), and the checkpoint contract of sources
    ([beh_sound]: a source checkpoint describes an offset not beyond what the source has
    handed out, and a fresh source handed that checkpoint restarts at or before it).
    [fits_msg marshal m] = the marshalled body is shorter than 2^56 bytes (what the writer's
    8-byte varint buffer can announce; beyond it Go panics, [write_message_panics]). *)
From Wharf Require Import Base.Prelude Wire.Uvarint Wire.UvarintProofs Wire.Frame Wire.FrameProofs
  Wire.Reader Wire.ReaderProofs Wire.SourceEOF Wire.SourceEOFProofs Wire.Rewind Wire.RewindProofs.
Local Open Scope N_scope.

(** Go's PutUvarint / ReadUvarint round trip for every 64-bit value, whatever follows. *)
Theorem uvarint_roundtrip :
  forall n r, n < 2 ^ 64 -> uvarint_dec (uvarint_enc n ++ r) = Some (n, r).
Proof. intros n r Hn. unfold uvarint_dec. rewrite uvarint_read_enc by exact Hn. reflexivity. Qed.
Print Assumptions uvarint_roundtrip.

(** No encoding is a proper prefix of another one. *)
Theorem uvarint_prefix_free :
  forall a b r r', a < 2 ^ 64 -> b < 2 ^ 64 -> uvarint_enc a ++ r = uvarint_enc b ++ r' -> a = b /\ r = r'.
Proof.
  intros a b r r' Ha Hb E.
  pose proof (uvarint_roundtrip a r Ha) as H1. rewrite E, (uvarint_roundtrip b r' Hb) in H1.
  inversion H1. split; reflexivity.
Qed.
Print Assumptions uvarint_prefix_free.

(** The writer's 8-byte varint buffer is enough exactly for bodies shorter than 2^56 bytes. *)
Theorem varint_buffer_suffices :
  forall n, n < 2 ^ 64 -> ((length (uvarint_enc n) <= 8)%nat <-> n < 2 ^ 56).
Proof. intros n _. apply uvarint_enc_fits_8. Qed.
Print Assumptions varint_buffer_suffices.

(** Any sequence of messages written through the wire writer and any codec pair that is a
    round trip is read back as the same sequence followed by end of stream (for every
    initial capacity of the reusable buffer). *)
Theorem read_write_roundtrip :
  forall (M : Type) (marshal : M -> list byte) (unmarshal : list byte -> option M),
    (forall m, unmarshal (marshal m) = Some m) ->
  forall (compress : list byte -> list byte) (decompress : list byte -> option (list byte)),
    (forall s, decompress (compress s) = Some s) ->
  forall (msgs : list M) (cap : N), Forall (fits_msg marshal) msgs ->
    exists z, write_stream marshal compress msgs = WOk z /\
              read_stream unmarshal decompress cap z = (msgs, EEOF).
Proof.
  intros M marshal unmarshal Hum compress decompress Hcodec msgs cap Hf.
  exists (compress (stream marshal msgs)). unfold write_stream, read_stream.
  rewrite (write_msgs_ok marshal msgs Hf), Hcodec.
  split; [reflexivity | exact (read_msgs_stream marshal unmarshal Hum msgs cap Hf)].
Qed.
Print Assumptions read_write_roundtrip.

(** Prefix-freeness of the framing: a truncated stream yields a strict prefix of the written
    messages and then io.EOF or io.ErrUnexpectedEOF - never a wrong message, never all of them. *)
Theorem truncated_stream :
  forall (M : Type) (marshal : M -> list byte) (unmarshal : list byte -> option M),
    (forall m, unmarshal (marshal m) = Some m) ->
  forall (msgs : list M) (cap : N) (p q : list byte),
    Forall (fits_msg marshal) msgs -> stream marshal msgs = p ++ q -> q <> [] ->
    exists k e, read_msgs unmarshal cap p = (firstn k msgs, e) /\ (k < length msgs)%nat /\
                (e = EEOF \/ e = EUnexpectedEOF).
Proof. exact @truncated_stream_lemma. Qed.
Print Assumptions truncated_stream.

(** For every message list, every schedule of WantSave / PopCheckpoint / ReadMessage calls
    and every source behaviour within the contract: when the i-th operation pops a checkpoint,
    the messages read before it are the first k written ones, and that checkpoint handed to any
    reader over the same bytes (with any source behaviour within the contract) resumes so that
    exactly messages k+1... are read, then end of stream. *)
Theorem checkpoint_resumes_exactly :
  forall (M : Type) (marshal : M -> list byte) (unmarshal : list byte -> option M),
    (forall m, unmarshal (marshal m) = Some m) ->
  forall (msgs : list M) (beh : behaviour) (cap0 : N) (ops : list op),
    Forall (fits_msg marshal) msgs -> beh_sound beh ->
    let tr := run unmarshal beh (new_reader cap0 (stream marshal msgs)) ops in
    forall i c ri, nth_error tr i = Some (EvPop (Some c), ri) ->
      let k := length (msgs_of (firstn i tr)) in
      msgs_of (firstn i tr) = firstn k msgs /\
      forall (r0 : reader) (beh2 : behaviour),
        s_data (r_src r0) = stream marshal msgs -> beh_sound beh2 ->
        exists r', resume r0 (Some c) = Some r' /\
                   read_all unmarshal beh2 r' = (skipn k msgs, EEOF).
Proof.
  intros M marshal unmarshal Hum msgs beh cap0 ops Hf Hb tr i c ri Hnth k.
  destruct (run_new_inv marshal unmarshal Hum msgs beh cap0 ops Hf Hb i) as [Ek Hg]. specialize (Hg c ri Hnth).
  split; [exact Ek |]. intros r0 beh2 Hd _.
  rewrite <- (firstn_skipn k msgs) in Hd, Hf.
  exact (good_ckpt_resumes marshal unmarshal Hum beh2 _ _ c r0 Hf Hd Hg).
Qed.
Print Assumptions checkpoint_resumes_exactly.

(** The same for a reader that is used again ([xop], [XZ], [pos_at], [xpos]: Wire/Rewind.v): a
    run may call [Resume] on the reader itself -
    with a checkpoint it popped earlier in the run (a rewind, or a jump forward after one) or
    with nil (start over) - at any point, in any save state: idle, a request pending, a
    source checkpoint held that nobody has popped.  [behs i] is the behaviour of the source
    during the i-th operation (a source may or may not keep an unanswered request across its
    own Resume, and answers a kept one during the read that discards the bytes up to the
    checkpoint's offset).  Every checkpoint popped - before or after such calls - was
    popped at a position [k = pos_at tr i] that the events alone determine (a read moves one
    message forward, a Resume goes to where its checkpoint was popped), and handed to any
    reader over the same bytes it resumes so that exactly the messages from [k] on are read,
    then end of stream. *)
Theorem used_reader_checkpoints_resume_exactly :
  forall (M : Type) (marshal : M -> list byte) (unmarshal : list byte -> option M),
    (forall m, unmarshal (marshal m) = Some m) ->
  forall (msgs : list M), Forall (fits_msg marshal) msgs ->
  forall (behs : nat -> behaviour), (forall i, beh_sound (behs i)) ->
  forall (cap0 : N) (ops : list xop),
    let tr := xrun unmarshal behs [] (new_reader cap0 (stream marshal msgs)) ops in
    forall i c ri, nth_error tr i = Some (XE (EvPop (Some c)), ri) ->
      let k := pos_at tr i in
      (k <= length msgs)%nat /\
      forall (r0 : reader) (beh2 : behaviour),
        s_data (r_src r0) = stream marshal msgs -> beh_sound beh2 ->
        exists r', resume r0 (Some c) = Some r' /\
                   read_all unmarshal beh2 r' = (skipn k msgs, EEOF).
Proof.
  intros M marshal unmarshal Hum msgs Hfit behs Hbs cap0 ops tr i c ri Hnth k.
  destruct (xrun_new_ok marshal unmarshal Hum msgs Hfit behs Hbs cap0 ops i _ Hnth) as (d & t & Em & El & Hgc).
  change (length d = k) in El. split; [rewrite Em, app_length; lia |].
  intros r0 beh2 Hd _. rewrite Em in Hd, Hfit.
  replace (skipn k msgs) with t by (rewrite Em, <- El; symmetry; apply ListLemmas.skipn_app_exact).
  exact (good_ckpt_resumes marshal unmarshal Hum beh2 d t c r0 Hfit Hd Hgc).
Qed.
Print Assumptions used_reader_checkpoints_resume_exactly.

(** ... and every read of such a run returns the message at the reader's position, or end of
    stream exactly when the position is the end. *)
Theorem used_reader_reads_in_order :
  forall (M : Type) (marshal : M -> list byte) (unmarshal : list byte -> option M),
    (forall m, unmarshal (marshal m) = Some m) ->
  forall (msgs : list M), Forall (fits_msg marshal) msgs ->
  forall (behs : nat -> behaviour), (forall i, beh_sound (behs i)) ->
  forall (cap0 : N) (ops : list xop),
    let tr := xrun unmarshal behs [] (new_reader cap0 (stream marshal msgs)) ops in
    forall i res ri, nth_error tr i = Some (XE (EvRead res), ri) ->
      match res with
      | ReadOk m => nth_error msgs (pos_at tr i) = Some m
      | ReadErr e => pos_at tr i = length msgs /\ e = EEOF
      end.
Proof.
  intros M marshal unmarshal Hum msgs Hfit behs Hbs cap0 ops tr i res ri Hnth.
  pose proof (xrun_new_ok marshal unmarshal Hum msgs Hfit behs Hbs cap0 ops i _ Hnth) as Hok.
  destruct res; exact Hok.
Qed.
Print Assumptions used_reader_reads_in_order.

(** Save protocol (1): PopCheckpoint returns a checkpoint only in the "has source checkpoint"
    state, goes back to idle, and the checkpoint carries the reader's current offset. *)
Theorem save_protocol_pop :
  forall r r' c, pop_checkpoint r = (r', Some c) ->
    r_save r = HasSrc /\ r_save r' = Idle /\ r_sc r' = None /\ mc_off c = r_off r /\ mc_src c = r_sc r.
Proof.
  intros r r' c H. unfold pop_checkpoint in H. destruct (r_save r) eqn:E; inversion H; subst.
  cbn. repeat split; reflexivity.
Qed.
Print Assumptions save_protocol_pop.

(** Save protocol (2): at every point of every run, over any bytes and any source behaviour,
    no more checkpoints have been popped than WantSave calls were forwarded to the source. *)
Theorem save_protocol_once :
  forall (M : Type) (unmarshal : list byte -> option M) (beh : behaviour) (ops : list op) (cap0 : N) (data : list byte) (i : nat),
    (pops (firstn i (run unmarshal beh (new_reader cap0 data) ops)) <=
     wants (firstn i (run unmarshal beh (new_reader cap0 data) ops)))%nat.
Proof.
  intros M unmarshal beh ops cap0 data i. rewrite run_firstn.
  pose proof (run_protocol unmarshal beh (firstn i ops) (new_reader cap0 data) eq_refl) as [_ H].
  cbn [pending new_reader r_save] in H. lia.
Qed.
Print Assumptions save_protocol_once.

(** Save protocol (3): the offset of a popped checkpoint is the message boundary after the
    messages read so far, and its source checkpoint does not lie beyond it. *)
Theorem save_protocol_boundary :
  forall (M : Type) (marshal : M -> list byte) (unmarshal : list byte -> option M),
    (forall m, unmarshal (marshal m) = Some m) ->
  forall (msgs : list M) (beh : behaviour) (cap0 : N) (ops : list op),
    Forall (fits_msg marshal) msgs -> beh_sound beh ->
    let tr := run unmarshal beh (new_reader cap0 (stream marshal msgs)) ops in
    forall i c ri, nth_error tr i = Some (EvPop (Some c), ri) ->
      mc_off c = N.of_nat (length (stream marshal (firstn (length (msgs_of (firstn i tr))) msgs))) /\
      exists sc, mc_src c = Some sc /\ sc_off sc <= mc_off c.
Proof.
  intros M marshal unmarshal Hum msgs beh cap0 ops Hf Hb tr i c ri Hnth.
  destruct (proj2 (run_new_inv marshal unmarshal Hum msgs beh cap0 ops Hf Hb i) c ri Hnth) as (Hoff & sc & Hsc & _ & H2).
  split; [exact Hoff |]. exists sc. rewrite Hoff. auto.
Qed.
Print Assumptions save_protocol_boundary.

(** The regrown buffer is at least as large as the message. *)
Theorem npo2_ge : forall v, v <= npo2 v.
Proof.
  intros v. unfold npo2. destruct (N.eqb_spec v 0) as [-> | _]; [reflexivity |].
  apply N.le_trans with (v - 1 + 1); [lia |]. apply N.add_le_mono_r.
  do 5 (eapply N.le_trans; [| apply smear_ge]). reflexivity.
Qed.
Print Assumptions npo2_ge.

(** Magic numbers: the written int32 is accepted, any other expected value gives ErrFormat. *)
Theorem magic_roundtrip :
  forall m m' r, (- 2147483648 <= m < 2147483648)%Z ->
    expect_magic m' (magic_enc m ++ r) = if Z.eqb m m' then inl r else inr EFormat.
Proof. exact expect_magic_enc. Qed.
Print Assumptions magic_roundtrip.

(** The repaired byte reads and discard loop of wire/read_context.go compute the list
    semantics of the model whether or not the source reports io.EOF together with its last
    bytes (gzip does) ... *)
Theorem fixed_readbyte_is_list_semantics :
  forall eager l, uv_loop_with (read_byte_fixed eager) 10 l 0 0 0 = uvarint_read l.
Proof. intros eager l. apply uv_loop_with_fixed; lia. Qed.
Print Assumptions fixed_readbyte_is_list_semantics.

Theorem fixed_discard_is_skipn :
  forall eager chunk fuel delta rest,
    (0 < chunk)%nat -> (delta <= length rest)%nat -> (delta < fuel)%nat ->
    discard_fixed fuel eager chunk delta rest = Some (skipn delta rest).
Proof. exact discard_fixed_spec. Qed.
Print Assumptions fixed_discard_is_skipn.

(** ... while the code of the unchanged tree did not (the two defects found by this check):
    behind such a source a final empty message is lost, and a checkpoint made after the last
    message cannot be resumed. *)
Theorem unfixed_readbyte_refuted :
  uv_loop_with (read_byte_unfixed true) 10 [0] 0 0 0 = UvErr UvEOF 0 /\
  uv_loop_with (read_byte_fixed true) 10 [0] 0 0 0 = UvOk 0 1 [] /\
  uv_loop_with (read_byte_unfixed false) 10 [0] 0 0 0 = UvOk 0 1 [].
Proof. exact unfixed_loses_final_empty_message. Qed.
Print Assumptions unfixed_readbyte_refuted.

Theorem unfixed_discard_refuted :
  discard_unfixed 10 true 4096 3 [1; 2; 3] = None /\
  discard_fixed 10 true 4096 3 [1; 2; 3] = Some [] /\
  discard_unfixed 10 false 4096 3 [1; 2; 3] = Some [].
Proof. exact unfixed_cannot_discard_to_the_end. Qed.
Print Assumptions unfixed_discard_refuted.

(** Non-vacuity: the identity codec and the seek source satisfy the hypotheses, and a concrete
    run (three messages, saves requested at every boundary) pops checkpoints that resume. *)
Example hypotheses_inhabited :
  (forall b : list byte, (fun x => Some x) ((fun x : list byte => x) b) = Some b) /\
  beh_sound seek_beh /\
  Forall (fits_msg (fun x : list byte => x)) [[1; 2]; []; [3]].
Proof.
  split; [reflexivity |]. split; [exact seek_beh_sound |].
  repeat constructor.
Qed.

Example checkpoint_example :
  let msgs := [[1; 2]; []; [3]] in
  let tr := run (fun x => Some x) seek_beh (new_reader 32768 (stream (fun x => x) msgs))
                [OWant; OPop; ORead; OWant; OPop; ORead; OWant; OPop; ORead; OPop] in
  map fst tr =
    [EvWant true; EvPop None; EvRead (ReadOk [1; 2]);
     EvWant false; EvPop (Some (mk_mc 3 (Some (mk_sc 0 0)))); EvRead (ReadOk []);
     EvWant true; EvPop None; EvRead (ReadOk [3]);
     EvPop (Some (mk_mc 6 (Some (mk_sc 4 4))))] /\
  option_map (read_all (fun x => Some x) seek_beh)
             (resume (new_reader 32768 (stream (fun x => x) msgs)) (Some (mk_mc 3 (Some (mk_sc 0 0)))))
    = Some ([[]; [3]], EEOF).
Proof. vm_compute. split; reflexivity. Qed.

(** A reader resumed while in use: a save in flight (operation 5 leaves a source checkpoint
    for offset 4) is forgotten by the rewind to offset 3 (operation 6; the next pop gives
    nothing), and a request still pending at the second rewind (operation 10) is answered by
    the seek source while the 3 bytes before the checkpoint are discarded - the reader comes
    out of [Resume] holding a source checkpoint for offset 0, which pops as a good checkpoint. *)
Example used_reader_example :
  let msgs := [[1; 2]; []; [3]] in
  let tr := xrun (fun x => Some x) (fun _ => seek_beh) [] (new_reader 32768 (stream (fun x => x) msgs))
                 [XO OWant; XO ORead; XO OPop; XO ORead; XO OWant; XO ORead; XZ (Some 2%nat);
                  XO OPop; XO ORead; XO OWant; XZ (Some 2%nat); XO OPop; XO ORead] in
  map fst tr =
    [XE (EvWant true); XE (EvRead (ReadOk [1; 2])); XE (EvPop (Some (mk_mc 3 (Some (mk_sc 0 0)))));
     XE (EvRead (ReadOk [])); XE (EvWant true); XE (EvRead (ReadOk [3])); XRes (Some 2%nat) true;
     XE (EvPop None); XE (EvRead (ReadOk [])); XE (EvWant true); XRes (Some 2%nat) true;
     XE (EvPop (Some (mk_mc 3 (Some (mk_sc 0 0))))); XE (EvRead (ReadOk []))] /\
  map (fun x => r_save (snd x)) tr =
    [Waiting; HasSrc; Idle; Idle; Waiting; HasSrc; Idle; Idle; Idle; Waiting; HasSrc; Idle; Idle] /\
  snd (xpos tr) = [0; 0; 1; 1; 2; 2; 3; 1; 1; 2; 2; 1; 1]%nat.
Proof. vm_compute. repeat split; reflexivity. Qed.

(** ** The two models of encoding/binary's uvarint agree (Compose/ModelsAgreeVarintProofs.v)

    PutUvarint / ReadUvarint are modelled here ([uvarint_enc], [uvarint_read], Wire/Uvarint.v)
    and a second time by Overlay/Codec.v [uvarint] / [get_uvarint] (C14's executable overlay
    codec: length prefix and proto3 varint fields).  Stated in C13's file for the pair C13/C14.
    Hypotheses: the encoded value is a uint64; the decoded string consists of bytes.  The
    decoders agree on value and unread rest whenever Go's reader succeeds and on "no value" at
    the end of input; on errOverflow (more than ten bytes, or a tenth byte above 1) the C14
    decoder - which has no overflow check and only ever reads what its own writer produced -
    returns a number where Go and the C13 model return an error: the C13 model is the
    faithful one ([uvarint_decoders_differ_on_overflow]). *)
From Wharf Require Overlay.Codec Compose.ModelsAgreeVarintProofs.

Theorem uvarint_models_agree :
  (forall x : N, (x < 2 ^ 64)%N -> uvarint_enc x = Codec.uvarint x) /\
  (forall l : list byte, Forall (fun b => (b < 256)%N) l ->
     match uvarint_read l with
     | UvOk v _ r => Codec.get_uvarint l 0 0 = Some (v, r)
     | UvErr UvOverflow _ => True
     | UvErr _ _ => Codec.get_uvarint l 0 0 = None
     end).
Proof. exact ModelsAgreeVarintProofs.uvarint_models_agree_lemma. Qed.
Print Assumptions uvarint_models_agree.

Theorem uvarint_decoders_differ_on_overflow :
  (uvarint_read (repeat 128%N 10 ++ [0%N]) = UvErr UvOverflow 10 /\
   Codec.get_uvarint (repeat 128%N 10 ++ [0%N]) 0 0 = Some (0%N, [])) /\
  (uvarint_read (repeat 128%N 9 ++ [2%N]) = UvErr UvOverflow 10 /\
   Codec.get_uvarint (repeat 128%N 9 ++ [2%N]) 0 0 = Some ((2 ^ 64)%N, [])).
Proof. exact ModelsAgreeVarintProofs.uvarint_decoders_differ_on_overflow_lemma. Qed.
Print Assumptions uvarint_decoders_differ_on_overflow.
