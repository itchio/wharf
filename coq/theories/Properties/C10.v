(** C10 — malformed patch / signature / overlay streams yield an error, never a crash.
    The model is Patch/Malformed.v (the readers
    of itchio/wharf fed an ARBITRARY frame list: fields are Z, kinds arbitrary, the list may stop
    anywhere or end in an unreadable frame [B]; every Go indexing / slicing / division site is an
    explicit [Panic], every unbounded loop runs on fuel and [Hang] is running out of it); the
    theorems are derived here from the lemmas of Patch/MalformedProofs.v ([*_fixes] for the patcher
    and rediff: one statement per reader, whose halves are the totality and the conservativity
    theorems below; [read_signature_err], [hash_info_safe], [hash_info_conservative] for the
    signature), [overlay_patch_total] by an induction of its own.  Second half (after its own Require block): the C10 model agrees with the
    C01 / C12 models of the patcher, and the transcriptions of the block arithmetic agree.

    [fx = true] is the tree after the four fix: commits named in Patch/Malformed.v, [fx = false]
    the tree before.
    No hypothesis on the containers is needed for totality (any list of sizes); the block size
    must be positive (it is the constant 64 KiB). *)
From Wharf Require Import Base.Prelude Patch.Malformed Patch.MalformedProofs.
Local Open Scope Z_scope.

(** ** After the fixes: every reader is total, fuel = number of frames (+1) suffices *)

(** processRsync (first op / isFullFileOp / ApplySingleFull arithmetic / relay loop): stops with
    Ok or Err, or hands a strictly shorter stream back to Resume *)
Theorem patcher_rsync_total :
  forall (fuel : nat) (bs maxoff : Z) (tgt : list Z) (outSize : Z) (s : stream),
    0 < bs -> (length s < fuel)%nat ->
    match process_rsync fuel true bs maxoff tgt outSize s with
    | Cont s' => (length s' < length s)%nat
    | Stop r => safe r
    end.
Proof. intros fuel bs maxoff tgt outSize s Hbs Hlt. exact (proj2 (process_rsync_fixes fuel bs maxoff tgt outSize s) (conj Hbs Hlt)). Qed.
Print Assumptions patcher_rsync_total.

(** processBsdiff (header index, control loop with seeks / adds outside the old file, sentinel,
    final size) *)
Theorem patcher_bsdiff_total :
  forall (fuel : nat) (tgt : list Z) (outSize : Z) (s : stream),
    (length s < fuel)%nat ->
    match process_bsdiff fuel true tgt outSize s with
    | Cont s' => (length s' < length s)%nat
    | Stop r => safe r
    end.
Proof. intros fuel tgt outSize s. exact (proj2 (process_bsdiff_fixes fuel tgt outSize s)). Qed.
Print Assumptions patcher_bsdiff_total.

(** patcher.Resume(nil): any containers, any whitelist, any file-system seek limit, any stream *)
Theorem patcher_total :
  forall (bs maxoff : Z) (tgt src : list Z) (wl : option (list Z)) (s : stream) (fuel : nat),
    0 < bs -> (length s < fuel)%nat -> safe (patcher fuel true bs maxoff tgt src wl s).
Proof. intros bs maxoff tgt src wl s fuel Hbs Hlt. exact (proj2 (resume_fixes fuel bs maxoff tgt wl src 0 s) (conj Hbs Hlt)). Qed.
Print Assumptions patcher_total.

(** rediff.analyzePatch *)
Theorem rediff_analyze_total :
  forall (fuel : nat) (tgt : list Z) (srcs : list Z) (idx : Z) (s : stream),
    (length s < fuel)%nat -> safe (analyze fuel true tgt idx srcs s).
Proof. intros fuel tgt srcs idx s. exact (proj2 (analyze_fixes fuel tgt srcs idx s)). Qed.
Print Assumptions rediff_analyze_total.

(** a stream the analysis accepted is accepted by the second pass (Optimize) as well ... *)
Theorem rediff_second_pass_follows :
  forall (fuel : nat) (fx : bool) (tgt : list Z) (srcs : list Z) (idx : Z) (s : stream),
    analyze fuel fx tgt idx srcs s = Ok -> optimize_pass fuel idx srcs s = Ok.
Proof. intros fuel fx tgt srcs idx s. apply optimize_pass_follows. Qed.
Print Assumptions rediff_second_pass_follows.

(** ... hence NewContext + Optimize is total (bsdiff.Do on two well-formed non-empty files is
    outside this model: C12) *)
Theorem rediff_total :
  forall (tgt src : list Z) (s : stream) (fuel : nat),
    (length s < fuel)%nat -> safe (rediff fuel true tgt src s).
Proof. intros tgt src s fuel. exact (proj2 (rediff_fixes fuel tgt src s)). Qed.
Print Assumptions rediff_total.

(** ReadSignature + ComputeHashInfo: fewer or more hashes than the container needs, unreadable
    frames, any capacity of the hash slice (a slice's capacity is at least its length) *)
Theorem hashinfo_total :
  forall (bs : Z) (capf : Z -> Z) (sizes : list Z) (s : stream),
    (forall n, n <= capf n) -> safe (signature true bs capf sizes s).
Proof.
  intros bs capf sizes s Hcap. unfold signature.
  destruct (read_signature bs sizes 0 s) as [n|r] eqn:Hr.
  - apply hash_info_safe. apply Hcap.
  - apply read_signature_err in Hr. subst. exact safe_err.
Qed.
Print Assumptions hashinfo_total.

(** overlay Patch (total before and after the fixes: it has no index into anything) *)
Theorem overlay_patch_total :
  forall (fuel : nat) (seekmax writemax pos : Z) (s : stream),
    (length s < fuel)%nat -> safe (overlay_patch fuel seekmax writemax pos s).
Proof.
  induction fuel as [|f IH]; intros seekmax writemax pos s Hlt; [lia|].
  cbn [overlay_patch]. apply read_cases; [exact safe_err|]. intros fs s1 Hlen.
  assert (Hl : (length s1 < f)%nat) by lia.
  destruct (ov_type (dec_ov fs) =? OV_HEY); [exact safe_ok|].
  destruct (ov_type (dec_ov fs) =? OV_SKIP).
  - destruct (ov_len (dec_ov fs) =? 0); [auto|].
    destruct ((pos + ov_len (dec_ov fs) <? 0) || (pos + ov_len (dec_ov fs) >? seekmax)); auto with c10.
  - destruct (ov_type (dec_ov fs) =? OV_FRESH); [|auto].
    destruct (ov_data (dec_ov fs) <=? 0); [auto|].
    destruct (pos + ov_data (dec_ov fs) >? writemax); auto with c10.
Qed.
Print Assumptions overlay_patch_total.

(** the property: every reader, every stream, fuel = number of frames + 1: Ok or Err, never
    Panic, never Hang *)
Theorem readers_total :
  forall (bs maxoff seekmax writemax : Z) (capf : Z -> Z) (tgt src sizes : list Z) (wl : option (list Z)) (s : stream),
    0 < bs -> (forall n, n <= capf n) ->
    safe (patcher (S (length s)) true bs maxoff tgt src wl s) /\
    safe (rediff (S (length s)) true tgt src s) /\
    safe (signature true bs capf sizes s) /\
    safe (overlay_patch (S (length s)) seekmax writemax 0 s).
Proof.
  intros bs maxoff seekmax writemax capf tgt src sizes wl s Hbs Hcap.
  pose proof (Nat.lt_succ_diag_r (length s)) as Hlt.
  repeat split;
    [apply patcher_total|apply rediff_total|apply hashinfo_total|apply overlay_patch_total]; assumption.
Qed.
Print Assumptions readers_total.

(** truncation anywhere is an instance: a prefix of the frames, optionally followed by a frame
    that was cut in the middle *)
Theorem truncation_total :
  forall (bs maxoff : Z) (tgt src : list Z) (wl : option (list Z)) (s : stream) (k : nat) (cut : bool),
    0 < bs ->
    let t := firstn k s ++ (if cut then [B] else []) in
    safe (patcher (S (length t)) true bs maxoff tgt src wl t).
Proof. intros bs maxoff tgt src wl s k cut Hbs t. apply patcher_total; [exact Hbs|apply Nat.lt_succ_diag_r]. Qed.
Print Assumptions truncation_total.

(** ** The fixes only turn panics into errors *)

Theorem fix_conservative_patcher :
  forall (fuel : nat) (bs maxoff : Z) (tgt src : list Z) (wl : option (list Z)) (s : stream),
    (forall st, patcher fuel false bs maxoff tgt src wl s <> Panic st) ->
    patcher fuel true bs maxoff tgt src wl s = patcher fuel false bs maxoff tgt src wl s.
Proof. intros fuel bs maxoff tgt src wl s. exact (proj1 (resume_fixes fuel bs maxoff tgt wl src 0 s)). Qed.
Print Assumptions fix_conservative_patcher.

Theorem fix_conservative_rediff :
  forall (fuel : nat) (tgt src : list Z) (s : stream),
    (forall st, rediff fuel false tgt src s <> Panic st) ->
    rediff fuel true tgt src s = rediff fuel false tgt src s.
Proof. intros fuel tgt src s. exact (proj1 (rediff_fixes fuel tgt src s)). Qed.
Print Assumptions fix_conservative_rediff.

(** (well-formed container: non-negative file sizes) *)
Theorem fix_conservative_hashinfo :
  forall (bs : Z) (capf : Z -> Z) (sizes : list Z) (s : stream),
    0 < bs -> Forall (fun z => 0 <= z) sizes -> (forall n, n <= capf n) ->
    (forall st, signature false bs capf sizes s <> Panic st) ->
    signature true bs capf sizes s = signature false bs capf sizes s.
Proof.
  intros bs capf sizes s Hbs Hall Hcap Hnp. unfold signature in *.
  destruct (read_signature bs sizes 0 s) as [n|r]; [|reflexivity].
  apply hash_info_conservative; auto.
Qed.
Print Assumptions fix_conservative_hashinfo.

(** ** Before the fixes the statements are false: one-message witnesses (well-formed one-file
       containers, 64 KiB blocks), each replayed on the implementation as a corpus case *)

Theorem patcher_rsync_refuted :
  exists (tgt src : list Z) (s : stream) (st : site),
    Forall (fun z => 0 <= z) tgt /\ Forall (fun z => 0 <= z) src /\
    patcher (S (length s)) false 65536 (2^44) tgt src None s = Panic st.
Proof.
  (* new file 0 of 100 bytes, one old file of 100 bytes; series header RSYNC / file 0 (all-default
     fields: empty frame), then ONE op: BLOCK_RANGE fileIndex 7 blockIndex 0 blockSpan 1 *)
  exists [100], [100], [G []; G [(2, V 7); (4, V 1)]], SIsFullFileOp.
  split; [|split]; [repeat (constructor; try lia)..|vm_compute; reflexivity].
Qed.
Print Assumptions patcher_rsync_refuted.

Theorem patcher_applysingle_refuted :
  exists (s : stream), patcher (S (length s)) false 65536 (2^44) [100] [100] None s = Panic SPoolGetSize.
Proof.
  (* the same op with blockIndex 1 gets past isFullFileOp and reaches pool.GetSize *)
  exists [G []; G [(2, V 7); (3, V 1); (4, V 1)]]. vm_compute. reflexivity.
Qed.
Print Assumptions patcher_applysingle_refuted.

Theorem patcher_negative_index_refuted :
  exists (s : stream), patcher (S (length s)) false 65536 (2^44) [100] [100] None s = Panic SIsFullFileOp.
Proof.
  (* a negative index (-1 on the wire: 2^64-1) *)
  exists [G []; G [(2, V (2^64 - 1)); (4, V 1)]]. vm_compute. reflexivity.
Qed.
Print Assumptions patcher_negative_index_refuted.

Theorem patcher_bsdiff_refuted :
  exists (s : stream), patcher (S (length s)) false 65536 (2^44) [100] [100] None s = Panic SPoolGetReadSeeker.
Proof.
  (* series header BSDIFF / file 0, then ONE BsdiffHeader with targetIndex 7 *)
  exists [G [(1, V 1)]; G [(1, V 7)]]. vm_compute. reflexivity.
Qed.
Print Assumptions patcher_bsdiff_refuted.

Theorem rediff_analyze_refuted :
  exists (s : stream), rediff (S (length s)) false [100] [100] s = Panic SAnalyzePatch.
Proof. exists [G []; G [(2, V 7); (4, V 1)]]. vm_compute. reflexivity. Qed.
Print Assumptions rediff_analyze_refuted.

Theorem hashinfo_refuted :
  exists (sizes : list Z) (s : stream),
    Forall (fun z => 0 <= z) sizes /\ signature false 65536 (fun n => n) sizes s = Panic SHashInfoSlice.
Proof.
  (* a container with one file of 4 blocks, a signature stream carrying ONE hash (slice of capacity 1) *)
  exists [3 * 65536 + 1], [G [(1, V 5); (2, L 16)]].
  split; [repeat (constructor; try lia)|vm_compute; reflexivity].
Qed.
Print Assumptions hashinfo_refuted.

(** ** Non-vacuity *)

Example valid_streams_are_accepted :
  let s := [ G []; G [(4, V 2)]; G [(1, V 1); (5, L 5)]; G [(1, V 2049)];
             G [(16, V 1)]; G [(2, V 1); (4, V 1)]; G [(1, V 2049)];
             G [(1, V 1); (16, V 2)]; G []; G [(1, L 100); (2, L 7); (3, V 10)]; G [(1, L 20)]; G [(4, V 1)]; G [(1, V 2049)] ] in
  patcher (S (length s)) true 65536 (2^44) [70000; 10] [70005; 10; 127] None s = Ok
  /\ patcher (S (length s)) false 65536 (2^44) [70000; 10] [70005; 10; 127] None s = Ok
  /\ patcher (S (length s)) true 65536 (2^44) [70000; 10] [70005; 10; 127] None (firstn 9 s) = Err.
Proof. exact patcher_accepts_valid. Qed.
Print Assumptions valid_streams_are_accepted.

(** ** Agreement with the C01 / C12 models of pwr/patcher and among the block-arithmetic
       transcriptions (index: Compose/ModelsAgree.v; vocabulary:
       Compose/ModelsAgree{Malformed,Resume}.v; lemmas:
       Compose/ModelsAgree{MalformedProofs,BlocksProofs,BsdiffProofs}.v, Compose/OptimizeApplyProofs.v)

    The patcher (Resume loop, processRsync, isFullFileOp, wsync.ApplySingleFull, skipFile,
    processBsdiff, bsdiff Apply) is modelled here (Patch/Malformed.v: frames = field numbers,
    varint VALUES and payload LENGTHS; int64 arithmetic; outcome classes only) and by
    Patch/Patcher.v (C01: frames carry bytes, unbounded integers, output = a tree); bsdiff Apply
    also by Bsdiff/Patch.v (C12).  The block arithmetic (ComputeNumBlocks, ComputeBlockSize)
    exists in six resp. three transcriptions across the development.  Stated here (C10's file)
    for the pairs C01/C10, C12/C10 and for the block arithmetic; the pairs with C03 are in
    Properties/C03.v.

    Vocabulary (Compose/ModelsAgreeMalformed.v; [aligned] in Compose/ModelsAgreeResume.v, [off_rel] in
    Compose/ModelsAgreeMalformedProofs.v): [stream_of ms] = the C01 frames [ms] as C10 sees
    them (payloads replaced by their lengths); [sizes_of c] = the file sizes of a container;
    [aligned oldC olds] = the pool serves files of the declared sizes (C10's standing assumption);
    [step_agrees] / [res_agrees] = same outcome class (ok | error | panic) and, on ok, the same
    position in the patch; [wfile w] = the C01 entry writer is open on a regular file (C10 has no
    output directory that could fail); [seek_fits bs maxoff o] = the offset
    [blockSize * BlockIndex] of a block-range op fits int64 and the file system's seek limit -
    the ONE thing C01 does not model ("Not modelled: ... int64 overflow of offsets") and the only
    hypothesis about the patch: [relay_models_differ_on_wrapping_seek] shows it cannot be dropped.
    The bsdiff loops need no such hypothesis. *)
From Wharf Require Bowl.Fresh Patch.Reinterp Patch.Stream Patch.Patcher Patch.PatcherProofs Patch.Resume Sig.SigFile
     Wsync.Spec Wsync.Account Wsync.Apply Val.VPool Bsdiff.Scan Bsdiff.Patch Compose.OptimizeApply
     Compose.ModelsAgreeResume Compose.ModelsAgreeMalformed Compose.ModelsAgreeMalformedProofs
     Compose.ModelsAgreeBlocksProofs Compose.ModelsAgreeBsdiffProofs Bowl.FreshProofs Patch.DiffApplyProofs
     Compose.OptimizeApplyProofs.

Section ModelsAgreeC10.
  Import Fresh Reinterp Stream Patcher ModelsAgreeResume ModelsAgreeMalformed.
  Local Open Scope Z_scope.

  (** the two proto3 decoding tables (Patch/Reinterp.v - validated against golang/protobuf by
      C17 - and the one of this property): same message, payloads seen as lengths, for every
      field list whose varints are uint64 - in particular for every frame C01 can write *)
  Theorem decoders_agree :
    forall fs : list wfield,
      Forall (fun f => match snd f with WVarint u => 0 <= u < 2^64 | WBytes _ => True end) fs ->
      M.dec_sh (map fld fs) = len_sh (Reinterp.dec_sh fs) /\ M.dec_op (map fld fs) = len_so (dec_so fs) /\
      M.dec_bh (map fld fs) = bh_target (Reinterp.dec_bh fs) /\ M.dec_ctl (map fld fs) = len_ct (dec_ct fs).
  Proof.
    intros fs H. repeat split;
      [apply ModelsAgreeMalformedProofs.dec_sh_fld|apply ModelsAgreeMalformedProofs.dec_op_fld|
       apply ModelsAgreeMalformedProofs.dec_bh_fld|apply ModelsAgreeMalformedProofs.dec_ctl_fld]; exact H.
  Qed.

  (** one iteration of the relay loop behind the end-marker test (validateOp, makeWop,
      wsync.ApplySingleFull): same class; on ok the writer is still open and - when the opSize
      arithmetic does not wrap either ([size_fits]) - C10's byte count is what C01 wrote *)
  Theorem rsync_op_models_agree_c01_c10 :
    forall (bs maxoff : Z) (oldC : container) (olds : list (list byte)),
      0 < bs -> aligned oldC olds ->
    forall (w : wst) (o : sync_op),
      wfile w -> seek_fits bs maxoff o ->
      match (if negb (validate_op oldC o) then Err else Patcher.apply_op bs oldC olds w o),
            M.apply_op true bs maxoff (sizes_of oldC) (len_so o) with
      | Ok w', M.Cont n =>
          wfile w' /\ w_path w' = w_path w /\ (size_fits bs o -> n = Z.of_nat (w_off w') - Z.of_nat (w_off w))
      | Err, M.Stop M.Err => True
      | _, _ => False
      end.
  Proof. exact ModelsAgreeMalformedProofs.op_agrees. Qed.

  (** the relay loop of processRsync ([relay_fits]: [seek_fits] for the ops up to the end marker) *)
  Theorem relay_models_agree_c01_c10 :
    forall (bs maxoff : Z) (oldC : container) (olds : list (list byte)),
      0 < bs -> aligned oldC olds ->
    forall (ms : list pmsg) (w : wst) (fuel : nat) (wc : Z),
      wfile w -> relay_fits bs maxoff ms -> (length ms < fuel)%nat ->
      step_agrees (Patcher.relay bs oldC olds ms w) (M.relay fuel true bs maxoff (sizes_of oldC) wc (stream_of ms)).
  Proof. intros. apply ModelsAgreeMalformedProofs.agree_step, ModelsAgreeMalformedProofs.relay_agrees; assumption. Qed.

  (** processRsync, both branches; [file_ready]: the output file exists below directories (what
      Prepare leaves and processing keeps), so that GetWriter / Transpose cannot fail *)
  Theorem process_rsync_models_agree_c01_c10 :
    forall (bs maxoff : Z) (oldC newC : container) (olds : list (list byte)),
      0 < bs -> aligned oldC olds ->
    forall (idx : Z) (p : path) (outSize : Z) (ms : list pmsg) (s : pst) (fuel : nat),
      znth (c_files newC) idx = Some (p, outSize) -> PatcherProofs.file_ready (p_tree s) p ->
      rsync_fits bs maxoff ms -> (length ms < fuel)%nat ->
      step_agrees (Patcher.process_rsync bs oldC newC olds idx ms s)
                  (M.process_rsync fuel true bs maxoff (sizes_of oldC) outSize (stream_of ms)).
  Proof. intros. eapply ModelsAgreeMalformedProofs.agree_step, ModelsAgreeMalformedProofs.process_rsync_agrees; eassumption. Qed.

  (** the control loop of processBsdiff = bsdiff Apply per control, on ANY control list: same
      class, same unread frames, same byte count.  The cursors may differ - C01's un-wrapped
      beyond the end of the old file, C10's wrapped negative ([off_rel]) - exactly when the next
      Seek fails in both.  Hypothesis: the old file has fewer than 2^63 bytes *)
  Theorem bsdiff_loop_models_agree_c01_c10 :
    forall (old : list byte) (ms : list pmsg) (offP offM : Z) (w : wst) (fuel : nat),
      Z.of_nat (length old) < 2^63 -> wfile w ->
      ModelsAgreeMalformedProofs.off_rel (Z.of_nat (length old)) offP offM -> (length ms < fuel)%nat ->
      match ctrl_loop old offP ms w, M.controls fuel (Z.of_nat (length old)) offM (Z.of_nat (w_off w)) (stream_of ms) with
      | Ok (rest, w'), M.Cont (wc, s) =>
          s = stream_of rest /\ wc = Z.of_nat (w_off w') /\ wfile w' /\ w_path w' = w_path w /\
          p_trace (w_st w') = p_trace (w_st w)
      | Err, M.Stop M.Err => True
      | _, _ => False
      end.
  Proof.
    intros old ms offP offM w fuel Hold Hw Hrel Hfuel.
    pose proof (ModelsAgreeMalformedProofs.ctrl_loop_agrees old ms offP offM w fuel Hold Hw Hrel Hfuel) as H.
    destruct (ctrl_loop old offP ms w) as [[rest w']| |],
             (M.controls fuel (Z.of_nat (length old)) offM (Z.of_nat (w_off w)) (stream_of ms)) as [[wc s]|]; exact H.
  Qed.

  (** processBsdiff: header index check, control loop, sentinel, final size check; NO hypothesis
      about the patch *)
  Theorem process_bsdiff_models_agree_c01_c10 :
    forall (oldC newC : container) (olds : list (list byte)),
      aligned oldC olds -> Forall (fun d : list byte => Z.of_nat (length d) < 2^63) olds ->
    forall (idx : Z) (p : path) (outSize : Z) (ms : list pmsg) (s : pst) (fuel : nat),
      znth (c_files newC) idx = Some (p, outSize) -> PatcherProofs.file_ready (p_tree s) p ->
      (length ms < fuel)%nat ->
      step_agrees (Patcher.process_bsdiff oldC newC olds idx ms s)
                  (M.process_bsdiff fuel true (sizes_of oldC) outSize (stream_of ms)).
  Proof. intros. eapply ModelsAgreeMalformedProofs.agree_step, ModelsAgreeMalformedProofs.process_bsdiff_agrees; eassumption. Qed.

  (** the whole of patcher.Resume(nil) on a fresh bowl, EVERY message list, any whitelist:
      C01's [apply_fresh] and this property's [patcher] end in the same class.  Hypotheses:
      [0 < bs]; the pool serves the declared sizes, below 2^63; the new container is one a walk
      produces ([wf_container]: Prepare and the entry writers cannot fail - C10 has no output
      directory); the block-range seeks the run performs fit ([run_fits]: [seek_fits] for the
      first op and the relayed ops of every rsync series that is processed) *)
  Theorem patcher_models_agree_c01_c10 :
    forall (bs maxoff : Z) (oldC newC : container) (olds : list (list byte)) (wl : option (list Z)) (ms : list pmsg),
      0 < bs -> aligned oldC olds -> Forall (fun d : list byte => Z.of_nat (length d) < 2^63) olds ->
      wf_container newC ->
      run_fits bs maxoff wl (length (c_files newC)) ms ->
      res_agrees (apply_fresh bs oldC newC olds wl ms)
                 (M.patcher (S (length ms)) true bs maxoff (sizes_of oldC) (sizes_of newC) wl (stream_of ms)).
  Proof.
    intros bs maxoff oldC newC olds wl ms Hbs Hal Hfit63 WF Hfit.
    exact (ModelsAgreeMalformedProofs.apply_fresh_agrees bs maxoff oldC newC olds Hbs Hal Hfit63 wl ms WF Hfit).
  Qed.

  (** the difference: block size 2^62, an op on block 2 of a 4-byte file.  Go's offset 2^63
      wraps to -2^63 and Seek fails (this model: Err); C01 seeks beyond the end of the file,
      copies nothing and goes on to the end marker (Ok).  C10 is the faithful one; C01 states
      the limitation in its header *)
  Theorem relay_models_differ_on_wrapping_seek :
    let bs := 4611686018427387904 in
    let maxoff := 9223372036854775807 in
    let oldC := mkC [([1%N], 4)] [] [] in
    let olds := [[1; 2; 3; 4]%N] in
    let w := mkW (mkP [([1%N], File [0; 0]%N)] []) [1%N] 0 in
    let op := MSO (mkSO T_BLOCK_RANGE 0 2 1 []) in
    let ms := [op; hey_msg] in
    aligned oldC olds /\ wfile w /\
    (exists s', Patcher.relay bs oldC olds ms w = Ok ([], s')) /\
    M.relay 3 true bs maxoff (sizes_of oldC) 0 (stream_of ms) = M.Stop M.Err /\
    ~ seek_fits bs maxoff (as_so op).
  Proof.
    cbv zeta. split; [repeat constructor|]. split; [eexists; reflexivity|]. split; [|split].
    - (* everything but the slice is evaluated: its offset 2^63 is far beyond what [skipn] can count to *)
      assert (Hs : forall k, slice [1; 2; 3; 4]%N 9223372036854775808 k = []).
      { intros k. unfold slice. rewrite skipn_all2 by (cbn [length]; lia). apply firstn_nil. }
      eexists. cbv -[slice]. rewrite Hs. reflexivity.
    - vm_compute. reflexivity.
    - intros H. destruct (H eq_refl) as [[_ H1] _]. vm_compute in H1. discriminate.
  Qed.

  (** C12's [apply_series] and this property's control loop: a well-formed series (int64 seeks,
      only the last control marked eof, Apply succeeds with output [out]) is accepted, the loop
      stops behind the eof control, and the byte counter that is compared with the declared size
      is the length of C12's output *)
  Theorem bsdiff_series_models_agree_c12_c10 :
    forall (old : list byte) (b : OptimizeApply.bseries) (out : list byte) (offf : Z) (rest : list pmsg) (fuel : nat),
      Z.of_nat (length old) < 2^63 ->
      forallb OptimizeApply.seek_okb b = true -> OptimizeApply.eof_lastb b = true ->
      Bsdiff.Patch.apply_series old 0 b = Some (out, offf) ->
      (length (map OptimizeApply.ctrl_msg b ++ rest) < fuel)%nat ->
      M.controls fuel (Z.of_nat (length old)) 0 0 (stream_of (map OptimizeApply.ctrl_msg b ++ rest)) =
      M.Cont (Z.of_nat (length out), stream_of rest).
  Proof.
    intros old b out offf rest fuel Hold Hseek Hlast Happ Hfuel.
    (* C12 to C01 on a writer over a zero-filled file of the right length, then C01 to C10 *)
    set (p := [1%N] : path). set (s0 := mkP [(p, File (zeros (length out)))] []).
    pose proof (Wharf.Bowl.FreshProofs.tlookup_tset_same [] p (File (zeros (length out)))) as Hf.
    destruct (Wharf.Compose.OptimizeApplyProofs.ctrl_loop_series p (length out) old b 0 out offf (mkW s0 p 0) [] rest
                Hseek Hlast Happ (Wharf.Patch.DiffApplyProofs.wgood_fresh p _ s0 Hf) (Nat.le_refl _)) as (w' & Ec & (_ & Ho & _)).
    pose proof (Wharf.Compose.ModelsAgreeBsdiffProofs.ctrl_loop_controls old _ 0 (mkW s0 p 0) rest w' fuel Hold
                  (ex_intro _ _ Hf) Hfuel Ec) as H.
    rewrite Ho in H. exact H.
  Qed.

  (** pwr.ComputeNumBlocks, six transcriptions (C01 [Stream.num_blocks], this property's
      [num_blocks], C03, C04, C11, C18) and the reference: the number of blocks [blocks] cuts the
      content into.  Hypothesis [0 < bs] *)
  Theorem num_blocks_models_agree :
    forall (bs : N) (content : list N),
      (0 < bs)%N ->
      let size := N.of_nat (length content) in
      let n := N.of_nat (length (blocks (N.to_nat bs) content)) in
      SigFile.num_blocks bs size = n /\
      Spec.num_blocks bs content = n /\
      Resume.num_blocks bs size = n /\
      Stream.num_blocks (Z.of_N bs) (Z.of_N size) = Z.of_N n /\
      M.num_blocks (Z.of_N bs) (Z.of_N size) = Z.of_N n /\
      VPool.compute_num_blocks (Z.of_N bs) (Z.of_N size) = Z.of_N n.
  Proof.
    intros bs content Hbs size n.
    assert (E : SigFile.num_blocks bs size = n) by (symmetry; apply ModelsAgreeBlocksProofs.num_blocks_counts_blocks; assumption).
    (* the three [N] versions are the same term, and so are C01's and this property's *)
    split; [exact E|]. split; [exact E|]. split; [exact E|].
    rewrite <- E. split; [apply ModelsAgreeBlocksProofs.num_blocks_Z_N; assumption|]. split; [apply ModelsAgreeBlocksProofs.num_blocks_Z_N; assumption|].
    rewrite <- ModelsAgreeBlocksProofs.num_blocks_quot_div by lia. apply ModelsAgreeBlocksProofs.num_blocks_Z_N. assumption.
  Qed.

  (** ... and on any size >= 0.  For a NEGATIVE size (only this property feeds sizes from an
      arbitrary stream) Go truncates towards zero - so do this model and C01's - while
      Val/VPool.v's [/] rounds down: (-2 + 2 - 1) / 2 is 0 in Go, -1 there *)
  Theorem num_blocks_models_agree_sizes :
    forall (bs size : Z), 0 < bs -> 0 <= size ->
      Stream.num_blocks bs size = M.num_blocks bs size /\
      Stream.num_blocks bs size = VPool.compute_num_blocks bs size /\
      Stream.num_blocks bs size = Z.of_N (SigFile.num_blocks (Z.to_N bs) (Z.to_N size)) /\
      Stream.num_blocks bs size = Z.of_N (Resume.num_blocks (Z.to_N bs) (Z.to_N size)).
  Proof.
    intros bs size Hbs Hs. split; [reflexivity|]. split; [apply ModelsAgreeBlocksProofs.num_blocks_quot_div; assumption|].
    assert (E : Stream.num_blocks bs size = Z.of_N (SigFile.num_blocks (Z.to_N bs) (Z.to_N size))).
    { rewrite <- ModelsAgreeBlocksProofs.num_blocks_Z_N by lia. rewrite !Z2N.id by lia. reflexivity. }
    split; exact E.
  Qed.

  Theorem num_blocks_models_differ_on_negative_size :
    Stream.num_blocks 2 (-2) = 0 /\ M.num_blocks 2 (-2) = 0 /\ VPool.compute_num_blocks 2 (-2) = -1.
  Proof. repeat split. Qed.

  (** pwr.ComputeBlockSize (Val/VPool.v with [mod], Wsync/Account.v with [Z.rem]) and the
      [lastSize] / [opSize] arithmetic of ApplySingleFull (Patch/Patcher.v, Wsync/Apply.v; this
      property's [apply_block_range] is compared in [rsync_op_models_agree_c01_c10]) *)
  Theorem block_size_models_agree :
    forall (bs fileSize blockIndex blockSpan : Z), 0 < bs -> 0 <= fileSize ->
      VPool.compute_block_size bs fileSize blockIndex = Account.compute_block_size bs fileSize blockIndex /\
      Patcher.op_size bs fileSize blockIndex blockSpan =
        (blockSpan - 1) * bs + VPool.compute_block_size bs fileSize (blockIndex + (blockSpan - 1)) /\
      Apply.op_size (Z.to_N bs) fileSize blockIndex blockSpan = Patcher.op_size bs fileSize blockIndex blockSpan.
  Proof.
    intros bs fileSize blockIndex blockSpan Hbs Hs. split; [apply ModelsAgreeBlocksProofs.compute_block_size_agrees; assumption|]. split.
    - rewrite ModelsAgreeBlocksProofs.compute_block_size_agrees by assumption. reflexivity.
    - rewrite ModelsAgreeBlocksProofs.op_size_wsync_patcher, Z2N.id by lia. reflexivity.
  Qed.
End ModelsAgreeC10.
Print Assumptions decoders_agree.
Print Assumptions rsync_op_models_agree_c01_c10.
Print Assumptions relay_models_agree_c01_c10.
Print Assumptions process_rsync_models_agree_c01_c10.
Print Assumptions bsdiff_loop_models_agree_c01_c10.
Print Assumptions process_bsdiff_models_agree_c01_c10.
Print Assumptions patcher_models_agree_c01_c10.
Print Assumptions relay_models_differ_on_wrapping_seek.
Print Assumptions bsdiff_series_models_agree_c12_c10.
Print Assumptions num_blocks_models_agree.
Print Assumptions num_blocks_models_agree_sizes.
Print Assumptions num_blocks_models_differ_on_negative_size.
Print Assumptions block_size_models_agree.

(** the hypotheses of [patcher_models_agree_c01_c10] are satisfiable: block size 4, one old file,
    an rsync series (DATA, RANGE, DATA, RANGE) and a bsdiff series with a backward seek; both
    models accept the patch, C01 produces the two new files *)
Example patcher_models_agree_example :
  let oldC := ModelsAgreeMalformedProofs.ex_oldC in
  let newC := ModelsAgreeMalformedProofs.ex_newC in
  let olds := ModelsAgreeMalformedProofs.ex_olds in
  let ms := ModelsAgreeMalformedProofs.ex_ms in
  ModelsAgreeResume.aligned oldC olds /\ Forall (fun d : list byte => Z.of_nat (length d) < 2^63) olds /\
  Fresh.wf_container newC /\ ModelsAgreeMalformed.run_fits 4 (2^40) None (length (Fresh.c_files newC)) ms /\
  (exists t tr, Patcher.apply_fresh 4 oldC newC olds None ms = Fresh.Ok (t, 2, tr) /\
                Fresh.tlookup t [2%N] = Some (Fresh.File [9; 9; 1; 2; 3; 4; 7; 5; 6]%N) /\
                Fresh.tlookup t [3%N] = Some (Fresh.File [2; 3; 4; 8; 1; 2]%N)) /\
  patcher (S (length ms)) true 4 (2^40) (ModelsAgreeMalformed.sizes_of oldC) (ModelsAgreeMalformed.sizes_of newC) None
          (ModelsAgreeMalformed.stream_of ms) = Ok.
Proof.
  split; [repeat constructor|]. split; [repeat constructor|].
  split; [apply Wharf.Bowl.FreshProofs.wf_containerb_sound; reflexivity|].
  split.
  - vm_compute. repeat split; try discriminate; intros _; split; discriminate.
  - split; [|vm_compute; reflexivity].
    eexists _, _. split; [vm_compute; reflexivity|]. split; reflexivity.
Qed.
