(** C18 — writing through a validating pool checks every block regardless of write sizes.
    Each theorem is a lemma of Val/DripProofs.v, Val/VPoolProofs.v or Val/DripAfterFail.v, or is
    derived here in a few lines from them; the models are Val/Drip.v and Val/VPool.v.  Words of the
    statements that are defined in the proof files: [feed] (Val/DripProofs.v), [first_bad],
    [wounds_from] (Val/VPoolProofs.v). *)
From Wharf Require Import Base.Prelude Val.Drip Val.DripProofs Val.VPool Val.VPoolProofs Val.DripAfterFail.

(** Whatever the slicing of the written bytes into Write calls, the drip writer hands the
    validator and then the inner writer exactly the blocks of the concatenation (the short
    last block at Close), validation permitting. *)
Theorem drip_chunking :
  forall (A St : Type) (bs : nat) (validate : St -> list A -> St * bool) (s0 : St) (ws : list (list A)),
    0 < bs -> (forall s b, snd (validate s b) = true) ->
    exists s', session bs validate s0 ws = (mkdw [] s' (blocks bs (concat ws)), Done, length ws).
Proof.
  intros A St bs validate s0 ws Hbs Hok. pose proof (session_spec bs Hbs validate s0 ws) as H.
  destruct (feed_always_ok validate Hok (blocks bs (concat ws)) s0 []) as [s' E].
  rewrite E in H. exists s'. exact H.
Qed.
Print Assumptions drip_chunking.

(** With an arbitrary (stateful, possibly rejecting) validator the whole session equals the
    reference semantics "validate then relay block after block, stop at the first rejection". *)
Theorem drip_session_is_blockwise :
  forall (A St : Type) (bs : nat), 0 < bs ->
  forall (validate : St -> list A -> St * bool) (s0 : St) (ws : list (list A)),
    match feed validate s0 [] (blocks bs (concat ws)) with
    | (s', sink', None) => session bs validate s0 ws = (mkdw [] s' sink', Done, length ws)
    | (s', sink', Some b) => exists k, session bs validate s0 ws = (mkdw b s' sink', Failed, k) /\ k <= length ws
    end.
Proof. exact (@session_spec). Qed.
Print Assumptions drip_session_is_blockwise.

Theorem slicing_independent :
  forall (A St : Type) (bs : nat), 0 < bs ->
  forall (validate : St -> list A -> St * bool) (s0 : St) (ws1 ws2 : list (list A)),
    concat ws1 = concat ws2 ->
    let '(w1, o1, _) := session bs validate s0 ws1 in
    let '(w2, o2, _) := session bs validate s0 ws2 in
    w1 = w2 /\ o1 = o2.
Proof.
  intros A St bs Hbs validate s0 ws1 ws2 Hc.
  pose proof (session_spec bs Hbs validate s0 ws1) as H1. pose proof (session_spec bs Hbs validate s0 ws2) as H2.
  rewrite Hc in H1.
  destruct (feed validate s0 [] (blocks bs (concat ws2))) as [[s' sink'] [b|]].
  - destruct H1 as [k1 [E1 _]]. destruct H2 as [k2 [E2 _]]. rewrite E1, E2. split; reflexivity.
  - rewrite H1, H2. split; reflexivity.
Qed.
Print Assumptions slicing_independent.

(** Error mode: the call completing the first block that differs from the signed block at
    its position - or lies beyond the signed block count - fails, and exactly the blocks
    before it reached the inner pool; otherwise everything passes through unchanged. *)
Theorem error_mode :
  forall (A H : Type) (bs : Z), (0 < bs)%Z ->
  forall (hash : list A -> H) (heqb : H -> H -> bool) (group : list H) (ws : list (list A)),
    let wb := blocks (Z.to_nat bs) (concat ws) in
    match first_bad hash heqb group 0 wb with
    | None => vpool_error bs hash heqb group ws = (Done, length ws, wb)
    | Some j => exists k, vpool_error bs hash heqb group ws = (Failed, k, firstn j wb) /\ k <= length ws
    end.
Proof. exact (@error_mode_lemma). Qed.
Print Assumptions error_mode.

Theorem first_bad_is_first_rejected :
  forall (A H : Type) (hash : list A -> H) (heqb : H -> H -> bool) (group : list H) (bl : list (list A)) (i j : nat),
    first_bad hash heqb group i bl = Some j ->
    (forall k b, nth_error bl k = Some b -> i + k < j -> validate_as_error hash heqb group (i + k) b = true) /\
    (exists b, nth_error bl (j - i) = Some b /\ validate_as_error hash heqb group j b = false).
Proof. intros A H hash heqb group bl i j Hj. exact (proj2 (first_bad_spec hash heqb group bl i j Hj)). Qed.
Print Assumptions first_bad_is_first_rejected.

(** data whose every block is accepted at its position (e.g. the signed content or a
    block-aligned prefix of it) passes unchanged *)
Theorem equal_passes :
  forall (A H : Type) (bs : Z), (0 < bs)%Z ->
  forall (hash : list A -> H) (heqb : H -> H -> bool) (group : list H) (ws : list (list A)),
    (forall k b, nth_error (blocks (Z.to_nat bs) (concat ws)) k = Some b ->
                 validate_as_error hash heqb group k b = true) ->
    vpool_error bs hash heqb group ws = (Done, length ws, blocks (Z.to_nat bs) (concat ws)).
Proof. exact (@equal_passes_lemma). Qed.
Print Assumptions equal_passes.

(** Wound mode: one marker per written block, in block order, for any slicing. *)
Theorem wound_mode_markers :
  forall (A H : Type) (bs : Z), (0 < bs)%Z ->
  forall (hash : list A -> H) (heqb : H -> H -> bool) (fileIndex fileSize : Z) (group : list H) (ws : list (list A)),
    vpool_wounds bs hash heqb fileIndex fileSize group ws =
    wounds_from bs hash heqb fileIndex fileSize group 0 (blocks (Z.to_nat bs) (concat ws)).
Proof. exact (@wound_mode_list). Qed.
Print Assumptions wound_mode_markers.

(** ... and the marker of block j starts at j*bs, ends at min((j+1)*bs, signed size) while
    j is below the signed block count (so markers tile [0, signed size) without gaps, in
    offset order), and is healthy exactly when the block's hash equals the signed hash. *)
Theorem wound_mode_tiles :
  forall (A H : Type) (bs : Z), (0 < bs)%Z ->
  forall (hash : list A -> H) (heqb : H -> H -> bool) (fileIndex fileSize : Z) (group : list H),
    ((fileSize = 0%Z /\ group = []) \/
     (0 < fileSize /\ (Z.of_nat (length group) - 1) * bs < fileSize <= Z.of_nat (length group) * bs)%Z) ->
  forall (j : nat) (b : list A),
    let w := validate_as_wound bs hash heqb fileIndex fileSize group j b in
    widx w = fileIndex /\ wstart w = (Z.of_nat j * bs)%Z /\
    (j < length group -> wend w = Z.min ((Z.of_nat j + 1) * bs) fileSize) /\
    (wk w = WClosed <-> exists h, nth_error group j = Some h /\ heqb h (hash b) = true) /\
    (wk w = WFile \/ wk w = WClosed).
Proof. exact (@vwnd_shape). Qed.
Print Assumptions wound_mode_tiles.

Theorem wound_mode_nth :
  forall (A H : Type) (bs : Z) (hash : list A -> H) (heqb : H -> H -> bool) (fileIndex fileSize : Z) (group : list H)
         (bl : list (list A)) (i j : nat) (b : list A),
    nth_error bl j = Some b ->
    nth_error (wounds_from bs hash heqb fileIndex fileSize group i bl) j =
    Some (validate_as_wound bs hash heqb fileIndex fileSize group (i + j) b).
Proof. exact (@wounds_from_nth). Qed.
Print Assumptions wound_mode_nth.

(** non-vacuity: a concrete run (bs = 2, signed "ab|cd|e", written "ab|cX|e" in writes of
    1,2,2 bytes) meets the hypotheses and fails exactly at block 1 *)
Example error_mode_example :
  vpool_error 2 (fun b : list N => b) nlist_eqb [[1;2];[3;4];[5]]%N [[1];[2;3];[9;5]]%N = (Failed, 2, [[1;2]]%N).
Proof. vm_compute. reflexivity. Qed.

(** Which call fails: with [k] successful Write calls before the failure, the first [k] writes
    on their own all succeed (no rejected block is complete yet), and the failing call is either
    Write number [k] (0-based) - the one whose bytes complete the rejected block - or, when
    [k = length ws], Close flushing the short last block. *)
Theorem failing_call_is_the_completing_one :
  forall (A St : Type) (bs : nat) (validate : St -> list A -> St * bool) (s0 : St) (ws : list (list A))
         (w' : @dw A St) (k : nat),
    session bs validate s0 ws = (w', Failed, k) ->
    (k = length ws /\ exists w1, writes bs validate (mkdw [] s0 []) ws 0 = (w1, Done, k) /\ close validate w1 = (w', Failed)) \/
    (k < length ws /\ exists w1 d,
        writes bs validate (mkdw [] s0 []) (firstn k ws) 0 = (w1, Done, k) /\
        nth_error ws k = Some d /\ write bs validate w1 d = (w', Failed)).
Proof.
  intros A St bs validate s0 ws w' k. unfold session.
  destruct (writes bs validate (mkdw [] s0 []) ws 0) as [[w1 o] k1] eqn:Ew. destruct o.
  - destruct (close validate w1) as [w2 o2] eqn:Ec. intros [= -> -> ->].
    left. split; [exact (writes_done_count bs validate _ _ _ _ _ Ew)|]. exists w1. split; [reflexivity|assumption].
  - intros [= -> ->]. right.
    destruct (writes_failed_at bs validate _ _ _ _ _ Ew) as [_ [w2 [d [Hp [Hn Hf]]]]]. rewrite Nat.sub_0_r in *.
    split; [apply nth_error_Some; congruence|]. exists w2, d. repeat split; assumption.
  - discriminate.
Qed.
Print Assumptions failing_call_is_the_completing_one.

(** "nothing from that block on reaches the underlying pool" also when the client goes on calling
    the writer after the failure (poolBowl.Transpose closes it after a failed copy; [defer w.Close()]).
    The pinned code violated this: Close re-validated the refused block against the NEXT signed block
    and relayed it when equal (defect #30 of DESIGN section 7, fix 8bf43dc: the sticky error). *)
Theorem close_after_reject_refuted_on_pinned_code :
  exists (signed : list (list nat)) (d : list nat) w',
    write 2 (sig_validate signed) (mkdw [] 0 []) d = (w', Failed) /\
    dsink w' = [] /\
    dsink (fst (old_call 2 (sig_validate signed) w' CClose)) = [[3; 4]] /\
    dsink (fst (fst (sticky_calls 2 (sig_validate signed) (mkdw [] 0 [], false) [CWrite d; CClose]))) = [].
Proof.
  (* signed = [1;2][3;4][5]; written = the same file without its first block *)
  exists [[1; 2]; [3; 4]; [5]], [3; 4; 5].
  eexists. split; [vm_compute; reflexivity|]. split; [reflexivity|]. split; vm_compute; reflexivity.
Qed.
Print Assumptions close_after_reject_refuted_on_pinned_code.

(** repaired code: after the failing Write, every later Write / Close fails and the sink stays
    exactly what the failing Write left (which [error_mode] characterises). *)
Theorem nothing_reaches_the_pool_after_a_failed_write :
  forall (A St : Type) (bs : nat) (validate : St -> list A -> St * bool) (w : @dw A St) (d : list A) (w' : @dw A St)
         (cs : list (@call A)),
    write bs validate w d = (w', Failed) ->
    let '(wf', os) := sticky_calls bs validate (w, false) (CWrite d :: cs) in
    dsink (fst wf') = dsink w' /\ Forall (fun o => o = Failed) os.
Proof.
  intros A St bs validate w d w' cs E. cbn [sticky_calls]. rewrite (sticky_write_failed bs validate _ _ _ E).
  pose proof (sticky_frozen bs validate cs w') as F. destruct (sticky_calls bs validate (w', true) cs) as [wf'' os].
  destruct F as [-> F]. split; [reflexivity|constructor; [reflexivity|exact F]].
Qed.
Print Assumptions nothing_reaches_the_pool_after_a_failed_write.

Theorem repaired_writer_is_the_pinned_writer_until_a_call_fails :
  forall (A St : Type) (bs : nat) (validate : St -> list A -> St * bool) (w : @dw A St) (c : @call A),
    let '(wf', o) := sticky_call bs validate (w, false) c in
    let '(w', o') := old_call bs validate w c in
    fst wf' = w' /\ o = o'.
Proof.
  intros A St bs validate w [d|]; cbn [sticky_call old_call].
  - destruct (write bs validate w d) as [w' o]. split; reflexivity.
  - destruct (close validate w) as [w' o]. split; reflexivity.
Qed.
Print Assumptions repaired_writer_is_the_pinned_writer_until_a_call_fails.
