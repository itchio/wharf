(** C06 — healing from an archive restores any damaged directory to the signed build; healing a
    valid directory changes nothing.
    Statements and [Print Assumptions]; each general theorem is derived here in a few lines from
    the lemmas of Heal/HealProofs.v, HealMeasure.v, HealMain.v, HealInv2.v, GranularProofs.v
    (which rest on Heal/HealLemmas.v and Heal/Repair.v) and [resolve_lit] of FS/OpsProofs.v; the witness statements are evaluated ([vm_compute]) on
    the builds and trees of Heal/HealWitness.v, GranularWitness.v (models: FS/Tree.v, FS/Ops.v,
    Heal/Validator.v, Heal/Healer.v, Heal/Granular.v).

    The model is the three-thread transition system validator / healer / heal worker over the
    filesystem model, with the wound channel of capacity [cap]; the schedule is the list of
    thread ids [sched] (a blocked or finished thread's turn is a no-op).  [fixed] is the code
    with the two repairs made for this property (ENOTDIR treated as missing; everything below
    a wounded directory is wounded without looking at the disk). *)
From Wharf Require Import FS.Light FS.Tree FS.Ops FS.OpsProofs
     Heal.Validator Heal.Healer Heal.HealMeasure Heal.HealMain Heal.HealWitness
     Heal.HealProofs Heal.HealInv2 Heal.Granular Heal.GranularProofs Heal.GranularWitness.

(** For all signed builds (well-formed containers), all damaged trees - any finite map from
    paths to files / directories / symlinks, the target missing, empty, or any directory below
    real directories - all channel capacities >= 1 and ALL interleavings [sched]: in the state
    reached,
    (1) if Validate has returned, it returned nil, every directory, symlink and file of the
        build is there with the signed content, and fail-fast validation of that tree passes;
    (2) if no thread can move, Validate has returned (no deadlock);
    (3) every effective step of any thread decreases the measure [mu], which never exceeds its
        initial value: every execution is finite, at most [mu b (init b t0)] effective steps. *)
Theorem heal_restores :
  forall (cap : nat), 0 < cap ->
  forall (b : build), wf_build b = true ->
  forall (T : path) (t0 : tree), init_ok T t0 = true ->
  forall sched : list tid,
    let s := run fixed cap b T sched (init b t0) in
    (terminal s = true ->
       result s = Some (Ok tt) /\ restored b T (s_fs s) /\ ff_valid fixed b T (s_fs s) = true) /\
    ((forall i, step fixed cap b T s i = None) -> terminal s = true) /\
    (forall i s', step fixed cap b T s i = Some s' -> mu b s' < mu b s) /\
    mu b s <= mu b (init b t0).
Proof.
  intros cap cap_pos b wf T t0 t0_ok sched s.
  pose proof (run_INV cap b wf T sched _ (init_INV b T t0 t0_ok)) as HI. fold s in HI.
  split; [|split; [|split]].
  - apply (terminal_valid b wf T s HI).
  - apply (no_deadlock cap cap_pos b T s HI).
  - apply step_mu.
  - apply run_mu.
Qed.
Print Assumptions heal_restores.

(** The same as a statement about complete runs: any schedule prefix continued by any fixed
    priority among the three threads until nobody can move, with fuel [>= mu b (init b t0)]
    (= 3 dirs + 3 symlinks + 7 files + 8): ends returned, nil, restored, fail-fast valid. *)
Theorem heal_completes :
  forall (cap : nat), 0 < cap ->
  forall (b : build), wf_build b = true ->
  forall (T : path) (t0 : tree), init_ok T t0 = true ->
  forall (sched prio : list tid) (fuel : nat),
    In TV prio -> In TH prio -> In TW prio -> mu b (init b t0) <= fuel ->
    let s := finish fixed cap b T fuel prio (run fixed cap b T sched (init b t0)) in
    terminal s = true /\ result s = Some (Ok tt) /\ restored b T (s_fs s) /\
    ff_valid fixed b T (s_fs s) = true.
Proof.
  intros cap cap_pos b wf T t0 t0_ok sched prio fuel Hv Hh Hw Hf s.
  apply (finish_complete cap cap_pos b wf T prio Hv Hh Hw fuel).
  - apply run_INV, init_INV, t0_ok. exact wf.
  - exact (PeanoNat.Nat.le_trans _ _ _ (run_mu cap b T sched (init b t0)) Hf).
Qed.
Print Assumptions heal_completes.

(** Healing a directory that fail-fast validation accepts changes nothing, under every
    interleaving (for either variant of the code, any capacity, any container). *)
Theorem heal_idempotent :
  forall (fx : fixes) (cap : nat) (b : build) (T : path) (t0 : tree),
    init_ok T t0 = true -> node_at t0 T = Some Dir -> ff_valid fx b T t0 = true ->
    forall sched : list tid, s_fs (run fx cap b T sched (init b t0)) = t0.
Proof.
  intros fx cap b T t0 t0_ok t0_dir valid sched.
  apply (run_Idem fx cap b T t0 t0_ok t0_dir valid sched), init_Idem.
Qed.
Print Assumptions heal_idempotent.

(** a tree that contains the build literally passes fail-fast validation *)
Theorem restored_passes_failfast :
  forall fx b T t, restored b T t -> ff_valid fx b T t = true.
Proof. exact restored_ff_valid. Qed.
Print Assumptions restored_passes_failfast.

(** filesystem model: a path whose proper prefixes are all real directories resolves to itself *)
Theorem literal_resolution :
  forall t fl p, lit t p -> (fl = true -> forall d, node_at t p <> Some (Link d)) -> resolve t fl p = Ok p.
Proof. exact resolve_lit. Qed.
Print Assumptions literal_resolution.

(** Of the code before the two repairs the statement is false.
    (i) defect #11 of DESIGN §7: a directory with a nested directory replaced by a regular file: Validate
    returns ENOTDIR (schedule: the healer lags behind the directory pass). *)
Theorem heal_restores_refuted_before_enotdir_fix :
  exists b T t0 prio,
    wf_build b = true /\ init_ok T t0 = true /\
    let s := finish unfixed 1024 b T 100 prio (init b t0) in
    terminal s = true /\ result s = Some (Err ENOTDIR).
Proof. exists w_build, w_target, w_tree_file, lazy_healer. vm_compute. repeat split; reflexivity. Qed.
Print Assumptions heal_restores_refuted_before_enotdir_fix.

(** (ii) defect #12 of DESIGN §7, with only the first repair: a directory replaced by a symlink to a directory with equal
    children: the children validate through the link, the healer replaces the link by an empty
    directory; Validate returns nil and the entries below are gone. *)
Theorem heal_hidden_subtree_refuted_before_taint_fix :
  exists b T t0 prio,
    wf_build b = true /\ init_ok T t0 = true /\
    let s := finish (mkFixes true false) 1024 b T 100 prio (init b t0) in
    terminal s = true /\ result s = Some (Ok tt) /\
    restoredb b T (s_fs s) = false /\
    lstat (s_fs s) (T ++ [1; 2]%N) = Err ENOENT /\
    lstat (s_fs s) (T ++ [1; 2; 3]%N) = Err ENOENT.
Proof. exists w_build, w_target, w_tree_link, lazy_healer. vm_compute. repeat split; reflexivity. Qed.
Print Assumptions heal_hidden_subtree_refuted_before_taint_fix.

(** non-vacuity: the hypotheses of [heal_restores] hold for the two witnesses and for a missing
    target, and the repaired code heals all three *)
Example heal_witnesses_healed :
  wf_build w_build = true /\ init_ok w_target w_tree_file = true /\ init_ok w_target w_tree_link = true /\
  init_ok w_target [] = true /\
  (let s := w_run fixed w_tree_file in
   terminal s = true /\ result s = Some (Ok tt) /\ restoredb w_build w_target (s_fs s) = true) /\
  (let s := w_run fixed w_tree_link in
   terminal s = true /\ result s = Some (Ok tt) /\ restoredb w_build w_target (s_fs s) = true) /\
  (let s := w_run fixed [] in
   terminal s = true /\ result s = Some (Ok tt) /\ restoredb w_build w_target (s_fs s) = true).
Proof. do 4 (split; [vm_compute; reflexivity|]). exact witnesses_healed_after_fix. Qed.
Print Assumptions heal_witnesses_healed.

(** ---------------------------------------------------------------------------------------------
    ONE FILESYSTEM OPERATION PER STEP.

    In the transition system above one entry check of the validator, one [processWound] of the
    healer and the [GetWriter] of the heal worker are single steps.  [Heal/Granular.v] is the
    finer system in which every step of every goroutine performs at most ONE operation of
    [FS/Ops.v] (validator: Lstat, then Readlink / open+read; healer: receive, Lstat, Remove,
    MkdirAll / MkdirAll(dir), Lstat, RemoveAll | Remove, Symlink; worker: receive, MkdirAll(dir),
    Lstat, RemoveAll | Remove, OpenFile(O_CREATE|O_TRUNC), write), the goroutine remembering in
    its program counter where it is; an operation that fails ends the goroutine with that error
    and the tree as it is at that point.  [sched] interleaves these single operations
    arbitrarily.  Proofs: [Heal/HealInv2.v], [Heal/GranularProofs.v].

    REDUCTION.  [abs] maps a granular state to the atomic state in which the [processWound] /
    [GetWriter] in progress is finished and the validator's half-done check has not started.
    For every interleaving of single operations there is a schedule of the atomic system, not
    longer, that reaches exactly [abs g]; when no healer / worker call is in progress - in
    particular whenever [Validate] has returned - the shared state (tree, result, channel,
    queues) IS the state reached by that atomic schedule.  So every final tree and every result
    of the granular system is a final tree and result of the atomic system: the atomicity
    assumption of the three-thread model costs nothing (at the granularity of [FS/Ops.v]). *)
Theorem granular_refines_atomic :
  forall (cap : nat), 0 < cap ->
  forall (b : build), wf_build b = true ->
  forall (T : path) (t0 : tree), init_ok T t0 = true ->
  forall gsched : list tid,
    let g := grun fixed cap b T gsched (ginit b t0) in
    exists asched : list tid,
      length asched <= length gsched /\
      abs T g = run fixed cap b T asched (init b t0) /\
      (g_h g = HP0 -> g_w g = WP0 -> g_s g = run fixed cap b T asched (init b t0)) /\
      (gterminal g = true -> g_s g = run fixed cap b T asched (init b t0)).
Proof.
  intros cap cap_pos b wf T t0 t0_ok gsched g.
  pose proof (ginit_GI b wf T t0 t0_ok) as HG0.
  destruct (grun_refines cap cap_pos b wf T gsched _ HG0) as [asched [Hl Hr]].
  exists asched. fold g in Hr. change (abs T (ginit b t0)) with (init b t0) in Hr.
  split; [exact Hl | split; [exact Hr | split]].
  - intros E1 E2. rewrite <- Hr. destruct g as [s pv h w]. cbn in E1, E2. subst. reflexivity.
  - intro Ht. rewrite <- Hr. symmetry.
    apply (gterminal_quiet b wf T); [apply (grun_GI cap cap_pos b wf), HG0 | exact Ht].
Qed.
Print Assumptions granular_refines_atomic.

(** [heal_restores] for the granular system, same statement: for all capacities >= 1, well-formed
    containers, damaged trees and ALL interleavings of the single filesystem operations,
    (1) if Validate has returned, it returned nil, the build is restored, fail-fast passes;
    (2) if no goroutine can move, Validate has returned;
    (3) every effective step decreases [gmu] = 10 * [mu] of the abstract state + the number of
        operations left inside the calls in progress (<= 9), which never exceeds its initial
        value 10 * mu b (init b t0) + 1. *)
Theorem heal_restores_granular :
  forall (cap : nat), 0 < cap ->
  forall (b : build), wf_build b = true ->
  forall (T : path) (t0 : tree), init_ok T t0 = true ->
  forall sched : list tid,
    let g := grun fixed cap b T sched (ginit b t0) in
    (gterminal g = true ->
       gresult g = Some (Ok tt) /\ restored b T (g_fs g) /\ ff_valid fixed b T (g_fs g) = true) /\
    ((forall i, gstep fixed cap b T g i = None) -> gterminal g = true) /\
    (forall i g', gstep fixed cap b T g i = Some g' -> gmu b T g' < gmu b T g) /\
    gmu b T g <= gmu b T (ginit b t0).
Proof.
  intros cap cap_pos b wf T t0 t0_ok sched g.
  pose proof (ginit_GI b wf T t0 t0_ok) as HG0.
  pose proof (grun_GI cap cap_pos b wf T sched _ HG0) as HG. fold g in HG.
  split; [|split; [|split]].
  - apply (gterminal_restored b wf T g HG).
  - apply (gno_deadlock cap cap_pos b T g HG).
  - intros i g'. apply (gstep_gmu cap cap_pos b wf T g i g' HG).
  - apply (grun_gmu cap cap_pos b wf T sched _ HG0).
Qed.
Print Assumptions heal_restores_granular.

Theorem heal_completes_granular :
  forall (cap : nat), 0 < cap ->
  forall (b : build), wf_build b = true ->
  forall (T : path) (t0 : tree), init_ok T t0 = true ->
  forall (sched prio : list tid) (fuel : nat),
    In TV prio -> In TH prio -> In TW prio -> gmu b T (ginit b t0) <= fuel ->
    let g := gfinish fixed cap b T fuel prio (grun fixed cap b T sched (ginit b t0)) in
    gterminal g = true /\ gresult g = Some (Ok tt) /\ restored b T (g_fs g) /\
    ff_valid fixed b T (g_fs g) = true.
Proof.
  intros cap cap_pos b wf T t0 t0_ok sched prio fuel Hv Hh Hw Hf g.
  pose proof (ginit_GI b wf T t0 t0_ok) as HG0.
  apply (gfinish_complete cap cap_pos b wf T prio Hv Hh Hw fuel).
  - apply (grun_GI cap cap_pos b wf), HG0.
  - exact (PeanoNat.Nat.le_trans _ _ _ (grun_gmu cap cap_pos b wf T sched _ HG0) Hf).
Qed.
Print Assumptions heal_completes_granular.

(** healing a valid directory changes nothing, under every interleaving of single operations
    (either variant of the code, any capacity, any container) *)
Theorem heal_idempotent_granular :
  forall (fx : fixes) (cap : nat) (b : build) (T : path) (t0 : tree),
    init_ok T t0 = true -> node_at t0 T = Some Dir -> ff_valid fx b T t0 = true ->
    forall sched : list tid, g_fs (grun fx cap b T sched (ginit b t0)) = t0.
Proof.
  intros fx cap b T t0 t0_ok t0_dir valid sched.
  apply (grun_GIdem fx cap b T t0 t0_ok t0_dir valid sched), ginit_GIdem.
Qed.
Print Assumptions heal_idempotent_granular.

(** the order of events behind the reduction, for the atomic system (any variant of the code):
    an invariant of every step from a state satisfying [INV] *)
Theorem atomic_event_order_invariant :
  forall (fx : fixes) (cap : nat) (b : build) (T : path) (s : state) (i : tid) (s' : state),
    INV b T s -> Inv2 b s -> step fx cap b T s i = Some s' -> Inv2 b s'.
Proof. exact step_inv2. Qed.
Print Assumptions atomic_event_order_invariant.

(** non-vacuity: the goroutines really are inside their calls at the same time (validator
    between Lstat and Readlink of one entry while the healer is between Lstat and Remove of
    another), and the witnesses are healed under round-robin schedules of single operations *)
Example granular_witnesses :
  (let g := grun fixed 1024 w_build w_target gw_prefix (ginit w_build w_tree_link) in
   g_v g = VPmid /\ g_h g = HPDirRemove [1%N] /\ quiescent g = false /\
   let g' := gfinish fixed 1024 w_build w_target 400 [TV; TH; TW] g in
   gterminal g' = true /\ gresult g' = Some (Ok tt) /\ restoredb w_build w_target (g_fs g') = true) /\
  (let g := grun fixed 1 w_build w_target (round_robin 60) (ginit w_build w_tree_link) in
   gterminal g = true /\ gresult g = Some (Ok tt) /\ restoredb w_build w_target (g_fs g) = true) /\
  (let g := grun fixed 1 w_build w_target (round_robin 60) (ginit w_build w_tree_file) in
   gterminal g = true /\ gresult g = Some (Ok tt) /\ restoredb w_build w_target (g_fs g) = true) /\
  (let g := grun fixed 2 w_build w_target (round_robin 60) (ginit w_build []) in
   gterminal g = true /\ gresult g = Some (Ok tt) /\ restoredb w_build w_target (g_fs g) = true).
Proof. vm_compute. repeat split; reflexivity. Qed.
Print Assumptions granular_witnesses.
