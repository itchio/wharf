(** C03 — interrupted patch application resumes from any checkpoint to the same result.
    Statements, each derived in a few lines from the lemmas of the proof files, and [Print
    Assumptions].  Three parts:
    1. the theorem over an abstract reader and entry writer.  The model is Patch/Resume.v (the
       patcher as a machine over the message list, checkpoints as values, the disk of working
       files); Patch/ResumeProofs.v has the writer contract, the crash model, [offered], and
       the simulation against the uninterrupted run; Patch/ResumeStep.v and Patch/ResumeLive.v
       the reader along a run and liveness; Patch/PlainWriter.v and Patch/OverlayBowl.v the
       fresh bowl's entry writer and the overlay bowl's dispatching writer, with the proof that
       they satisfy the contract; Patch/FreshLater.v the crash model containing every later
       state; Patch/ResumeExample.v the definitions of a concrete instance.
    2. the reader and the overlay entry writer instantiated with the C13 and C14 models:
       Compose/ResumeWire{,Proofs,Inst}.v, Compose/ResumeOverlay{,Proofs}.v,
       Compose/ResumeInst{,Example}.v.
    3. agreement with the C01 / C12 models of the same Go code:
       Compose/ModelsAgreeResume{,Proofs}.v, Compose/ModelsAgreeBsdiffProofs.v.

    Reading guide.  [run sched stop s ms] is [Patcher.Resume] with a save consumer whose i-th
    [ShouldSave] answers [sched i] and whose j-th [Save] returns AfterSaveStop iff [stop j];
    [start_state d0] is a brand-new patcher and bowl on directory [d0]; [run_resumed sched
    stop ck d' msgs] is a brand-new patcher and bowl on directory [d'] resuming from the
    checkpoint value [ck]; [offered msgs d0 ck d] says that [ck] was handed to the consumer,
    with the disk being [d] at that moment, by the first run or by any run resumed (through
    any chain of crashes and resumes, under any save consumers) from an offered checkpoint;
    [crash_ok ck d d'] is the crash model: [d'] agrees with [d] on what the checkpoint covers
    (completed files, the covered region of the in-progress file) and is arbitrary elsewhere;
    [commit] is what Commit makes of the working files, per source file.
    Hypotheses that stay visible: the uninterrupted run completes and the patch respects the
    declared file sizes ([sized_run]) - i.e. the patch is one the differ can produce; the
    entry writers satisfy [writer_ok] (proved for the fresh bowl below; for the overlay entry
    writer this is C14's "sessions" statement); [ReadContext.Resume] restarts at the reader
    offset of the checkpoint ([H_wire]; what C13 gives of it is in part 2); every working file
    of the bowl created on [d0] satisfies the writer's [raw_ok]. *)
From Wharf Require Import Base.Prelude Patch.Resume Patch.ResumeStep Patch.ResumeProofs Patch.ResumeLive Patch.PlainWriter Patch.OverlayBowl Patch.FreshLater Patch.ResumeExample.

(** Safety, any bowl whose entry writers satisfy the contract: resuming from any offered
    checkpoint on any crash disk, under any save consumer of the resumed run, either completes
    and Commit yields exactly what it yields after the uninterrupted application, or returns
    ErrStop because the consumer asked for it (at a checkpoint that is [offered] again, so the
    statement applies to chains of any length). *)
Theorem resume_equiv :
  forall (D C RAW WS WCK : Type) (dlen : D -> N) (blocksize : N) (tsize ssize : N -> N) (nfiles : N)
         (range_data : N -> N -> N -> D) (bs_data : N -> Z -> D -> D -> D)
         (w_open : N -> option (N * WCK) -> RAW -> option (WS * RAW)) (w_write : N -> WS -> RAW -> D -> WS * RAW)
         (w_save : N -> WS -> RAW -> N * WCK * WS * RAW) (w_final : N -> WS -> RAW -> RAW) (w_tell : WS -> N)
         (w_result : N -> RAW -> option C) (fresh : bool) (is_overlay : N -> bool) (prepare : N -> RAW -> RAW)
         (copy_old : N -> RAW) (old_content : N -> C) (emit : nat -> bool) (src_resume : nat -> nat -> option nat)
         (capp : C -> D -> C) (cnil : C) (w_abs : N -> WS -> RAW -> C) (winv : N -> WS -> RAW -> Prop)
         (raw_ok : N -> RAW -> Prop) (covers : N -> N * WCK -> RAW -> RAW -> Prop) (finished : N -> RAW -> C -> Prop),
    writer_ok D C RAW WS WCK dlen tsize ssize w_open w_write w_save w_final w_tell w_result fresh prepare copy_old
              old_content capp cnil w_abs winv raw_ok covers finished ->
    (forall off src : nat, src <= off -> src_resume off src = Some off) ->
    forall (msgs : list (msg D)) (d0 : N -> RAW) (Sf : state RAW WS WCK),
    run D RAW WS WCK dlen blocksize tsize ssize nfiles range_data bs_data w_open w_write w_save w_final w_tell
        fresh is_overlay copy_old emit (fun _ => false) (fun _ => false)
        (start_state RAW WS WCK fresh prepare d0) msgs = Finished RAW WS WCK Sf ->
    sized_run D RAW WS WCK dlen blocksize tsize ssize nfiles range_data bs_data w_open w_write w_save w_final
              w_tell fresh is_overlay copy_old emit (start_state RAW WS WCK fresh prepare d0) msgs ->
    (forall g : N, raw_ok g (bowl_create RAW fresh prepare d0 g)) ->
    forall (ck : ckpt WCK) (d d' : N -> RAW) (sched stop : nat -> bool),
    offered D RAW WS WCK dlen blocksize tsize ssize nfiles range_data bs_data w_open w_write w_save w_final w_tell
            fresh is_overlay prepare copy_old emit src_resume raw_ok covers msgs d0 ck d ->
    crash_ok RAW WCK fresh prepare raw_ok covers ck d d' ->
    match run_resumed D RAW WS WCK dlen blocksize tsize ssize nfiles range_data bs_data w_open w_write w_save
                      w_final w_tell fresh is_overlay prepare copy_old emit src_resume sched stop ck d' msgs with
    | Finished _ _ _ sf => commit C RAW WS WCK nfiles w_result fresh old_content sf =
                           commit C RAW WS WCK nfiles w_result fresh old_content Sf
    | Stopped _ _ _ _ => exists j : nat, stop j = true
    | _ => False
    end.
Proof.
  intros until finished. intros HW HWire msgs d0 Sf Hideal Hsized Hd0 ck d d' sched stop Ho Hc.
  eapply resumed_run_equiv; eauto. apply H_wire_popped. exact HWire.
Qed.
Print Assumptions resume_equiv.

(** ... in particular a resumed run that is not asked to stop returns nil and commits to the
    uninterrupted result, whichever [ShouldSave] calls answer true. *)
Theorem resume_completes :
  forall (D C RAW WS WCK : Type) (dlen : D -> N) (blocksize : N) (tsize ssize : N -> N) (nfiles : N)
         (range_data : N -> N -> N -> D) (bs_data : N -> Z -> D -> D -> D)
         (w_open : N -> option (N * WCK) -> RAW -> option (WS * RAW)) (w_write : N -> WS -> RAW -> D -> WS * RAW)
         (w_save : N -> WS -> RAW -> N * WCK * WS * RAW) (w_final : N -> WS -> RAW -> RAW) (w_tell : WS -> N)
         (w_result : N -> RAW -> option C) (fresh : bool) (is_overlay : N -> bool) (prepare : N -> RAW -> RAW)
         (copy_old : N -> RAW) (old_content : N -> C) (emit : nat -> bool) (src_resume : nat -> nat -> option nat)
         (capp : C -> D -> C) (cnil : C) (w_abs : N -> WS -> RAW -> C) (winv : N -> WS -> RAW -> Prop)
         (raw_ok : N -> RAW -> Prop) (covers : N -> N * WCK -> RAW -> RAW -> Prop) (finished : N -> RAW -> C -> Prop),
    writer_ok D C RAW WS WCK dlen tsize ssize w_open w_write w_save w_final w_tell w_result fresh prepare copy_old
              old_content capp cnil w_abs winv raw_ok covers finished ->
    (forall off src : nat, src <= off -> src_resume off src = Some off) ->
    forall (msgs : list (msg D)) (d0 : N -> RAW) (Sf : state RAW WS WCK),
    run D RAW WS WCK dlen blocksize tsize ssize nfiles range_data bs_data w_open w_write w_save w_final w_tell
        fresh is_overlay copy_old emit (fun _ => false) (fun _ => false)
        (start_state RAW WS WCK fresh prepare d0) msgs = Finished RAW WS WCK Sf ->
    sized_run D RAW WS WCK dlen blocksize tsize ssize nfiles range_data bs_data w_open w_write w_save w_final
              w_tell fresh is_overlay copy_old emit (start_state RAW WS WCK fresh prepare d0) msgs ->
    (forall g : N, raw_ok g (bowl_create RAW fresh prepare d0 g)) ->
    forall (ck : ckpt WCK) (d d' : N -> RAW) (sched : nat -> bool),
    offered D RAW WS WCK dlen blocksize tsize ssize nfiles range_data bs_data w_open w_write w_save w_final w_tell
            fresh is_overlay prepare copy_old emit src_resume raw_ok covers msgs d0 ck d ->
    crash_ok RAW WCK fresh prepare raw_ok covers ck d d' ->
    outcome_of C RAW WS WCK nfiles w_result fresh old_content
      (run_resumed D RAW WS WCK dlen blocksize tsize ssize nfiles range_data bs_data w_open w_write w_save w_final
                   w_tell fresh is_overlay prepare copy_old emit src_resume sched (fun _ => false) ck d' msgs)
    = commit C RAW WS WCK nfiles w_result fresh old_content Sf.
Proof.
  intros until finished. intros HW HWire msgs d0 Sf Hideal Hsized Hd0 ck d d' sched Ho Hc.
  apply outcome_unstopped. eapply resume_equiv; eauto.
Qed.
Print Assumptions resume_completes.

(** Saving is transparent: a first run whose consumer saves whenever it likes (flushes,
    syncs, checkpoints) and never stops commits to the same result as the run that never saves. *)
Theorem saving_transparent :
  forall (D C RAW WS WCK : Type) (dlen : D -> N) (blocksize : N) (tsize ssize : N -> N) (nfiles : N)
         (range_data : N -> N -> N -> D) (bs_data : N -> Z -> D -> D -> D)
         (w_open : N -> option (N * WCK) -> RAW -> option (WS * RAW)) (w_write : N -> WS -> RAW -> D -> WS * RAW)
         (w_save : N -> WS -> RAW -> N * WCK * WS * RAW) (w_final : N -> WS -> RAW -> RAW) (w_tell : WS -> N)
         (w_result : N -> RAW -> option C) (fresh : bool) (is_overlay : N -> bool) (prepare : N -> RAW -> RAW)
         (copy_old : N -> RAW) (old_content : N -> C) (emit : nat -> bool) (src_resume : nat -> nat -> option nat)
         (capp : C -> D -> C) (cnil : C) (w_abs : N -> WS -> RAW -> C) (winv : N -> WS -> RAW -> Prop)
         (raw_ok : N -> RAW -> Prop) (covers : N -> N * WCK -> RAW -> RAW -> Prop) (finished : N -> RAW -> C -> Prop),
    writer_ok D C RAW WS WCK dlen tsize ssize w_open w_write w_save w_final w_tell w_result fresh prepare copy_old
              old_content capp cnil w_abs winv raw_ok covers finished ->
    (forall off src : nat, src <= off -> src_resume off src = Some off) ->
    forall (msgs : list (msg D)) (d0 : N -> RAW) (Sf : state RAW WS WCK),
    run D RAW WS WCK dlen blocksize tsize ssize nfiles range_data bs_data w_open w_write w_save w_final w_tell
        fresh is_overlay copy_old emit (fun _ => false) (fun _ => false)
        (start_state RAW WS WCK fresh prepare d0) msgs = Finished RAW WS WCK Sf ->
    sized_run D RAW WS WCK dlen blocksize tsize ssize nfiles range_data bs_data w_open w_write w_save w_final
              w_tell fresh is_overlay copy_old emit (start_state RAW WS WCK fresh prepare d0) msgs ->
    (forall g : N, raw_ok g (bowl_create RAW fresh prepare d0 g)) ->
    forall sched : nat -> bool,
    outcome_of C RAW WS WCK nfiles w_result fresh old_content
      (run D RAW WS WCK dlen blocksize tsize ssize nfiles range_data bs_data w_open w_write w_save w_final w_tell
           fresh is_overlay copy_old emit sched (fun _ => false) (start_state RAW WS WCK fresh prepare d0) msgs)
    = commit C RAW WS WCK nfiles w_result fresh old_content Sf.
Proof.
  intros until finished. intros HW HWire msgs d0 Sf Hideal Hsized Hd0 sched.
  apply outcome_unstopped. eapply first_run_equiv; eauto.
Qed.
Print Assumptions saving_transparent.

(** [freshEntryWriter] (reopen without truncation, seek to the saved offset), the creation of a
    fresh bowl ([Prepare]: truncate to the final size) and [freshBowl.Transpose] satisfy the
    writer contract - so for fresh application ([fr = true]) the theorems above hold without
    that hypothesis. *)
Theorem fresh_writer_contract :
  forall (ssize tsize : N -> N) (old : N -> list byte),
    (forall t : N, length (old t) = N.to_nat (tsize t)) ->
    forall fr : bool,
    writer_ok (list byte) (list byte) (list byte) N unit (fun d : list byte => N.of_nat (length d)) tsize ssize
              p_open p_write p_save p_final p_tell p_result fr (p_prepare ssize) (p_copy_old old) old
              (fun c d : list byte => c ++ d) [] p_abs (p_inv ssize) (p_raw_ok ssize) p_covers (p_finished ssize).
Proof. exact plain_writer_ok. Qed.
Print Assumptions fresh_writer_contract.

(** In-place application: the overlay bowl hands out a [freshEntryWriter] on a stage file for
    a new path and an [overlayEntryWriter] for a path that exists in the old build
    ([d_open] ... [d_result] model that dispatch).  If the overlay entry writer satisfies the
    contract (C14: sessions continue each other at the saved (ReadOffset, OverlayOffset), the
    end marker hides stale bytes), so does the bowl's writer - hence [resume_equiv],
    [resume_completes] and [saving_transparent] hold for in-place application with that one
    hypothesis about the overlay writer. *)
Theorem overlay_bowl_writer_contract :
  forall (WS2 WCK2 : Type) (is_overlay : N -> bool) (tsize ssize : N -> N) (old : N -> list byte)
         (o2 : N -> option (N * WCK2) -> list byte -> option (WS2 * list byte))
         (wr2 : N -> WS2 -> list byte -> list byte -> WS2 * list byte)
         (sv2 : N -> WS2 -> list byte -> (N * WCK2) * WS2 * list byte)
         (fi2 : N -> WS2 -> list byte -> list byte) (te2 : WS2 -> N) (re2 : N -> list byte -> option (list byte))
         (abs2 : N -> WS2 -> list byte -> list byte) (inv2 : N -> WS2 -> list byte -> Prop) (ok2 : N -> list byte -> Prop)
         (cov2 : N -> N * WCK2 -> list byte -> list byte -> Prop) (fin2 : N -> list byte -> list byte -> Prop),
    (forall t, length (old t) = N.to_nat (tsize t)) ->
    writer_ok (list byte) (list byte) (list byte) WS2 WCK2 (fun d => N.of_nat (length d)) tsize ssize o2 wr2 sv2 fi2 te2 re2 false
              (p_prepare ssize) (p_copy_old old) old (fun c d => c ++ d) [] abs2 inv2 ok2 cov2 fin2 ->
    writer_ok (list byte) (list byte) (list byte) (N + WS2) (unit + WCK2) (fun d => N.of_nat (length d)) tsize ssize
              (d_open _ _ _ _ _ is_overlay p_open o2) (d_write _ _ _ _ p_write wr2) (d_save _ _ _ _ _ p_save sv2)
              (d_final _ _ _ p_final fi2) (d_tell _ _ p_tell te2) (d_result _ _ is_overlay p_result re2) false
              (p_prepare ssize) (p_copy_old old) old (fun c d => c ++ d) []
              (d_abs _ _ _ _ p_abs abs2) (d_inv _ _ _ is_overlay (p_inv ssize) inv2) (d_raw_ok _ is_overlay (p_raw_ok ssize) ok2)
              (d_covers _ _ _ is_overlay p_covers cov2) (d_finished _ _ is_overlay (p_finished ssize) fin2).
Proof. exact overlay_bowl_writer_ok. Qed.
Print Assumptions overlay_bowl_writer_contract.

(** Safety for fresh application, bytes and all: if the crash disk still has the first
    [ck_woff] bytes of the in-progress output file (whatever follows them, whatever its length)
    and the output files of the earlier series, and anything at all everywhere else, then the
    resumed run - rsync and bsdiff series alike, any old build, any save consumer - ends with
    every output file equal, byte for byte, to the uninterrupted result, or stops on request. *)
Theorem resume_equiv_fresh :
  forall (blocksize : N) (tsize ssize : N -> N) (nfiles : N) (old : N -> list byte)
         (range_data : N -> N -> N -> list byte) (bs_data : N -> Z -> list byte -> list byte -> list byte)
         (is_overlay : N -> bool) (emit : nat -> bool) (src_resume : nat -> nat -> option nat),
    (forall t : N, length (old t) = N.to_nat (tsize t)) ->
    (forall off src : nat, src <= off -> src_resume off src = Some off) ->
    forall (msgs : list (msg (list byte))) (d0 : N -> list byte) (Sf : state (list byte) N unit),
    fresh_run blocksize tsize ssize nfiles old range_data bs_data is_overlay emit (fun _ => false) (fun _ => false)
              (fresh_start ssize d0) msgs = Finished (list byte) N unit Sf ->
    fresh_sized blocksize tsize ssize nfiles old range_data bs_data is_overlay emit (fresh_start ssize d0) msgs ->
    forall (ck : ckpt unit) (d d' : N -> list byte) (sched stop : nat -> bool),
    fresh_offered blocksize tsize ssize nfiles old range_data bs_data is_overlay emit src_resume msgs d0 ck d ->
    fresh_crash ck d d' ->
    match fresh_resumed blocksize tsize ssize nfiles old range_data bs_data is_overlay emit src_resume sched stop ck d' msgs with
    | Finished _ _ _ sf => forall g : N, (g < nfiles)%N -> s_disk (list byte) N unit sf g = s_disk (list byte) N unit Sf g
    | Stopped _ _ _ _ => exists j : nat, stop j = true
    | _ => False
    end.
Proof.
  intros until src_resume. intros Hold HWire msgs d0 Sf Hideal Hsized ck d d' sched stop Hoff Hcrash.
  pose proof (resume_equiv _ _ _ _ _ _ _ _ _ _ _ _ _ _ _ _ _ _ _ _ _ _ _ _ _ _ _ _ _ _ _ _
                (plain_writer_ok ssize tsize old Hold true) HWire msgs d0 Sf Hideal Hsized (fun g => prepare_ok ssize g (d0 g))
                ck d d' sched stop Hoff (fresh_crash_ok _ _ _ _ Hcrash)) as H.
  unfold fresh_resumed. revert H. destruct (run_resumed _ _ _ _ _ _ _ _ _ _ _ _ _ _ _ _ _ _ _ _ _ _ _ _ _ _ _); intros H; auto.
  eapply fresh_commit_disks, H.
Qed.
Print Assumptions resume_equiv_fresh.

(** The crash model is not vacuous and contains what the property calls "stopping there or
    crashing any time later": along any run of fresh application ([reach]: any number of
    further steps, incl. the step that stops), the disk of that later moment is a legitimate
    crash disk ([fresh_crash]) for every checkpoint offered up to then - writes made after the
    checkpoint being wholly on disk; partly written or torn ones are covered by [fresh_crash]
    constraining nothing at or after the checkpointed offset. *)
Theorem crash_model_contains_later_states :
  forall (blocksize : N) (tsize ssize : N -> N) (old : N -> list byte)
         (range_data : N -> N -> N -> list byte) (bs_data : N -> Z -> list byte -> list byte -> list byte)
         (is_overlay : N -> bool) (emit sched stop : nat -> bool)
         (d0 : N -> list byte) (ms : list (msg (list byte))) (s : state (list byte) N unit)
         (ck : ckpt unit) (d : N -> list byte),
    reach blocksize tsize ssize old range_data bs_data is_overlay emit sched stop (fresh_start ssize d0) ms s ->
    In (ck, d) (s_offers (list byte) N unit s) ->
    fresh_crash ck d (s_disk (list byte) N unit s).
Proof.
  intros until d. intros Hr Hin. apply linv_reach in Hr; [|apply linv_start]. destruct Hr as (_ & H).
  eapply later_crash; eauto.
Qed.
Print Assumptions crash_model_contains_later_states.

(** Liveness for a source that serves a pending request at its next read (the seek source)
    and a consumer that always asks to save: of any two consecutive iterations of a relay
    loop - rsync or bsdiff series - at least one hands a checkpoint to the consumer (so a
    series with two or more iterations never goes without one).  It is not every iteration:
    PopCheckpoint returns the reader to Idle after WantSave was already called in that
    iteration, so the source is only asked again one iteration later - the correspondence
    shows the implementation doing exactly that. *)
Theorem saves_happen :
  forall (D RAW WS WCK : Type) (dlen : D -> N) (blocksize : N) (tsize ssize : N -> N)
         (range_data : N -> N -> N -> D) (bs_data : N -> Z -> D -> D -> D)
         (w_open : N -> option (N * WCK) -> RAW -> option (WS * RAW)) (w_write : N -> WS -> RAW -> D -> WS * RAW)
         (w_save : N -> WS -> RAW -> N * WCK * WS * RAW) (w_final : N -> WS -> RAW -> RAW) (w_tell : WS -> N)
         (fresh : bool) (is_overlay : N -> bool) (copy_old : N -> RAW) (stop : nat -> bool)
         (s : state RAW WS WCK) (m : msg D) (s' : state RAW WS WCK) (m' : msg D) (r : result RAW WS WCK),
    in_loop WS (s_ph RAW WS WCK s) = true ->
    rd_inv (s_rd RAW WS WCK s) ->
    step D RAW WS WCK dlen blocksize tsize ssize range_data bs_data w_open w_write w_save w_final w_tell fresh
         is_overlay copy_old (fun _ => true) (fun _ => true) stop s m = Running RAW WS WCK s' ->
    in_loop WS (s_ph RAW WS WCK s') = true ->
    step D RAW WS WCK dlen blocksize tsize ssize range_data bs_data w_open w_write w_save w_final w_tell fresh
         is_overlay copy_old (fun _ => true) (fun _ => true) stop s' m' = r ->
    match r with
    | Running _ _ _ s'' | Stopped _ _ _ s'' => length (s_offers RAW WS WCK s) < length (s_offers RAW WS WCK s'')
    | _ => True
    end.
Proof.
  intros until r. intros Hl Hinv H1 Hl' H2.
  exact (saves_happen_lemma _ _ _ _ _ _ _ _ _ _ _ _ _ _ _ _ _ _ (fun _ => true) _ _ _ _ _ _ Hl Hinv eq_refl H1 Hl' H2).
Qed.
Print Assumptions saves_happen.

(** ... and the stronger reading, a checkpoint at every iteration, is refuted by
    the faithful model: four iterations, always-true consumer, seek source, two checkpoints. *)
Theorem saves_every_iteration_refuted :
  exists s, ex_first = Finished _ _ _ s /\ s_asked _ _ _ s = 4 /\ length (s_offers _ _ _ s) = 2.
Proof. eexists. split; [vm_compute; reflexivity|]. split; vm_compute; reflexivity. Qed.
Print Assumptions saves_every_iteration_refuted.

(** the reader invariant [saves_happen] asks for is kept by every step of a run with
    [emit = sched = fun _ => true] (it holds of [start_state] and of every [resume_state],
    whose reader is Idle) *)
Theorem reader_invariant_kept :
  forall (D RAW WS WCK : Type) (dlen : D -> N) (blocksize : N) (tsize ssize : N -> N)
         (range_data : N -> N -> N -> D) (bs_data : N -> Z -> D -> D -> D)
         (w_open : N -> option (N * WCK) -> RAW -> option (WS * RAW)) (w_write : N -> WS -> RAW -> D -> WS * RAW)
         (w_save : N -> WS -> RAW -> N * WCK * WS * RAW) (w_final : N -> WS -> RAW -> RAW) (w_tell : WS -> N)
         (fresh : bool) (is_overlay : N -> bool) (copy_old : N -> RAW) (stop : nat -> bool)
         (s : state RAW WS WCK) (m : msg D) (s' : state RAW WS WCK),
    rd_inv (s_rd RAW WS WCK s) ->
    step D RAW WS WCK dlen blocksize tsize ssize range_data bs_data w_open w_write w_save w_final w_tell fresh
         is_overlay copy_old (fun _ => true) (fun _ => true) stop s m = Running RAW WS WCK s' ->
    rd_inv (s_rd RAW WS WCK s').
Proof.
  intros until s'. intros Hinv H.
  pose proof (step_reads D RAW WS WCK dlen blocksize tsize ssize range_data bs_data w_open w_write w_save w_final w_tell
                         fresh is_overlay copy_old (fun _ => true) (fun _ => true) stop s m) as A.
  rewrite H in A. destruct A as (-> & _). apply rd_read_inv, rd_save_inv, Hinv.
Qed.
Print Assumptions reader_invariant_kept.

(** Non-vacuity: a concrete patch (block size 4) for which the hypotheses of
    [resume_equiv_fresh] hold (the run and its sizes here; the old files' lengths and [H_wire]
    are [ex_hold], [ex_wire] of Patch/ResumeExample.v), a checkpoint offered in the middle of a file (6 of 9 bytes
    written, 3 messages read), a crash disk that lost one byte and carries garbage after the
    checkpointed offset, and the resumed run completing with the new file. *)
Example resume_nonvacuous :
  exists Sf,
    ex_run (fun _ => false) (fun _ => false) (fresh_start ex_ssize ex_d0) ex_msgs = Finished _ _ _ Sf /\
    fresh_sized 4 ex_tsize ex_ssize 1 ex_old ex_range ex_bs (fun _ => false) (fun _ => true) (fresh_start ex_ssize ex_d0) ex_msgs /\
    s_disk _ _ _ Sf 0%N = ex_new /\
    fresh_offered 4 ex_tsize ex_ssize 1 ex_old ex_range ex_bs (fun _ => false) (fun _ => true) ex_src_resume
                  ex_msgs ex_d0 (fst ex_offer) (snd ex_offer) /\
    ck_woff _ (fst ex_offer) = 6%N /\ mc_off (ck_msg _ (fst ex_offer)) = 3 /\
    fresh_crash (fst ex_offer) (snd ex_offer) ex_crash /\
    snd ex_offer 0%N = [9; 9; 1; 2; 3; 4; 0; 0; 0]%N /\
    exists sf, fresh_resumed 4 ex_tsize ex_ssize 1 ex_old ex_range ex_bs (fun _ => false) (fun _ => true) ex_src_resume
                 (fun _ => false) (fun _ => false) (fst ex_offer) ex_crash ex_msgs = Finished _ _ _ sf /\
               s_disk _ _ _ sf 0%N = ex_new.
Proof.
  eexists. split; [vm_compute; reflexivity|].
  split. { vm_compute. repeat split; auto; discriminate. }
  split; [vm_compute; reflexivity|].
  split.
  { eapply (off_first _ _ _ _ _ _ _ _ _ _ _ _ _ _ _ _ _ _ _ _ _ _ _ _ _ _ (fun _ => true) (fun _ => false)).
    - unfold ex_offer, ex_first, ex_run, fresh_run, fresh_start. vm_compute. reflexivity.
    - unfold ex_offer, ex_first, ex_run, fresh_run, fresh_start. vm_compute. right. left. reflexivity. }
  split; [vm_compute; reflexivity|]. split; [vm_compute; reflexivity|].
  split. { unfold fresh_crash. vm_compute. repeat split; auto. intros g Hg. destruct g; discriminate. }
  split; [vm_compute; reflexivity|].
  eexists. split; vm_compute; reflexivity.
Qed.
Print Assumptions resume_nonvacuous.

(** * The two cross-property hypotheses discharged inside Coq (Compose/Resume*.v)

    [resume_equiv] above keeps two hypotheses that are other properties' business: [H_wire]
    (C13) and [writer_ok] for the overlay entry writer (C14).  Below they are proved for
    instances built from the C13 and C14 models, and [resume_equiv] is restated without them.

    Reader.  C03 counts messages, C13 counts bytes: [bnd k] is the byte offset after the first
    [k] frames, [idx_of] its inverse; the source checkpoint "handed out during the read of
    message p" is [src_event p] = the answer of the source behaviour [beh] for the read from
    [bnd p] to [bnd (S p)]; [emit_w] / [src_resume_w] instantiate C03's [emit] / [src_resume]
    ([src_resume_w off src] runs C13's [resume] on a brand-new reader over the written bytes
    and converts the offset it ends at back to an index). *)
From Wharf Require Import Wire.Frame Wire.FrameProofs Wire.Reader Wire.ReaderProofs Overlay.Codec
  Compose.ResumeWire Compose.ResumeWireProofs Compose.ResumeWireInst
  Compose.ResumeOverlay Compose.ResumeOverlayProofs Compose.ResumeInst Compose.ResumeInstExample.

(** The C13 save-state automaton refines C03's message-granularity automaton: started in
    related states ([rd_rel]: same number of messages read, byte offset = their frames, same
    save state, same pending request, the held source checkpoint is the one C03's index names),
    under any schedule of WantSave / PopCheckpoint / ReadMessage that does not read past the
    last message, the two run in lockstep - the same requests are forwarded, the i-th read
    yields the i-th message, both pop or neither does and the popped checkpoints correspond
    through [ckpt_to_wire], and the states stay related.  Environment: the protobuf round trip
    and bodies below 2^56 bytes. *)
Theorem wire_reader_refines :
  forall (M : Type) (marshal : M -> list byte) (unmarshal : list byte -> option M),
    (forall m, unmarshal (marshal m) = Some m) ->
  forall msgs : list M, Forall (fits_msg marshal) msgs ->
  forall (beh : behaviour) (ops : list Reader.op) (a : Reader.reader) (b : Resume.reader),
    rd_rel marshal msgs beh a b -> reads_within msgs (Resume.r_pos b) ops ->
    Forall2 (fun x y => ev_rel marshal msgs beh (fst x) (fst y) /\ rd_rel marshal msgs beh (snd x) (snd y))
            (Reader.run unmarshal beh a ops) (run3 marshal msgs beh b ops).
Proof. exact @wire_refines. Qed.
Print Assumptions wire_reader_refines.

(** ... the relation holds between [NewReadContext] over the written bytes and the reader of
    [start_state], ... *)
Theorem wire_reader_initial :
  forall (M : Type) (marshal : M -> list byte) (msgs : list M) (beh : behaviour) (cap0 : N),
    rd_rel marshal msgs beh (new_reader cap0 (wire_data marshal msgs)) (Resume.mkrd 0 Resume.Idle false 0).
Proof.
  intros. unfold rd_rel, new_reader. cbn. unfold wire_data.
  repeat split; try reflexivity; try lia; try discriminate.
Qed.
Print Assumptions wire_reader_initial.

(** ... and it contains the protocol invariant of either development: C13's [coherent] (the
    source has a pending request exactly while the reader waits) and the [rd_inv] that
    [saves_happen] / [reader_invariant_kept] ask for. *)
Theorem wire_reader_invariants :
  forall (M : Type) (marshal : M -> list byte) (msgs : list M) (beh : behaviour) (a : Reader.reader) (b : Resume.reader),
    rd_rel marshal msgs beh a b -> coherent a /\ rd_inv b.
Proof. intros M marshal msgs beh a b H. split; [eapply rd_rel_coherent|eapply rd_rel_rd_inv]; exact H. Qed.
Print Assumptions wire_reader_invariants.

(** [H_wire] for the instance, from C13 ([resume_good]: the resumption half of
    [checkpoint_resumes_exactly]): for every checkpoint the instance can produce - the source
    handed its part out during the read of an EARLIER message ([src < off], [emit_w src]) and
    the reader part is a position of the stream ([off <= length msgs]) - and every source
    within the contract, [ReadContext.Resume] restarts at the reader offset of the checkpoint. *)
Theorem wire_resume_restarts_at_checkpoint :
  forall (M : Type) (marshal : M -> list byte) (msgs : list M) (beh : behaviour) (cap0 : N),
    beh_sound beh ->
  forall off src : nat,
    wf_mc marshal msgs beh (Resume.mkmc off src) ->
    src_resume_w marshal msgs beh cap0 off src = Some off.
Proof. exact @src_resume_w_ok. Qed.
Print Assumptions wire_resume_restarts_at_checkpoint.

(** ... and wherever [src_resume_w] says reading restarts, the resumed C13 reader yields
    exactly the messages [run_resumed] feeds the patcher ([skipn p msgs]), then end of stream,
    whatever sound source the resumed run has; and it is again related to the reader of
    [resume_state]. *)
Theorem wire_resume_yields_unread :
  forall (M : Type) (marshal : M -> list byte) (unmarshal : list byte -> option M),
    (forall m, unmarshal (marshal m) = Some m) ->
  forall msgs : list M, Forall (fits_msg marshal) msgs ->
  forall (beh : behaviour) (cap0 : N) (off src p : nat),
    src_resume_w marshal msgs beh cap0 off src = Some p ->
    exists (c : msg_ckpt) (r' : Reader.reader),
      ckpt_to_wire marshal msgs beh (Resume.mkmc off src) = Some c /\
      Reader.resume (new_reader cap0 (wire_data marshal msgs)) (Some c) = Some r' /\
      rd_rel marshal msgs beh r' (Resume.mkrd p Resume.Idle false 0) /\
      forall beh2, beh_sound beh2 -> read_all unmarshal beh2 r' = (skipn p msgs, EEOF).
Proof. exact @src_resume_w_yields. Qed.
Print Assumptions wire_resume_yields_unread.

(** [H_wire] as stated in [resume_equiv] ranges over ALL pairs [src <= off]; C13 answers only
    for the pairs above.  That is enough: every checkpoint the patcher hands to its consumer,
    through any chain of crashes and resumes, is such a pair (an invariant of [run]: the
    reader pops after the read during which the source answered has returned). *)
Theorem offered_checkpoints_are_resumable :
  forall (D RAW WS WCK : Type) (dlen : D -> N) (blocksize : N) (tsize ssize : N -> N) (nfiles : N)
         (range_data : N -> N -> N -> D) (bs_data : N -> Z -> D -> D -> D)
         (w_open : N -> option (N * WCK) -> RAW -> option (WS * RAW)) (w_write : N -> WS -> RAW -> D -> WS * RAW)
         (w_save : N -> WS -> RAW -> N * WCK * WS * RAW) (w_final : N -> WS -> RAW -> RAW) (w_tell : WS -> N)
         (fresh : bool) (is_overlay : N -> bool) (prepare : N -> RAW -> RAW) (copy_old : N -> RAW)
         (raw_ok : N -> RAW -> Prop) (covers : N -> N * WCK -> RAW -> RAW -> Prop)
         (marshal : msg D -> list byte) (beh : behaviour),
    beh_sound beh ->
  forall (cap0 : N) (msgs : list (msg D)) (d0 : N -> RAW) (ck : ckpt WCK) (d : N -> RAW),
    offered D RAW WS WCK dlen blocksize tsize ssize nfiles range_data bs_data w_open w_write w_save w_final w_tell
            fresh is_overlay prepare copy_old (emit_w marshal msgs beh) (src_resume_w marshal msgs beh cap0)
            raw_ok covers msgs d0 ck d ->
    wf_mc marshal msgs beh (ck_msg WCK ck).
Proof. intros until d. apply offered_wf. Qed.
Print Assumptions offered_checkpoints_are_resumable.

(** [resume_equiv] with the reader hypothesis discharged: the message reader is the wire
    reader of C13 over the framed message list, on any source within the contract
    [beh_sound]; any bowl whose entry writers satisfy [writer_ok]. *)
Theorem resume_equiv_wire_instance :
  forall (D RAW WS WCK : Type) (dlen : D -> N) (blocksize : N) (tsize ssize : N -> N) (nfiles : N)
         (range_data : N -> N -> N -> D) (bs_data : N -> Z -> D -> D -> D)
         (w_open : N -> option (N * WCK) -> RAW -> option (WS * RAW)) (w_write : N -> WS -> RAW -> D -> WS * RAW)
         (w_save : N -> WS -> RAW -> N * WCK * WS * RAW) (w_final : N -> WS -> RAW -> RAW) (w_tell : WS -> N)
         (fresh : bool) (is_overlay : N -> bool) (prepare : N -> RAW -> RAW) (copy_old : N -> RAW)
         (raw_ok : N -> RAW -> Prop) (covers : N -> N * WCK -> RAW -> RAW -> Prop)
         (marshal : msg D -> list byte) (beh : behaviour),
    beh_sound beh ->
  forall (cap0 : N) (msgs : list (msg D)) (d0 : N -> RAW)
         (C : Type) (w_result : N -> RAW -> option C) (old_content : N -> C) (capp : C -> D -> C) (cnil : C)
         (w_abs : N -> WS -> RAW -> C) (winv : N -> WS -> RAW -> Prop) (finished : N -> RAW -> C -> Prop),
    writer_ok D C RAW WS WCK dlen tsize ssize w_open w_write w_save w_final w_tell w_result fresh prepare copy_old
              old_content capp cnil w_abs winv raw_ok covers finished ->
  forall Sf : state RAW WS WCK,
    Resume.run D RAW WS WCK dlen blocksize tsize ssize nfiles range_data bs_data w_open w_write w_save w_final w_tell
        fresh is_overlay copy_old (emit_w marshal msgs beh) (fun _ => false) (fun _ => false)
        (start_state RAW WS WCK fresh prepare d0) msgs = Finished RAW WS WCK Sf ->
    sized_run D RAW WS WCK dlen blocksize tsize ssize nfiles range_data bs_data w_open w_write w_save w_final
              w_tell fresh is_overlay copy_old (emit_w marshal msgs beh) (start_state RAW WS WCK fresh prepare d0) msgs ->
    (forall g : N, raw_ok g (bowl_create RAW fresh prepare d0 g)) ->
  forall (ck : ckpt WCK) (d d' : N -> RAW) (sched stop : nat -> bool),
    offered D RAW WS WCK dlen blocksize tsize ssize nfiles range_data bs_data w_open w_write w_save w_final w_tell
            fresh is_overlay prepare copy_old (emit_w marshal msgs beh) (src_resume_w marshal msgs beh cap0)
            raw_ok covers msgs d0 ck d ->
    crash_ok RAW WCK fresh prepare raw_ok covers ck d d' ->
    match run_resumed D RAW WS WCK dlen blocksize tsize ssize nfiles range_data bs_data w_open w_write w_save
                      w_final w_tell fresh is_overlay prepare copy_old (emit_w marshal msgs beh)
                      (src_resume_w marshal msgs beh cap0) sched stop ck d' msgs with
    | Finished _ _ _ sf => Resume.commit C RAW WS WCK nfiles w_result fresh old_content sf =
                           Resume.commit C RAW WS WCK nfiles w_result fresh old_content Sf
    | Stopped _ _ _ _ => exists j : nat, stop j = true
    | _ => False
    end.
Proof.
  intros until beh. intros Hbeh cap0 msgs d0 C w_result old_content capp cnil w_abs winv finished HW Sf Hideal Hsized Hd0
         ck d d' sched stop Hoff Hcrash.
  eapply resumed_run_equiv; eauto. apply wire_H_popped, Hbeh.
Qed.
Print Assumptions resume_equiv_wire_instance.

(** Liveness behind the wire reader: the source assumption of [saves_happen] ([emit] always
    true) is what C13's seek source does on every read of a message of the stream, so of any
    two consecutive relay iterations that read messages of the stream one delivers a checkpoint. *)
Theorem saves_happen_wire_seek :
  forall (D RAW WS WCK : Type) (dlen : D -> N) (blocksize : N) (tsize ssize : N -> N)
         (range_data : N -> N -> N -> D) (bs_data : N -> Z -> D -> D -> D)
         (w_open : N -> option (N * WCK) -> RAW -> option (WS * RAW)) (w_write : N -> WS -> RAW -> D -> WS * RAW)
         (w_save : N -> WS -> RAW -> N * WCK * WS * RAW) (w_final : N -> WS -> RAW -> RAW) (w_tell : WS -> N)
         (fresh : bool) (is_overlay : N -> bool) (copy_old : N -> RAW)
         (marshal : msg D -> list byte) (msgs : list (msg D)) (stop : nat -> bool)
         (s : state RAW WS WCK) (m : msg D) (s' : state RAW WS WCK) (m' : msg D) (r : result RAW WS WCK),
    in_loop WS (s_ph RAW WS WCK s) = true ->
    rd_inv (s_rd RAW WS WCK s) ->
    S (Resume.r_pos (s_rd RAW WS WCK s)) < length msgs ->
    Resume.step D RAW WS WCK dlen blocksize tsize ssize range_data bs_data w_open w_write w_save w_final w_tell fresh
         is_overlay copy_old (emit_w marshal msgs seek_beh) (fun _ => true) stop s m = Running RAW WS WCK s' ->
    in_loop WS (s_ph RAW WS WCK s') = true ->
    Resume.step D RAW WS WCK dlen blocksize tsize ssize range_data bs_data w_open w_write w_save w_final w_tell fresh
         is_overlay copy_old (emit_w marshal msgs seek_beh) (fun _ => true) stop s' m' = r ->
    match r with
    | Running _ _ _ s'' | Stopped _ _ _ s'' => length (s_offers RAW WS WCK s) < length (s_offers RAW WS WCK s'')
    | _ => True
    end.
Proof.
  intros until r. intros Hl Hinv Hlen H1 Hl' H2.
  refine (saves_happen_lemma _ _ _ _ _ _ _ _ _ _ _ _ _ _ _ _ _ _ (emit_w marshal msgs seek_beh) _ _ _ _ _ _ Hl Hinv _ H1 Hl' H2).
  apply emit_w_seek. lia.
Qed.
Print Assumptions saves_happen_wire_seek.

(** Writer.  [ow_open] ... [ow_result] model [overlayEntryWriter] (Resume = seek both files to
    the saved (ReadOffset, OverlayOffset) + NewOverlayWriter, Write, Save = Flush + the two
    offsets, Finalize) on top of C14's writer, and Commit = C14's [patch] (Patch + truncate) of
    the old file with the stage file.  The contract holds with: content so far = everything
    written through all sessions; invariant [ow_inv] = "in the middle of a C14 session opened
    in a state satisfying C14's [pre]"; crash model [ow_covers] = the overlay file keeps its
    first OverlayOffset bytes, ANYTHING may follow; [ow_raw_ok] = any file may sit at the stage
    path.  [W_final] is C14's [final_session_ok] (the last session of [sessions_ok], the general
    form of [overlay_sessions]), [W_save]
    its induction step ([session_ok], [session_lands]: what [offsets_exact_after_flush] and
    [flushed_prefix_applies] state).  Environment: the overlay message codec is a prefix code
    ([real_codec_is_prefix_code] of C14 for the real one) and [0 < bufSize]. *)
Theorem overlay_entry_writer_contract :
  forall (bufSize threshold : N) (enc : Writer.op -> list byte) (dec : list byte -> option (Writer.op * list byte))
         (magic : list byte),
    (0 < bufSize)%N ->
    (forall o rest, dec (enc o ++ rest) = Some (o, rest)) ->
  forall (old : N -> list byte) (tsize ssize : N -> N) (prepare : N -> list byte -> list byte)
         (copy_old old_content : N -> list byte),
    writer_ok (list byte) (list byte) (list byte) ew_state ew_ckpt (fun d => N.of_nat (length d)) tsize ssize
              (ow_open enc dec magic old) (ow_write bufSize threshold enc) (ow_save bufSize threshold enc)
              (ow_final bufSize threshold enc) ow_tell (ow_result dec magic old) false prepare copy_old old_content
              (fun c d => c ++ d) [] ow_abs (ow_inv bufSize threshold enc magic old) ow_raw_ok ow_covers
              (ow_finished dec magic old).
Proof. exact overlay_writer_ok. Qed.
Print Assumptions overlay_entry_writer_contract.

(** [resume_equiv] for in-place application with the writer hypothesis discharged ([ob_*]:
    the theorem's notions instantiated with the overlay bowl's dispatching writer -
    [freshEntryWriter] for new paths, the overlay entry writer for paths of the old build);
    the reader stays a parameter ([H_wire]). *)
Theorem resume_equiv_overlay_instance :
  forall (bufSize threshold : N) (enc : Writer.op -> list byte) (dec : list byte -> option (Writer.op * list byte))
         (magic : list byte) (blocksize : N) (tsize ssize : N -> N) (nfiles : N) (oldt oldp : N -> list byte)
         (range_data : N -> N -> N -> list byte) (bs_data : N -> Z -> list byte -> list byte -> list byte)
         (is_overlay : N -> bool) (emit : nat -> bool) (src_resume : nat -> nat -> option nat),
    (0 < bufSize)%N ->
    (forall o rest, dec (enc o ++ rest) = Some (o, rest)) ->
    (forall t : N, length (oldt t) = N.to_nat (tsize t)) ->
    (forall off src : nat, src <= off -> src_resume off src = Some off) ->
  forall (msgs : list (msg (list byte))) (d0 : N -> list byte) (Sf : state (list byte) (N + ew_state) (unit + ew_ckpt)),
    ob_run bufSize threshold enc dec magic blocksize tsize ssize nfiles oldt oldp range_data bs_data is_overlay emit
           (fun _ => false) (fun _ => false) (ob_start ssize d0) msgs = Finished _ _ _ Sf ->
    ob_sized bufSize threshold enc dec magic blocksize tsize ssize nfiles oldt oldp range_data bs_data is_overlay emit
             (ob_start ssize d0) msgs ->
    (forall g, ob_raw_ok ssize is_overlay g (d0 g)) ->
  forall (ck : ckpt (unit + ew_ckpt)) (d d' : N -> list byte) (sched stop : nat -> bool),
    ob_offered bufSize threshold enc dec magic blocksize tsize ssize nfiles oldt oldp range_data bs_data is_overlay emit
               src_resume msgs d0 ck d ->
    ob_crash ssize is_overlay ck d d' ->
    match ob_resumed bufSize threshold enc dec magic blocksize tsize ssize nfiles oldt oldp range_data bs_data is_overlay
                     emit src_resume sched stop ck d' msgs with
    | Finished _ _ _ sf => ob_commit dec magic nfiles oldt oldp is_overlay sf = ob_commit dec magic nfiles oldt oldp is_overlay Sf
    | Stopped _ _ _ _ => exists j : nat, stop j = true
    | _ => False
    end.
Proof.
  intros until src_resume. intros HbufSize dec_enc Hold HWire msgs d0 Sf Hideal Hsized Hd0 ck d d' sched stop Hoff Hcrash.
  exact (resume_equiv _ _ _ _ _ _ _ _ _ _ _ _ _ _ _ _ _ _ _ _ _ _ _ _ _ _ _ _ _ _ _ _
           (overlay_bowl_instance_ok bufSize threshold enc dec magic HbufSize dec_enc oldp is_overlay tsize ssize oldt Hold)
           HWire msgs d0 Sf Hideal Hsized Hd0 ck d d' sched stop Hoff Hcrash).
Qed.
Print Assumptions resume_equiv_overlay_instance.

(** Both at once: in-place application read through the wire reader.  What is left is the
    environment - the overlay message codec is a prefix code, the source keeps the checkpoint
    contract [beh_sound], the old files have their declared sizes, [0 < bufSize], no working file
    found in [d0] is longer than allowed ([ob_raw_ok]) - and the patch: the uninterrupted
    application completes and respects the declared sizes. *)
Theorem resume_equiv_instantiated :
  forall (bufSize threshold : N) (enc : Writer.op -> list byte) (dec : list byte -> option (Writer.op * list byte))
         (magic : list byte) (blocksize : N) (tsize ssize : N -> N) (nfiles : N) (oldt oldp : N -> list byte)
         (range_data : N -> N -> N -> list byte) (bs_data : N -> Z -> list byte -> list byte -> list byte)
         (is_overlay : N -> bool) (marshal : msg (list byte) -> list byte) (beh : behaviour) (cap0 : N),
    (0 < bufSize)%N ->
    (forall o rest, dec (enc o ++ rest) = Some (o, rest)) ->
    (forall t : N, length (oldt t) = N.to_nat (tsize t)) ->
    beh_sound beh ->
  forall msgs : list (msg (list byte)),
    let emit := emit_w marshal msgs beh in
    let src_resume := src_resume_w marshal msgs beh cap0 in
  forall (d0 : N -> list byte) (Sf : state (list byte) (N + ew_state) (unit + ew_ckpt)),
    ob_run bufSize threshold enc dec magic blocksize tsize ssize nfiles oldt oldp range_data bs_data is_overlay emit
           (fun _ => false) (fun _ => false) (ob_start ssize d0) msgs = Finished _ _ _ Sf ->
    ob_sized bufSize threshold enc dec magic blocksize tsize ssize nfiles oldt oldp range_data bs_data is_overlay emit
             (ob_start ssize d0) msgs ->
    (forall g, ob_raw_ok ssize is_overlay g (d0 g)) ->
  forall (ck : ckpt (unit + ew_ckpt)) (d d' : N -> list byte) (sched stop : nat -> bool),
    ob_offered bufSize threshold enc dec magic blocksize tsize ssize nfiles oldt oldp range_data bs_data is_overlay emit
               src_resume msgs d0 ck d ->
    ob_crash ssize is_overlay ck d d' ->
    match ob_resumed bufSize threshold enc dec magic blocksize tsize ssize nfiles oldt oldp range_data bs_data is_overlay
                     emit src_resume sched stop ck d' msgs with
    | Finished _ _ _ sf => ob_commit dec magic nfiles oldt oldp is_overlay sf = ob_commit dec magic nfiles oldt oldp is_overlay Sf
    | Stopped _ _ _ _ => exists j : nat, stop j = true
    | _ => False
    end.
Proof.
  intros until cap0. intros HbufSize dec_enc Hold Hbeh msgs emit src_resume d0 Sf Hideal Hsized Hd0 ck d d' sched stop Hoff Hcrash.
  exact (resume_equiv_wire_instance _ _ _ _ _ _ _ _ _ _ _ _ _ _ _ _ _ _ _ _ _ _ marshal beh Hbeh cap0 msgs d0 _ _ _ _ _ _ _ _
           (overlay_bowl_instance_ok bufSize threshold enc dec magic HbufSize dec_enc oldp is_overlay tsize ssize oldt Hold)
           Sf Hideal Hsized Hd0 ck d d' sched stop Hoff Hcrash).
Qed.
Print Assumptions resume_equiv_instantiated.

(** Where [H_wire] as literally stated asks for more than C13 gives (computed on the instance
    of the example below): a reader index beyond the last message is not a position of the
    stream ([Resume] lands at the end, 6, not at 7); and for a sound source that describes the
    END of the message during whose read it answers, resuming with reader offset = the START of
    that message fails (delta < 0) while any later reader offset works. *)
Theorem h_wire_literal_exceeds_c13 :
  src_resume_w xi_marshal ex_msgs seek_beh 0 7 2 = Some 6 /\
  beh_sound late_beh /\
  src_resume_w xi_marshal ex_msgs late_beh 0 3 3 = None /\
  src_resume_w xi_marshal ex_msgs late_beh 0 3 2 = Some 3.
Proof.
  split; [vm_compute; reflexivity|]. split; [|vm_compute; split; reflexivity].
  intros b a sc H. inversion H; subst; cbn. split; apply N.le_refl.
Qed.
Print Assumptions h_wire_literal_exceeds_c13.

(** Non-vacuity of [resume_equiv_instantiated]: the patch of [resume_nonvacuous] applied in
    place (overlay window 4, threshold 1, C14's real message encoding, seek source): every
    hypothesis holds, Commit yields the new file, the run that always saves offers a checkpoint
    after 3 messages (6 bytes written, ReadOffset 6, OverlayOffset 21), a crash disk keeping
    the 21 covered bytes followed by junk and a stale end marker is within the crash model and
    differs from the disk of checkpoint time, and the resumed run commits to the new file. *)
Example resume_instantiated_nonvacuous :
  exists Sf,
    xi_run (fun _ => false) (fun _ => false) xi_start ex_msgs = Finished _ _ _ Sf /\
    ob_sized 4 1 enc dec magic 4 ex_tsize ex_ssize 1 ex_old ex_old ex_range ex_bs xi_sel xi_emit xi_start ex_msgs /\
    (forall g, ob_raw_ok ex_ssize xi_sel g (ex_d0 g)) /\
    xi_commit Sf = Some [Some ex_new] /\
    ob_offered 4 1 enc dec magic 4 ex_tsize ex_ssize 1 ex_old ex_old ex_range ex_bs xi_sel xi_emit xi_resume
               ex_msgs ex_d0 (fst xi_offer) (snd xi_offer) /\
    ck_msg _ (fst xi_offer) = mkmc 3 2 /\ ck_woff _ (fst xi_offer) = 6%N /\ ck_wdata _ (fst xi_offer) = inr (6%N, 21%N) /\
    ob_crash ex_ssize xi_sel (fst xi_offer) (snd xi_offer) xi_crash /\
    snd xi_offer 0%N <> xi_crash 0%N /\
    exists sf, xi_resumed (fun _ => false) (fun _ => false) (fst xi_offer) xi_crash ex_msgs = Finished _ _ _ sf /\
               xi_commit sf = Some [Some ex_new].
Proof. exact resume_instantiated_example_lemma. Qed.
Print Assumptions resume_instantiated_nonvacuous.

(** ** Agreement with the C01 / C12 models of the same Go code (pairs 5, 6 of the index
       Compose/ModelsAgree.v)

    pwr/patcher's processRsync / processBsdiff (and bsdiff Apply inside it) are modelled by
    Patch/Patcher.v (C01, concrete: frames re-interpreted, fresh bowl tree), by Patch/Resume.v
    (C03, this property: typed messages, parametric payload functions and entry writer) and,
    for Apply, by Bsdiff/Patch.v (C12).  Each has its own correspondence; the theorems below tie
    the C03 machine - at the fresh bowl's entry writer (Patch/PlainWriter.v), with
    [range_data] / [bs_data] / sizes read off the C01 parameters ([range_data_of], [bs_data_of],
    [tsize_of], [ssize_of], [old_of] of Compose/ModelsAgreeResume.v), no saving - to the other
    two: wherever the C01 model returns Ok, the C03 machine runs over the same frames (seen as
    the typed message each is READ as: [abs_so], [abs_ct], [abs_bh]) without failing or stopping
    and leaves the same bytes in the file.  Stated here (C03's file) for the pairs C01/C03 and
    C12/C03; the pairs with C10 are in Properties/C10.v.  The converse direction fails by
    design - Patch/Resume.v: "index bounds are C10's business" - see [c03_has_no_bounds_checks]. *)
From Wharf Require Bowl.Fresh Patch.Reinterp Patch.Stream Patch.Patcher Patch.DiffApplyProofs Bsdiff.Scan Bsdiff.Patch
     Compose.OptimizeApply Compose.ModelsAgreeResume Compose.ModelsAgreeResumeProofs Compose.ModelsAgreeBsdiffProofs.

Section ModelsAgreeC03.
  Import Fresh Reinterp Stream Patcher ModelsAgreeResume.
  Local Open Scope Z_scope.

  (** the relay loop of processRsync.  [wsim w S wN]: the C01 writer [w] and the C03 state see the
      same bytes in the output file, at the same offset [wN], inside the file.  Hypotheses:
      [0 < bs]; the pool serves files of the declared sizes ([aligned]) *)
  Theorem relay_models_agree_c01_c03 :
    forall (bs : Z) (oldC newC : container) (olds : list (list byte)) (nfiles : N) (is_overlay : N -> bool)
           (emit stop : nat -> bool),
      0 < bs -> aligned oldC olds ->
    forall (ms : list pmsg) (w : wst) (rest : list pmsg) (s' : pst) (S : cstate) (wN : N),
      relay bs oldC olds ms w = Ok (rest, s') ->
      s_ph _ _ _ S = PRsLoop _ wN -> wsim w S wN ->
      exists (pre : list pmsg) (S' : cstate),
        ms = pre ++ rest /\
        (forall tail, c03_run bs oldC newC olds nfiles is_overlay emit stop S (map (fun m => abs_so (as_so m)) pre ++ tail) =
                      c03_run bs oldC newC olds nfiles is_overlay emit stop S' tail) /\
        s_ph _ _ _ S' = PFile _ /\ s_file _ _ _ S' = (s_file _ _ _ S + 1)%N /\
        tlookup (p_tree s') (w_path w) = Some (File (s_disk _ _ _ S' (s_file _ _ _ S))) /\
        c03_frame S S' /\
        (forall q, q <> w_path w -> tlookup (p_tree s') q = tlookup (p_tree (w_st w)) q).
  Proof. exact ModelsAgreeResumeProofs.relay_models_agree_c03. Qed.

  (** processRsync from its first op, both branches (full-file op => Transpose + skip; otherwise
      open, first op, relay).  [so_span_repr]: the span of the first op, if it is a block range,
      is not negative (C03 messages carry [N]); it cannot be dropped ([diff_first_span]) *)
  Theorem process_rsync_models_agree_c01_c03 :
    forall (bs : Z) (oldC newC : container) (olds : list (list byte)) (nfiles : N) (is_overlay : N -> bool)
           (emit stop : nat -> bool),
      0 < bs -> aligned oldC olds ->
    forall (idx : Z) (p : path) (size : Z) (m : pmsg) (ms rest : list pmsg) (s s' : pst) (S : cstate),
      znth (c_files newC) idx = Some (p, size) -> 0 <= size ->
      so_span_repr (as_so m) ->
      process_rsync bs oldC newC olds idx (m :: ms) s = Ok (rest, s') ->
      s_ph _ _ _ S = PRsFirst _ -> s_file _ _ _ S = Z.to_N idx ->
      tlookup (p_tree s) p = Some (File (s_disk _ _ _ S (s_file _ _ _ S))) ->
      exists (pre : list pmsg) (S' : cstate),
        m :: ms = pre ++ rest /\
        (forall tail, c03_run bs oldC newC olds nfiles is_overlay emit stop S (map (fun m => abs_so (as_so m)) pre ++ tail) =
                      c03_run bs oldC newC olds nfiles is_overlay emit stop S' tail) /\
        s_ph _ _ _ S' = PFile _ /\ s_file _ _ _ S' = (s_file _ _ _ S + 1)%N /\
        tlookup (p_tree s') p = Some (File (s_disk _ _ _ S' (s_file _ _ _ S))) /\
        c03_frame S S'.
  Proof. exact ModelsAgreeResumeProofs.process_rsync_models_agree_c03. Qed.

  (** the control loop of processBsdiff (bsdiff Apply per control): same bytes, same old-file
      cursor at every step; no hypothesis *)
  Theorem ctrl_loop_models_agree_c01_c03 :
    forall (bs : Z) (oldC newC : container) (olds : list (list byte)) (nfiles : N) (is_overlay : N -> bool)
           (emit stop : nat -> bool)
           (ms : list pmsg) (off : Z) (t : N) (w : wst) (rest : list pmsg) (w' : wst) (S : cstate) (wN : N),
      ctrl_loop (old_of olds t) off ms w = Ok (rest, w') ->
      s_ph _ _ _ S = PBsLoop _ wN off t -> wsim w S wN ->
      exists (pre : list pmsg) (S' : cstate) (wN' : N),
        ms = pre ++ rest /\
        (forall tail, c03_run bs oldC newC olds nfiles is_overlay emit stop S (map (fun m => abs_ct (as_ct m)) pre ++ tail) =
                      c03_run bs oldC newC olds nfiles is_overlay emit stop S' tail) /\
        s_ph _ _ _ S' = PBsEnd _ wN' /\ s_file _ _ _ S' = s_file _ _ _ S /\
        wsim w' S' wN' /\ w_path w' = w_path w /\
        c03_frame S S' /\
        (forall q, q <> w_path w -> tlookup (p_tree (w_st w')) q = tlookup (p_tree (w_st w)) q).
  Proof. exact ModelsAgreeResumeProofs.ctrl_loop_models_agree_c03. Qed.

  (** processBsdiff from the BsdiffHeader to the final size check; no hypothesis *)
  Theorem process_bsdiff_models_agree_c01_c03 :
    forall (bs : Z) (oldC newC : container) (olds : list (list byte)) (nfiles : N) (is_overlay : N -> bool)
           (emit stop : nat -> bool)
           (idx : Z) (p : path) (size : Z) (m : pmsg) (ms rest : list pmsg) (s s' : pst) (S : cstate),
      znth (c_files newC) idx = Some (p, size) ->
      process_bsdiff oldC newC olds idx (m :: ms) s = Ok (rest, s') ->
      s_ph _ _ _ S = PBsHeader _ -> s_file _ _ _ S = Z.to_N idx ->
      tlookup (p_tree s) p = Some (File (s_disk _ _ _ S (s_file _ _ _ S))) ->
      exists (ctrls : list pmsg) (m2 : pmsg) (S' : cstate),
        ms = ctrls ++ m2 :: rest /\
        (forall tail, c03_run bs oldC newC olds nfiles is_overlay emit stop S (abs_bsdiff_series m ctrls m2 ++ tail) =
                      c03_run bs oldC newC olds nfiles is_overlay emit stop S' tail) /\
        s_ph _ _ _ S' = PFile _ /\ s_file _ _ _ S' = (s_file _ _ _ S + 1)%N /\
        tlookup (p_tree s') p = Some (File (s_disk _ _ _ S' (s_file _ _ _ S))) /\
        c03_frame S S'.
  Proof. exact ModelsAgreeResumeProofs.process_bsdiff_models_agree_c03. Qed.

  (** C12's Apply and C03's [bs_data]: one control ... *)
  Theorem bsdiff_apply_models_agree_c12_c03 :
    forall (olds : list (list byte)) (t : N) (off : Z) (c : Scan.ctrl) (o : list byte) (off' : Z),
      Bsdiff.Patch.apply_ctrl (old_of olds t) off c = Some (o, off') ->
      o = bs_data_of olds t off (Scan.c_add c) (Scan.c_copy c) /\
      off' = off + Z.of_N (N.of_nat (length (Scan.c_add c))) + Scan.c_seek c.
  Proof.
    intros olds t off c o off' H.
    destruct (Wharf.Compose.OptimizeApplyProofs.apply_ctrl_some _ _ _ _ _ H) as (_ & _ & -> & ->).
    split; [reflexivity|]. rewrite nat_N_Z. reflexivity.
  Qed.

  (** ... and a whole well-formed series (int64 seeks, only the last control marked eof, C12's
      [apply_series] succeeds with output [out]): the C03 machine consumes exactly the
      controls, reaches the sentinel phase, and the output file - pre-sized to [L] bytes, with
      [written] in it so far ([wgood]) - now holds [written ++ out] *)
  Theorem bsdiff_series_models_agree_c12_c03 :
    forall (bs : Z) (oldC newC : container) (olds : list (list byte)) (nfiles : N) (is_overlay : N -> bool)
           (emit stop : nat -> bool) (t : N) (b : OptimizeApply.bseries) (out : list byte) (offf : Z)
           (p : path) (L : nat) (w : wst) (written : list byte) (S : cstate) (wN : N),
      forallb OptimizeApply.seek_okb b = true -> OptimizeApply.eof_lastb b = true ->
      Bsdiff.Patch.apply_series (old_of olds t) 0 b = Some (out, offf) ->
      DiffApplyProofs.wgood p L w written -> (length written + length out <= L)%nat ->
      s_ph _ _ _ S = PBsLoop _ wN 0 t -> wsim w S wN ->
      exists (S' : cstate) (wN' : N),
        (forall tail, c03_run bs oldC newC olds nfiles is_overlay emit stop S (map ModelsAgreeBsdiffProofs.c03_ctrl b ++ tail) =
                      c03_run bs oldC newC olds nfiles is_overlay emit stop S' tail) /\
        s_ph _ _ _ S' = PBsEnd _ wN' /\ s_file _ _ _ S' = s_file _ _ _ S /\
        N.to_nat wN' = (length written + length out)%nat /\
        s_disk _ _ _ S' (s_file _ _ _ S) = written ++ out ++ zeros (L - (length written + length out)) /\
        c03_frame S S'.
  Proof.
    intros bs oldC newC olds nfiles is_overlay emit stop t b out offf p L w written S wN
           Hseek Hlast Happ Hg Hlen Hph Hsim.
    (* C12 to C01 ([ctrl_loop_series]), then C01 to C03 on the frames of the controls *)
    destruct (Wharf.Compose.OptimizeApplyProofs.ctrl_loop_series p L (old_of olds t) b 0 out offf w written []
                Hseek Hlast Happ Hg Hlen) as (w' & Ec & Hg').
    destruct (ModelsAgreeResumeProofs.ctrl_loop_models_agree_c03 bs oldC newC olds nfiles is_overlay emit stop
                (map OptimizeApply.ctrl_msg b ++ []) 0 t w [] w' S wN Ec Hph Hsim)
      as (pre & S' & wN' & Hsplit & Hrun & Hph' & Hfile & Hsim' & _ & Hframe & _).
    rewrite !app_nil_r in Hsplit. subst pre.
    destruct (ModelsAgreeBsdiffProofs.wsim_wgood p L w' (written ++ out) S' wN' Hsim' Hg') as [HwN Hdisk].
    rewrite app_length, <- app_assoc, Hfile in *.
    exists S', wN'. split; [|auto 6].
    intros tail. rewrite <- (ModelsAgreeBsdiffProofs.abs_ct_ctrl_msg b Hseek). apply Hrun.
  Qed.

  (** where the two models differ: inputs on which the C01 model (and Go) returns an error and
      the C03 machine runs on to [Finished] - a block range naming old file 7 of a one-file
      container (no validateOp in C03); an add part of five bytes against an old file of three
      (no bounds check in C03's bsdiff step); a BsdiffHeader naming old file 9.  Tiny executed
      instances (block size 4) *)
  Theorem c03_has_no_bounds_checks :
    (relay 4 ModelsAgreeResumeProofs.ex_oldC ModelsAgreeResumeProofs.ex_olds
           [ModelsAgreeResumeProofs.ex_bad_range; hey_msg] ModelsAgreeResumeProofs.ex_w = Err /\
     ModelsAgreeResumeProofs.finished_with
       (c03_run 4 ModelsAgreeResumeProofs.ex_oldC ModelsAgreeResumeProofs.ex_newC0 ModelsAgreeResumeProofs.ex_olds 1
                ModelsAgreeResumeProofs.nof ModelsAgreeResumeProofs.nob ModelsAgreeResumeProofs.nob
                (ModelsAgreeResumeProofs.ex_state (PRsLoop _ 0%N))
                (map (fun m => abs_so (as_so m)) [ModelsAgreeResumeProofs.ex_bad_range; hey_msg])) 0 [] = true) /\
    (process_bsdiff ModelsAgreeResumeProofs.ex_oldC ModelsAgreeResumeProofs.ex_newC3 ModelsAgreeResumeProofs.ex_olds 0
                    [MBH (mkBH 0); ModelsAgreeResumeProofs.ex_long_add; ModelsAgreeResumeProofs.ex_eof; hey_msg]
                    ModelsAgreeResumeProofs.ex_pst = Err /\
     ModelsAgreeResumeProofs.finished_with
       (c03_run 4 ModelsAgreeResumeProofs.ex_oldC ModelsAgreeResumeProofs.ex_newC3 ModelsAgreeResumeProofs.ex_olds 1
                ModelsAgreeResumeProofs.nof ModelsAgreeResumeProofs.nob ModelsAgreeResumeProofs.nob
                (ModelsAgreeResumeProofs.ex_state (PBsHeader _))
                (abs_bsdiff_series (MBH (mkBH 0)) [ModelsAgreeResumeProofs.ex_long_add; ModelsAgreeResumeProofs.ex_eof] hey_msg))
       0 [2; 3; 4]%N = true) /\
    (process_bsdiff ModelsAgreeResumeProofs.ex_oldC ModelsAgreeResumeProofs.ex_newC0 ModelsAgreeResumeProofs.ex_olds 0
                    [MBH (mkBH 9); ModelsAgreeResumeProofs.ex_eof; hey_msg] ModelsAgreeResumeProofs.ex_pst = Err /\
     ModelsAgreeResumeProofs.finished_with
       (c03_run 4 ModelsAgreeResumeProofs.ex_oldC ModelsAgreeResumeProofs.ex_newC0 ModelsAgreeResumeProofs.ex_olds 1
                ModelsAgreeResumeProofs.nof ModelsAgreeResumeProofs.nob ModelsAgreeResumeProofs.nob
                (ModelsAgreeResumeProofs.ex_state (PBsHeader _))
                (abs_bsdiff_series (MBH (mkBH 9)) [ModelsAgreeResumeProofs.ex_eof] hey_msg)) 0 [] = true).
  Proof.
    exact (conj ModelsAgreeResumeProofs.diff_validate_op
                (conj ModelsAgreeResumeProofs.diff_bsdiff_bounds ModelsAgreeResumeProofs.diff_bsdiff_target)).
  Qed.
End ModelsAgreeC03.
Print Assumptions relay_models_agree_c01_c03.
Print Assumptions process_rsync_models_agree_c01_c03.
Print Assumptions ctrl_loop_models_agree_c01_c03.
Print Assumptions process_bsdiff_models_agree_c01_c03.
Print Assumptions bsdiff_apply_models_agree_c12_c03.
Print Assumptions bsdiff_series_models_agree_c12_c03.
Print Assumptions c03_has_no_bounds_checks.
