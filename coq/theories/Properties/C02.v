(** C02 — in-place apply equals fresh apply and leaves the old build intact until commit.
    Statements and [Print Assumptions]; each theorem is an instance of a lemma of the proof files or
    is derived here in a few lines from them.  Three parts:
    1. the commit theorem and the patch phase.  Models: Bowl/FSmini.v (private filesystem
       model), Bowl/OverlayCommit.v (patch phase bookkeeping + the five commit phases,
       following the repaired code), vocabulary of the hypotheses: Bowl/CommitSpec.v; proofs:
       Bowl/*Proofs.v, Bowl/CommitExamples.v.
    2. composed with C14, the overlay hypothesis discharged for the real overlay writer, down
       to the bytes of the stage files: Compose/CommitOverlay{,Bytes}.v (definitions),
       Compose/CommitOverlay{,Bytes}Proofs.v, Compose/CommitOverlayExample.v.
    3. FSmini refines the general filesystem model of C06: Compose/FSAgree.v (definitions),
       Compose/FSAgreeGenProofs.v, Compose/FSAgreeView.v, Compose/FSAgreeMiniProofs.v, Compose/FSAgreeDiffer.v.

    Terminology as in the Go code: target = old build, source = new build; a transposition
    (P, K) says "new file P is old file K, whole".  [order1], [order2] are the two Go map
    iterations of applyTranspositions, [go] the order in which ghosts are visited. *)
From Coq Require Import Permutation Sorting.Sorted.
From Wharf Require Import Base.Prelude Bowl.FSmini Bowl.OverlayCommit Bowl.CommitSpec
  Bowl.CommitMainProofs Bowl.CommitExamples Bowl.PatchPhaseProofs.

(** Main statement.  For well-formed builds, a patch-phase result that describes the new build in
    terms of the old one ([patch_sound]: every new file is a whole old file, an old file at the
    same path plus a correct overlay, or a staged whole file), under H_kinds, for ALL orders of
    the two map iterations and ALL admissible ghost orders: Commit succeeds and the tree is
    exactly the new build's tree (same entries, bytes, link destinations, nothing else - hence
    no entry of the old build survives unless it is also in the new one, and no temporary name
    survives).  No hypothesis about entry names: temporary names avoid every name that either
    build uses (repo commit 03103cd), and the model follows that code. *)
Theorem commit_equals_new :
  forall (ob nb : build) (w : work) (st : stage),
    wf_build ob -> wf_build nb -> patch_sound ob nb w st -> H_kinds ob nb w ->
  forall (order1 order2 : list path) (go : list ghost),
    Permutation order1 (trans_keys w) -> Permutation order2 (trans_keys w) -> ghost_order_ok nb ob go ->
    exists t', commit (cont ob) (cont nb) w st order1 order2 go (tree_of ob) = Ok t' /\
               forall p, lookup t' p = lookup (tree_of nb) p.
Proof. exact commit_equals_new_lemma. Qed.
Print Assumptions commit_equals_new.

(** Until Commit starts the directory holding the old build is not modified at all: every
    write of the patch phase goes to the stage. *)
Theorem untouched_before_commit :
  forall (mk_overlay : list N -> list N -> list ovop) (oc : container) (steps : list pstep) (wd : world),
    out (patch_phase mk_overlay oc steps wd) = out wd.
Proof. exact patch_phase_out. Qed.
Print Assumptions untouched_before_commit.

(** The bookkeeping of the patch phase ([GetWriter]: overlay when the old build has a file at that
    path, staged whole file otherwise, each marked once; [Transpose]) yields a sound result
    whenever the bowl calls describe the new build - every new file exactly once, either as a
    transposition of an equal old file or as a write of its content - and the overlay writer is
    correct (property C14: applying [mk_overlay cur new] to [cur] gives [new]). *)
Theorem patch_phase_sound :
  forall (mk_overlay : list N -> list N -> list ovop),
    (forall cur new, apply_ops (mk_overlay cur new) cur = new) ->
  forall (ob nb : build), wf_build ob ->
  forall (steps : list pstep), steps_describe ob nb steps ->
    let wd := patch_phase mk_overlay (cont ob) steps (world0 ob) in
    out wd = tree_of ob /\ patch_sound ob nb (wk wd) (stg wd).
Proof. exact patch_phase_sound_lemma. Qed.
Print Assumptions patch_phase_sound.

(** End to end: patch phase, then Commit, from the bowl calls to the new build. *)
Theorem inplace_apply_equals_new :
  forall (mk_overlay : list N -> list N -> list ovop),
    (forall cur new, apply_ops (mk_overlay cur new) cur = new) ->
  forall (ob nb : build) (steps : list pstep),
    wf_build ob -> wf_build nb -> steps_describe ob nb steps ->
    let wd := patch_phase mk_overlay (cont ob) steps (world0 ob) in
    H_kinds ob nb (wk wd) ->
  forall (order1 order2 : list path) (go : list ghost),
    Permutation order1 (trans_keys (wk wd)) -> Permutation order2 (trans_keys (wk wd)) -> ghost_order_ok nb ob go ->
    out wd = tree_of ob /\
    exists t', commit (cont ob) (cont nb) (wk wd) (stg wd) order1 order2 go (out wd) = Ok t' /\
               forall p, lookup t' p = lookup (tree_of nb) p.
Proof.
  intros mk Hmk ob nb steps Wo Wn SD wd HK order1 order2 go P1 P2 Hgo.
  destruct (patch_phase_sound mk Hmk ob nb Wo steps SD) as [Hout PS]. fold wd in Hout, PS.
  split; [assumption|]. rewrite Hout.
  apply (commit_equals_new ob nb (wk wd) (stg wd) Wo Wn PS HK order1 order2 go P1 P2 Hgo).
Qed.
Print Assumptions inplace_apply_equals_new.

(** Any list of the ghosts sorted by decreasing value of a measure that grows strictly from a
    path to its extensions is an admissible ghost order: Go's [sort.Sort(byDecreasingLength)]
    sorts by string length, [sort_ghosts] of Exec/C02.v by the number of components (that
    insertion sort is executed by the check, not proved sorted here). *)
Theorem sorted_ghosts_admissible :
  forall (len : path -> nat) (nb ob : build) (go : list ghost),
    (forall a b, is_proper_prefix a b = true -> (len a < len b)%nat) ->
    Permutation go (detect_ghosts (cont nb) (cont ob)) ->
    StronglySorted (fun g1 g2 => (len (snd g2) <= len (snd g1))%nat) go ->
    ghost_order_ok nb ob go.
Proof.
  intros len nb ob go Hlen Hperm Hs. split; [assumption|].
  intros l1 g1 l2 g2 l3 E. subst go. pose proof (sorted_later _ l1 g1 l2 g2 l3 Hs) as Hle. cbv beta in Hle.
  destruct (is_proper_prefix (snd g1) (snd g2)) eqn:Ep; [|reflexivity].
  apply Hlen in Ep. lia.
Qed.
Print Assumptions sorted_ghosts_admissible.

(** H_kinds cannot be dropped: on these three inputs every hypothesis of [commit_equals_new]
    except H_kinds holds and its conclusion does not ([commit_fails], Bowl/CommitExamples.v: the
    faithful model of Commit does not produce the new build) - the known findings DESIGN 7 #27
    and #28, reproduced on the implementation by the corpus cases of the harness:
      - old file x, new symlink x + new file y = old x: Commit returns nil, y is the symlink, x is gone;
      - non-empty directory d replaced by a file d: Commit fails (ENOTEMPTY);
      - file x replaced by a directory x with the content moved to x/inner: Commit fails (EISDIR). *)
Theorem commit_kindswap_refuted :
  commit_fails FileToLink.ob FileToLink.nb FileToLink.w FileToLink.st FileToLink.order FileToLink.order FileToLink.go /\
  commit_fails DirToFile.ob DirToFile.nb DirToFile.w DirToFile.st DirToFile.order DirToFile.order DirToFile.go /\
  commit_fails FileToDir.ob FileToDir.nb FileToDir.w FileToDir.st FileToDir.order FileToDir.order FileToDir.go.
Proof.
  split; [|split].
  - apply (commit_fails_intro _ _ _ _ _ _ _ FileToLink.wf_ob FileToLink.wf_nb FileToLink.sound FileToLink.orders FileToLink.result).
    intros t' E. injection E as <-. exists [P 2%N]. apply FileToLink.wrong.
  - apply (commit_fails_intro _ _ _ _ _ _ _ DirToFile.wf_ob DirToFile.wf_nb DirToFile.sound DirToFile.orders DirToFile.result).
    discriminate.
  - apply (commit_fails_intro _ _ _ _ _ _ _ FileToDir.wf_ob FileToDir.wf_nb FileToDir.sound FileToDir.orders FileToDir.result).
    discriminate.
Qed.
Print Assumptions commit_kindswap_refuted.

(** non-vacuity: the chain a -> b -> c (b is parked under a temporary name, a is a ghost)
    satisfies every hypothesis of [commit_equals_new] *)
Example commit_hypotheses_inhabited :
  wf_build Chain.ob /\ wf_build Chain.nb /\ patch_sound Chain.ob Chain.nb Chain.w Chain.st /\ H_kinds Chain.ob Chain.nb Chain.w /\
  Permutation Chain.order (trans_keys Chain.w) /\ ghost_order_ok Chain.nb Chain.ob Chain.go.
Proof. exact (conj Chain.wf_ob (conj Chain.wf_nb (conj Chain.sound (conj Chain.kinds Chain.orders)))). Qed.

Example commit_chain_result :
  commit (cont Chain.ob) (cont Chain.nb) Chain.w Chain.st Chain.order (rev Chain.order) Chain.go (tree_of Chain.ob)
  = Ok [([P 2], File [1; 2]); ([P 3], File [3])]%N.
Proof. exact Chain.result. Qed.

(* ------------------------------------------------------------------------------------------ *)
(** * C02 composed with C14: the overlay hypothesis discharged for the real overlay writer

    [mk_overlay_c14 bufSize threshold sched junk cur new] (Compose/CommitOverlay.v) is the stage
    overlay that pwr/overlay produces and pwr/bowl applies: the C14 writer model
    ([NewOverlayWriter(r, 0, f, 0)] on the old content [cur], the Write/Flush calls [sched cur
    new], [Finalize]) at the real varint/protobuf codec writes the stage file over whatever it
    held before ([junk cur new]: the file is opened without O_TRUNC), and the file is read the way
    [OverlayPatchContext.Patch] (and the harness' [decodeOverlay]) reads it.  The names of the two
    models clash ([Skip], [Fresh], [commit], [mkW], [apply_ops]), hence the qualifiers. *)
From Wharf Require Import Overlay.Writer Overlay.Patch.
From Wharf Require Import Compose.CommitOverlay Compose.CommitOverlayProofs Compose.CommitOverlayBytes
  Compose.CommitOverlayBytesProofs Compose.CommitOverlayExample.

(** The bridge between the two models: [applyOverlays] as C14 has it - [Patch] of the stage file
    onto the old file, [Truncate] at the final position - computes C02's [apply_ops] of the
    operations the file decodes to, for any decoder and magic; a file that does not decode
    (wrong magic, bad message, no end marker) makes [Patch] fail. *)
Theorem overlay_patch_is_apply_ops :
  forall (dec : list byte -> option (Writer.op * list byte)) (magic : list byte) (cur file : list byte),
    match decode_file dec magic file with
    | Some ops => patch dec magic cur file = POk (OverlayCommit.apply_ops (conv_ops ops) cur)
    | None => forall r, patch dec magic cur file <> POk r
    end.
Proof. exact patch_is_apply_ops. Qed.
Print Assumptions overlay_patch_is_apply_ops.

(** The hypothesis of [patch_phase_sound] / [inplace_apply_equals_new] holds of the C14 writer,
    for every bufSize > 0, every threshold, every way of cutting the new content into Write calls
    with Flushes anywhere, every previous content of the stage file (from [overlay_correct_lemma],
    Overlay/SessionProofs.v, and [dec_enc_real], Overlay/CodecProofs.v: the lemmas behind C14's
    [overlay_correct] and [real_codec_is_prefix_code]). *)
Theorem overlay_writer_satisfies_commit_hypothesis :
  forall (bufSize threshold : N), (0 < bufSize)%N ->
  forall (sched : list N -> list N -> list event) (junk : list N -> list N -> list byte),
    (forall cur new, written (sched cur new) = new) ->
  forall cur new, OverlayCommit.apply_ops (mk_overlay_c14 bufSize threshold sched junk cur new) cur = new.
Proof.
  intros bufSize threshold Hb sched junk Hs cur new.
  unfold mk_overlay_c14. rewrite (overlay_file_ok bufSize threshold Hb). apply Hs.
Qed.
Print Assumptions overlay_writer_satisfies_commit_hypothesis.

(** [patch_phase_sound] without a hypothesis on the overlay writer. *)
Theorem patch_phase_sound_overlay_instance :
  forall (bufSize threshold : N), (0 < bufSize)%N ->
  forall (sched : list N -> list N -> list event) (junk : list N -> list N -> list byte),
    (forall cur new, written (sched cur new) = new) ->
  forall (ob nb : build), wf_build ob ->
  forall (steps : list pstep), steps_describe ob nb steps ->
    let wd := patch_phase (mk_overlay_c14 bufSize threshold sched junk) (cont ob) steps (world0 ob) in
    out wd = tree_of ob /\ patch_sound ob nb (wk wd) (stg wd).
Proof.
  intros bufSize threshold Hb sched junk Hs.
  exact (patch_phase_sound _ (overlay_writer_satisfies_commit_hypothesis bufSize threshold Hb sched junk Hs)).
Qed.
Print Assumptions patch_phase_sound_overlay_instance.

(** [inplace_apply_equals_new] without a hypothesis on the overlay writer. *)
Theorem inplace_apply_equals_new_overlay_instance :
  forall (bufSize threshold : N), (0 < bufSize)%N ->
  forall (sched : list N -> list N -> list event) (junk : list N -> list N -> list byte),
    (forall cur new, written (sched cur new) = new) ->
  forall (ob nb : build) (steps : list pstep),
    wf_build ob -> wf_build nb -> steps_describe ob nb steps ->
    let wd := patch_phase (mk_overlay_c14 bufSize threshold sched junk) (cont ob) steps (world0 ob) in
    H_kinds ob nb (wk wd) ->
  forall (order1 order2 : list path) (go : list ghost),
    Permutation order1 (trans_keys (wk wd)) -> Permutation order2 (trans_keys (wk wd)) -> ghost_order_ok nb ob go ->
    out wd = tree_of ob /\
    exists t', OverlayCommit.commit (cont ob) (cont nb) (wk wd) (stg wd) order1 order2 go (out wd) = Ok t' /\
               forall p, lookup t' p = lookup (tree_of nb) p.
Proof.
  intros bufSize threshold Hb sched junk Hs.
  exact (inplace_apply_equals_new _ (overlay_writer_satisfies_commit_hypothesis bufSize threshold Hb sched junk Hs)).
Qed.
Print Assumptions inplace_apply_equals_new_overlay_instance.

(** The same with the stage folder holding bytes (Compose/CommitOverlayBytes.v): an overlay
    stage file is what the C14 writer wrote, a move stage file is the written content, Commit's
    [applyOverlays] runs C14's [Patch] + truncate on the stage file ([commit_b]; every other
    phase is the C02 model).  Here every [GetWriter] call ([BWrite p evs file0]) has its own
    sequence of Write/Flush calls and its own previous stage file, so the quantification over the
    write pattern is per file, not per (old content, new content) pair.

    First: Commit on bytes is C02's Commit on the decoded stage ([decode_stage]: the file of a
    pending overlay is replaced by the operations it decodes to), provided no path is both a move
    and an overlay and every pending overlay's file decodes. *)
Theorem commit_on_bytes_is_commit_on_decoded_stage :
  forall (oc nc : container) (w : work) (st : bstage) (order1 order2 : list path) (go : list ghost) (t : fs),
    (forall p, In p (w_moves w) -> ~ In p (w_over w)) -> decodable w st ->
    commit_b oc nc w st order1 order2 go t = OverlayCommit.commit oc nc w (decode_stage w st) order1 order2 go t.
Proof.
  intros oc nc w st order1 order2 go t Hdisj Hd. unfold commit_b, OverlayCommit.commit.
  apply FSminiProofs.bind_ext. intros t1. apply FSminiProofs.bind_ext. intros t2.
  unfold apply_moves_b, apply_moves.
  rewrite (fold_res_ext _ (move_from_stage_b st) (move_from_stage (decode_stage w st)) (w_moves w) t2)
    by (intros t' p Hp; apply move_from_stage_decode; now apply Hdisj).
  apply FSminiProofs.bind_ext. intros t3.
  unfold apply_overlays_b, apply_overlays.
  rewrite (fold_res_ext _ (apply_overlay_b st) (apply_overlay (decode_stage w st)) (w_over w) t3)
    by (intros t' p Hp; now apply apply_overlay_decode).
  reflexivity.
Qed.
Print Assumptions commit_on_bytes_is_commit_on_decoded_stage.

Theorem patch_phase_sound_bytes :
  forall (bufSize threshold : N), (0 < bufSize)%N ->
  forall (ob nb : build), wf_build ob ->
  forall (steps : list bstep), steps_describe ob nb (map erase steps) ->
    let bw := patch_phase_b bufSize threshold (cont ob) steps (bworld0 (tree_of ob)) in
    bout bw = tree_of ob /\
    patch_sound ob nb (bwk bw) (decode_stage (bwk bw) (bstg bw)) /\
    decodable (bwk bw) (bstg bw).
Proof. exact patch_phase_b_sound_lemma. Qed.
Print Assumptions patch_phase_sound_bytes.

Theorem inplace_apply_equals_new_bytes :
  forall (bufSize threshold : N), (0 < bufSize)%N ->
  forall (ob nb : build) (steps : list bstep),
    wf_build ob -> wf_build nb -> steps_describe ob nb (map erase steps) ->
    let bw := patch_phase_b bufSize threshold (cont ob) steps (bworld0 (tree_of ob)) in
    H_kinds ob nb (bwk bw) ->
  forall (order1 order2 : list path) (go : list ghost),
    Permutation order1 (trans_keys (bwk bw)) -> Permutation order2 (trans_keys (bwk bw)) -> ghost_order_ok nb ob go ->
    bout bw = tree_of ob /\
    exists t', commit_b (cont ob) (cont nb) (bwk bw) (bstg bw) order1 order2 go (bout bw) = Ok t' /\
               forall p, lookup t' p = lookup (tree_of nb) p.
Proof.
  intros bufSize threshold Hb ob nb steps Wo Wn SD bw HK order1 order2 go P1 P2 Hgo.
  destruct (patch_phase_sound_bytes bufSize threshold Hb ob nb Wo steps SD) as [Hout [PS Hd]]. fold bw in Hout, PS, Hd.
  split; [assumption|]. rewrite Hout.
  rewrite commit_on_bytes_is_commit_on_decoded_stage; [|intros p Hm Ho; exact (ps_disj_om ob nb _ _ PS p Ho Hm) | assumption].
  apply (commit_equals_new ob nb (bwk bw) _ Wo Wn PS HK order1 order2 go P1 P2 Hgo).
Qed.
Print Assumptions inplace_apply_equals_new_bytes.

(** Executed instance, bufSize 4 / threshold 1 (Compose/CommitOverlayExample.v): old build
    {[P 1] = 11111111, [P 2] = 56}, new build {[P 1] = 11911117, [P 3] = 56}; the patcher writes
    [P 1] as 3 bytes, a Flush, 5 bytes over a stage file holding 40 bytes of junk and transposes
    [P 2] to [P 3].  All hypotheses of [inplace_apply_equals_new_overlay_instance] hold; the
    stage overlay is SKIP 2, FRESH 9, SKIP 4, FRESH 7; Commit patches [P 1] in place, renames
    [P 2] and yields the new build - on the decoded stage and on the bytes alike. *)
Example overlay_instance_hypotheses_inhabited :
  (forall cur new, written (PatchAndRename.sched cur new) = new) /\
  wf_build PatchAndRename.ob /\ wf_build PatchAndRename.nb /\
  steps_describe PatchAndRename.ob PatchAndRename.nb PatchAndRename.steps /\
  H_kinds PatchAndRename.ob PatchAndRename.nb (wk PatchAndRename.wd) /\
  Permutation PatchAndRename.order (trans_keys (wk PatchAndRename.wd)) /\
  ghost_order_ok PatchAndRename.nb PatchAndRename.ob PatchAndRename.go.
Proof.
  exact (conj PatchAndRename.sched_ok (conj PatchAndRename.wf_ob (conj PatchAndRename.wf_nb
        (conj PatchAndRename.describe (conj PatchAndRename.kinds PatchAndRename.orders))))).
Qed.

Example overlay_instance_example :
  let ob := mkB [] [] [([P 1], [1; 1; 1; 1; 1; 1; 1; 1]); ([P 2], [5; 6])]%N in
  let nb := mkB [] [] [([P 1], [1; 1; 9; 1; 1; 1; 1; 7]); ([P 3], [5; 6])]%N in
  let steps := [PWrite [P 1] (fun _ => [1; 1; 9; 1; 1; 1; 1; 7]%N); PTranspose [P 3] [P 2]] in
  let sched := fun (cur new : list N) => [EvWrite (firstn 3 new); EvFlush; EvWrite (skipn 3 new)] in
  let junk := fun (cur new : list N) => repeat 255%N 40 in
  let wd := patch_phase (mk_overlay_c14 4 1 sched junk) (cont ob) steps (world0 ob) in
  wk wd = OverlayCommit.mkW [([P 3], [P 2])] [[P 1]] [] /\
  stg wd = [([P 1], SOverlay [OverlayCommit.Skip 2; OverlayCommit.Fresh [9%N]; OverlayCommit.Skip 4; OverlayCommit.Fresh [7%N]])] /\
  OverlayCommit.commit (cont ob) (cont nb) (wk wd) (stg wd) [[P 2]] [[P 2]] [(GFile, [P 2])] (out wd)
  = Ok [([P 1], File [1; 1; 9; 1; 1; 1; 1; 7]%N); ([P 3], File [5; 6]%N)].
Proof. exact (conj (proj1 PatchAndRename.phase) (conj (proj1 (proj2 PatchAndRename.phase)) PatchAndRename.result)). Qed.

Example overlay_instance_example_bytes :
  let ob := mkB [] [] [([P 1], [1; 1; 1; 1; 1; 1; 1; 1]); ([P 2], [5; 6])]%N in
  let nb := mkB [] [] [([P 1], [1; 1; 9; 1; 1; 1; 1; 7]); ([P 3], [5; 6])]%N in
  let steps := [BWrite [P 1] (fun _ => [EvWrite [1; 1; 9]; EvFlush; EvWrite [1; 1; 1; 1; 7]]%N) (repeat 255%N 40);
                BTranspose [P 3] [P 2]] in
  let bw := patch_phase_b 4 1 (cont ob) steps (bworld0 (tree_of ob)) in
  bstg bw = [([P 1], [0; 111; 239; 15; 0; 2; 16; 2; 5; 8; 1; 26; 1; 9; 2; 16; 4; 5; 8; 1; 26; 1; 7; 3; 8; 248; 15]%N
                      ++ repeat 255%N 13)] /\
  commit_b (cont ob) (cont nb) (bwk bw) (bstg bw) [[P 2]] [[P 2]] [(GFile, [P 2])] (bout bw)
  = Ok [([P 1], File [1; 1; 9; 1; 1; 1; 1; 7]%N); ([P 3], File [5; 6]%N)].
Proof.
  split; [|exact PatchAndRename.bytes_result].
  rewrite <- (proj1 PatchAndRename.file). exact (proj1 (proj2 PatchAndRename.bytes_phase)).
Qed.

(* ------------------------------------------------------------------------------------------ *)
(** * C02's private filesystem model refines the general filesystem model of C06

    [Bowl/FSmini.v] (this property), [FS/{Tree,Ops}.v] (C06) and the model inside [Arch/Zip.v]
    (C19) were written independently and are validated against Linux by separate correspondence
    groups.  [Compose/FSAgree.v] relates them inside Coq: on the states and inputs FSmini is
    about, and wherever it does not decline ([Unmodelled]), every one of its operations returns
    what the general model returns - same errno, same resulting tree - so that only the general
    model need be trusted as a description of Linux for the inputs of the commit proof.

    Vocabulary ([Compose/FSAgree.v]; [Mi] = Bowl.FSmini, [Gt] = FS.Tree, [Go] = FS.Ops):
    [mini_path enc p], [mini_node ldest n], [mini_tree enc ldest t]: the abstraction (names through
    any injective [enc], link destinations through any [ldest]; FSmini's implicit target directory
    is the root [[]] of the general model, relative paths become paths from that root);
    [mini_sim enc ldest t T]: the general state [T] equals the abstraction of [t] as a finite map
    ([tree_equiv]; in particular [T := mini_tree enc ldest t]); [mini_wf t]: [t] is a tree (the
    empty path is not an entry, entries lie below directories); [mini_agree R r g]: [r] and [g]
    fail with the same errno or succeed with [R]-related values, and [r] is not [Unmodelled].
    Hypotheses = what FSmini assumes: well-formed state, non-empty relative paths, no link
    followed (else it declines), and for rename [mini_rename_precedence_ok] (see below). *)
From Wharf Require Import Compose.FSAgree.
From Wharf Require Bowl.FSminiProofs Compose.FSAgreeGenProofs Compose.FSAgreeMiniProofs Compose.FSAgreeDiffer.

Theorem fsmini_lstat_refines :
  forall (enc : Mi.comp -> N) (ldest : N -> list Gt.comp), (forall a b, enc a = enc b -> a = b) ->
  forall (t : Mi.fs) (T : Gt.tree) (p : Mi.path),
    mini_sim enc ldest t T -> p <> [] -> Mi.lstat t p <> Mi.Unmodelled ->
    mini_agree (fun n n' => n' = mini_node ldest n) (Mi.lstat t p) (Go.lstat T (mini_path enc p)).
Proof. exact FSAgreeMiniProofs.fsmini_lstat_refines_lemma. Qed.
Print Assumptions fsmini_lstat_refines.

Theorem fsmini_readlink_refines :
  forall (enc : Mi.comp -> N) (ldest : N -> list Gt.comp), (forall a b, enc a = enc b -> a = b) ->
  forall (t : Mi.fs) (T : Gt.tree) (p : Mi.path),
    mini_sim enc ldest t T -> p <> [] -> Mi.readlink t p <> Mi.Unmodelled ->
    mini_agree (fun d d' => d' = ldest d) (Mi.readlink t p) (Go.readlink T (mini_path enc p)).
Proof. exact FSAgreeMiniProofs.fsmini_readlink_refines_lemma. Qed.
Print Assumptions fsmini_readlink_refines.

(** open(O_RDONLY) + read; [open_existing] (open(O_WRONLY) of an existing file, its content) *)
Theorem fsmini_read_file_refines :
  forall (enc : Mi.comp -> N) (ldest : N -> list Gt.comp), (forall a b, enc a = enc b -> a = b) ->
  forall (t : Mi.fs) (T : Gt.tree) (p : Mi.path),
    mini_sim enc ldest t T -> p <> [] -> Mi.read_file t p <> Mi.Unmodelled ->
    mini_agree (fun c c' => c' = c) (Mi.read_file t p) (Go.read_file T (mini_path enc p)).
Proof. exact FSAgreeMiniProofs.fsmini_read_file_refines_lemma. Qed.
Print Assumptions fsmini_read_file_refines.

Theorem fsmini_open_existing_refines :
  forall (enc : Mi.comp -> N) (ldest : N -> list Gt.comp), (forall a b, enc a = enc b -> a = b) ->
  forall (t : Mi.fs) (T : Gt.tree) (p : Mi.path),
    mini_sim enc ldest t T -> p <> [] -> Mi.open_existing t p <> Mi.Unmodelled ->
    mini_agree (fun c c' => c' = c) (Mi.open_existing t p) (gen_open_existing T (mini_path enc p)).
Proof. exact FSAgreeMiniProofs.fsmini_open_existing_refines_lemma. Qed.
Print Assumptions fsmini_open_existing_refines.

(** os.Remove (unlink, else rmdir of an empty directory; ENOTEMPTY otherwise) *)
Theorem fsmini_remove_refines :
  forall (enc : Mi.comp -> N) (ldest : N -> list Gt.comp), (forall a b, enc a = enc b -> a = b) ->
  forall (t : Mi.fs) (T : Gt.tree) (p : Mi.path),
    mini_sim enc ldest t T -> p <> [] -> Mi.remove t p <> Mi.Unmodelled ->
    mini_agree (mini_sim enc ldest) (Mi.remove t p) (Go.remove T (mini_path enc p)).
Proof. exact FSAgreeMiniProofs.fsmini_remove_refines_lemma. Qed.
Print Assumptions fsmini_remove_refines.

(** os.RemoveAll; well-formedness matters: a missing path has nothing below it *)
Theorem fsmini_remove_all_refines :
  forall (enc : Mi.comp -> N) (ldest : N -> list Gt.comp), (forall a b, enc a = enc b -> a = b) ->
  forall (t : Mi.fs) (T : Gt.tree) (p : Mi.path),
    mini_wf t -> mini_sim enc ldest t T -> p <> [] -> Mi.remove_all t p <> Mi.Unmodelled ->
    mini_agree (mini_sim enc ldest) (Mi.remove_all t p) (Go.remove_all T (mini_path enc p)).
Proof. exact FSAgreeMiniProofs.fsmini_remove_all_refines_lemma. Qed.
Print Assumptions fsmini_remove_all_refines.

(** os.MkdirAll (also of the target directory itself: the empty path is allowed here); the
    general model follows Go's implementation (Stat, recursion on the parent, Mkdir, Lstat),
    FSmini walks down from the top - same errno (ENOTDIR over or below a file), same tree *)
Theorem fsmini_mkdir_all_refines :
  forall (enc : Mi.comp -> N) (ldest : N -> list Gt.comp), (forall a b, enc a = enc b -> a = b) ->
  forall (t : Mi.fs) (T : Gt.tree) (p : Mi.path),
    mini_wf t -> mini_sim enc ldest t T -> Mi.mkdir_all t p <> Mi.Unmodelled ->
    mini_agree (fun t' T' => mini_sim enc ldest t' T' /\ mini_wf t') (Mi.mkdir_all t p) (Go.mkdir_all T (mini_path enc p)).
Proof. exact FSAgreeMiniProofs.fsmini_mkdir_all_refines_lemma. Qed.
Print Assumptions fsmini_mkdir_all_refines.

Theorem fsmini_symlink_refines :
  forall (enc : Mi.comp -> N) (ldest : N -> list Gt.comp), (forall a b, enc a = enc b -> a = b) ->
  forall (t : Mi.fs) (T : Gt.tree) (d : N) (p : Mi.path),
    mini_sim enc ldest t T -> p <> [] -> Mi.symlink t d p <> Mi.Unmodelled ->
    mini_agree (mini_sim enc ldest) (Mi.symlink t d p) (Go.symlink T (ldest d) (mini_path enc p)).
Proof. exact FSAgreeMiniProofs.fsmini_symlink_refines_lemma. Qed.
Print Assumptions fsmini_symlink_refines.

(** [create_trunc] = open(O_CREATE|O_WRONLY|O_TRUNC) followed by one write through the
    descriptor ([gen_create] = [Go.open_trunc] then [Go.write_fd]) *)
Theorem fsmini_write_refines :
  forall (enc : Mi.comp -> N) (ldest : N -> list Gt.comp), (forall a b, enc a = enc b -> a = b) ->
  forall (t : Mi.fs) (T : Gt.tree) (p : Mi.path) (c : list N),
    mini_sim enc ldest t T -> p <> [] -> Mi.create_trunc t p c <> Mi.Unmodelled ->
    mini_agree (mini_sim enc ldest) (Mi.create_trunc t p c) (gen_create T (mini_path enc p) c).
Proof. exact FSAgreeMiniProofs.fsmini_write_refines_lemma. Qed.
Print Assumptions fsmini_write_refines.

(** Go's os.Rename against [Go.rename] (Lstat of the new name, then rename(2)): same errno
    (EEXIST onto any existing directory, also an ancestor; EINVAL into itself; ENOTDIR directory
    onto file; ENOENT / ENOTDIR from either path) and same tree (a directory moves with its
    subtree; a file replaces a file or a link), EXCEPT on the inputs excluded by
    [mini_rename_precedence_ok]: old name missing in an existing directory while the new name
    lies below a regular file - FSmini says ENOENT, the general model and Linux ENOTDIR
    ([fsmini_rename_errno_differs] below). *)
Theorem fsmini_rename_refines :
  forall (enc : Mi.comp -> N) (ldest : N -> list Gt.comp), (forall a b, enc a = enc b -> a = b) ->
  forall (t : Mi.fs) (T : Gt.tree) (src dst : Mi.path),
    mini_wf t -> mini_sim enc ldest t T -> src <> [] -> dst <> [] ->
    mini_rename_precedence_ok t src dst = true -> Mi.rename t src dst <> Mi.Unmodelled ->
    mini_agree (fun t' T' => mini_sim enc ldest t' T' /\ mini_wf t')
               (Mi.rename t src dst) (Go.rename T (mini_path enc src) (mini_path enc dst)).
Proof. exact FSAgreeMiniProofs.fsmini_rename_refines_lemma. Qed.
Print Assumptions fsmini_rename_refines.

(** Summary.  [mini_run ldest t ops]: the operations [ops] (any of the ten above) one after the
    other in FSmini, [None] as soon as one is declined; [gen_run enc ldest T ops]: the
    corresponding calls in the general model; an outcome is (errno or success, returned
    value); [mini_ops_ok t ops]: every path is non-empty (MkdirAll excepted) and no rename is of
    the excluded class, in the state in which it runs.  Any sequence that FSmini does not
    decline gives, from any general state standing for [t] - in particular from
    [mini_tree enc ldest t] ([fsmini_refines_fs_image]) - the same outcome for every operation
    and the same final tree, which is again well-formed. *)
Theorem fsmini_refines_fs :
  forall (enc : Mi.comp -> N) (ldest : N -> list Gt.comp), (forall a b, enc a = enc b -> a = b) ->
  forall (ops : list mini_op) (t : Mi.fs) (T : Gt.tree) (outs : list call_outcome) (t' : Mi.fs),
    mini_wf t -> mini_sim enc ldest t T -> mini_ops_ok t ops = true ->
    mini_run ldest t ops = Some (outs, t') ->
    exists T', gen_run enc ldest T ops = (outs, T') /\ mini_sim enc ldest t' T' /\ mini_wf t'.
Proof. exact FSAgreeMiniProofs.fsmini_refines_fs_lemma. Qed.
Print Assumptions fsmini_refines_fs.

Theorem fsmini_refines_fs_image :
  forall (enc : Mi.comp -> N) (ldest : N -> list Gt.comp), (forall a b, enc a = enc b -> a = b) ->
  forall (t : Mi.fs) (ops : list mini_op) (outs : list call_outcome) (t' : Mi.fs),
    mini_wf t -> mini_ops_ok t ops = true -> mini_run ldest t ops = Some (outs, t') ->
    exists T', gen_run enc ldest (mini_tree enc ldest t) ops = (outs, T') /\
               tree_equiv (mini_tree enc ldest t') T' /\ mini_wf t'.
Proof.
  intros enc ldest Hinj t ops outs t' W Hok E.
  apply (fsmini_refines_fs enc ldest Hinj ops t (mini_tree enc ldest t) outs t' W (FSAgreeMiniProofs.sim_refl enc ldest t) Hok E).
Qed.
Print Assumptions fsmini_refines_fs_image.

(** the hypotheses are satisfiable: an injective numbering of FSmini's structured names, a
    decidable sufficient condition for [mini_wf], and an executed sixteen-operation sequence
    with a temporary name (ok and failing calls of every errno class reached) *)
Theorem fsmini_names_injective : forall a b, enc_std a = enc_std b -> a = b.
Proof.
  induction a as [x | c IH k]; destruct b as [y | d l]; cbn [enc_std]; intros H.
  - f_equal. lia.
  - exfalso. lia.
  - exfalso. lia.
  - assert (H' : dbl (N.to_nat (enc_std c)) (2 * k + 1) = dbl (N.to_nat (enc_std d)) (2 * l + 1)) by lia.
    apply FSAgreeMiniProofs.dbl_odd_inj in H' as [H1 H2]. apply N2Nat.inj in H1. apply IH in H1. subst. reflexivity.
Qed.
Print Assumptions fsmini_names_injective.

Theorem fsmini_wf_decidable : forall t, mini_wfb t = true -> mini_wf t.
Proof.
  intros t. apply (FSAgreeGenProofs.wfb_sound Mi.Dir t (Mi.lookup t) (mini_is_dir t) (FSminiProofs.lookup_In t)).
  intros q. unfold mini_is_dir. destruct (Mi.lookup t q) as [[]|]; congruence.
Qed.
Print Assumptions fsmini_wf_decidable.

Example fsmini_refines_fs_inhabited :
  mini_wfb FSAgreeDiffer.mini_demo_tree = true /\
  mini_ops_ok FSAgreeDiffer.mini_demo_tree FSAgreeDiffer.mini_demo_ops = true /\
  exists outs t',
    mini_run ldest_std FSAgreeDiffer.mini_demo_tree FSAgreeDiffer.mini_demo_ops = Some (outs, t') /\
    fst (gen_run enc_std ldest_std (mini_tree enc_std ldest_std FSAgreeDiffer.mini_demo_tree) FSAgreeDiffer.mini_demo_ops) = outs /\
    Gt.tree_eqb (mini_tree enc_std ldest_std t')
                (snd (gen_run enc_std ldest_std (mini_tree enc_std ldest_std FSAgreeDiffer.mini_demo_tree) FSAgreeDiffer.mini_demo_ops)) = true /\
    map fst outs = [None; None; Some Go.ENOENT; None; None; None; None; None; None; Some Go.ENOTEMPTY; None;
                    Some Go.EINVAL; None; None; None; Some Go.ENOENT].
Proof. exact FSAgreeDiffer.fsmini_refines_fs_instance. Qed.

(** Where the two models DIFFER on an input both accept (well-formed state, no link): the errno
    of os.Rename when the old name is missing and the new name lies below a regular file.
    Linux (observed): ENOTDIR - rename(2) resolves both parent directories before it looks the
    old name up.  The general model is right, FSmini reports the wrong errno (both fail, the
    tree is untouched; Commit only distinguishes ok / error for Rename, and the [fsops] group
    compares only that for rename, which is why the correspondence never flagged it). *)
Theorem fsmini_rename_errno_differs :
  let t := [([Mi.P 2], Mi.File [7%N])] in
  let src := [Mi.P 1] in let dst := [Mi.P 2; Mi.P 1] in
  mini_wfb t = true /\
  Mi.rename t src dst = Mi.Err Mi.ENOENT /\
  Go.rename (mini_tree enc_std ldest_std t) (mini_path enc_std src) (mini_path enc_std dst) = Go.Err Go.ENOTDIR /\
  mini_rename_precedence_ok t src dst = false.
Proof. exact FSAgreeDiffer.fsmini_rename_errno_differ. Qed.
Print Assumptions fsmini_rename_errno_differs.

(** ... and that is all that differs there: on every input excluded by [mini_rename_precedence_ok]
    FSmini fails with ENOENT, the general model fails with the errno of the new name's path
    (which is not ENOENT), and neither changes the tree. *)
Theorem fsmini_rename_excluded_both_fail :
  forall (enc : Mi.comp -> N) (ldest : N -> list Gt.comp), (forall a b, enc a = enc b -> a = b) ->
  forall (t : Mi.fs) (T : Gt.tree) (src dst : Mi.path),
    mini_sim enc ldest t T -> src <> [] -> mini_rename_precedence_ok t src dst = false ->
    Mi.rename t src dst = Mi.Err Mi.ENOENT /\
    exists e, Mi.parent_ok t dst = Mi.Err e /\ e <> Mi.ENOENT /\
              Go.rename T (mini_path enc src) (mini_path enc dst) = Go.Err (mini_errno e).
Proof. exact FSAgreeMiniProofs.fsmini_rename_excluded_lemma. Qed.
Print Assumptions fsmini_rename_excluded_both_fail.

(** The empty relative path (the target directory itself) is not an input of FSmini: it answers
    as for a missing entry where Linux sees a directory (Lstat ok, Symlink EEXIST, open EISDIR). *)
Theorem fsmini_empty_path_differs :
  Mi.lstat [] [] = Mi.Err Mi.ENOENT /\ Go.lstat [] [] = Go.Ok Gt.Dir /\
  Mi.symlink [] 5%N [] = Mi.Ok [([], Mi.Link 5%N)] /\ Go.symlink [] [Gt.Nm 5%N] [] = Go.Err Go.EEXIST /\
  Mi.create_trunc [] [] [9%N] = Mi.Ok [([], Mi.File [9%N])] /\ gen_create [] [] [9%N] = Go.Err Go.EISDIR /\
  Mi.remove [] [] = Mi.Err Mi.ENOENT /\ Go.remove [] [] = Go.Err Go.EBUSY /\
  Mi.remove_all [] [] = Mi.Ok [] /\ Go.remove_all [] [] = Go.Err Go.EINVAL /\
  Mi.mkdir_all [] [] = Mi.Ok [] /\ Go.mkdir_all [] [] = Go.Ok [].
Proof. exact FSAgreeDiffer.fsmini_root_differ. Qed.
