(** C03 x C14 - the overlay entry writer of Compose/ResumeOverlay.v satisfies the writer
    contract [writer_ok] of Patch/ResumeProofs.v.

    The writer invariant [ow_inv] says: the writer is in the middle of a C14 session - opened
    over a file and at offsets satisfying C14's session precondition [pre] (Overlay/
    SessionProofs.v: the overlay up to the opening offset is magic + the messages of the
    earlier sessions, which applied to the old file give what those sessions were handed),
    and has since run some events.  With that
    - [W_final]  is C14's [final_session_ok] (the last session of [sessions_ok], the general form
                 of [overlay_sessions]): Patch + truncate of the finalized file gives everything written;
    - [W_save]   is C14's [session_ok] + [session_lands] (behind [offsets_exact_after_flush] and
                 [flushed_prefix_applies]): after the Flush the reported (ReadOffset,
                 OverlayOffset) and ANY file that agrees with the flushed one below OverlayOffset
                 satisfy [pre] again - the step of the induction in [overlay_sessions];
    - [W_write], [W_open_new] are bookkeeping ([pre_init]). *)
From Wharf Require Import Base.Prelude Overlay.FastProofs Overlay.Writer Overlay.Patch
  Overlay.WindowProofs Overlay.WriterProofs Overlay.SessionProofs
  Patch.ResumeProofs Patch.PlainWriter Patch.OverlayBowl Compose.ResumeOverlay.
Local Open Scope N_scope.

Lemma written_app : forall a b, written (a ++ b) = written a ++ written b.
Proof.
  induction a as [|e a IH]; intros b; [reflexivity|]. destruct e; cbn [app written]; rewrite IH; [apply app_assoc|reflexivity].
Qed.

Section Contract.
  Variables (bufSize threshold : N).
  Variable enc : op -> list byte.
  Variable dec : list byte -> option (op * list byte).
  Variable magic : list byte.
  Hypothesis HbufSize : 0 < bufSize.
  Hypothesis dec_enc : forall o rest, dec (enc o ++ rest) = Some (o, rest).
  Variable old : N -> list byte.

  Notation new_writer := (new_writer enc magic).
  Notation bw_flush := (bw_flush bufSize threshold enc).
  Notation bw_write := (bw_write bufSize threshold enc).
  Notation run_events := (run_events bufSize threshold enc).
  Notation finalize := (finalize bufSize threshold enc).
  Notation patch := (patch dec magic).
  Notation pre := (pre enc magic).
  Notation ow_open := (ow_open enc dec magic old).
  Notation ow_write := (ow_write bufSize threshold enc).
  Notation ow_save := (ow_save bufSize threshold enc).
  Notation ow_final := (ow_final bufSize threshold enc).
  Notation ow_result := (ow_result dec magic old).
  Notation ow_session := (ow_session bufSize threshold enc magic old).
  Notation ow_finished := (ow_finished dec magic old).
  Notation decoded := (decoded enc dec magic old).

  Definition ow_inv (f : N) (w : ew_state) (raw : list byte) : Prop :=
    exists allops fed0 roff0 evs,
      pre (old f) (ew_base w) roff0 (ew_start w) allops fed0 /\
      ow_session f w raw roff0 evs /\
      ew_fed w = fed0 ++ written evs.

  Lemma pre_start_le : forall o file roff ooff allops fed, pre o file roff ooff allops fed -> (N.to_nat ooff <= length file)%nat.
  Proof.
    intros o file roff ooff allops fed (_ & _ & _ & [(-> & _)|(_ & tail & -> & Hoo)]); [lia|].
    rewrite Hoo, !app_length. lia.
  Qed.

  Lemma ew_file_eq : forall base start st, (N.to_nat start <= length base)%nat ->
    ew_file base start st = write_at base start (session_bytes st).
  Proof.
    intros base start st H. unfold ResumeOverlay.ew_file. destruct (session_bytes st) eqn:E; [|reflexivity].
    rewrite write_at_spec. replace (N.to_nat start - length base)%nat with O by lia. cbn [repeat app length].
    rewrite Nat.add_0_r. symmetry. apply firstn_skipn.
  Qed.

  Lemma run_events_snoc : forall st evs e, run_events st (evs ++ [e]) = run_event bufSize threshold enc (run_events st evs) e.
  Proof. intros. unfold Writer.run_events. rewrite fold_left_app. reflexivity. Qed.

  (** a session that has been flushed, and any file that keeps the flushed overlay up to the
      reported overlay offset, are a state from which C14's next session starts *)
  Lemma flushed_pre : forall o base roff0 start allops fed0 evs raw2,
    pre o base roff0 start allops fed0 ->
    let st := bw_flush (run_events (new_writer o roff0 start) evs) in
    let oo := N.to_nat (w_ooff st) in
    (oo <= length raw2)%nat ->
    firstn oo raw2 = firstn oo (write_at base start (session_bytes st)) ->
    exists allops', pre o raw2 (w_roff st) (w_ooff st) allops' (fed0 ++ written evs) /\
                    w_ooff st <> 0 /\
                    patch o (firstn oo raw2 ++ enc EndMark) = POk (fed0 ++ written evs).
  Proof.
    intros o base roff0 start allops fed0 evs raw2 Hpre st oo Hlen Hfirst.
    destruct (session_ok bufSize threshold enc magic HbufSize o roff0 start evs) as (ops & Hrel & _). cbn zeta in Hrel. fold st in Hrel.
    destruct (session_lands bufSize enc dec magic HbufSize dec_enc o base roff0 start allops fed0 st ops (written evs) Hpre Hrel)
      as (tail & Hfile & Hoo & _ & Hnz & Hap & Hro & Hne).
    set (allops' := (if start =? 0 then [Skip 0] else allops) ++ ops) in *.
    assert (Hfst : firstn oo raw2 = magic ++ enc_all enc allops').
    { rewrite Hfirst, Hfile. apply firstn_exact. exact Hoo. }
    exists allops'. split; [|split; [exact Hnz|]].
    - split; [exact Hap|]. split; [exact Hro|]. split; [exact Hne|]. right. split; [exact Hnz|].
      exists (skipn oo raw2). split; [|exact Hoo].
      rewrite <- Hfst. symmetry. apply firstn_skipn.
    - rewrite Hfst, <- app_assoc.
      replace (enc EndMark) with (enc EndMark ++ []) by apply app_nil_r.
      rewrite (patch_ok bufSize enc dec magic HbufSize dec_enc) by exact Hne. rewrite Hap. cbn [fst]. rewrite rev_involutive. reflexivity.
  Qed.

  Section Bowl.
    Variables tsize ssize : N -> N.
    Variable prepare : N -> list byte -> list byte.
    Variable copy_old : N -> list byte.
    Variable old_content : N -> list byte.

    (** [writer_ok] for the overlay entry writer (in the overlay bowl: [fresh = false]) *)
    Lemma overlay_writer_ok :
      writer_ok (list byte) (list byte) (list byte) ew_state ew_ckpt (fun d => N.of_nat (length d)) tsize ssize
                ow_open ow_write ow_save ow_final ow_tell ow_result false prepare copy_old old_content
                (fun c d => c ++ d) [] ow_abs ow_inv ow_raw_ok ow_covers ow_finished.
    Proof.
      constructor.
      - (* Resume(nil) on whatever sits at the stage path *)
        intros f raw _. eexists _, _. split; [reflexivity|]. split; [|split; reflexivity].
        exists [], [], 0, []. split; [apply pre_init|]. split; [|reflexivity].
        repeat split; reflexivity.
      - (* Write *)
        intros f w raw d (allops & fed0 & roff0 & evs & Hpre & (Hst & Hraw & Hsoff) & Hfed).
        cbn [ResumeOverlay.ow_write fst snd ow_abs ow_tell ew_soff ew_fed]. split; [|split; [reflexivity|rewrite len_spec; reflexivity]].
        exists allops, fed0, roff0, (evs ++ [EvWrite d]). unfold ResumeOverlay.ow_session. cbn [ew_base ew_start ew_st ew_soff ew_fed].
        split; [exact Hpre|]. split.
        + split; [|split; [reflexivity|]].
          * rewrite run_events_snoc, <- Hst. reflexivity.
          * rewrite Hsoff, !len_spec, app_length. lia.
        + rewrite written_app, Hfed, app_assoc. cbn [written]. rewrite app_nil_r. reflexivity.
      - (* Save, and Resume(c) on a crash disk *)
        intros f [st0 soff base start fed] raw (allops & fed0 & roff0 & evs & Hpre & (Hst & Hraw & Hsoff) & Hfed).
        cbn [ew_base ew_start ew_st ew_soff ew_fed] in *. subst st0. cbn [ResumeOverlay.ow_save ew_base ew_start ew_st ew_soff ew_fed].
        set (st := bw_flush (run_events (new_writer (old f) roff0 start) evs)).
        split; [|split; [reflexivity|split; [reflexivity|split; [reflexivity|]]]].
        + exists allops, fed0, roff0, (evs ++ [EvFlush]). unfold ResumeOverlay.ow_session. cbn [ew_base ew_start ew_st ew_soff ew_fed].
          split; [exact Hpre|]. split; [rewrite run_events_snoc; repeat split; auto|].
          rewrite written_app, Hfed. cbn [written]. rewrite app_nil_r. reflexivity.
        + intros raw2 (Hlen & Hfirst) _. cbn [snd] in Hlen, Hfirst.
          rewrite (ew_file_eq _ _ _ (pre_start_le _ _ _ _ _ _ Hpre)) in Hfirst.
          destruct (flushed_pre (old f) base roff0 start allops fed0 evs raw2 Hpre Hlen Hfirst)
            as (allops' & Hpre' & Hnz & Hpatch). fold st in Hpre', Hnz, Hpatch.
          eexists _, _. split; [reflexivity|].
          assert (Hdec : (if w_ooff st =? 0 then [] else decoded f raw2 (w_ooff st)) = fed).
          { destruct (N.eqb_spec (w_ooff st) 0) as [E|_]; [contradiction|].
            unfold ResumeOverlay.decoded. rewrite takeN_spec, Hpatch. symmetry. exact Hfed. }
          split; [|split; [exact Hdec|reflexivity]].
          exists allops', (fed0 ++ written evs), (w_roff st), []. unfold ResumeOverlay.ow_session. cbn [ew_base ew_start ew_st ew_soff ew_fed].
          split; [exact Hpre'|]. split; [|rewrite Hdec, Hfed; cbn [written]; rewrite app_nil_r; reflexivity].
          split; [reflexivity|]. split; [reflexivity|]. rewrite Hdec. exact Hsoff.
      - (* Finalize: C14's last session *)
        intros f w raw (allops & fed0 & roff0 & evs & Hpre & (Hst & Hraw & Hsoff) & Hfed) _.
        unfold ResumeOverlay.ow_finished, ResumeOverlay.ow_final, ow_abs.
        rewrite (ew_file_eq _ _ _ (pre_start_le _ _ _ _ _ _ Hpre)), Hst, Hfed.
        exact (proj2 (final_session_ok bufSize threshold enc dec magic HbufSize dec_enc
                        (old f) (ew_base w) roff0 (ew_start w) allops fed0 evs Hpre)).
      - (* Commit *)
        intros f raw c H. unfold ResumeOverlay.ow_finished in H. unfold ResumeOverlay.ow_result. rewrite H. reflexivity.
      - discriminate.
      - discriminate.
      - discriminate.
      - discriminate.
    Qed.
  End Bowl.

  (** the entry writers of the overlay bowl - [freshEntryWriter] for new paths, the overlay
      entry writer for paths of the old build - satisfy the contract with no hypothesis about
      either left *)
  Lemma overlay_bowl_instance_ok :
    forall (is_overlay : N -> bool) (tsize ssize : N -> N) (oldt : N -> list byte),
      (forall t, length (oldt t) = N.to_nat (tsize t)) ->
      writer_ok (list byte) (list byte) (list byte) (N + ew_state) (unit + ew_ckpt) (fun d => N.of_nat (length d)) tsize ssize
                (d_open _ _ _ _ _ is_overlay p_open ow_open) (d_write _ _ _ _ p_write ow_write) (d_save _ _ _ _ _ p_save ow_save)
                (d_final _ _ _ p_final ow_final) (d_tell _ _ p_tell ow_tell) (d_result _ _ is_overlay p_result ow_result) false
                (p_prepare ssize) (p_copy_old oldt) oldt (fun c d => c ++ d) []
                (d_abs _ _ _ _ p_abs ow_abs) (d_inv _ _ _ is_overlay (p_inv ssize) ow_inv) (d_raw_ok _ is_overlay (p_raw_ok ssize) ow_raw_ok)
                (d_covers _ _ _ is_overlay p_covers ow_covers) (d_finished _ _ is_overlay (p_finished ssize) ow_finished).
  Proof.
    intros is_overlay tsize ssize oldt Hold. apply overlay_bowl_writer_ok; [exact Hold|]. apply overlay_writer_ok.
  Qed.
End Contract.
