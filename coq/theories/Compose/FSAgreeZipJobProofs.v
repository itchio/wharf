(** The helper functions [zip_mkdir] / [zip_symlink] / [zip_copyfile] of [Compose/FSAgree.v] are
    what a worker of the pool of [Arch/Zip.v] does when it runs the micro-steps [Zi.job i e] of
    one entry without being interleaved with another worker: same final tree, same failure flag. *)
From Coq Require Import Arith NArith Lia Bool.
From Wharf Require Import FS.Light.
From Wharf Require Arch.Zip Arch.ZipFsLemmas Arch.ZipProofs.
From Wharf Require Import Compose.FSAgree.

Module ZP := Wharf.Arch.ZipProofs.

Section Pool.
  Variable entries : list Zi.entry.
  Variable chunk : list N -> list (list N).
  Variable racy wmark : bool.

  Notation step := (Zi.step entries chunk racy wmark).
  Notation run := (Zi.run entries chunk racy wmark).

  Lemma run_err : forall sched s, Zi.serr s = true -> run sched s = s.
  Proof.
    induction sched as [|t sched IH]; intros s H; [reflexivity|]. cbn [Zi.run fold_left].
    unfold Zi.step at 2. rewrite H. apply IH. exact H.
  Qed.

  Lemma run_cons : forall t sched s, run (t :: sched) s = run sched (step s t).
  Proof. reflexivity. Qed.

  Lemma seq_ops_cons : forall seen op rest f,
    zip_seq_ops seen (op :: rest) f =
    match ZP.fs_after seen op f with
    | Some f' => zip_seq_ops (ZP.seen_after seen op f) rest f'
    | None => (false, f)
    end.
  Proof. intros seen op rest f. destruct op; try destruct seen as [[]|]; reflexivity. Qed.

  Lemma run_worker_ops : forall ops s t w,
    Zi.serr s = false -> nth_error (Zi.sworkers s) t = Some w -> Zi.wops w = ops ->
    let s' := run (repeat t (length ops)) s in
    let r := zip_seq_ops (Zi.wseen w) ops (Zi.sfs s) in
    Zi.sfs s' = snd r /\ Zi.serr s' = negb (fst r).
  Proof.
    induction ops as [|op rest IH]; intros s t w He Hn Hw; cbn [length repeat].
    - cbn. split; [reflexivity | exact He].
    - rewrite run_cons, seq_ops_cons.
      replace (step s t) with (Zi.exec wmark s t w op rest) by (unfold Zi.step; rewrite He, Hn, Hw; reflexivity).
      destruct (ZP.exec_fs wmark s t w op rest) as [F1 F2].
      destruct (ZP.fs_after (Zi.wseen w) op (Zi.sfs s)) as [f'|].
      + rewrite <- F1. apply (IH _ t (ZP.moved s w op rest)); [rewrite F2; exact He | | reflexivity].
        rewrite ZP.exec_workers. apply Wharf.Arch.ZipFsLemmas.nth_error_set_nth_eq. apply nth_error_Some. congruence.
      + rewrite (run_err _ _ F2), F1, F2. split; reflexivity.
  Qed.
End Pool.

Lemma seq_ops_skip : forall pre seen rest f, ZP.no_fs pre = true ->
  zip_seq_ops seen (pre ++ rest) f = zip_seq_ops seen rest f.
Proof.
  induction pre as [|op pre IH]; intros seen rest f H; [reflexivity|]. unfold ZP.no_fs in H. cbn [forallb] in H.
  apply andb_true_iff in H as [H1 H2]. cbn [app zip_seq_ops].
  destruct op; try discriminate H1; cbn [zip_mop_effect]; apply IH; exact H2.
Qed.

Lemma seq_ops_noeffect : forall l seen f, ZP.no_fs l = true -> zip_seq_ops seen l f = (true, f).
Proof. intros l seen f H. rewrite <- (app_nil_r l). rewrite seq_ops_skip by exact H. reflexivity. Qed.

Lemma count_ops_noeffect : forall racy k, ZP.no_fs (Zi.count_ops racy k) = true.
Proof. intros [|] k; reflexivity. Qed.

Lemma seq_ops_appends : forall chunks p seen tail f,
  zip_seq_ops seen (map (Zi.MAppend p) chunks ++ tail) f =
  match zip_appends p chunks f with
  | (true, f') => zip_seq_ops seen tail f'
  | (false, f') => (false, f')
  end.
Proof.
  induction chunks as [|c chunks IH]; intros p seen tail f; cbn [map app zip_seq_ops zip_appends zip_mop_effect]; [reflexivity|].
  destruct (Zi.fs_append p c f) as [f1|]; [apply IH | reflexivity].
Qed.

Theorem job_is_helper : forall chunk racy i e seen f,
  zip_seq_ops seen (Zi.job chunk racy i e) f = zip_call_step f (call_of_entry chunk e).
Proof.
  intros chunk racy i e seen f. destruct e as [p | p d | p d]; cbn [Zi.job call_of_entry zip_call_step].
  - (* EDir: archiver.Mkdir *)
    unfold zip_mkdir. cbn [app zip_seq_ops zip_mop_effect].
    assert (T : forall seen' g, zip_seq_ops seen' (Zi.count_ops racy Zi.KDir ++ [Zi.MProgress i]) g = (true, g)).
    { intros seen' g. apply seq_ops_noeffect. destruct racy; reflexivity. }
    destruct (Zi.lookup f p) as [[|c|l]|]; cbn [snd].
    + apply T.
    + destruct (Zi.fs_remove p f) as [f1|]; [|reflexivity]. destruct (Zi.fs_mkdir_all p f1) as [f2|]; [apply T | reflexivity].
    + destruct (Zi.fs_remove p f) as [f1|]; [|reflexivity]. destruct (Zi.fs_mkdir_all p f1) as [f2|]; [apply T | reflexivity].
    + destruct (Zi.fs_mkdir_all p f) as [f2|]; [apply T | reflexivity].
  - (* EFile: archiver.CopyFile *)
    unfold zip_copyfile. rewrite seq_ops_skip by apply count_ops_noeffect.
    cbn [app zip_seq_ops zip_mop_effect].
    destruct (Zi.fs_remove_all p f) as [f1|]; [|reflexivity].
    destruct (Zi.fs_mkdir_all (Zi.parent p) f1) as [f2|]; [|reflexivity].
    destruct (Zi.fs_create p f2) as [f3|]; [|reflexivity].
    rewrite seq_ops_appends. destruct (zip_appends p (chunk d) f3) as [[|] f4]; reflexivity.
  - (* ELink: archiver.Symlink *)
    unfold zip_symlink. cbn [app zip_seq_ops zip_mop_effect].
    destruct (Zi.fs_remove_all p f) as [f1|]; [|reflexivity].
    destruct (Zi.fs_mkdir_all (Zi.parent p) f1) as [f2|]; [|reflexivity].
    destruct (Zi.fs_symlink p d f2) as [f3|]; [|reflexivity].
    apply seq_ops_noeffect. destruct racy; reflexivity.
Qed.
