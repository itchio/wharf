(** Models that were transcribed more than once agree - pair 7 of the index
    Compose/ModelsAgree.v: block validation.

    pwr/blockvalidator.go + pwr/validatingpool.go are modelled ONCE (Val/VPool.v, C18);
    Val/Safekeeper.v (C09), Val/FileVal.v (C05), Sig/Validate.v (C04) and
    Compose/ValidateProtocol.v (C16) import [validate_as_error] / [validate_as_wound] /
    [vpool_wounds] / [aggregate] / [compute_block_size] from there and do not re-define them
    (all four Require Val.VPool; [Val/Safekeeper.v] calls [validate_as_error hash heqb
    (fgroup f) ...] and [compute_block_size] directly).

    What IS transcribed twice is the caller, [doOne] of pwr/validator.go (copy the file through
    the validating pool, then compare the byte count with the signed size):
      Sig/Validate.v  [validate_file]   (C04: the file is a pristine copy)
      Val/FileVal.v   [file_wounds]     (C05: any file)
    and the hash group of a file: C04 gets it from ComputeHashInfo over a real signature
    ([group_of groups i]), C05 defines it as the hashes of the blocks of the signed content.

    Agreement: same group ([group_models_agree_lemma]) and same wound list for EVERY content of the
    file on disk - shorter than, as long as, or longer than the signed one; for a longer file
    both order the bounds of the size wound as the code does (repo commit ccb6315;
    [validate_file_longer_file], Properties/C04.v: signed 2 bytes, 3 on disk, the size wound is
    [2, 3) in both).  Proofs only. *)
From Coq Require Import ZifyBool ZifyNat ZifyN.
From Wharf Require Import Base.Prelude.
From Wharf Require Val.FileVal Sig.Sign Sig.HashInfoProofs Sig.Validate Sig.ValidateProofs.
Local Open Scope Z_scope.

Module SV := Wharf.Sig.Validate.
Module FV := Wharf.Val.FileVal.
Module SSg := Wharf.Sig.Sign.

Section ValidateAgree.
  Variable H : Type.
  Variable bs : N.
  Variable weak : list N -> N.
  Variable strong : list N -> H.
  Variable seqb : H -> H -> bool.
  Variable maxWound : Z.

  Notation bhash := (SV.block_hash weak strong).
  Notation beqb := (SV.pair_eqb seqb).

  Lemma group_models_agree_lemma (files : list (list N)) (i : nat) (signed : list N) :
    nth_error files i = Some signed ->
    SV.group_of (HashInfoProofs.groups_from bs weak strong 0 files) i = FV.group_of (Z.of_N bs) bhash signed.
  Proof.
    intros Hn. rewrite (ValidateProofs.group_of_file bs weak strong files i signed Hn).
    unfold FV.group_of. rewrite ValidateProofs.to_nat_of_N. destruct signed; reflexivity.
  Qed.

  (** [doOne] on one file whose content reaches the pool in one Write: the same wounds, whatever
      the length of the file on disk *)
  Lemma validate_file_agrees (groups : list (option (list (SSg.blockhash H)))) (i : nat) (signed content : list N) :
    SV.group_of groups i = FV.group_of (Z.of_N bs) bhash signed ->
    SV.validate_file bs weak strong seqb maxWound groups i (N.of_nat (length signed)) [content] =
    FV.file_wounds (Z.of_N bs) maxWound bhash beqb (Z.of_nat i) signed (FV.OFile content).
  Proof.
    intros Hg. unfold SV.validate_file, FV.file_wounds.
    rewrite Hg. cbn [concat]. rewrite app_nil_r. rewrite !nat_N_Z.
    destruct (N.eqb_spec (N.of_nat (length content)) (N.of_nat (length signed))) as [E|E];
      destruct (Z.eqb_spec (Z.of_nat (length content)) (Z.of_nat (length signed))) as [E'|E']; try lia.
    - apply app_nil_r.
    - destruct (N.ltb_spec (N.of_nat (length signed)) (N.of_nat (length content))) as [Hlt|Hge]; rewrite !nat_N_Z.
      + rewrite Z.min_r, Z.max_l by lia. reflexivity.
      + rewrite Z.min_l, Z.max_r by lia. reflexivity.
  Qed.

End ValidateAgree.
