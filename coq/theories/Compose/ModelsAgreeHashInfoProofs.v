(** Models that were transcribed more than once agree - pair 8 of the index
    Compose/ModelsAgree.v: pwr.ComputeHashInfo.

    Sig/HashInfo.v [compute_hash_info] (C04: builds the groups) and Patch/Malformed.v [hash_info]
    (C10: outcome class only, the code before / after the fix selected by [fx], the capacity of
    the hash slice a parameter).

    Agreement: the outcome class of C04's model is that of C10's model of the code as it is
    ([fx = true]) for every list of sizes, every number of hashes and any capacity - including
    a signature with fewer hashes than the files need, where both say "error"; and where C04
    says [HiOk] the code before the fix ([fx = false], repo commit 6a06397 "fix: ComputeHashInfo
    checks the number of hashes before slicing them") succeeds too; with cap = len that code
    panics on missing hashes ([hash_info_missing_hashes], Properties/C04.v).  Proofs only. *)
From Coq Require Import ZifyBool ZifyNat ZifyN.
From Wharf Require Import Base.Prelude.
From Wharf Require Sig.SigFile Sig.HashInfo Patch.Malformed Compose.ModelsAgreeBlocksProofs.
Local Open Scope Z_scope.

Module HI := Wharf.Sig.HashInfo.
Module MF := Wharf.Patch.Malformed.

Lemma nb_agree (bs size : N) : (0 < bs)%N -> MF.num_blocks (Z.of_N bs) (Z.of_N size) = Z.of_N (SigFile.num_blocks bs size).
Proof. exact (ModelsAgreeBlocksProofs.num_blocks_Z_N bs size). Qed.

Section HashInfoAgree.
  Context {X : Type}.
  Variable bs : N.
  Hypothesis bs_pos : (0 < bs)%N.
  Variable hashes : list X.
  Let n := Z.of_nat (length hashes).

  Lemma hi_loop_agrees : forall (sizes : list N) (ix : N),
    match HI.hi_loop bs sizes hashes ix with
    | Some (_, ix') =>
        forall fx cap, n <= cap ->
          MF.hash_info fx (Z.of_N bs) (map Z.of_N sizes) (Z.of_N ix) n cap = if Z.of_N ix' =? n then MF.Ok else MF.Err
    | None =>
        (forall cap, n <= cap -> MF.hash_info true (Z.of_N bs) (map Z.of_N sizes) (Z.of_N ix) n cap = MF.Err) /\
        MF.hash_info false (Z.of_N bs) (map Z.of_N sizes) (Z.of_N ix) n n = MF.Panic MF.SHashInfoSlice
    end.
  Proof.
    induction sizes as [|sz r IH]; intros ix.
    - cbn [HI.hi_loop map MF.hash_info]. intros fx cap _. reflexivity.
    - cbn [HI.hi_loop map MF.hash_info].
      replace (Z.of_N sz =? 0) with (sz =? 0)%N by lia.
      destruct (sz =? 0)%N.
      + specialize (IH (ix + 1)%N). rewrite N2Z.inj_add in IH.
        destruct (HI.hi_loop bs r hashes (ix + 1)) as [[gs ix']|]; exact IH.
      + rewrite nb_agree by assumption. set (nb := SigFile.num_blocks bs sz).
        specialize (IH (ix + nb)%N). rewrite N2Z.inj_add in IH.
        (* the check of repo commit 6a06397 is the check of the C04 model *)
        assert (ET : (Z.of_N ix + Z.of_N nb >? n) = (N.of_nat (length hashes) <? ix + nb)%N) by (unfold n; lia).
        rewrite ET. destruct (N.of_nat (length hashes) <? ix + nb)%N eqn:T.
        * split; reflexivity.
        * (* enough hashes, hence within the capacity *)
          assert (EC : forall cap, n <= cap -> (Z.of_N ix + Z.of_N nb >? cap) = false) by (unfold n; lia).
          destruct (HI.hi_loop bs r hashes (ix + nb)) as [[gs ix']|].
          -- intros fx cap Hcap. rewrite andb_false_r, EC by exact Hcap. apply IH, Hcap.
          -- split; [intros cap Hcap; cbn [andb]; rewrite EC by exact Hcap; apply IH, Hcap|apply IH].
  Qed.
End HashInfoAgree.
