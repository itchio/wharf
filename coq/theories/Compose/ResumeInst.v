(** C03 x C14 - in-place application (overlay bowl): the notions of [resume_equiv] at the
    overlay bowl's entry writers ([freshEntryWriter] for new paths, the overlay entry writer of
    Compose/ResumeOverlay.v for paths of the old build).  Definitions only.  Properties/C03.v
    states [resume_equiv] over them with [writer_ok] discharged
    (Compose/ResumeOverlayProofs.v, from C14) and the reader abstract, and once more with the
    reader the wire reader of C13 (Compose/ResumeWireInst.v): what is left then are hypotheses
    about the environment - the overlay message codec ([dec (enc o ++ rest)]), the source
    contract [beh_sound], the old files having their declared sizes, [0 < bufSize] - and about
    the patch: the uninterrupted run completes and respects the declared sizes. *)
From Wharf Require Import Base.Prelude
  Patch.Resume Patch.ResumeProofs Patch.PlainWriter Patch.OverlayBowl Compose.ResumeOverlay.

Section OverlayBowlInst.
  Variables (bufSize threshold : N).
  Variable enc : Writer.op -> list byte.
  Variable dec : list byte -> option (Writer.op * list byte).
  Variable magic : list byte.
  Variable blocksize : N.
  Variables tsize ssize : N -> N.
  Variable nfiles : N.
  Variable oldt : N -> list byte.     (* the old build's files by target index *)
  Variable oldp : N -> list byte.     (* the old build's file at the path of source file f (overlay files) *)
  Variable range_data : N -> N -> N -> list byte.
  Variable bs_data : N -> Z -> list byte -> list byte -> list byte.
  Variable is_overlay : N -> bool.
  Variable emit : nat -> bool.
  Variable src_resume : nat -> nat -> option nat.

  Local Notation WSb := (N + ew_state)%type.
  Local Notation WCKb := (unit + ew_ckpt)%type.
  Local Notation dlenb := (fun d : list byte => N.of_nat (length d)).

  (** [overlayBowl.GetWriter] *)
  Definition ob_open := d_open (list byte) N ew_state unit ew_ckpt is_overlay p_open (ow_open enc dec magic oldp).
  Definition ob_write := d_write (list byte) (list byte) N ew_state p_write (ow_write bufSize threshold enc).
  Definition ob_save := d_save (list byte) N ew_state unit ew_ckpt p_save (ow_save bufSize threshold enc).
  Definition ob_final := d_final (list byte) N ew_state p_final (ow_final bufSize threshold enc).
  Definition ob_tell := d_tell N ew_state p_tell ow_tell.
  Definition ob_result := d_result (list byte) (list byte) is_overlay p_result (ow_result dec magic oldp).
  Definition ob_raw_ok := d_raw_ok (list byte) is_overlay (p_raw_ok ssize) ow_raw_ok.
  Definition ob_covers := d_covers (list byte) unit ew_ckpt is_overlay p_covers ow_covers.

  Definition ob_run (sched stop : nat -> bool) :=
    Resume.run (list byte) (list byte) WSb WCKb dlenb blocksize tsize ssize nfiles range_data bs_data
               ob_open ob_write ob_save ob_final ob_tell false is_overlay (p_copy_old oldt) emit sched stop.
  Definition ob_start (d0 : N -> list byte) := start_state (list byte) WSb WCKb false (p_prepare ssize) d0.
  Definition ob_resumed (sched stop : nat -> bool) :=
    run_resumed (list byte) (list byte) WSb WCKb dlenb blocksize tsize ssize nfiles range_data bs_data
                ob_open ob_write ob_save ob_final ob_tell false is_overlay (p_prepare ssize) (p_copy_old oldt) emit src_resume sched stop.
  Definition ob_sized :=
    sized_run (list byte) (list byte) WSb WCKb dlenb blocksize tsize ssize nfiles range_data bs_data
              ob_open ob_write ob_save ob_final ob_tell false is_overlay (p_copy_old oldt) emit.
  Definition ob_offered :=
    offered (list byte) (list byte) WSb WCKb dlenb blocksize tsize ssize nfiles range_data bs_data
            ob_open ob_write ob_save ob_final ob_tell false is_overlay (p_prepare ssize) (p_copy_old oldt) emit src_resume
            ob_raw_ok ob_covers.
  (** the crash model: the in-progress stage file keeps what its checkpoint covers (overlay:
      the first OverlayOffset bytes; staged new file: the first Offset bytes), the stage files
      of completed entries are intact, everything else is arbitrary (staged new files not
      longer than their final size) *)
  Definition ob_crash := crash_ok (list byte) WCKb false (p_prepare ssize) ob_raw_ok ob_covers.
  (** Commit, per source file: move / Patch + truncate / transposed old file *)
  Definition ob_commit := commit (list byte) (list byte) WSb WCKb nfiles ob_result false oldt.

End OverlayBowlInst.
