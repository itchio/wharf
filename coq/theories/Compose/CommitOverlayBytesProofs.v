(** C02 x C14, byte level - proofs.  (1) Per path, a move and an overlay on a byte stage are those of
    Bowl/OverlayCommit.v on the decoded stage, as long as the pending overlay's stage file decodes
    ([decodable], defined here) and the path is not both a move and an overlay; Properties/C02.v folds
    the two over the phases into [commit_on_bytes_is_commit_on_decoded_stage].  (2) The byte-level
    patch phase (C14 writer, one sequence of Write/Flush calls per file) is simulated by C02's patch
    phase with a trivially correct [mk_overlay]; the simulation carries "Patch + truncate of the stage file = apply_ops of the
    abstract overlay", which is C14's [overlay_correct].  The end-to-end statement of C02 on bytes,
    without any hypothesis on the overlay writer, follows (Properties/C02.v). *)
From Wharf Require Import Base.Prelude Base.ListLemmas Base.StepSystem Bowl.FSmini Bowl.FSminiProofs Bowl.OverlayCommit
  Bowl.CommitSpec Bowl.CommitBuildProofs Bowl.PatchPhaseProofs.
From Wharf Require Import Overlay.Patch Overlay.Codec Overlay.SessionProofs Overlay.CodecProofs.
From Wharf Require Import Compose.CommitOverlay Compose.CommitOverlayProofs Compose.CommitOverlayBytes.
Local Open Scope N_scope.

Lemma bstage_get_put : forall s p f q, bstage_get (bstage_put s p f) q = if path_eqb p q then Some f else bstage_get s q.
Proof. exact (ListLemmas.assoc_put comp_eqb comp_eqb_eq). Qed.

Lemma stage_get_decode : forall w st p,
  stage_get (decode_stage w st) p = option_map (decode_entry w p) (bstage_get st p).
Proof.
  intros w st p. induction st as [|[q f] st IH]; cbn [decode_stage map stage_get bstage_get fst snd option_map]; [reflexivity|].
  destruct (path_eqb q p) eqn:E.
  - apply path_eqb_eq in E. subst q. reflexivity.
  - exact IH.
Qed.

Lemma fold_res_ext : forall (A : Type) (f g : fs -> A -> res fs) (l : list A) (t : fs),
  (forall t a, In a l -> f t a = g t a) -> fold_res f l t = fold_res g l t.
Proof.
  intros A f g l. induction l as [|a l IH]; intros t H; cbn [fold_res]; [reflexivity|].
  rewrite (H t a (or_introl eq_refl)). apply bind_ext. intros t1.
  apply IH. intros t' a' Ha. apply H. now right.
Qed.

Definition decodable (w : work) (st : bstage) : Prop :=
  forall p file, In p (w_over w) -> bstage_get st p = Some file -> decode_file Codec.dec Codec.magic file <> None.

Lemma move_from_stage_decode : forall w st t p,
  ~ In p (w_over w) -> move_from_stage_b st t p = move_from_stage (decode_stage w st) t p.
Proof.
  intros w st t p Hno. unfold move_from_stage_b, move_from_stage. rewrite stage_get_decode.
  destruct (bstage_get st p) as [c|]; cbn [option_map]; [|reflexivity].
  unfold decode_entry. apply mem_false in Hno. rewrite Hno. reflexivity.
Qed.

Lemma apply_overlay_decode : forall w st t p,
  In p (w_over w) -> decodable w st -> apply_overlay_b st t p = apply_overlay (decode_stage w st) t p.
Proof.
  intros w st t p Hin Hd. unfold apply_overlay_b, apply_overlay. rewrite stage_get_decode.
  destruct (bstage_get st p) as [file|] eqn:E; cbn [option_map]; [|reflexivity].
  unfold decode_entry. pose proof Hin as Hm. apply mem_In in Hm. rewrite Hm.
  specialize (Hd p file Hin E).
  destruct (decode_file Codec.dec Codec.magic file) as [ops|] eqn:D; [|contradiction].
  apply bind_ext. intros cur.
  unfold apply_overlay_file. pose proof (patch_is_apply_ops Codec.dec Codec.magic cur file) as H.
  rewrite D in H. rewrite H. reflexivity.
Qed.

Lemma sound_decodable : forall ob nb w st, patch_sound ob nb w (decode_stage w st) -> decodable w st.
Proof.
  intros ob nb w st PS p file Hp Hg D. destruct (ps_over ob nb w _ PS p Hp) as [ops [_ [_ [Hst _]]]].
  rewrite stage_get_decode, Hg in Hst. cbn [option_map] in Hst. unfold decode_entry in Hst. rewrite D in Hst.
  destruct (mem p (w_over w)); discriminate.
Qed.

Definition mk0 (cur new : list N) : list ovop := [OverlayCommit.Fresh new].

Lemma mk0_ok : forall cur new, OverlayCommit.apply_ops (mk0 cur new) cur = new.
Proof. intros cur new. cbn. apply app_nil_r. Qed.

Definition cur_at (t : fs) (p : path) : list N := match lookup t p with Some (File c) => c | _ => [] end.

Lemma patch_phase_b_out : forall bufSize threshold oc steps wd, bout (patch_phase_b bufSize threshold oc steps wd) = bout wd.
Proof.
  intros bufSize threshold oc steps wd.
  apply (run_keeps (patch_step_b bufSize threshold oc) (fun s => bout s = bout wd)); [|reflexivity].
  intros s [p k|p evs file0] H; cbn [patch_step_b]; [exact H|]. now destruct (mem p (c_files oc)).
Qed.

Section Sim.
  Variables (bufSize threshold : N).
  Hypothesis HbufSize : 0 < bufSize.

  (** the byte world against C02's world run with [mk0]: same tree, same work lists; a staged
      whole file is its bytes; an abstract overlay stands for a stage file on which [Patch] +
      truncate computes what the abstract overlay computes *)
  Record sim (bw : bworld) (aw : world) : Prop := {
    sim_out : bout bw = out aw;
    sim_wk : bwk bw = wk aw;
    sim_stage : forall p,
      match stage_get (stg aw) p with
      | None => bstage_get (bstg bw) p = None
      | Some (SWhole c) => bstage_get (bstg bw) p = Some c
      | Some (SOverlay ops) =>
          exists file, bstage_get (bstg bw) p = Some file /\
                       patch Codec.dec Codec.magic (cur_at (out aw) p) file
                       = POk (OverlayCommit.apply_ops ops (cur_at (out aw) p))
      end
  }.

  Lemma sim_step : forall oc bw aw s,
    sim bw aw -> sim (patch_step_b bufSize threshold oc bw s) (patch_step mk0 oc aw (erase s)).
  Proof.
    intros oc bw aw s S. destruct S as [So Sw Ss].
    destruct s as [p k|p evs file0]; cbn [erase patch_step_b patch_step].
    - constructor; cbn [bout out bwk wk bstg stg]; [assumption | now rewrite Sw | exact Ss].
    - rewrite So. destruct (mem p (c_files oc)); constructor; cbn [bout out bwk wk bstg stg]; try reflexivity; try (now rewrite Sw).
      + intros q. rewrite stage_get_put, bstage_get_put. destruct (path_eqb p q) eqn:E; [|exact (Ss q)].
        apply path_eqb_eq in E. subst q. eexists. split; [reflexivity|].
        unfold cur_at. rewrite mk0_ok.
        exact (proj2 (overlay_correct_lemma bufSize threshold Codec.enc Codec.dec Codec.magic HbufSize dec_enc_real _ _ _)).
      + intros q. rewrite stage_get_put, bstage_get_put. destruct (path_eqb p q); [reflexivity | exact (Ss q)].
  Qed.

  Lemma sim_phase : forall oc steps bw aw,
    sim bw aw -> sim (patch_phase_b bufSize threshold oc steps bw) (patch_phase mk0 oc (map erase steps) aw).
  Proof.
    intros oc steps. induction steps as [|s steps IH]; intros bw aw S; [exact S|].
    cbn [patch_phase_b patch_phase map fold_left]. apply IH. now apply sim_step.
  Qed.

  Lemma sim0 : forall t, sim (bworld0 t) (mkWorld t [] (OverlayCommit.mkW [] [] [])).
  Proof. intros t. constructor; cbn; auto. Qed.

  Theorem patch_phase_b_sound_lemma :
    forall (ob nb : build), wf_build ob ->
    forall (steps : list bstep), steps_describe ob nb (map erase steps) ->
      let bw := patch_phase_b bufSize threshold (cont ob) steps (bworld0 (tree_of ob)) in
      bout bw = tree_of ob /\
      patch_sound ob nb (bwk bw) (decode_stage (bwk bw) (bstg bw)) /\
      decodable (bwk bw) (bstg bw).
  Proof.
    intros ob nb Wo steps SD bw.
    pose (aw := patch_phase mk0 (cont ob) (map erase steps) (world0 ob)).
    destruct (patch_phase_sound_lemma mk0 mk0_ok ob nb Wo (map erase steps) SD) as [Hout PS]. fold aw in Hout, PS.
    assert (S : sim bw aw) by (apply sim_phase; apply sim0).
    destruct S as [So Sw Ss].
    split; [rewrite <- Hout; exact So|]. rewrite Sw.
    enough (PS' : patch_sound ob nb (wk aw) (decode_stage (wk aw) (bstg bw))) by exact (conj PS' (sound_decodable ob nb _ _ PS')).
    constructor; try apply PS.
    - intros p Hp. destruct (ps_over ob nb _ _ PS p Hp) as [ops [c [cn [Hst [Hc [Hcn Happ]]]]]].
      pose proof (Ss p) as Hs. rewrite Hst in Hs. destruct Hs as [file [Hg Hpatch]].
      unfold cur_at in Hpatch. rewrite Hout, (tree_file ob Wo p c Hc) in Hpatch.
      destruct (patch_ok_decodes Codec.dec Codec.magic c file _ Hpatch) as [ops' [D E]].
      exists (conv_ops ops'), c, cn. repeat split; try assumption; [|now rewrite <- E].
      rewrite stage_get_decode, Hg. cbn [option_map]. unfold decode_entry.
      apply mem_In in Hp. rewrite Hp, D. reflexivity.
    - intros p Hp. destruct (ps_moves ob nb _ _ PS p Hp) as [Hno [c [Hst Hc]]]. split; [assumption|].
      exists c. split; [|assumption].
      pose proof (Ss p) as Hs. rewrite Hst in Hs.
      rewrite stage_get_decode, Hs. cbn [option_map]. unfold decode_entry.
      assert (Hm : mem p (w_over (wk aw)) = false).
      { apply mem_false. intros Ho. exact (ps_disj_om ob nb _ _ PS p Ho Hp). }
      rewrite Hm. reflexivity.
  Qed.
End Sim.
