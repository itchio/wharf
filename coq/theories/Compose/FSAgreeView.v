(** A filesystem state seen as a finite map [m] from paths to nodes, and a general-model tree
    seen through an embedding of paths and nodes ([view]).  The three models' "lies below
    directories only" ([lit], [dirs_above] of Bowl/FSminiProofs.v, the one inline in [zip_wf]) and their
    well-formedness ([gen_wf], [mini_wf], [zip_wf]) are [dirs_above] and [wf] at the model's own
    [lookup]; [mini_sim] and [zip_sim] are [view] at the model's embedding.  What a view
    transports is proved here once, from the facts about the general model alone in
    Compose/FSAgreeGenProofs.v ([gen_wf], [lit_dirs_above], [resolve_stop], [below_nondir]). *)
From Wharf Require Import Base.ListLemmas Base.PathMap FS.Light FS.Tree FS.TreeProofs FS.Ops FS.OpsProofs.
From Wharf Require Import Compose.FSAgree Compose.FSAgreeGenProofs.

(** how a small model's paths are read in the general model ... *)
Record path_embedding {K : Type} (eqb : K -> K -> bool) (emb : list K -> path) : Prop := {
  eqb_eq : forall x y, eqb x y = true <-> x = y;
  emb_app : forall p q, emb (p ++ q) = emb p ++ emb q;
  emb_inj : forall p q, emb p = emb q -> p = q;
  emb_split : forall p a b, emb p = a ++ b -> exists pa pb, p = pa ++ pb /\ a = emb pa /\ b = emb pb }.

Section Paths.
  Context {K : Type} {eqb : K -> K -> bool} {emb : list K -> path} (ok : path_embedding eqb emb).
  Local Notation emb_app := (emb_app _ _ ok).
  Local Notation emb_inj := (emb_inj _ _ ok).
  Local Notation emb_split := (emb_split _ _ ok).
  Local Notation eqb_eq := (eqb_eq _ _ ok).

  Lemma emb_nil : emb [] = [].
  Proof.
    pose proof (emb_app [] []) as E. cbn [app] in E. destruct (emb []) as [|x l]; [reflexivity|].
    destruct (app_neq_self (x :: l) (x :: l)); [discriminate | exact E].
  Qed.

  Lemma emb_nonempty : forall p, p <> [] -> emb p <> [].
  Proof. intros p H E. apply H, emb_inj. rewrite emb_nil. exact E. Qed.

  Lemma eqb_emb : forall p q, path_eqb (emb p) (emb q) = Prelude.list_eqb eqb p q.
  Proof.
    intros p q. destruct (Prelude.list_eqb eqb p q) eqn:E.
    - apply (list_eqb_eq eqb eqb_eq) in E. subst. apply path_eqb_refl.
    - apply path_eqb_neq. apply (list_eqb_neq eqb eqb_eq) in E. intros H. apply E, emb_inj, H.
  Qed.

  Lemma prefixb_emb : forall p q, is_prefix (emb p) (emb q) = prefixb eqb p q.
  Proof.
    intros p q. destruct (prefixb eqb p q) eqn:E.
    - apply (prefixb_spec eqb eqb_eq) in E as [r ->]. rewrite emb_app. apply is_prefix_app.
    - apply is_prefix_false. intros [r H]. apply emb_split in H as [pa [pb [-> [H _]]]].
      apply emb_inj in H. subst. rewrite (prefixb_app eqb eqb_eq) in E. discriminate.
  Qed.
End Paths.

(** ... and its nodes *)
Record embedding {K Nd : Type} (eqb : K -> K -> bool) (emb : list K -> path) (nd : Nd -> node) (dir : Nd) : Prop := {
  emb_path : path_embedding eqb emb;
  nd_dir : forall n, nd n = Dir <-> n = dir }.

Section View.
  Context {K Nd : Type} {eqb : K -> K -> bool} {emb : list K -> path} {nd : Nd -> node} {dir : Nd} (ok : embedding eqb emb nd dir).
  Implicit Type m : list K -> option Nd.
  Local Notation okp := (emb_path _ _ _ _ ok).
  Local Notation emb_app := (emb_app _ _ okp).
  Local Notation emb_inj := (emb_inj _ _ okp).
  Local Notation emb_split := (emb_split _ _ okp).
  Local Notation emb_nil := (emb_nil okp).
  Local Notation emb_nonempty := (emb_nonempty okp).
  Local Notation eqb_emb := (eqb_emb okp).
  Local Notation prefixb_emb := (prefixb_emb okp).
  Local Notation nd_dir := (nd_dir _ _ _ _ ok).

  (** [T] holds the image of [m] and nothing else *)
  Definition view m (T : tree) : Prop :=
    (forall p, lookup T (emb p) = option_map nd (m p)) /\ (forall q, lookup T q <> None -> exists p, q = emb p).

  Lemma view_dir : forall m T p, view m T -> (lookup T (emb p) = Some Dir <-> m p = Some dir).
  Proof.
    intros m T p [V _]. rewrite V. destruct (m p) as [n|]; cbn [option_map]; [|split; discriminate].
    split; intros E; [f_equal; apply nd_dir; congruence | injection E as ->; f_equal; apply nd_dir; reflexivity].
  Qed.

  Lemma view_lit : forall m T p, view m T -> (lit T (emb p) <-> dirs_above dir m p).
  Proof.
    intros m T p V. rewrite lit_dirs_above. split.
    - intros D q r -> Hq Hr. apply (view_dir m T q V). apply (D (emb q) (emb r) (emb_app q r)); apply emb_nonempty; assumption.
    - intros D a r E Ha Hr. apply emb_split in E as [pa [pb [-> [-> ->]]]]. apply (view_dir m T pa V), (D pa pb eq_refl).
      + intros ->. apply Ha, emb_nil.
      + intros ->. apply Hr, emb_nil.
  Qed.

  Lemma view_wf : forall m T, view m T -> (gen_wf T <-> wf dir m).
  Proof.
    intros m T V. pose proof V as [V1 V2]. split; intros [W0 W]; split.
    - pose proof (V1 []) as E. rewrite emb_nil, W0 in E. destruct (m []); [discriminate | reflexivity].
    - intros p q r Hp. apply (proj1 (view_lit m T p V)), W. rewrite V1. destruct (m p); [discriminate | congruence].
    - rewrite <- emb_nil, V1, W0. reflexivity.
    - intros P HP. destruct (V2 P HP) as [p ->]. apply (view_lit m T p V). intros q r. apply (W p q r).
      intros E. apply HP. rewrite V1, E. reflexivity.
  Qed.

  Lemma view_set : forall m m' T p n, view m T -> set_at eqb m m' p (Some n) -> view m' (set T (emb p) (nd n)).
  Proof.
    intros m m' T p n [V1 V2] Hm. split.
    - intros q. rewrite lookup_set, eqb_emb, Hm, V1. destruct (Prelude.list_eqb eqb p q); reflexivity.
    - intros q. rewrite lookup_set. destruct (path_eqb (emb p) q) eqn:E; [|apply V2].
      intros _. apply path_eqb_eq in E. exists p. congruence.
  Qed.

  Lemma view_del : forall m m' T p, view m T -> set_at eqb m m' p None -> view m' (del T (emb p)).
  Proof.
    intros m m' T p [V1 V2] Hm. split.
    - intros q. rewrite lookup_del, eqb_emb, Hm, V1. destruct (Prelude.list_eqb eqb p q); reflexivity.
    - intros q. rewrite lookup_del. destruct (path_eqb (emb p) q); [congruence | apply V2].
  Qed.

  Lemma view_del_tree : forall m m' T p, view m T -> cut_at eqb m m' p -> view m' (del_tree T (emb p)).
  Proof.
    intros m m' T p [V1 V2] Hm. split.
    - intros q. rewrite lookup_del_tree, prefixb_emb, Hm, V1. destruct (prefixb eqb p q); reflexivity.
    - intros q. rewrite lookup_del_tree. destruct (is_prefix (emb p) q); [congruence | apply V2].
  Qed.

  Lemma view_below : forall m T p s, wf dir m -> view m T -> p <> [] -> s <> [] -> m p <> Some dir ->
    lookup T (emb p ++ s) = None.
  Proof.
    intros m T p s W V Hp Hs Hn. apply (below_nondir T (emb p) s (proj2 (view_wf m T V) W) (emb_nonempty p Hp) Hs).
    rewrite (view_dir m T p V). exact Hn.
  Qed.

  Lemma view_free : forall m T p s, wf dir m -> view m T -> p <> [] -> m p = None -> lookup T (emb p ++ s) = None.
  Proof.
    intros m T p [|y s] W V Hp Hn; [rewrite app_nil_r, (proj1 V), Hn; reflexivity|].
    apply (view_below m T p (y :: s) W V Hp); [discriminate | congruence].
  Qed.

  (** where resolution of a path ends, seen from the small state: below directories it is the
      path itself; otherwise the first prefix that is not a directory decides *)
  Inductive check_view m T (p : list K) : Prop :=
  | CV_lit : dirs_above dir m p -> lit T (emb p) -> check_view m T p
  | CV_stop q r : p = q ++ r -> q <> [] -> r <> [] -> dirs_above dir m q -> m q <> Some dir ->
      (forall fl, resolve T fl (emb p) = match option_map nd (m q) with
                                          | None => Err ENOENT
                                          | Some (File _) => Err ENOTDIR
                                          | _ => resolve T fl (emb p)
                                          end) -> check_view m T p.

  Lemma view_check : forall m T p, view m T -> check_view m T p.
  Proof.
    intros m T p V. destruct (PathMap.first_nondir (dir := dir) m) with (p := p) as [D | [q [r [-> [Hq [Hr [D Hn]]]]]]].
    - intros q. rewrite <- (view_dir m T q V). apply dir_or_not.
    - apply CV_lit; [exact D | apply (view_lit m T p V), D].
    - apply (CV_stop m T _ q r eq_refl Hq Hr D Hn). intros fl. rewrite <- (proj1 V), emb_app.
      destruct (snoc_cases (emb q)) as [E | [a [n E]]]; [destruct (emb_nonempty q Hq E)|].
      pose proof (proj2 (view_lit m T q V) D) as L. rewrite E in *. rewrite <- app_assoc.
      apply (resolve_stop T fl a n (emb r) L (emb_nonempty r Hr)).
  Qed.
End View.
