(** Non-vacuity of [resume_equiv_instantiated] (Properties/C03.v; notions of
    Compose/ResumeInst.v): the patch of
    Patch/ResumeExample.v (block size 4, old file 1..6, new file 9 9 1 2 3 4 7 5 6) applied in
    place - overlay bowl, overlay window 4 / threshold 1, the real overlay message encoding of
    Overlay/Codec.v, the wire reader over the framed messages on a seek source.  The run that
    always saves offers two checkpoints; the first one (3 messages read, 6 bytes of the new
    file written, ReadOffset 6, OverlayOffset 21) is resumed on a crash disk that keeps the
    21 covered bytes of the overlay followed by junk and a stale end marker.

    Also [late_beh], the source with which Properties/C03.v computes where [H_wire] as
    literally stated (all [src <= off]) asks for more than C13 gives. *)
From Wharf Require Import Base.Prelude Overlay.Codec
  Patch.Resume Patch.ResumeProofs Patch.ResumeExample
  Wire.Reader
  Compose.ResumeWire Compose.ResumeOverlay Compose.ResumeInst.

(** a stand-in encoding of the patch messages (only the frame lengths matter here) *)
Definition xi_marshal (m : msg (list byte)) : list byte :=
  match m with
  | MHeader fi b => [1; fi]%N
  | MRange f bi sp => [2; f; bi; sp]%N
  | MData d => (3 :: d)%N
  | MEnd => [4]%N
  | MBsHeader t => [5; t]%N
  | MCtrl a c s => (6 :: a ++ c)%N
  | MCtrlEof => [7]%N
  end.

Definition xi_emit := emit_w xi_marshal ex_msgs seek_beh.
Definition xi_resume := src_resume_w xi_marshal ex_msgs seek_beh 0.
Definition xi_sel : N -> bool := fun _ => true.          (* the new file's path exists in the old build *)
Definition xi_run := ob_run 4 1 enc dec magic 4 ex_tsize ex_ssize 1 ex_old ex_old ex_range ex_bs xi_sel xi_emit.
Definition xi_start := ob_start ex_ssize ex_d0.
Definition xi_resumed := ob_resumed 4 1 enc dec magic 4 ex_tsize ex_ssize 1 ex_old ex_old ex_range ex_bs xi_sel xi_emit xi_resume.
Definition xi_commit := ob_commit dec magic 1 ex_old ex_old xi_sel.
Definition xi_first := xi_run (fun _ => true) (fun _ => false) xi_start ex_msgs.

Definition xi_ck0 : ckpt (unit + ew_ckpt) := mkck _ (mkmc 0 0) 0 false bowl0 0 (inl tt) 0%Z 0.
Definition xi_offer : ckpt (unit + ew_ckpt) * (N -> list byte) :=
  match xi_first with
  | Finished _ _ _ s => nth 1 (s_offers _ _ _ s) (xi_ck0, ex_d0)
  | _ => (xi_ck0, ex_d0)
  end.

(** the crash disk: the 21 covered bytes, then junk, a stale end marker, junk *)
Definition xi_crash : N -> list byte :=
  fun g => if N.eqb g 0
           then [0; 111; 239; 15; 0; 8; 8; 1; 26; 4; 9; 9; 1; 2; 6; 8; 1; 26; 2; 3; 4;  42; 3; 8; 248; 15; 42]%N
           else [77]%N.

Lemma resume_instantiated_example_lemma :
  exists Sf,
    xi_run (fun _ => false) (fun _ => false) xi_start ex_msgs = Finished _ _ _ Sf /\
    ob_sized 4 1 enc dec magic 4 ex_tsize ex_ssize 1 ex_old ex_old ex_range ex_bs xi_sel xi_emit xi_start ex_msgs /\
    (forall g, ob_raw_ok ex_ssize xi_sel g (ex_d0 g)) /\
    xi_commit Sf = Some [Some ex_new] /\
    ob_offered 4 1 enc dec magic 4 ex_tsize ex_ssize 1 ex_old ex_old ex_range ex_bs xi_sel xi_emit xi_resume
               ex_msgs ex_d0 (fst xi_offer) (snd xi_offer) /\
    ck_msg _ (fst xi_offer) = mkmc 3 2 /\ ck_woff _ (fst xi_offer) = 6%N /\ ck_wdata _ (fst xi_offer) = inr (6%N, 21%N) /\
    ob_crash ex_ssize xi_sel (fst xi_offer) (snd xi_offer) xi_crash /\
    snd xi_offer 0%N <> xi_crash 0%N /\
    exists sf, xi_resumed (fun _ => false) (fun _ => false) (fst xi_offer) xi_crash ex_msgs = Finished _ _ _ sf /\
               xi_commit sf = Some [Some ex_new].
Proof.
  eexists. split; [vm_compute; reflexivity|].
  split. { vm_compute. repeat split; auto; discriminate. }
  split. { intros g. exact I. }
  split; [vm_compute; reflexivity|].
  split.
  { eapply (off_first _ _ _ _ _ _ _ _ _ _ _ _ _ _ _ _ _ _ _ _ _ _ _ _ _ _ (fun _ => true) (fun _ => false)).
    - unfold xi_offer, xi_first, xi_run, xi_start, ob_run, ob_start. vm_compute. reflexivity.
    - unfold xi_offer, xi_first, xi_run, xi_start, ob_run, ob_start. vm_compute. right. left. reflexivity. }
  split; [vm_compute; reflexivity|]. split; [vm_compute; reflexivity|]. split; [vm_compute; reflexivity|].
  split.
  { unfold ob_crash, crash_ok. split; [|split].
    - vm_compute. repeat split; auto. repeat constructor.
    - intros g Hg. vm_compute in Hg. destruct g; discriminate Hg.
    - intros g _. exact I. }
  split; [vm_compute; discriminate|].
  (* through [outcome_of]: evaluating the final state itself would normalise its disk, a closure, under its binder *)
  apply outcome_of_Some. vm_compute. reflexivity.
Qed.

(** A sound source may describe, in the checkpoint it hands out during the read of message
    [p], any offset up to the END of that message (a decompressor at a block boundary inside
    the read); [ReadContext.Resume] with reader offset = the START of message [p] then fails
    ("delta < 0") - C13's guarantee is for [src < off] only.  The patcher never produces such
    a checkpoint ([offered_wf]): it pops after the read has returned. *)
Definition late_beh : behaviour := fun _ after => Some (mk_sc after after).
