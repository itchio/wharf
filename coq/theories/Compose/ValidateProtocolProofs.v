(** Compose/ValidateProtocolProofs.v - C16 composed with C05.

    [params_of] (Compose/ValidateProtocol.v) builds the parameters of the protocol model of
    Validate from the per-entry observations of the validator model.  Proved here:
    - the pre-pass items are what [dirs_pass] / [links_pass] find ([pre_items_spec]);
    - the aggregator of C16 run on the markers [params_of] hands it emits what C05's
      [aggregate] emits ([agg_run_aggregate]);
    - [clean] of the parameters holds iff the validator model succeeds and reports nothing
      ([clean_core_iff]);
    - a matching directory reports nothing ([matching_reports_nothing]).
    The end-to-end theorems are derived from these in Properties/C16.v. *)
From Wharf Require Import Base.Prelude Base.BlocksLemmas Val.VPool Val.VPoolProofs
                          Val.FileVal Val.FileValProofs.
From Wharf Require Import Heal.Protocol Compose.ValidateProtocol.
From Coq Require Import ZifyBool ZifyNat.
Local Open Scope Z_scope.

Definition file_or_closed (w : wound) : Prop := wk w = WFile \/ wk w = WClosed.

(** AggregateWounds' lastWound, when there is one, is a file wound *)
Definition last_is_file (last : option wound) : Prop :=
  match last with Some l => wk l = WFile | None => True end.

Lemma agg_run_aggregate maxSize ws : forall last,
  Forall file_or_closed ws -> last_is_file last ->
  agg_run (match last with Some _ => true | None => false end) (fmsgs_of maxSize last ws)
  = map msg_of (aggregate maxSize last ws).
Proof.
  induction ws as [|w r IH]; intros last Hk Hl.
  - destruct last as [l|]; cbn in *; [unfold msg_of, healthy; rewrite Hl|]; reflexivity.
  - inversion Hk as [|x y Hw Hr]; subst. cbn [fmsgs_of aggregate].
    destruct Hw as [Ew|Ew]; rewrite Ew; destruct last as [l|]; cbn in Hl;
      repeat match goal with |- context [if ?c then _ else _] => destruct c end;
      cbn [agg_run agg_in map app];
      match goal with |- context [aggregate maxSize ?l r] => rewrite <- (IH l Hr) by (cbn; assumption || exact I) end;
      unfold msg_of, healthy; cbn [wk]; rewrite ?Hl, ?Ew; reflexivity.
Qed.

Lemma fmsgs_of_length maxSize ws : forall last, length (fmsgs_of maxSize last ws) = length ws.
Proof.
  induction ws as [|w r IH]; intros last; [reflexivity|]. cbn [fmsgs_of].
  destruct (wk w), last; repeat match goal with |- context [if ?c then _ else _] => destruct c end;
    cbn [length]; rewrite IH; reflexivity.
Qed.

Lemma fmsgs_clean maxSize ws : forall last,
  forallb fmsg_clean (fmsgs_of maxSize last ws) = forallb (fun w => negb (wkind_eqb (wk w) WFile)) ws.
Proof.
  induction ws as [|w r IH]; intros last; [reflexivity|]. cbn [fmsgs_of forallb].
  destruct (wk w), last; repeat match goal with |- context [if ?c then _ else _] => destruct c end;
    cbn [forallb fmsg_clean wkind_eqb negb andb]; rewrite ?IH; reflexivity.
Qed.

Lemma reported_nil ws : reported ws = [] <-> forallb healthy ws = true.
Proof.
  unfold reported. induction ws as [|w r IH]; cbn; [tauto|].
  destruct (healthy w); cbn; [exact IH|split; discriminate].
Qed.

Lemma reported_nil_in ws w : reported ws = [] -> In w ws -> healthy w = true.
Proof. intros Hr. apply reported_nil in Hr. rewrite forallb_forall in Hr. apply Hr. Qed.

Lemma aggregate_healthy maxSize ws : forall last, last_is_file last ->
  forallb healthy (aggregate maxSize last ws) = match last with Some _ => false | None => forallb healthy ws end.
Proof.
  induction ws as [|w r IH]; intros last Hl; cbn [aggregate].
  - destruct last as [l|]; cbn in *; [unfold healthy; rewrite Hl|]; reflexivity.
  - destruct (wk w) eqn:Ek; destruct last as [l|]; cbn in Hl;
      repeat match goal with |- context [if ?c then _ else _] => destruct c end;
      cbn [forallb]; rewrite ?IH by (cbn; assumption || exact I);
      unfold healthy; cbn [wk]; rewrite ?Hl, ?Ek; reflexivity.
Qed.

Lemma pass_all_fine {X} (judge : X -> verdict) k xs : forall i,
  Forall (fun x => judge x = Fine) xs -> pass judge k i xs = Some [].
Proof.
  induction xs as [|x r IH]; intros i Hf; [reflexivity|].
  inversion Hf as [|? ? Hx Hr]; subst. cbn [pass]. rewrite Hx. apply IH, Hr.
Qed.

Lemma dirs_pass_all_dir ds i : Forall (fun o => o = ODir) ds -> dirs_pass i ds = Some [].
Proof. intros Hf. rewrite dirs_pass_pass. apply pass_all_fine. refine (Forall_impl _ _ Hf). intros o. apply judge_dir_fine. Qed.

Lemma links_pass_all_match ls i : Forall (fun p => snd p = OLink (fst p)) ls -> links_pass i ls = Some [].
Proof.
  intros Hf. rewrite links_pass_pass. apply pass_all_fine. refine (Forall_impl _ _ Hf). intros [want o]. apply judge_link_fine.
Qed.

(** the items are what C05's passes find: for a pass with result [o], followed by the items [k],
    one [PWound] per wound, in order, then [k]; when the pass returns the I/O error, [PErr] after
    the wounds sent before it *)
Definition items_are (o : option (list wound)) (k items : list pitem) : Prop :=
  match o with
  | Some ws => items = map (fun _ => PWound) ws ++ k
  | None => exists n, items = repeat PWound n ++ [PErr]
  end.

Lemma items_cons x o k items : items_are o k items -> items_are (option_map (cons x) o) k (PWound :: items).
Proof. destruct o as [ws|]; cbn; [intros ->; reflexivity|intros [n ->]; exists (S n); reflexivity]. Qed.

Lemma link_items_spec ls : forall i, items_are (links_pass i ls) [] (link_items ls).
Proof.
  induction ls as [|[want o] r IH]; intros i; cbn [links_pass link_items]; [reflexivity|].
  destruct o; try (apply items_cons, IH); [|exists O; reflexivity].
  destruct (N.eqb dest want); [apply IH|apply items_cons, IH].
Qed.

Lemma dir_items_spec ds k : forall i, items_are (dirs_pass i ds) k (dir_items ds k).
Proof.
  induction ds as [|o r IH]; intros i; cbn [dirs_pass dir_items]; [reflexivity|].
  destruct o; try (apply items_cons, IH); [apply IH|exists O; reflexivity].
Qed.

Lemma dir_items_nil ds k : dir_items ds k = [] <-> Forall (fun o => o = ODir) ds /\ k = [].
Proof.
  induction ds as [|o r IH]; cbn [dir_items].
  - split; [intros E; split; [constructor|exact E]|intros [_ E]; exact E].
  - destruct o; try (split; [discriminate|intros [Hf _]; inversion Hf; discriminate]).
    rewrite IH. split; intros [Hf E]; (split; [|exact E]); [constructor; [reflexivity|exact Hf]|inversion Hf; assumption].
Qed.

Lemma link_items_nil ls : link_items ls = [] <-> Forall (fun p => snd p = OLink (fst p)) ls.
Proof.
  induction ls as [|[want o] r IH]; cbn [link_items].
  - split; [constructor|reflexivity].
  - destruct o; try (split; [discriminate|intros Hf; inversion Hf as [|x y Hx _]; cbn in Hx; discriminate]).
    destruct (N.eqb dest want) eqn:E.
    + apply N.eqb_eq in E. subst dest. rewrite IH.
      split; [intros Hf; constructor; [reflexivity|exact Hf]|intros Hf; inversion Hf; assumption].
    + apply N.eqb_neq in E.
      split; [discriminate|intros Hf; inversion Hf as [|x y Hx _]; cbn in Hx; congruence].
Qed.

(** [p_pre] of [params_core]: the wounds of both passes when both succeed; otherwise some
    wounds followed by the early return *)
Lemma pre_items_spec ds ls :
  match dirs_pass 0 ds, links_pass 0 ls with
  | Some wd, Some wl => dir_items ds (link_items ls) = map (fun _ => PWound) (wd ++ wl)
  | _, _ => exists n, dir_items ds (link_items ls) = repeat PWound n ++ [PErr]
  end.
Proof.
  pose proof (dir_items_spec ds (link_items ls) 0) as Hd. pose proof (link_items_spec ls 0) as Hl.
  destruct (dirs_pass 0 ds) as [wd|]; [|exact Hd].
  destruct (links_pass 0 ls) as [wl|]; cbn in Hd, Hl.
  - rewrite Hd, Hl, app_nil_r, map_app. reflexivity.
  - destruct Hl as [n En]. exists (length wd + n)%nat. rewrite Hd, En, repeat_app, <- app_assoc.
    f_equal. clear. induction wd as [|w r IH]; cbn; [reflexivity|]. rewrite IH. reflexivity.
Qed.

Section Bridge.
  Context {H : Type}.
  Variable bs : Z.
  Hypothesis bs_pos : 0 < bs.
  Variable maxWound : Z.
  Variable hash : list N -> H.
  Variable heqb : H -> H -> bool.

  Notation bsn := (Z.to_nat bs).
  Notation grp := (group_of bs hash).
  Notation raw := (raw bs hash heqb).
  Notation file_of := (file_of bs maxWound hash heqb).
  Notation files_of := (files_of bs maxWound hash heqb).
  Notation file_wounds := (file_wounds bs maxWound hash heqb).
  Notation files_pass := (files_pass bs maxWound hash heqb).
  Notation validate_core := (validate_core bs maxWound hash heqb).
  Notation validate := (validate bs maxWound hash heqb).
  Notation params_core := (params_core bs maxWound hash heqb).
  Notation params_of := (params_of bs maxWound hash heqb).

  Lemma raw_kinds i signed content : Forall file_or_closed (raw i signed content).
  Proof. refine (Forall_impl _ _ (raw_marker bs bs_pos hash heqb i signed content)). intros w Hw. apply Hw. Qed.

  Lemma kinds_healthy ws : Forall file_or_closed ws ->
    forallb (fun w => negb (wkind_eqb (wk w) WFile)) ws = forallb healthy ws.
  Proof.
    induction 1 as [|w r Hw _ IH]; cbn [forallb]; [reflexivity|].
    rewrite IH. unfold healthy. destruct Hw as [E|E]; rewrite E; reflexivity.
  Qed.

  (** the two groups: [length content / bs] markers before the size check, at most one after *)
  Lemma file_of_split i signed content :
    match file_of i signed (OFile content) with
    | FData ws1 _ ws2 =>
        length ws1 = (length content / bsn)%nat /\
        length ws2 = (if (length content mod bsn =? 0)%nat then 0 else 1)%nat
    | _ => False
    end.
  Proof.
    cbn [ValidateProtocol.file_of]. fold (raw i signed content).
    assert (Hraw : length (raw i signed content) = length (blocks bsn content)).
    { rewrite (raw_eq bs bs_pos). apply wounds_from_length. }
    assert (Hb : (0 < bsn)%nat) by lia.
    set (n := length content). set (q := (n / bsn)%nat).
    assert (Hblocks : length (blocks bsn content) = (q + (if (n mod bsn =? 0)%nat then 0 else 1))%nat).
    { pose proof (Nat.div_mod n bsn ltac:(lia)) as Hdm. pose proof (Nat.mod_upper_bound n bsn ltac:(lia)) as Hm.
      fold q in Hdm. set (k := length (blocks bsn content)).
      (* [k] is the least number of blocks that cover [n] bytes *)
      assert (Hlt : forall j, (j < k)%nat <-> (j * bsn < n)%nat) by (intros j; apply blocks_length_iff; exact Hb).
      pose proof (Hlt k) as Hk. pose proof (Hlt (k - 1)%nat) as Hk1.
      destruct (n mod bsn =? 0)%nat eqn:E; [apply Nat.eqb_eq in E|apply Nat.eqb_neq in E]; nia. }
    rewrite firstn_length, skipn_length, fmsgs_of_length, Hraw, Hblocks. fold n q.
    destruct (n mod bsn =? 0)%nat; lia.
  Qed.

  (** per file: C16's "yields healthy markers only" = C05's "nothing reported" *)
  Lemma file_clean_healthy i signed o :
    file_clean (file_of i signed o) = forallb healthy (file_wounds i signed o).
  Proof.
    destruct o; try reflexivity.
    cbn [ValidateProtocol.file_of FileVal.file_wounds]. fold (raw i signed content).
    destruct (Z.of_nat (length content) =? Z.of_nat (length signed)); cbn [file_clean].
    - rewrite <- forallb_app, firstn_skipn, fmsgs_clean, (kinds_healthy _ (raw_kinds i signed content)).
      rewrite aggregate_healthy by exact I. reflexivity.
    - rewrite forallb_app. symmetry. apply andb_false_r.
  Qed.

  Lemma files_clean_healthy fs : forall i,
    forallb file_clean (files_of i fs) = forallb healthy (files_pass i fs).
  Proof.
    induction fs as [|[signed o] r IH]; intros i; cbn [ValidateProtocol.files_of FileVal.files_pass forallb]; [reflexivity|].
    rewrite forallb_app, file_clean_healthy, IH. reflexivity.
  Qed.

  Lemma file_clean_iff i signed o :
    file_clean (file_of i signed o) = true <-> reported (file_wounds i signed o) = [].
  Proof. rewrite file_clean_healthy. symmetry. apply reported_nil. Qed.

  Lemma files_clean_iff fs : forall i,
    forallb file_clean (files_of i fs) = true <-> reported (files_pass i fs) = [].
  Proof. intros i. rewrite files_clean_healthy. symmetry. apply reported_nil. Qed.

  (** on effective observations *)
  Lemma clean_core_iff cap sf cf ctx0 ds ls fs :
    clean (params_core cap sf cf ctx0 ds ls fs) = true <->
    exists ws, validate_core ds ls fs = Some ws /\ reported ws = [].
  Proof.
    unfold clean, ValidateProtocol.params_core, FileVal.validate_core. cbn [p_pre p_files].
    pose proof (pre_items_spec ds ls) as Hp.
    destruct (dirs_pass 0 ds) as [wd|] eqn:Ed; [destruct (links_pass 0 ls) as [wl|] eqn:El|].
    2, 3: destruct Hp as [n ->]; split; [destruct n; cbn; discriminate|intros [ws [X _]]; discriminate].
    rewrite Hp, files_clean_healthy. split.
    - intros Hc. destruct (wd ++ wl) eqn:E; [|discriminate].
      exists (files_pass 0 fs). rewrite app_assoc, E. split; [reflexivity|]. apply reported_nil, Hc.
    - intros [ws [[= <-] Hr]]. rewrite !reported_app in Hr.
      apply app_eq_nil in Hr. destruct Hr as [H1 Hr]. apply app_eq_nil in Hr. destruct Hr as [H2 H3].
      (* a pass that reports nothing has sent nothing *)
      rewrite (dirs_pass_all_dir ds 0 (dirs_pass_clean ds 0 wd Ed H1)) in Ed.
      rewrite (links_pass_all_match ls 0 (links_pass_clean ls 0 wl El H2)) in El.
      injection Ed as <-. injection El as <-. apply reported_nil, H3.
  Qed.

  Lemma under_all_false flags anc : Forall (fun b => b = false) flags -> under flags anc = false.
  Proof.
    intros Hf. unfold under. induction anc as [|a r IH]; [reflexivity|]. cbn [existsb]. rewrite IH, orb_false_r.
    destruct (nth_in_or_default a flags false) as [Hin|E]; [|exact E].
    rewrite Forall_forall in Hf. apply Hf. exact Hin.
  Qed.

  Lemma eff_dirs_all_dir_conv ds : forall flags,
    Forall (fun b => b = false) flags -> Forall (fun p => snd p = ODir) ds ->
    Forall (fun o => o = ODir) (fst (eff_dirs flags ds)) /\ Forall (fun b => b = false) (snd (eff_dirs flags ds)).
  Proof.
    induction ds as [|[anc o] r IH]; intros flags Hfl Hd; cbn [eff_dirs]; [split; [constructor|exact Hfl]|].
    inversion Hd as [|x y Hx Hr]; subst. cbn [snd] in Hx. subst o.
    rewrite (under_all_false flags anc Hfl). cbn [eff is_dir negb].
    specialize (IH (flags ++ [false])).
    destruct (eff_dirs (flags ++ [false]) r) as [es fl]. cbn [fst snd] in *.
    destruct IH as [H1 H2]; [apply Forall_app; split; [exact Hfl|constructor; [reflexivity|constructor]]|exact Hr|].
    split; [constructor; [reflexivity|exact H1]|exact H2].
  Qed.

  Section Pristine.
    Hypothesis heqb_refl : forall h, heqb h h = true.        (* bytes.Equal(x, x) *)

    Lemma raw_pristine i signed : forallb healthy (raw i signed signed) = true.
    Proof.
      rewrite (raw_eq bs bs_pos). apply forallb_forall, Forall_forall, wounds_from_healthy.
      cbn [Nat.add]. intros j b Hb. rewrite group_of_blocks, vae_map, Hb. apply heqb_refl.
    Qed.

    Lemma file_pristine i signed : reported (file_wounds i signed (OFile signed)) = [].
    Proof.
      cbn [FileVal.file_wounds]. fold (raw i signed signed). rewrite Z.eqb_refl.
      apply reported_nil. rewrite aggregate_healthy by exact I. apply raw_pristine.
    Qed.

    Lemma files_pristine fs : forall i,
      Forall (fun p => snd p = OFile (fst p)) fs -> reported (files_pass i fs) = [].
    Proof.
      induction fs as [|[signed o] r IH]; intros i Hf; [reflexivity|].
      inversion Hf as [|x y Hx Hr]; subst. cbn [fst snd] in Hx. subst o.
      cbn [FileVal.files_pass]. rewrite reported_app, file_pristine, (IH (i + 1) Hr). reflexivity.
    Qed.

    (** the converse of [never_false_valid]: validation of a directory in which every signed
        directory is a directory, every symlink has the signed destination and every file is a
        regular file with the signed content succeeds and reports nothing *)
    Theorem matching_reports_nothing ds ls fs :
      matching ds ls fs -> exists ws, validate ds ls fs = Some ws /\ reported ws = [].
    Proof.
      intros [Hd [Hl Hf]]. rewrite (validate_unfold bs maxWound hash heqb).
      destruct (eff_dirs_all_dir_conv ds [] ltac:(constructor) Hd) as [He Hfl].
      set (fl := snd (eff_dirs [] ds)) in *.
      unfold FileVal.validate_core.
      rewrite (dirs_pass_all_dir _ 0 He).
      rewrite (links_pass_all_match _ 0).
      - eexists. split; [reflexivity|]. cbn [app]. apply files_pristine, Forall_map.
        refine (Forall_impl _ _ Hf). intros [[anc s0] o0] ->. rewrite (under_all_false fl anc Hfl). reflexivity.
      - apply Forall_map. refine (Forall_impl _ _ Hl). intros [[anc w0] o0] ->.
        rewrite (under_all_false fl anc Hfl). reflexivity.
    Qed.
  End Pristine.

  Lemma params_of_cons cap sf cf ctx0 ds ls fs : p_cons (params_of cap sf cf ctx0 ds ls fs) = guardian.
  Proof. reflexivity. Qed.
  Lemma params_of_closefail cap sf cf ctx0 ds ls fs : p_closefail (params_of cap sf cf ctx0 ds ls fs) = cf.
  Proof. reflexivity. Qed.
  Lemma params_of_startfail cap sf cf ctx0 ds ls fs : p_startfail (params_of cap sf cf ctx0 ds ls fs) = sf.
  Proof. reflexivity. Qed.
  Lemma params_of_ctx0 cap sf cf ctx0 ds ls fs : p_ctx0 (params_of cap sf cf ctx0 ds ls fs) = ctx0.
  Proof. reflexivity. Qed.
  Lemma params_of_cap cap sf cf ctx0 ds ls fs : p_cap (params_of cap sf cf ctx0 ds ls fs) = cap.
  Proof. reflexivity. Qed.
End Bridge.
