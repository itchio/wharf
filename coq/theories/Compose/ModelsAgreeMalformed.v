(** C01 and C10 are two models of pwr/patcher (Resume loop, processRsync, processBsdiff,
    wsync.ApplySingleFull, bsdiff Apply).  Patch/Patcher.v (C01) is concrete: frames carry bytes
    (Patch/Reinterp.v), the output is a tree, the arithmetic is unbounded [Z].  Patch/Malformed.v
    (C10) is abstract: frames carry field NUMBERS, varint VALUES and payload LENGTHS only, the
    output is a byte counter, the arithmetic is int64 ([wrap64]) and the file system refuses
    offsets above [maxoff].

    This file defines how a C01 frame list is seen by the C10 model (the payload of every
    length-delimited field is replaced by its length), the outcome classes that are compared and
    the (only) hypotheses under which the two relay loops can be compared: the offset
    [blockSize * BlockIndex] a block-range op seeks to fits int64 and the file system's limit -
    C01 does not model the overflow ("Not modelled: int64 overflow of offsets" in its header).
    Definitions only; proofs in Compose/ModelsAgreeMalformedProofs.v. *)
From Wharf Require Import Base.Prelude Bowl.Fresh Patch.Reinterp Patch.Stream Patch.Patcher.
From Wharf Require Export Compose.ModelsAgreeResume.
From Wharf Require Patch.Malformed.
Local Open Scope Z_scope.

Module M := Wharf.Patch.Malformed.

(** ---- frames ---- *)

Definition fld (f : wfield) : M.field :=
  match f with
  | (n, WVarint u) => (n, M.V u)
  | (n, WBytes b) => (n, M.L (Z.of_nat (length b)))
  end.

(** a frame of a C01 patch as the C10 model reads it *)
Definition frame_of (m : pmsg) : M.frame := M.G (map fld (fields_of m)).
Definition stream_of (ms : list pmsg) : M.stream := map frame_of ms.

(** the typed messages, payloads replaced by their lengths *)
Definition len_sh (h : sync_header) : M.syncheader := M.mkSH (sh_type h) (sh_file h).
Definition len_so (o : sync_op) : M.syncop :=
  M.mkOp (so_type o) (so_file o) (so_block o) (so_span o) (Z.of_nat (length (so_data o))).
Definition len_ct (c : control) : M.control :=
  M.mkCtl (Z.of_nat (length (ct_add c))) (Z.of_nat (length (ct_copy c))) (ct_seek c) (ct_eof c).

(** the containers: C10 keeps the list of the file sizes *)
Definition sizes_of (c : container) : list Z := map snd (c_files c).

(** [aligned oldC olds] (Compose/ModelsAgreeResume.v): the pool serves files of the declared
    sizes ("a file-system pool whose files exist with the sizes of the container",
    Patch/Malformed.v, comment of [apply_block_range]) *)

(** ---- outcome classes ---- *)

(** a C01 loop that returns the unread messages, against a C10 loop that returns the unread
    stream: same class (ok | error | panic), and on ok the same position in the patch *)
Definition step_agrees {X : Type} (r : res (list pmsg * X)) (x : M.step M.stream) : Prop :=
  match r, x with
  | Ok (rest, _), M.Cont s => s = stream_of rest
  | Err, M.Stop M.Err => True
  | Panic, M.Stop (M.Panic _) => True
  | _, _ => False
  end.

Definition res_agrees {X : Type} (r : res X) (x : M.res) : Prop :=
  match r, x with
  | Ok _, M.Ok => True
  | Err, M.Err => True
  | Panic, M.Panic _ => True
  | _, _ => False
  end.

(** ---- what C01 does not model ---- *)

Definition i64 (z : Z) : Prop := - 2^63 <= z < 2^63.

(** [target.Seek(blockSize*op.BlockIndex)]: the product does not wrap and the file system lets
    the file seek there.  Needed for the outcome class. *)
Definition seek_fits (bs maxoff : Z) (o : sync_op) : Prop :=
  so_type o = T_BLOCK_RANGE -> i64 (bs * so_block o) /\ bs * so_block o <= maxoff.

(** [fixedSize], [lastIndex], [blockSize*(lastIndex+1)], [opSize] do not wrap.  Needed only for
    the NUMBER of bytes written (which no outcome of an rsync series depends on). *)
Definition size_fits (bs : Z) (o : sync_op) : Prop :=
  so_type o = T_BLOCK_RANGE ->
  i64 ((so_span o - 1) * bs) /\ i64 (so_block o + (so_span o - 1)) /\
  i64 (bs * (so_block o + (so_span o - 1) + 1)) /\ i64 ((so_span o - 1) * bs + bs).

(** the ops the relay loop applies: up to the end marker *)
Fixpoint relay_fits (bs maxoff : Z) (ms : list pmsg) : Prop :=
  match ms with
  | [] => True
  | m :: r => if so_type (as_so m) =? HEY then True
              else seek_fits bs maxoff (as_so m) /\ relay_fits bs maxoff r
  end.

(** processRsync: the first op, then the relay loop *)
Definition rsync_fits (bs maxoff : Z) (ms : list pmsg) : Prop :=
  match ms with
  | [] => True
  | m :: r => seek_fits bs maxoff (as_so m) /\ relay_fits bs maxoff r
  end.

(** the series of a whole patch, found the way the patcher finds them; [n] files left *)
Fixpoint run_fits (bs maxoff : Z) (whitelist : option (list Z)) (n : nat) (ms : list pmsg) : Prop :=
  match n with
  | O => True
  | S n' =>
    match ms with
    | [] => True
    | m :: r =>
      let sh := as_sh m in
      if negb ((sh_type sh =? SH_RSYNC) || (sh_type sh =? SH_BSDIFF)) then True
      else if wl_skip whitelist (sh_file sh) then
        match skip_file (sh_type sh) r with Ok r' => run_fits bs maxoff whitelist n' r' | _ => True end
      else if sh_type sh =? SH_RSYNC then
        rsync_fits bs maxoff r /\
        match skip_rsync r with Ok r' => run_fits bs maxoff whitelist n' r' | _ => True end
      else
        match skip_bsdiff r with Ok r' => run_fits bs maxoff whitelist n' r' | _ => True end
    end
  end.

(** an open entry writer whose path holds a regular file: [Write] cannot fail *)
Definition wfile (w : wst) : Prop := exists d, tlookup (p_tree (w_st w)) (w_path w) = Some (File d).
