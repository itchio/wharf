(** Proofs about Compose/PatchBytes.v (C01 x C13): the patcher on a proper prefix of the frames
    WritePatch produces; the grammar of the per-file part and the typed decoding of bodies; what
    [patch_file] writes, what [read_patch_bytes] reads from it and from a cut of it; on these
    Properties/C01.v builds its theorems about bytes. *)
From Coq Require Import ZifyBool ZifyNat ZifyN.
From Wharf Require Import Base.Prelude Base.ListLemmas Bowl.Fresh Patch.Reinterp
  Patch.Stream Patch.Patcher Patch.DiffApplyProofs
  Wire.Frame Wire.FrameProofs Compose.PatchBytes.
Local Open Scope Z_scope.

Lemma apply_truncated_frames bs differ old new algo quality k :
  0 < bs -> wf_build new -> fits63 old -> fits63 new -> differ_ok bs differ old new ->
  (k < length (write_patch differ algo quality old new))%nat ->
  apply_patch_fresh bs (contents_of old) None (firstn k (write_patch differ algo quality old new)) = Err.
Proof.
  intros Hbs WFN FO FN DOK Hk. unfold write_patch in *.
  (* cut inside the header and the two containers: the patcher stops at once; cut later:
     [apply_series_prefix] *)
  destruct k as [|[|[|k]]]; try reflexivity.
  cbn [firstn length] in *. rewrite map_length in Hk.
  unfold apply_patch_fresh, read_patch. rewrite firstn_map, frames_msgs_map. cbn [option_map].
  rewrite patch_msgs_series in *.
  apply (apply_series_prefix bs _ _ new WFN FN); [apply patch_series_write; assumption|lia].
Qed.

Lemma grun_app a : forall x b, grun x (a ++ b) = match grun x a with Some x' => grun x' b | None => None end.
Proof.
  induction a as [|m a IH]; intros x b; cbn [app grun]; [reflexivity|].
  destruct (gstep x m); [apply IH|reflexivity].
Qed.

Lemma grun_firstn ms : forall x k, grun x ms <> None -> grun x (firstn k ms) <> None.
Proof. intros x k H E. apply H. rewrite <- (firstn_skipn k ms), grun_app, E. reflexivity. Qed.

Lemma grun_ops ops : grun XSyncOp (map op_msg ops) = Some XSyncOp.
Proof.
  induction ops as [|o ops IH]; [reflexivity|].
  cbn [map grun]. destruct o; cbn [op_msg gstep so_type]; exact IH.
Qed.

Lemma grun_series differ oldC i f : grun XSyncHeader (file_series differ oldC i f) = Some XSyncHeader.
Proof.
  unfold file_series. cbn [grun gstep sh_type]. change (SH_RSYNC =? SH_BSDIFF) with false. cbn iota.
  rewrite grun_app, grun_ops. reflexivity.
Qed.

Lemma grun_all_series differ oldC fs : forall i, grun XSyncHeader (all_series differ oldC i fs) = Some XSyncHeader.
Proof.
  induction fs as [|f fs IH]; intros i; cbn [all_series]; [reflexivity|].
  rewrite grun_app, grun_series. apply IH.
Qed.

Lemma patch_msgs_grammar differ old new : grammar_ok (patch_msgs differ old new).
Proof. unfold grammar_ok, patch_msgs. rewrite grun_all_series. discriminate. Qed.

Lemma WOk_inj a b : WOk a = WOk b -> a = b.
Proof. intros H. injection H as H. exact H. Qed.

Section Decode.
  Variable C : patch_codecs.
  Hypothesis RT : codecs_roundtrip C.

  Lemma decode_one_gstep x m x' : gstep x m = Some x' -> decode_one C x (marshal_pmsg C m) = Some (m, x').
  Proof.
    destruct RT as (_ & _ & Hsh & Hso & Hbh & Hct).
    destruct x, m; cbn [gstep]; intros H; try discriminate H; cbn [decode_one marshal_pmsg];
      rewrite ?Hsh, ?Hso, ?Hbh, ?Hct; injection H as <-; reflexivity.
  Qed.

  Lemma decode_msgs_grun ms : forall x, grun x ms <> None -> decode_msgs C x (map (marshal_pmsg C) ms) = ms.
  Proof.
    induction ms as [|m ms IH]; intros x H; [reflexivity|]. cbn [grun] in H. cbn [map decode_msgs].
    destruct (gstep x m) as [x'|] eqn:E; [|contradiction H; reflexivity].
    rewrite (decode_one_gstep x m x' E). f_equal. apply IH. exact H.
  Qed.

  Lemma decode_frames_firstn t s ms k :
    grammar_ok ms ->
    decode_frames C (map (marshal_frame C) (firstn k (FContainer t :: FContainer s :: map FMsg ms)))
    = firstn k (FContainer t :: FContainer s :: map FMsg ms).
  Proof.
    intros G. destruct RT as (_ & Htc & _).
    destruct k as [|[|k]]; cbn [firstn map decode_frames marshal_frame]; rewrite ?Htc; try reflexivity.
    rewrite firstn_map, map_map.
    change (map (fun x => marshal_frame C (FMsg x)) (firstn k ms)) with (map (marshal_pmsg C) (firstn k ms)).
    rewrite decode_msgs_grun by (apply grun_firstn; exact G). reflexivity.
  Qed.

  Lemma decode_frames_all t s ms :
    grammar_ok ms ->
    decode_frames C (map (marshal_frame C) (FContainer t :: FContainer s :: map FMsg ms))
    = FContainer t :: FContainer s :: map FMsg ms.
  Proof.
    intros G. pose proof (decode_frames_firstn t s ms (length (FContainer t :: FContainer s :: map FMsg ms)) G) as H.
    rewrite firstn_all in H. exact H.
  Qed.

  (** C13's framing moves the bodies: the typed writer is the body writer after marshalling *)
  Lemma stream_bodies (fs : list pframe) :
    stream (marshal_frame C) fs = stream (fun b : list byte => b) (map (marshal_frame C) fs).
  Proof. unfold stream. rewrite map_id. reflexivity. Qed.

  Lemma bodies_fit_msgs fs : bodies_fit C fs -> Forall (fits_msg (fun b : list byte => b)) (map (marshal_frame C) fs).
  Proof. intros H. apply Forall_map. exact H. Qed.

  Lemma patch_file_ok a q rest :
    bodies_fit C (FHeader a q :: rest) ->
    patch_file C a q rest =
    WOk (magic_enc PATCH_MAGIC ++ wire_frame (marshal_ph C (a, q)) ++ compress_wire C a q (stream (marshal_frame C) rest)).
  Proof.
    intros Hf. inversion Hf as [|? ? Hh Hr]; subst. unfold patch_file, write_stream.
    rewrite (write_msgs_ok (marshal_frame C) [FHeader a q]) by (constructor; [exact Hh|constructor]).
    rewrite (write_msgs_ok (marshal_frame C) rest) by exact Hr.
    unfold stream at 1. cbn [map concat marshal_frame]. rewrite app_nil_r. reflexivity.
  Qed.

  Lemma read_bodies_unfold a cap z :
    read_bodies C a cap z =
    match decompress_wire C a z with
    | Some s => read_msgs (fun b : list byte => Some b) cap s
    | None => ([], EUnexpectedEOF)
    end.
  Proof. reflexivity. Qed.

  Lemma read_patch_bytes_cut3 cap a q p2 :
    (N.of_nat (length (marshal_ph C (a, q))) < 2 ^ 56)%N ->
    read_patch_bytes C cap (magic_enc PATCH_MAGIC ++ wire_frame (marshal_ph C (a, q)) ++ p2) =
    let '(bodies, e) := read_bodies C a cap p2 in (FHeader a q :: decode_frames C bodies, e).
  Proof.
    intros Hh. destruct RT as (Hph & _). unfold read_patch_bytes.
    rewrite expect_magic_enc by (unfold PATCH_MAGIC; lia). rewrite Z.eqb_refl.
    rewrite (read_one_frame (marshal_ph C) (unmarshal_ph C) Hph cap (a, q) p2) by (apply fits_lt_63; exact Hh).
    reflexivity.
  Qed.

  Lemma decompress_compress_wire a q s :
    compression_roundtrips C a q -> decompress_wire C a (compress_wire C a q s) = Some s.
  Proof.
    intros [->|H]; unfold decompress_wire, compress_wire; [reflexivity|].
    destruct (a =? ALGO_NONE); [reflexivity|apply H].
  Qed.

  Lemma read_patch_bytes_full cap a q t s ms :
    grammar_ok ms -> compression_roundtrips C a q ->
    bodies_fit C (FHeader a q :: FContainer t :: FContainer s :: map FMsg ms) ->
    exists z, patch_file C a q (FContainer t :: FContainer s :: map FMsg ms) = WOk z /\
              read_patch_bytes C cap z = (FHeader a q :: FContainer t :: FContainer s :: map FMsg ms, EEOF).
  Proof.
    intros G HC Hf. eexists. split; [apply patch_file_ok; exact Hf|].
    inversion Hf as [|? ? Hh Hr]; subst.
    rewrite read_patch_bytes_cut3 by exact Hh.
    unfold read_bodies, read_stream. rewrite decompress_compress_wire, stream_bodies by exact HC.
    rewrite (read_msgs_stream (fun b : list byte => b) (fun b => Some b) (fun b => eq_refl)) by (apply bodies_fit_msgs; exact Hr).
    rewrite decode_frames_all by exact G. reflexivity.
  Qed.

  Lemma read_cut_in_magic cap p l :
    l <> [] -> magic_enc PATCH_MAGIC = p ++ l ->
    exists e, read_patch_bytes C cap p = ([], e) /\ (e = EEOF \/ e = EUnexpectedEOF).
  Proof.
    intros Hl E. unfold read_patch_bytes.
    destruct p as [|b0 [|b1 [|b2 [|b3 p]]]]; cbn [expect_magic]; try (eexists; split; [reflexivity|auto]).
    (* the magic number is four bytes *)
    exfalso. apply (f_equal (@length byte)) in E. rewrite app_length in E. destruct l; [contradiction|].
    unfold magic_enc, le32 in E. cbn [length] in E. lia.
  Qed.

  Lemma read_cut_before_body cap a q p x l :
    (N.of_nat (length (marshal_ph C (a, q))) < 2 ^ 56)%N ->
    magic_enc PATCH_MAGIC ++ wire_frame (marshal_ph C (a, q)) = p ++ x :: l ->
    exists e, read_patch_bytes C cap p = ([], e) /\ (e = EEOF \/ e = EUnexpectedEOF).
  Proof.
    intros Hh E. unfold read_patch_bytes.
    destruct (app_cut _ _ _ _ E) as [(p1 & -> & E1)|(y & l' & E1 & _)].
    - rewrite expect_magic_enc by (unfold PATCH_MAGIC; lia). rewrite Z.eqb_refl.
      destruct (read_one_truncated_frame (unmarshal_ph C) cap (marshal_ph C (a, q)) p1 (x :: l) Hh E1 ltac:(discriminate))
        as (e & c & rest & cap' & Er & He).
      rewrite Er. exists e. split; [reflexivity|exact He].
    - apply (read_cut_in_magic cap p (y :: l')); [discriminate | exact E1].
  Qed.

  Lemma read_cut_in_header cap a q p1 l :
    (N.of_nat (length (marshal_ph C (a, q))) < 2 ^ 56)%N ->
    l <> [] -> wire_frame (marshal_ph C (a, q)) = p1 ++ l ->
    exists e, read_patch_bytes C cap (magic_enc PATCH_MAGIC ++ p1) = ([], e) /\ (e = EEOF \/ e = EUnexpectedEOF).
  Proof.
    intros Hh Hl E. destruct l as [|x l]; [congruence|].
    apply (read_cut_before_body cap a q _ x l Hh). rewrite E, app_assoc. reflexivity.
  Qed.

  (** what the decompressor makes of a cut compressed part: nothing, or a first part of what was
      compressed - not all of it if it notices truncation *)
  Lemma decompress_cut a q s p2 qq :
    truncation_prefix C a q -> compress_wire C a q s = p2 ++ qq -> qq <> [] ->
    decompress_wire C a p2 = None \/
    exists s' r, decompress_wire C a p2 = Some s' /\ s = s' ++ r /\ (truncation_detected C a q -> r <> []).
  Proof.
    unfold decompress_wire, compress_wire. intros HT E Hqq. destruct (Z.eqb_spec a ALGO_NONE) as [Ea|Ea].
    - right. exists p2, qq. auto.
    - destruct HT as [Ea'|HT]; [contradiction|].
      destruct (HT _ _ _ E Hqq) as [Hn|(s' & r & Hs & Hsr)]; [left; exact Hn|].
      right. exists s', r. split; [exact Hs|]. split; [exact Hsr|].
      intros [Ea'|HD]; [contradiction|].
      destruct (HD _ _ _ E Hqq) as [Hn|(s'' & r'' & Hs'' & Hsr'' & Hr'')]; [congruence|].
      rewrite Hs in Hs''. injection Hs'' as <-. rewrite Hsr in Hsr''. apply app_inv_head in Hsr''. congruence.
  Qed.

  (** a cut patch file: the reader obtains a prefix of the written frames (what the framing
      and the typed decoding deliver before the stream ends), a proper one when the
      decompressor does not deliver everything *)
  Lemma read_patch_bytes_truncated cap a q rest p qq :
    (forall k, decode_frames C (map (marshal_frame C) (firstn k rest)) = firstn k rest) -> rest <> [] ->
    truncation_prefix C a q -> bodies_fit C (FHeader a q :: rest) ->
    patch_file C a q rest = WOk (p ++ qq) -> qq <> [] ->
    exists k e, read_patch_bytes C cap p = (firstn k (FHeader a q :: rest), e) /\
                (e = EEOF \/ e = EUnexpectedEOF) /\
                (truncation_detected C a q -> (k < length (FHeader a q :: rest))%nat).
  Proof.
    intros Hdec Hne HT Hf Hw Hqq. rewrite (patch_file_ok a q _ Hf) in Hw. apply WOk_inj in Hw.
    inversion Hf as [|? ? Hh Hr]; subst.
    rewrite app_assoc in Hw. destruct (app_cut _ _ _ _ Hw) as [(p2 & -> & E2)|(x & l & E1 & _)].
    2: { destruct (read_cut_before_body cap a q p x l Hh E1) as (e & Er & He).
         exists 0%nat, e. split; [exact Er|]. split; [exact He|]. intros _. cbn [length]. lia. }
    rewrite <- app_assoc.
    rewrite read_patch_bytes_cut3 by exact Hh. unfold read_bodies, read_stream.
    destruct (decompress_cut a q _ p2 qq HT E2 Hqq) as [Hn|(s' & r & Hs & Hsr & Hrd)]; [rewrite Hn|rewrite Hs].
    - exists 1%nat, EUnexpectedEOF. split; [reflexivity|]. split; [right; reflexivity|].
      intros _. destruct rest; [contradiction|]. cbn [length]. lia.
    - rewrite stream_bodies in Hsr.
      destruct (read_msgs_prefix (fun b : list byte => b) (fun b => Some b) (fun b => eq_refl)
                  (map (marshal_frame C) rest) cap s' r (bodies_fit_msgs rest Hr) Hsr) as (k & e & Er & He & Hk & _).
      rewrite Er, firstn_map, Hdec. rewrite map_length in Hk.
      exists (S k), e. split; [reflexivity|]. split; [exact He|]. intros HD. specialize (Hk (Hrd HD)). cbn [length]. lia.
  Qed.
End Decode.

Lemma truncation_detected_prefix (C : patch_codecs) algo quality :
  truncation_detected C algo quality -> truncation_prefix C algo quality.
Proof.
  intros [E|H]; [left; exact E|right]. intros s p q Ec Hq.
  destruct (H s p q Ec Hq) as [Hn|(s' & r & Hs & Hsr & _)]; [left; exact Hn|].
  right. exists s', r. split; assumption.
Qed.

(** uncompressed patches (the NONE setting) need no hypothesis about any decompressor *)
Lemma truncation_detected_none (C : patch_codecs) quality : truncation_detected C ALGO_NONE quality.
Proof. left. reflexivity. Qed.

Section AbstractDiffer.
  Variable C : patch_codecs.
  Hypothesis RT : codecs_roundtrip C.
  Variables (bs : Z) (differ : Z -> list byte -> list op) (old new : build) (algo quality : Z) (cap : N) (p q : list byte).
  Hypothesis Hbs : 0 < bs.
  Hypothesis WFN : wf_build new.
  Hypothesis FO : fits63 old.
  Hypothesis FN : fits63 new.
  Hypothesis DOK : differ_ok bs differ old new.

  Lemma patch_bytes_roundtrip :
    compression_roundtrips C algo quality ->
    bodies_fit C (write_patch differ algo quality old new) ->
    exists z, patch_bytes C differ algo quality old new = WOk z /\
              read_patch_bytes C cap z = (write_patch differ algo quality old new, EEOF).
  Proof.
    intros HC Hf. unfold write_patch in *. unfold patch_bytes.
    apply (read_patch_bytes_full C RT); [apply patch_msgs_grammar|exact HC|exact Hf].
  Qed.

  Lemma diff_apply_fresh_bytes_abstract_lemma :
    compression_roundtrips C algo quality ->
    bodies_fit C (write_patch differ algo quality old new) ->
    exists z t touched trace,
      patch_bytes C differ algo quality old new = WOk z /\
      read_patch_bytes C cap z = (write_patch differ algo quality old new, EEOF) /\
      apply_patch_bytes C bs (contents_of old) None cap z = Ok (t, touched, trace) /\
      touched = Z.of_nat (length (files_of new)) /\
      forall x, tlookup t x = tlookup new x.
  Proof.
    intros HC Hf. destruct (patch_bytes_roundtrip HC Hf) as (z & Hw & Hr).
    destruct (write_patch_applies bs differ old new algo quality Hbs WFN FO FN DOK) as (t & touched & trace & Ha & Ht & Hl).
    exists z, t, touched, trace. split; [exact Hw|]. split; [exact Hr|].
    unfold apply_patch_bytes. rewrite Hr. cbn [fst]. split; [exact Ha|]. split; assumption.
  Qed.

  (** a cut patch file: a prefix of the frames is read; the patcher returns [Err], unless the
      decompressor delivered everything, in which case the result is that of the whole file *)
  Theorem truncated_patch_abstract_lemma :
    truncation_prefix C algo quality ->
    bodies_fit C (write_patch differ algo quality old new) ->
    patch_bytes C differ algo quality old new = WOk (p ++ q) -> q <> [] ->
    exists k e,
      read_patch_bytes C cap p = (firstn k (write_patch differ algo quality old new), e) /\
      (e = EEOF \/ e = EUnexpectedEOF) /\
      (apply_patch_bytes C bs (contents_of old) None cap p = Err \/
       (exists t touched trace, apply_patch_bytes C bs (contents_of old) None cap p = Ok (t, touched, trace) /\
                                forall x, tlookup t x = tlookup new x)) /\
      (truncation_detected C algo quality ->
       (k < length (write_patch differ algo quality old new))%nat /\
       apply_patch_bytes C bs (contents_of old) None cap p = Err).
  Proof.
    intros HT Hf Hw Hq.
    destruct (read_patch_bytes_truncated C RT cap algo quality _ p q
                (fun k => decode_frames_firstn C RT _ _ _ k (patch_msgs_grammar differ old new)) ltac:(discriminate) HT Hf Hw Hq)
      as (k & e & Hr & He & Hk). fold (write_patch differ algo quality old new) in *.
    exists k, e. split; [exact Hr|]. split; [exact He|].
    unfold apply_patch_bytes. rewrite Hr. cbn [fst].
    destruct (Nat.lt_ge_cases k (length (write_patch differ algo quality old new))) as [Hlt|Hge].
    - pose proof (apply_truncated_frames bs differ old new algo quality k Hbs WFN FO FN DOK Hlt) as HE.
      split; [left; exact HE|]. intros _. split; [exact Hlt|exact HE].
    - split.
      + right. rewrite firstn_all2 by exact Hge.
        destruct (write_patch_applies bs differ old new algo quality Hbs WFN FO FN DOK) as (t & touched & trace & Ha & _ & Hl).
        exists t, touched, trace. split; assumption.
      + intros HD. specialize (Hk HD). lia.
  Qed.
End AbstractDiffer.
