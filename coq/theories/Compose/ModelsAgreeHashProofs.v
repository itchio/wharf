(** Models that were transcribed more than once agree - pairs 1 and 2 of the index
    Compose/ModelsAgree.v: the weak hash and the per-file block signature.

    wsync/hashes.go [βhash] is modelled by Sig/Weak.v [beta_hash] (C04) and by Wsync/Weak.v
    [bhash] / [weak_of] (C11, C08); wsync/hashes.go [CreateSignature] by Sig/Sign.v
    [create_signature] / [sign_file] (C04) and by Wsync/Sign.v [sign_file] (C11).  Each
    transcription has its own correspondence check; here they are proved equal.

    Both transcriptions follow Go's [uint32] arithmetic for EVERY block length: the factor
    [uint32(len(block)-1) - uint32(i) + 1] is [(len - i) mod 2^32] in Go and in Sig/Weak.v
    ([sub32] wraps as Go's subtraction does); Wsync/Weak.v multiplies by [len - i] and reduces
    the product.  Proofs, and [bh_of_ent], the C11 record of a block hash read as the C04 record
    (it occurs in [create_signature_models_agree], Properties/C04.v). *)
From Coq Require Import ZifyBool ZifyNat ZifyN.
From Wharf Require Import Base.Prelude.
From Wharf Require Base.WeakSum Sig.Weak Sig.WeakProofs Wsync.WeakProofs Sig.Scan Sig.ScanProofs Sig.Sign Sig.SignProofs Wsync.Weak Wsync.Library Wsync.Sign.
Local Open Scope N_scope.

Module SW := Wharf.Sig.Weak.
Module WW := Wharf.Wsync.Weak.
Module SS := Wharf.Sig.Sign.
Module WSg := Wharf.Wsync.Sign.
Module WL := Wharf.Wsync.Library.

Lemma low16_lt x : SW.low16 x < 65536.
Proof. exact (Sig.WeakProofs.low16_lt x). Qed.

(** Both loops keep their accumulators reduced modulo 2^32 ([WW.u32] is the same mask as
    [SW.u32]); no upper bound on [len] *)
Lemma beta_loops_agree (l : list N) : forall len i a b,
  i + N.of_nat (length l) = len ->
  SW.beta_loop len i a b l = WW.bhash_loop len i l a b.
Proof.
  induction l as [|v r IH]; intros len i a b Hi; [reflexivity|].
  cbn [SW.beta_loop WW.bhash_loop]. cbn [length] in Hi. change WW.u32 with SW.u32.
  rewrite Sig.WeakProofs.beta_step_a, Sig.WeakProofs.beta_step_b, !Sig.WeakProofs.u32_mod by lia.
  rewrite N.add_mod_idemp_r by discriminate. apply IH. lia.
Qed.

(** the C11 triple is the C04 value and the 16-bit halves of the two sums: both are
    [WeakSum.weak], [sum1], [sum2] of the block *)
Lemma bhash_agrees (block : list N) :
  WW.bhash block = (SW.beta_hash block, SW.low16 (fst (SW.beta_loop (N.of_nat (length block)) 0 0 0 block)),
                    SW.low16 (snd (SW.beta_loop (N.of_nat (length block)) 0 0 0 block))).
Proof.
  rewrite Wsync.WeakProofs.bhash_spec, Sig.WeakProofs.beta_hash_closed, (Sig.WeakProofs.beta_loop_closed block _ 0 0 0) by lia.
  cbn [fst snd]. rewrite !Sig.WeakProofs.low16_mod, !Sig.WeakProofs.mod32_mod16. reflexivity.
Qed.

Lemma weak_of_agrees (block : list N) : SW.beta_hash block = WW.weak_of block.
Proof. unfold WW.weak_of. rewrite Wsync.WeakProofs.bhash_spec. apply Sig.WeakProofs.beta_hash_closed. Qed.

(** a BlockHash of the C11 model as a BlockHash of the C04 model (same five fields) *)
Definition bh_of_ent {H : Type} (e : WL.ent H) : SS.blockhash H :=
  SS.mkbh (WL.efile e) (WL.eidx e) (WL.eweak e) (WL.estrong e) (WL.eshort e).

Lemma blocks_len_le {A} (bs : nat) (l b : list A) : In b (blocks bs l) -> (length b <= bs)%nat.
Proof.
  unfold blocks. generalize (length l) as fuel. intros fuel. revert l.
  induction fuel as [|f IH]; intros l Hin; [contradiction|].
  destruct l as [|x l]; [contradiction|]. destruct Hin as [<-|Hin].
  - rewrite firstn_length. lia.
  - apply (IH _ Hin).
Qed.

Section SignAgree.
  Variable H : Type.
  Variable strong : list N -> H.
  Variable bs : N.

  Lemma hash_block_agrees f i (b : list N) :
    bh_of_ent (WSg.hash_block strong bs f i b) = SS.hash_block bs SW.beta_hash strong f i b.
  Proof.
    unfold WSg.hash_block, SS.hash_block, bh_of_ent. cbn.
    rewrite weak_of_agrees. reflexivity.
  Qed.

  Lemma hash_blocks_agree f : forall (bl : list (list N)) i,
    map bh_of_ent (WSg.sign_blocks strong bs f i bl) = SS.hash_blocks bs SW.beta_hash strong f i bl.
  Proof.
    induction bl as [|b r IH]; intros i; [reflexivity|].
    cbn [WSg.sign_blocks SS.hash_blocks map].
    rewrite hash_block_agrees, IH. reflexivity.
  Qed.

  Lemma sign_file_agrees f (content : list N) :
    map bh_of_ent (WSg.sign_file strong bs f content) = SS.sign_file bs SW.beta_hash strong f content.
  Proof.
    unfold WSg.sign_file, SS.sign_file, WSg.file_blocks.
    destruct content as [|x l].
    - change (blocks (N.to_nat bs) (@nil N)) with (@nil (list N)). cbn [WSg.sign_blocks map].
      rewrite hash_block_agrees. reflexivity.
    - (* a non-empty list has a first block *)
      unfold blocks. cbn [length blocks_aux]. apply hash_blocks_agree.
  Qed.

  Lemma sign_all_agrees : forall (olds : list (list N)) f,
    map bh_of_ent (WSg.sign_all strong bs f olds) = SS.sign_all_from bs SW.beta_hash strong f olds.
  Proof.
    induction olds as [|o r IH]; intros f; [reflexivity|].
    cbn [WSg.sign_all SS.sign_all_from]. rewrite map_app, sign_file_agrees, IH. reflexivity.
  Qed.

  (** CreateSignature: C11's [sign_file] is what C04's model of the CODE ([create_signature]: the
      bufio.Scanner loop over ANY chunking of the file whose runs of empty reads stay below the
      scanner's tolerance, [hashBlock] per token, the synthetic empty block) hands to [writeHash] *)
  Lemma create_signature_agrees maxE f (chunks : list (list N)) eofl :
    0 < bs -> Sig.ScanProofs.runs_ok maxE maxE chunks ->
    SS.create_signature bs SW.beta_hash strong maxE f chunks eofl =
    (map bh_of_ent (WSg.sign_file strong bs f (concat chunks)), Sig.Scan.SEof).
  Proof.
    intros Hpos Hr. rewrite (SignProofs.create_signature_spec bs Hpos) by exact Hr.
    rewrite sign_file_agrees. reflexivity.
  Qed.
End SignAgree.
