(** Facts about the general filesystem model [FS/{Tree,Ops}.v] that the two refinement proofs
    share: where path resolution stops, what every operation does on a path that resolves
    literally, all in terms of [lookup] (so that they transfer along [tree_equiv]).  Before
    them the lemmas of [inits]; [gen_wf], the general-model states the small models are about,
    is defined here. *)
From Wharf Require Import Base.ListLemmas Base.PathMap FS.Light FS.Tree FS.TreeProofs FS.Ops FS.OpsProofs.
From Wharf Require Import Compose.FSAgree.

Lemma inits_spec : forall {A} (p x : list A), In x (inits p) <-> x <> [] /\ exists r, p = x ++ r.
Proof.
  intros A. induction p as [|a p IH]; intros x; cbn [inits].
  - split; [contradiction|]. intros [Hx [r H]]. destruct x; [congruence | discriminate].
  - split.
    + intros [H | H].
      * subst. split; [discriminate|]. exists p. reflexivity.
      * apply in_map_iff in H as [y [<- Hy]]. apply IH in Hy as [Hy [r ->]]. split; [discriminate|]. exists r. reflexivity.
    + intros [Hx [r H]]. destruct x as [|b x]; [congruence|]. cbn in H. injection H as <- ->.
      destruct x as [|c x]; [left; reflexivity|]. right. apply in_map. apply IH. split; [discriminate|]. exists r. reflexivity.
Qed.

Lemma inits_app_last : forall {A} (p : list A) x, inits (p ++ [x]) = inits p ++ [p ++ [x]].
Proof.
  intros A. induction p as [|a p IH]; intros x; cbn [inits app map]; [reflexivity|].
  rewrite IH, map_app. reflexivity.
Qed.

Lemma in_inits_above : forall {A} (p a : list A),
  In a (inits (removelast p)) <-> a <> [] /\ exists r, r <> [] /\ p = a ++ r.
Proof.
  intros A p a. rewrite inits_spec. split; intros [Ha H]; (split; [exact Ha|]).
  - destruct H as [r Hr]. destruct (snoc_cases p) as [-> | [q [x ->]]]; [destruct a; [destruct Ha; reflexivity | discriminate]|].
    rewrite removelast_last in Hr. subst q. exists (r ++ [x]). split; [destruct r; discriminate | symmetry; apply app_assoc].
  - destruct H as [r [Hr ->]]. destruct (snoc_cases r) as [-> | [r' [x ->]]]; [congruence|].
    exists r'. rewrite app_assoc. apply removelast_last.
Qed.

Lemma inits_snoc_out : forall {A} (p : list A) x, ~ In (p ++ [x]) (inits p).
Proof.
  intros A p x Hin. apply inits_spec in Hin as [_ [r Er]]. rewrite <- app_assoc in Er.
  apply (app_neq_self p ([x] ++ r)); [discriminate | exact Er].
Qed.

Lemma inits_removelast : forall {A} (q r : list A), q <> [] -> r <> [] -> In q (inits (removelast (q ++ r))).
Proof. intros A q r Hq Hr. apply in_inits_above. split; [exact Hq | exists r; split; [exact Hr | reflexivity]]. Qed.

(** the boolean tests [mini_wfb] / [zip_wfb] of Compose/FSAgree.v, over any association list [t] read by [m] *)
Lemma wfb_sound : forall {K Nd} (dir : Nd) (t : list (list K * Nd)) (m : list K -> option Nd) (isdir : list K -> bool),
  (forall p n, m p = Some n -> In (p, n) t) -> (forall q, isdir q = true -> m q = Some dir) ->
  forallb (fun e => negb (is_nil (fst e)) && forallb isdir (inits (removelast (fst e)))) t = true -> wf dir m.
Proof.
  intros K Nd dir t m isdir Hin Hd H. rewrite forallb_forall in H. split.
  - destruct (m []) eqn:E; [|reflexivity]. apply Hin, H in E. discriminate.
  - intros p q r Hp -> Hq Hr. destruct (m (q ++ r)) as [n|] eqn:El; [|congruence].
    apply Hin, H, andb_true_iff in El as [_ El]. cbn [fst] in El. rewrite forallb_forall in El.
    apply Hd, El, inits_removelast; assumption.
Qed.

Lemma prefixes_inits : forall (p a : path), In a (prefixes p) <-> a = [] /\ p <> [] \/ In a (inits (removelast p)).
Proof.
  intros p a. rewrite prefixes_spec, (in_inits_above p a). split.
  - intros [r [Hr E]]. destruct a as [|b a]; [left; subst p; split; [reflexivity | exact Hr] | right].
    split; [discriminate | exists r; split; assumption].
  - intros [[-> Hp] | [_ H]]; [exists p; split; [exact Hp | reflexivity] | exact H].
Qed.

Lemma lit_iff : forall t p, lit t p <-> forall a, In a (inits (removelast p)) -> lookup t a = Some Dir.
Proof.
  intros t p. split; intros H a Ha.
  - apply inits_spec in Ha as [Hn [r' E]]. rewrite <- (node_at_nonempty t a Hn). apply H. apply prefixes_spec.
    destruct (snoc_cases p) as [-> | [q [y ->]]]; [destruct a; [congruence | discriminate]|].
    rewrite removelast_last in E. subst q. exists (r' ++ [y]). split; [destruct r'; discriminate | rewrite app_assoc; reflexivity].
  - apply prefixes_spec in Ha as [r [Hr ->]]. destruct a as [|x a]; [reflexivity|]. apply H.
    apply inits_removelast; [discriminate | exact Hr].
Qed.

Lemma lit_snoc : forall t p x, lit t p -> (p <> [] -> lookup t p = Some Dir) -> lit t (p ++ [x]).
Proof.
  intros t p x Hl Hd. apply lit_app; [exact Hl | | intros a [<- | []] Ha; congruence].
  destruct p as [|y p]; [reflexivity | apply Hd; discriminate].
Qed.

Lemma lit_ext : forall a b p, tree_equiv a b -> lit a p -> lit b p.
Proof. intros a b p E H. apply lit_iff. intros x Hx. rewrite <- E. apply (proj1 (lit_iff _ _) H). exact Hx. Qed.

Lemma node_at_ext : forall a b p, tree_equiv a b -> node_at a p = node_at b p.
Proof. intros a b [|x p] E; [reflexivity | apply E]. Qed.

Lemma walk_go_dirs : forall k t fl ns cur rest,
  (forall a, In a (inits ns) -> lookup t (cur ++ a) = Some Dir) -> rest <> [] ->
  walk_go k t fl cur (map Nm ns ++ rest) = walk_go k t fl (cur ++ ns) rest.
Proof.
  intros k t fl ns. induction ns as [|n ns IH]; intros cur rest Hd Hr.
  - cbn [map app]. rewrite app_nil_r. reflexivity.
  - cbn [map app]. destruct (map Nm ns ++ rest) as [|c tl] eqn:E.
    { apply app_eq_nil in E as [_ E]. contradiction. }
    rewrite walk_go_cons2. rewrite (Hd [n]); [|apply inits_spec; split; [discriminate | exists ns; reflexivity]].
    rewrite <- E. rewrite IH; [|intros a Ha|exact Hr].
    + rewrite <- app_assoc. reflexivity.
    + rewrite <- app_assoc. apply Hd. cbn [app]. apply inits_spec. apply inits_spec in Ha as [Ha [r ->]].
      split; [discriminate | exists r; reflexivity].
Qed.

(** below directories resolution walks down unhindered *)
Lemma resolve_walk : forall t fl a n r, lit t (a ++ [n]) ->
  exists k, resolve t fl (a ++ n :: r) = walk_go k t fl a (Nm n :: map Nm r).
Proof.
  intros t fl a n r Hl. unfold resolve. destruct (walk_unfold link_fuel t fl [] (map Nm (a ++ n :: r))) as [k ->].
  exists k. rewrite map_app. apply (walk_go_dirs k t fl a []); [|discriminate].
  intros x Hx. apply (proj1 (lit_iff _ _) Hl). rewrite removelast_last. exact Hx.
Qed.

(** ... and is decided by what is at [a ++ [n]] if more components follow *)
Lemma resolve_stop : forall t fl a n r, lit t (a ++ [n]) -> r <> [] ->
  resolve t fl (a ++ n :: r) =
  match lookup t (a ++ [n]) with
  | None => Err ENOENT
  | Some (File _) => Err ENOTDIR
  | _ => resolve t fl (a ++ n :: r)
  end.
Proof.
  intros t fl a n r Hl Hr. destruct (resolve_walk t fl a n r Hl) as [k ->].
  destruct r as [|m r]; [congruence|]. cbn [map]. rewrite walk_go_cons2.
  destruct (lookup t (a ++ [n])) as [[c| |d]|]; reflexivity.
Qed.

Lemma resolve_stop_none : forall t fl a n r, lit t (a ++ [n]) -> r <> [] -> lookup t (a ++ [n]) = None ->
  resolve t fl (a ++ n :: r) = Err ENOENT.
Proof. intros t fl a n r Hl Hr E. rewrite resolve_stop by assumption. rewrite E. reflexivity. Qed.

Lemma resolve_stop_file : forall t fl a n r c, lit t (a ++ [n]) -> r <> [] -> lookup t (a ++ [n]) = Some (File c) ->
  resolve t fl (a ++ n :: r) = Err ENOTDIR.
Proof. intros t fl a n r c Hl Hr E. rewrite resolve_stop by assumption. rewrite E. reflexivity. Qed.

Lemma dir_or_not : forall o : option node, o = Some Dir \/ o <> Some Dir.
Proof. intros [[| |]|]; (left; reflexivity) || (right; discriminate). Qed.

(** the general model's [lit] and [gen_wf] (below) are [dirs_above] and [wf] of Base/PathMap.v at its own [lookup] *)
Lemma lit_dirs_above : forall t p, lit t p <-> dirs_above Dir (lookup t) p.
Proof.
  intros t p. split.
  - intros L q r E Hq Hr. rewrite <- (node_at_nonempty t q Hq). apply L, prefixes_spec. exists r. split; assumption.
  - intros D a Ha. apply prefixes_spec in Ha as [r [Hr E]]. destruct a as [|x a]; [reflexivity|].
    apply (D (x :: a) r E); [discriminate | exact Hr].
Qed.

Lemma first_nondir : forall t p,
  lit t p \/ exists q r, p = q ++ r /\ q <> [] /\ r <> [] /\ lit t q /\ lookup t q <> Some Dir.
Proof.
  intros t p. destruct (PathMap.first_nondir (lookup t) (fun q => dir_or_not _) p) as [D | [q [r [E [Hq [Hr [D Hn]]]]]]].
  - left. apply lit_dirs_above, D.
  - right. exists q, r. repeat split; try assumption. apply lit_dirs_above, D.
Qed.

Lemma resolve_nolink : forall t fl p,
  (forall a, In a (inits (removelast p)) -> forall d, lookup t a <> Some (Link d)) ->
  (fl = true -> forall d, node_at t p <> Some (Link d)) ->
  (lit t p /\ resolve t fl p = Ok p) \/
  (~ lit t p /\ (resolve t fl p = Err ENOENT \/ resolve t fl p = Err ENOTDIR)).
Proof.
  intros t fl p Hnl Hfl. destruct (first_nondir t p) as [Hl | [q [r [-> [Hq [Hr [Hl Hn]]]]]]].
  - left. split; [exact Hl | apply resolve_lit; assumption].
  - right. destruct (snoc_cases q) as [-> | [a [n ->]]]; [congruence|]. rewrite <- app_assoc in *. cbn [app] in *.
    assert (Hin : In (a ++ [n]) (inits (removelast (a ++ n :: r)))).
    { change (a ++ n :: r) with (a ++ [n] ++ r). rewrite app_assoc. apply inits_removelast; [destruct a; discriminate | exact Hr]. }
    split.
    + intros Hlit. apply Hn. apply (proj1 (lit_iff _ _) Hlit). exact Hin.
    + rewrite resolve_stop by assumption.
      destruct (lookup t (a ++ [n])) as [[c| |d]|] eqn:E.
      * right. reflexivity.
      * congruence.
      * exfalso. apply (Hnl _ Hin d). exact E.
      * left. reflexivity.
Qed.

Lemma remove_lit_gen : forall t p, lit t p -> p <> [] ->
  remove t p = match lookup t p with
               | None => Err ENOENT
               | Some Dir => if has_child t p then Err ENOTEMPTY else Ok (del t p)
               | Some _ => Ok (del t p)
               end.
Proof.
  intros t p Hl Hne. unfold remove. rewrite resolve_lit; [| exact Hl | discriminate].
  destruct p; [congruence | reflexivity].
Qed.

Lemma symlink_lit_gen : forall t d p, lit t p ->
  symlink t d p = match node_at t p with Some _ => Err EEXIST | None => Ok (set t p (Link d)) end.
Proof. intros t d p Hl. unfold symlink. rewrite resolve_lit; [reflexivity | exact Hl | discriminate]. Qed.

Lemma open_trunc_lit_gen : forall t p, lit t p -> (forall d, node_at t p <> Some (Link d)) ->
  open_trunc t p = match node_at t p with
                   | Some Dir => Err EISDIR
                   | Some (Link _) => Err ELOOP
                   | _ => Ok (set t p (File []), p)
                   end.
Proof. intros t p Hl Hn. unfold open_trunc. rewrite resolve_lit; [reflexivity | exact Hl | intros _; exact Hn]. Qed.

Lemma open_nocreate_lit_gen : forall t p, lit t p -> (forall d, node_at t p <> Some (Link d)) ->
  open_nocreate t p = match node_at t p with
                      | Some Dir => Err EISDIR
                      | Some (Link _) => Err ELOOP
                      | Some (File _) => Ok p
                      | None => Err ENOENT
                      end.
Proof. intros t p Hl Hn. unfold open_nocreate. rewrite resolve_lit; [reflexivity | exact Hl | intros _; exact Hn]. Qed.

Lemma gen_open_existing_read : forall t p, gen_open_existing t p = read_file t p.
Proof.
  intros t p. unfold gen_open_existing, open_nocreate, read_file, stat.
  destruct (resolve t true p) as [q|e]; [|reflexivity].
  destruct (node_at t q) as [[d| |d]|] eqn:E; try rewrite E; reflexivity.
Qed.

Lemma rename2_lit : forall t s d, lit t s -> lit t d -> s <> [] -> d <> [] ->
  rename2 t s d =
  match lookup t s with
  | None => Err ENOENT
  | Some ns =>
      if path_eqb s d then Ok t else
      if is_prefix s d then Err EINVAL else
      if is_prefix d s then Err ENOTEMPTY else
      match ns with
      | Dir => match lookup t d with
               | None => Ok (move_tree t s d)
               | Some Dir => if has_child t d then Err ENOTEMPTY else Ok (move_tree (del t d) s d)
               | Some _ => Err ENOTDIR
               end
      | _ => match lookup t d with
             | Some Dir => Err EISDIR
             | _ => Ok (move_tree (del t d) s d)
             end
      end
  end.
Proof.
  intros t s d Hs Hd Hsn Hdn. unfold rename2.
  rewrite (resolve_lit t false s Hs) by discriminate. rewrite (resolve_lit t false d Hd) by discriminate.
  destruct s as [|x s]; [congruence|]. destruct d as [|y d]; [congruence|]. reflexivity.
Qed.

Lemma gen_rename_default : forall t s d, lstat t d <> Ok Dir -> rename t s d = rename2 t s d.
Proof. intros t s d H. unfold rename. destruct (lstat t d) as [[c| |l]|e]; try reflexivity; congruence. Qed.

(** [os.Rename] reports an old name that does not resolve before anything about the new one *)
Lemma gen_rename_src_err : forall t s d e, resolve t false s = Err e -> rename t s d = Err e.
Proof.
  intros t s d e E. unfold rename, rename2, lstat. rewrite E.
  destruct (resolve t false d) as [q|e']; [destruct (node_at t q) as [[| |]|]|]; reflexivity.
Qed.

(** ... and then a new name that does not *)
Lemma gen_rename_dst_err : forall t s d e, lit t s -> s <> [] -> resolve t false d = Err e -> rename t s d = Err e.
Proof.
  intros t s d e Hl Hs E. unfold rename, rename2, lstat.
  rewrite (resolve_lit t false s Hl), E by discriminate. reflexivity.
Qed.

Lemma lstat_err : forall t p e, resolve t false p = Err e -> lstat t p = Err e.
Proof. intros t p e H. unfold lstat. rewrite H. reflexivity. Qed.
Lemma stat_err : forall t p e, resolve t true p = Err e -> stat t p = Err e.
Proof. intros t p e H. unfold stat. rewrite H. reflexivity. Qed.
Lemma readlink_err : forall t p e, resolve t false p = Err e -> readlink t p = Err e.
Proof. intros t p e H. unfold readlink. rewrite (lstat_err _ _ _ H). reflexivity. Qed.
Lemma read_file_err : forall t p e, resolve t true p = Err e -> read_file t p = Err e.
Proof. intros t p e H. unfold read_file. rewrite (stat_err _ _ _ H). reflexivity. Qed.
Lemma remove_err : forall t p e, resolve t false p = Err e -> remove t p = Err e.
Proof. intros t p e H. unfold remove. rewrite H. reflexivity. Qed.
Lemma symlink_err : forall t d p e, resolve t false p = Err e -> symlink t d p = Err e.
Proof. intros t d p e H. unfold symlink. rewrite H. reflexivity. Qed.
Lemma mkdir_err : forall t p e, resolve t false p = Err e -> mkdir t p = Err e.
Proof. intros t p e H. unfold mkdir. rewrite H. reflexivity. Qed.
Lemma open_trunc_err : forall t p e, resolve t true p = Err e -> open_trunc t p = Err e.
Proof. intros t p e H. unfold open_trunc. rewrite H. reflexivity. Qed.
Lemma open_nocreate_err : forall t p e, resolve t true p = Err e -> open_nocreate t p = Err e.
Proof. intros t p e H. unfold open_nocreate. rewrite H. reflexivity. Qed.
Lemma remove_all_enoent : forall t p, resolve t false p = Err ENOENT -> remove_all t p = Ok t.
Proof. intros t p H. unfold remove_all. rewrite H. reflexivity. Qed.
Lemma remove_all_enotdir : forall t p, resolve t false p = Err ENOTDIR -> remove_all t p = Err ENOTDIR.
Proof. intros t p H. unfold remove_all. rewrite H. reflexivity. Qed.

Lemma lookup_In : forall t p n, lookup t p = Some n -> In (p, n) t.
Proof. exact (assoc_In N.eqb N.eqb_eq). Qed.

Lemma In_lookup : forall t p n, In (p, n) t -> lookup t p <> None.
Proof. intros t p n H E. apply (assoc_None N.eqb N.eqb_eq) in E. exact (E (in_map fst t (p, n) H)). Qed.

Lemma has_child_iff : forall t p,
  has_child t p = true <-> exists k, lookup t k <> None /\ is_prefix p k = true /\ p <> k.
Proof.
  intros t p. unfold has_child. rewrite existsb_exists. split.
  - intros [[k n] [Hin H]]. cbn [fst] in H. apply andb_true_iff in H as [H1 H2]. apply negb_true_iff in H2.
    exists k. split; [apply (In_lookup _ _ _ Hin)|]. split; [exact H1 | apply path_eqb_neq; exact H2].
  - intros [k [Hk [H1 H2]]]. destruct (lookup t k) as [n|] eqn:E; [|congruence]. exists (k, n).
    split; [apply lookup_In; exact E|]. cbn [fst]. rewrite H1. apply path_eqb_neq in H2. rewrite H2. reflexivity.
Qed.

Lemma has_child_ext : forall a b p, tree_equiv a b -> has_child a p = has_child b p.
Proof.
  intros a b p E. apply Bool.eq_iff_eq_true. rewrite !has_child_iff.
  split; intros [k [Hk H]]; exists k; [rewrite <- E | rewrite E]; tauto.
Qed.

Lemma path_eqb_app_false : forall p r, r <> [] -> path_eqb p (p ++ r) = false.
Proof. intros p r Hr. apply path_eqb_neq. apply app_neq_self. exact Hr. Qed.

Lemma not_prefix_neq : forall p q, is_prefix p q = false -> path_eqb p q = false.
Proof. intros p q H. apply path_eqb_neq. intros ->. rewrite is_prefix_refl in H. discriminate. Qed.

Lemma path_eqb_app_head : forall p a b, path_eqb (p ++ a) (p ++ b) = path_eqb a b.
Proof. exact (list_eqb_app_head N.eqb N.eqb_eq). Qed.

Lemma not_prefix_app : forall p k r, is_prefix p k = false -> path_eqb k (p ++ r) = false.
Proof. intros p k r H. apply path_eqb_neq. intros ->. rewrite is_prefix_app in H. discriminate. Qed.

Lemma is_prefix_skipn : forall p q, is_prefix p q = true -> q = p ++ skipn (length p) q.
Proof. intros p q H. apply is_prefix_spec in H as [r ->]. now rewrite skipn_app_exact. Qed.

Lemma lookup_move_tree : forall t src dst q,
  (forall k, lookup t k <> None -> is_prefix dst k = false) ->
  is_prefix src dst = false ->
  lookup (move_tree t src dst) q =
  if is_prefix dst q then lookup t (src ++ skipn (length dst) q)
  else if is_prefix src q then None else lookup t q.
Proof.
  intros t src dst q Hfree Hsd. unfold move_tree.
  induction t as [|[k n] t IH]; cbn [map lookup fst snd].
  - destruct (is_prefix dst q); [reflexivity|]. destruct (is_prefix src q); reflexivity.
  - assert (Hk : is_prefix dst k = false).
    { apply Hfree. cbn [lookup]. rewrite path_eqb_refl. discriminate. }
    assert (Hfree' : forall k', lookup t k' <> None -> is_prefix dst k' = false).
    { intros k' H'. apply Hfree. cbn [lookup]. destruct (path_eqb k k'); [discriminate | exact H']. }
    destruct (is_prefix src k) eqn:Esk; cbn [lookup]; rewrite (IH Hfree'); clear IH.
    + (* the binding moves to [dst] followed by the rest of its key *)
      apply is_prefix_spec in Esk as [rk ->]. rewrite skipn_app_exact.
      destruct (is_prefix dst q) eqn:Edq.
      * apply is_prefix_spec in Edq as [rq ->]. rewrite skipn_app_exact, !path_eqb_app_head. reflexivity.
      * rewrite (path_eqb_sym _ q), (not_prefix_app dst q rk Edq). destruct (is_prefix src q) eqn:Esq; [reflexivity|].
        rewrite (path_eqb_sym _ q), (not_prefix_app src q rk Esq). reflexivity.
    + (* the binding stays *)
      destruct (is_prefix dst q) eqn:Edq.
      * apply is_prefix_spec in Edq as [rq ->].
        rewrite skipn_app_exact, (not_prefix_app dst k rq Hk), (not_prefix_app src k rq Esk). reflexivity.
      * destruct (path_eqb k q) eqn:E; [|reflexivity]. apply path_eqb_eq in E. subst q. rewrite Esk. reflexivity.
Qed.

(** rename(2) of a file or a link onto a file, a link or a free name *)
Lemma move_leaf : forall t s d n, lookup t s = Some n ->
  (forall r, r <> [] -> lookup t (s ++ r) = None) -> (forall r, r <> [] -> lookup t (d ++ r) = None) ->
  is_prefix s d = false -> tree_equiv (move_tree (del t d) s d) (set (del t s) d n).
Proof.
  intros t s d n Hs Hbs Hbd Hsd q. rewrite lookup_move_tree, lookup_set, !lookup_del; [| |exact Hsd].
  2:{ intros k. rewrite lookup_del. destruct (is_prefix d k) eqn:E; [|reflexivity]. apply is_prefix_spec in E as [r ->].
      destruct r as [|y r]; [rewrite app_nil_r, path_eqb_refl | rewrite (path_eqb_app_false d (y :: r)), Hbd by discriminate];
        congruence. }
  destruct (is_prefix d q) eqn:Ed.
  - apply is_prefix_spec in Ed as [r ->]. rewrite skipn_app_exact. destruct r as [|y r].
    + rewrite !app_nil_r, path_eqb_refl, (path_eqb_sym d s), (not_prefix_neq s d Hsd). exact Hs.
    + rewrite (Hbs (y :: r)), (path_eqb_app_false d (y :: r)), Hbd by discriminate.
      destruct (path_eqb d (s ++ y :: r)), (path_eqb s (d ++ y :: r)); reflexivity.
  - rewrite (not_prefix_neq d q Ed). destruct (is_prefix s q) eqn:Es.
    + apply is_prefix_spec in Es as [r ->]. destruct r as [|y r].
      * rewrite app_nil_r, path_eqb_refl. reflexivity.
      * rewrite (path_eqb_app_false s (y :: r)), Hbs by discriminate. reflexivity.
    + rewrite (not_prefix_neq s q Es). reflexivity.
Qed.

(** general-model states the small models are about: the root is not a key, every key lies
    below directories *)
Definition gen_wf (t : tree) : Prop :=
  lookup t [] = None /\ forall p, lookup t p <> None -> lit t p.

Lemma gen_wf_wf : forall t, gen_wf t <-> wf Dir (lookup t).
Proof.
  intros t. split; intros [W0 W]; (split; [exact W0|]).
  - intros p q r Hp. apply (proj1 (lit_dirs_above t p)), W, Hp.
  - intros p Hp. apply lit_dirs_above. intros q r. apply (W p q r Hp).
Qed.

Lemma below_nondir : forall t p r, gen_wf t -> p <> [] -> r <> [] -> lookup t p <> Some Dir -> lookup t (p ++ r) = None.
Proof. intros t p r W. apply (wf_below_nondir (lookup t) p r), gen_wf_wf, W. Qed.

Lemma stat_root : forall t, stat t [] = Ok Dir.
Proof. reflexivity. Qed.

Lemma stat_absent : forall t p, p <> [] -> lookup t p = None ->
  (forall a, In a (inits (removelast p)) -> forall d, lookup t a <> Some (Link d)) ->
  exists e, stat t p = Err e.
Proof.
  intros t p Hne Hn Hnl.
  destruct (resolve_nolink t true p Hnl) as [[Hl Hr] | [_ [Hr | Hr]]].
  - intros _ d. rewrite (node_at_nonempty t p Hne), Hn. discriminate.
  - exists ENOENT. unfold stat. rewrite Hr. rewrite (node_at_nonempty t p Hne), Hn. reflexivity.
  - exists ENOENT. apply stat_err. exact Hr.
  - exists ENOTDIR. apply stat_err. exact Hr.
Qed.

Lemma mkdir_all_snoc : forall t p x,
  mkdir_all t (p ++ [x]) =
  match stat t (p ++ [x]) with
  | Ok Dir => Ok t
  | Ok _ => Err ENOTDIR
  | Err _ =>
      match mkdir_all t p with
      | Err e => Err e
      | Ok t1 =>
          match mkdir t1 (p ++ [x]) with
          | Ok t2 => Ok t2
          | Err e => match lstat t1 (p ++ [x]) with Ok Dir => Ok t1 | _ => Err e end
          end
      end
  end.
Proof.
  intros t p x. unfold mkdir_all. rewrite rev_app_distr. cbn [rev app]. rewrite mkdir_all_rev_unfold.
  cbn [rev]. rewrite rev_involutive. reflexivity.
Qed.

Lemma stat_enoent : forall t a s, a <> [] -> lit t a -> lookup t a = None -> stat t (a ++ s) = Err ENOENT.
Proof.
  intros t a s Ha Hl Hn. destruct s as [|y s].
  - rewrite app_nil_r, stat_lit, (node_at_nonempty t a Ha), Hn; [reflexivity | exact Hl|].
    intros d. rewrite (node_at_nonempty t a Ha), Hn. discriminate.
  - destruct (snoc_cases a) as [-> | [b [n ->]]]; [congruence|]. apply stat_err. rewrite <- app_assoc.
    apply resolve_stop_none; [exact Hl | discriminate | exact Hn].
Qed.

Lemma lit_set_dir : forall t q p, q <> [] -> lit t p -> lit (set t q Dir) p.
Proof.
  intros t q p Hq Hl a Ha. rewrite (node_at_set t q Dir a Hq). destruct (path_eqb q a); [reflexivity | apply Hl; exact Ha].
Qed.

(** MkdirAll does not notice whether its topmost missing directory has been made beforehand:
    Stat fails in both trees for everything below [q], so both recurse down to [q] itself, where
    the one makes the directory and the other finds it. *)
Lemma mkdir_all_first : forall t q r, q <> [] -> lit t q -> (forall s, lookup t (q ++ s) = None) ->
  mkdir_all t (q ++ r) = mkdir_all (set t q Dir) (q ++ r).
Proof.
  intros t q r Hq Hl Hn. pose proof (Hn []) as Hnq. rewrite app_nil_r in Hnq.
  assert (Hl' : lit (set t q Dir) q) by (apply lit_set_dir; assumption).
  assert (Hd' : lookup (set t q Dir) q = Some Dir) by (rewrite lookup_set, path_eqb_refl; reflexivity).
  induction r as [|z r IH] using rev_ind.
  - rewrite app_nil_r. rewrite (mkdir_all_new t q Hl) by (rewrite (node_at_nonempty t q Hq); exact Hnq).
    rewrite mkdir_all_dir; [reflexivity | exact Hl' | rewrite (node_at_nonempty _ q Hq); exact Hd'].
  - rewrite app_assoc, !mkdir_all_snoc, <- IH, <- app_assoc. rewrite (stat_enoent t q (r ++ [z]) Hq Hl Hnq).
    replace (stat (set t q Dir) (q ++ r ++ [z])) with (@Err node ENOENT); [reflexivity|]. symmetry.
    (* in the second tree the first absent component is the one after [q] *)
    destruct (r ++ [z]) as [|y s] eqn:E; [destruct r; discriminate|].
    change (q ++ y :: s) with (q ++ [y] ++ s). rewrite app_assoc.
    apply stat_enoent; [destruct q; discriminate | apply lit_snoc; [exact Hl' | intros _; exact Hd'] |].
    rewrite lookup_set, (path_eqb_app_false q [y]) by discriminate. apply Hn.
Qed.

Lemma mkdir_all_makes : forall t p, gen_wf t ->
  (forall a, In a (inits p) -> lookup t a = Some Dir \/ lookup t a = None) ->
  exists t', mkdir_all t p = Ok t' /\ (forall a, In a (inits p) -> lookup t' a = Some Dir) /\
             (forall q, ~ In q (inits p) -> lookup t' q = lookup t q).
Proof.
  intros t p Hwf. induction p as [|x p IH] using rev_ind; intros Hp.
  - exists t. split; [reflexivity|]. split; [intros a []|reflexivity].
  - assert (Hne : p ++ [x] <> []) by (destruct p; discriminate).
    rewrite inits_app_last in *.
    destruct IH as (t1 & H1 & B1 & C1); [intros a Ha; apply Hp, in_or_app; left; exact Ha|].
    destruct (Hp (p ++ [x])) as [Hd | Hn]; [apply in_or_app; right; left; reflexivity | |].
    + (* already a directory, and by [gen_wf] so is everything above it *)
      assert (Hl : lit t (p ++ [x])) by (apply (proj2 Hwf); congruence).
      exists t. split; [apply mkdir_all_dir; [exact Hl | rewrite (node_at_nonempty _ _ Hne); exact Hd]|].
      split; [|reflexivity]. intros a Ha. apply in_app_or in Ha as [Ha | [<- | []]]; [|exact Hd].
      apply (proj1 (lit_iff _ _) Hl). rewrite removelast_last. exact Ha.
    + (* absent: Stat fails, MkdirAll(parent), Mkdir *)
      rewrite mkdir_all_snoc. destruct (stat_absent t (p ++ [x]) Hne Hn) as [e ->].
      { rewrite removelast_last. intros a Ha d. destruct (Hp a (in_or_app _ _ _ (or_introl Ha))); congruence. }
      rewrite H1, mkdir_lit; [| apply lit_iff; rewrite removelast_last; exact B1
                              | rewrite (node_at_nonempty _ _ Hne), (C1 _ (inits_snoc_out p x)); exact Hn].
      eexists. split; [reflexivity|]. split.
      * intros a Ha. rewrite lookup_set. destruct (path_eqb (p ++ [x]) a) eqn:E; [reflexivity|].
        apply in_app_or in Ha as [Ha | [<- | []]]; [apply B1, Ha | rewrite path_eqb_refl in E; discriminate].
      * intros q Hq. rewrite lookup_set. destruct (path_eqb (p ++ [x]) q) eqn:E.
        -- apply path_eqb_eq in E. destruct Hq. apply in_or_app. right. left. exact E.
        -- apply C1. intros Hin. apply Hq, in_or_app. left. exact Hin.
Qed.

Lemma mkdir_all_creates : forall t p, gen_wf t ->
  (forall a, In a (inits p) -> lookup t a = Some Dir \/ lookup t a = None) ->
  exists t', mkdir_all t p = Ok t' /\
    forall q, lookup t' q = match lookup t q with
                            | None => if negb (is_nil q) && is_prefix q p then Some Dir else None
                            | x => x
                            end.
Proof.
  intros t p Hwf Hp. destruct (mkdir_all_makes t p Hwf Hp) as (t' & H & B & C). exists t'. split; [exact H|].
  intros q. destruct (negb (is_nil q) && is_prefix q p) eqn:E.
  - apply andb_true_iff in E as [E1 E2]. apply is_prefix_spec in E2.
    assert (Hin : In q (inits p)) by (apply inits_spec; split; [destruct q; discriminate | exact E2]).
    rewrite (B q Hin). destruct (Hp q Hin) as [-> | ->]; reflexivity.
  - rewrite C; [destruct (lookup t q); reflexivity|]. intros Hin. apply inits_spec in Hin as [Hq [r ->]].
    rewrite is_prefix_app in E. destruct q; [congruence | discriminate].
Qed.

Lemma mkdir_all_file : forall t a r c, lit t a -> a <> [] -> lookup t a = Some (File c) ->
  mkdir_all t (a ++ r) = Err ENOTDIR.
Proof.
  intros t a r c Hl Hne Hf. induction r as [|x r IH] using rev_ind.
  - rewrite app_nil_r. unfold mkdir_all. rewrite mkdir_all_rev_unfold, rev_involutive.
    rewrite stat_lit; [| exact Hl | intros d; rewrite (node_at_nonempty _ _ Hne); congruence].
    rewrite (node_at_nonempty _ _ Hne), Hf. reflexivity.
  - rewrite app_assoc, mkdir_all_snoc.
    destruct (snoc_cases a) as [-> | [a' [n ->]]]; [congruence|].
    assert (He : stat t (((a' ++ [n]) ++ r) ++ [x]) = Err ENOTDIR).
    { apply stat_err. rewrite <- !app_assoc. cbn [app]. apply (resolve_stop_file t true a' n (r ++ [x]) c); try assumption.
      destruct r; discriminate. }
    rewrite He, IH. reflexivity.
Qed.
