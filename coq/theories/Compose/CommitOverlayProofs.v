(** C02 x C14 - proofs: [Patch] + truncate of Overlay/Patch.v on a stage file is [apply_ops] of
    Bowl/OverlayCommit.v on the operations the file decodes to; hence the overlay writer of
    Overlay/Writer.v at the real codec satisfies the hypothesis that C02 makes about
    [mk_overlay] (Properties/C02.v draws the C02 theorems with that hypothesis discharged). *)
From Wharf Require Import Base.Prelude Bowl.OverlayCommit.
From Wharf Require Import Overlay.Fast Overlay.FastProofs Overlay.Writer Overlay.Patch Overlay.Codec
  Overlay.SessionProofs Overlay.CodecProofs.
From Wharf Require Import Compose.CommitOverlay.
(* Overlay.FastProofs is here for its rewrite base [fast] *)
From Coq Require Import ZifyBool ZifyNat ZifyN.
Local Open Scope N_scope.

Lemma take_pad_spec : forall n (l : list N), take_pad n l = firstn n l ++ repeat 0 (n - length l)%nat.
Proof.
  induction n as [|n IH]; intros l; cbn [take_pad firstn]; [reflexivity|].
  destruct l as [|x l]; cbn [length].
  - rewrite IH. rewrite firstn_nil. cbn [app length]. rewrite Nat.sub_0_r. reflexivity.
  - rewrite IH. cbn [app Nat.sub]. reflexivity.
Qed.

Lemma rev_repeat : forall (A : Type) (v : A) k, rev (repeat v k) = repeat v k.
Proof.
  intros A v k. induction k as [|k IH]; [reflexivity|].
  cbn [repeat rev]. rewrite IH. symmetry. apply repeat_cons.
Qed.

(** C14's cursor (bytes before the position most recent first, bytes from the position on) against
    C02's front-to-back assembly: same content, for every list of messages *)
Lemma cursor_is_apply_ops : forall (ops : list Writer.op) (before after : list byte),
  rev (fst (Patch.apply_ops ops (before, after))) = rev before ++ OverlayCommit.apply_ops (conv_ops ops) after.
Proof.
  induction ops as [|o ops IH]; intros before after.
  - cbn. rewrite app_nil_r. reflexivity.
  - unfold Patch.apply_ops in *. cbn [fold_left]. unfold conv_ops in *. cbn [flat_map].
    destruct o as [n|d|]; cbn [apply_op conv_op].
    + rewrite IH, rev_append_rev. autorewrite with fast. rewrite rev_app_distr, rev_repeat, rev_app_distr, rev_involutive.
      destruct (N.eqb_spec n 0) as [->|Hn].
      * cbn [N.to_nat firstn skipn length app repeat N.of_nat N.sub N.eqb]. rewrite !app_nil_r. reflexivity.
      * cbn [app OverlayCommit.apply_ops]. rewrite take_pad_spec, <- !app_assoc.
        rewrite firstn_length.
        replace (N.to_nat (n - N.of_nat (Nat.min (N.to_nat n) (length after)))) with (N.to_nat n - length after)%nat by lia.
        reflexivity.
    + rewrite IH, rev_append_rev. autorewrite with fast. rewrite rev_app_distr, rev_involutive.
      destruct d as [|x d].
      * cbn [length skipn app]. rewrite app_nil_r. reflexivity.
      * cbn [app OverlayCommit.apply_ops]. rewrite <- !app_assoc. reflexivity.
    + apply IH.
Qed.

Section Decode.
  Variable dec : list byte -> option (Writer.op * list byte).
  Variable magic : list byte.

  Lemma patch_loop_decode_all : forall fuel s c,
    match decode_all dec fuel s with
    | Some ops => patch_loop dec fuel s c = POk (rev (fst (Patch.apply_ops ops c)))
    | None => forall r, patch_loop dec fuel s c <> POk r
    end.
  Proof.
    induction fuel as [|f IH]; intros s c; cbn [decode_all patch_loop].
    - intros r; discriminate.
    - destruct (dec s) as [[o rest]|]; [|intros r; discriminate].
      destruct o as [n|d|].
      + specialize (IH rest (apply_op (Writer.Skip n) c)). destruct (decode_all dec f rest); cbn [option_map]; exact IH.
      + specialize (IH rest (apply_op (Writer.Fresh d) c)). destruct (decode_all dec f rest); cbn [option_map]; exact IH.
      + cbn. rewrite rev_append_rev, app_nil_r. destruct c; reflexivity.
  Qed.

  Theorem patch_is_apply_ops : forall (cur file : list byte),
    match decode_file dec magic file with
    | Some ops => patch dec magic cur file = POk (OverlayCommit.apply_ops (conv_ops ops) cur)
    | None => forall r, patch dec magic cur file <> POk r
    end.
  Proof.
    intros cur file. unfold decode_file, patch. destruct (expect_magic magic file) as [s|]; [|intros r; discriminate].
    pose proof (patch_loop_decode_all (S (length_tr s)) s ([], cur)) as H.
    destruct (decode_all dec (S (length_tr s)) s) as [ops|]; [|exact H].
    rewrite H, cursor_is_apply_ops. reflexivity.
  Qed.

  Lemma patch_ok_decodes : forall (cur file c : list byte),
    patch dec magic cur file = POk c ->
    exists ops, decode_file dec magic file = Some ops /\ c = OverlayCommit.apply_ops (conv_ops ops) cur.
  Proof.
    intros cur file c H. pose proof (patch_is_apply_ops cur file) as H1.
    destruct (decode_file dec magic file) as [ops|]; [|destruct (H1 c H)].
    exists ops. split; [reflexivity|]. rewrite H1 in H. now injection H.
  Qed.

  Corollary patch_ok_stage_ops : forall (cur file c : list byte),
    patch dec magic cur file = POk c -> OverlayCommit.apply_ops (stage_ops dec magic file) cur = c.
  Proof.
    intros cur file c H. unfold stage_ops. now destruct (patch_ok_decodes cur file c H) as [ops [-> ->]].
  Qed.

  Corollary apply_overlay_file_spec : forall (cur file c : list byte),
    apply_overlay_file dec magic cur file = Some c <->
    exists ops, decode_file dec magic file = Some ops /\ c = OverlayCommit.apply_ops (conv_ops ops) cur.
  Proof.
    intros cur file c. unfold apply_overlay_file. split.
    - destruct (patch dec magic cur file) as [r| |] eqn:E; try discriminate. intros [= <-]. now apply patch_ok_decodes.
    - intros [ops [E ->]]. pose proof (patch_is_apply_ops cur file) as H1. rewrite E in H1. now rewrite H1.
  Qed.
End Decode.

Section Instance.
  Variables (bufSize threshold : N).
  Hypothesis HbufSize : 0 < bufSize.

  (** C14 at the real codec, read through the decoding: whatever the write pattern and whatever
      the stage file held before, the stage overlay applied to the old content gives what was
      written *)
  Lemma overlay_file_ok : forall (cur : list byte) (evs : list event) (file0 : list byte),
    OverlayCommit.apply_ops (stage_ops Codec.dec Codec.magic (overlay_file bufSize threshold cur evs file0)) cur = written evs.
  Proof.
    intros cur evs file0. apply patch_ok_stage_ops.
    exact (proj2 (overlay_correct_lemma bufSize threshold Codec.enc Codec.dec Codec.magic HbufSize dec_enc_real cur evs file0)).
  Qed.

  Lemma overlay_file_no_fail : forall (cur : list byte) (evs : list event),
    w_fail (finalize bufSize threshold Codec.enc
              (run_events bufSize threshold Codec.enc (new_writer Codec.enc Codec.magic cur 0 0) evs)) = false.
  Proof.
    intros cur evs.
    exact (proj1 (overlay_correct_lemma bufSize threshold Codec.enc Codec.dec Codec.magic HbufSize dec_enc_real cur evs [])).
  Qed.
End Instance.
