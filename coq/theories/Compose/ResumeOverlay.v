(** C03 x C14 - the [overlayEntryWriter] of pwr/bowl/bowl_overlay.go as an instance of the
    entry-writer interface of Patch/Resume.v ([w_open] ... [w_result]), built from the overlay
    writer of Overlay/Writer.v and from [Patch] + truncate of Overlay/Patch.v.  Definitions
    only; the proof of the contract [writer_ok] is in Compose/ResumeOverlayProofs.v.

    Go:
    - [Resume(nil)]: open the stage file O_CREATE|O_WRONLY (no truncation), seek the old-file
      reader to 0, [NewOverlayWriter(r, 0, f, 0)] (writes magic + header right away);
    - [Resume(c)]: seek the reader to [ReadOffset], the file to [OverlayOffset], [sourceOffset =
      c.Offset], [NewOverlayWriter(r, ReadOffset, f, OverlayOffset)];
    - [Write]: [overlay.Write], [sourceOffset += n];
    - [Save]: [overlay.Flush], fsync, checkpoint [(sourceOffset, (ReadOffset(), OverlayOffset()))];
    - [Finalize]: [overlay.Finalize] (flush + end marker), fsync;
    - Commit ([applyOverlays]): [ctx.Patch(stage file, old file)], truncate at the final position.

    RAW = the bytes of the overlay file in the stage folder.  As in C14's [run_sessions] the
    file is described as "what it was when this writer was opened, overwritten from the opening
    overlay offset on by everything this writer has put out" ([write_at base start
    (session_bytes st)]); [ew_base]/[ew_start] record that opening state and [ew_fed] is a
    history variable (the logical content written so far through all sessions: at [Resume(c)]
    it is what the kept prefix of the overlay decodes to).  Neither exists in the Go struct;
    no operation's effect on the file or on the checkpoint depends on [ew_fed]. *)
From Wharf Require Import Base.Prelude Overlay.Writer Overlay.Patch.
Local Open Scope N_scope.

Section OverlayEntryWriter.
  Variables (bufSize threshold : N).
  Variable enc : op -> list byte.
  Variable dec : list byte -> option (op * list byte).
  Variable magic : list byte.
  Variable old : N -> list byte.        (* the old build's file at the path of source file f *)

  Record ew_state := mkEW {
    ew_st : wstate;          (* overlay.OverlayWriter *)
    ew_soff : N;             (* sourceOffset *)
    ew_base : list byte;     (* the overlay file when this writer was opened *)
    ew_start : N;            (* the overlay offset it was opened at *)
    ew_fed : list byte       (* history: everything written to the entry so far *)
  }.

  (** OverlayEntryWriterCheckpoint: (ReadOffset, OverlayOffset) *)
  Definition ew_ckpt := (N * N)%type.

  (** the file: nothing is written (and no hole is made) before the first message goes out *)
  Definition ew_file (base : list byte) (start : N) (st : wstate) : list byte :=
    match session_bytes st with
    | [] => base
    | b => write_at base start b
    end.

  (** what [Patch] + truncate make of an overlay that is cut at [oo] and closed by an end marker *)
  Definition decoded (f : N) (raw : list byte) (oo : N) : list byte :=
    match patch dec magic (old f) (takeN oo raw ++ enc EndMark) with
    | POk c => c
    | _ => []
    end.

  Definition ow_open (f : N) (c : option (N * ew_ckpt)) (raw : list byte) : option (ew_state * list byte) :=
    match c with
    | None =>
        let st := new_writer enc magic (old f) 0 0 in
        Some (mkEW st 0 raw 0 [], ew_file raw 0 st)
    | Some (off, (ro, oo)) =>
        let st := new_writer enc magic (old f) ro oo in
        Some (mkEW st off raw oo (if oo =? 0 then [] else decoded f raw oo), ew_file raw oo st)
    end.

  Definition ow_write (f : N) (w : ew_state) (raw : list byte) (d : list byte) : ew_state * list byte :=
    let st := bw_write bufSize threshold enc (ew_st w) d in
    (mkEW st (ew_soff w + len d) (ew_base w) (ew_start w) (ew_fed w ++ d), ew_file (ew_base w) (ew_start w) st).

  Definition ow_save (f : N) (w : ew_state) (raw : list byte) : (N * ew_ckpt) * ew_state * list byte :=
    let st := bw_flush bufSize threshold enc (ew_st w) in
    ((ew_soff w, (w_roff st, w_ooff st)),
     mkEW st (ew_soff w) (ew_base w) (ew_start w) (ew_fed w), ew_file (ew_base w) (ew_start w) st).

  Definition ow_final (f : N) (w : ew_state) (raw : list byte) : list byte :=
    ew_file (ew_base w) (ew_start w) (finalize bufSize threshold enc (ew_st w)).

  Definition ow_tell (w : ew_state) : N := ew_soff w.

  (** Commit: [Patch] the old file with the overlay, truncate at the final position *)
  Definition ow_result (f : N) (raw : list byte) : option (list byte) :=
    match patch dec magic (old f) raw with POk c => Some c | _ => None end.

  (** *** ghost notions of the writer contract *)
  Definition ow_abs (f : N) (w : ew_state) (raw : list byte) : list byte := ew_fed w.

  (** the writer is in the middle of a C14 session: opened at read offset [roff0], it has since
      been given the events [evs] (that it was opened in a state satisfying C14's session
      precondition [pre] is added in [ow_inv], Compose/ResumeOverlayProofs.v, where [pre] is in
      scope) *)
  Definition ow_session (f : N) (w : ew_state) (raw : list byte) (roff0 : N) (evs : list event) : Prop :=
    ew_st w = run_events bufSize threshold enc (new_writer enc magic (old f) roff0 (ew_start w)) evs /\
    raw = ew_file (ew_base w) (ew_start w) (ew_st w) /\
    ew_soff w = len (ew_fed w).

  (** any file may sit at the stage path before the writer is opened from scratch *)
  Definition ow_raw_ok (f : N) (raw : list byte) : Prop := True.

  (** the crash model: the overlay file of the crash disk still has its first [OverlayOffset]
      bytes; anything may follow them (the lost tail of the dead process, junk, an old end
      marker) *)
  Definition ow_covers (f : N) (c : N * ew_ckpt) (raw raw2 : list byte) : Prop :=
    let oo := N.to_nat (snd (snd c)) in
    (oo <= length raw2)%nat /\ firstn oo raw2 = firstn oo raw.

  Definition ow_finished (f : N) (raw c : list byte) : Prop := patch dec magic (old f) raw = POk c.
End OverlayEntryWriter.
