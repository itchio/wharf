(** C11 composed with C01 at Coq level: the operations C11's model of the real differ emits,
    translated as pwr/diff.go's makeOpsWriter does, satisfy the hypothesis [diff_ok] that C01
    makes about its abstract differ; from this Properties/C01.v has "diff then apply reproduces the
    new build" with the real differ and no [diff_ok] hypothesis.  Proofs (definitions:
    Compose/DiffApply.v).  C11's hypothesis is needed for the files of the new build only
    ([real_differ_ok_files], for [DiffApplyProofs.differ_ok]). *)
From Coq Require Import ZifyBool ZifyNat ZifyN.
From Wharf Require Import Base.Prelude Base.BlockArith Bowl.Fresh Patch.Stream Patch.Patcher
  Patch.ApplyProofs Patch.PatcherProofs Patch.DiffApplyProofs Compose.DiffApply.
From Wharf Require Wsync.Diff Wsync.Apply Wsync.Library Wsync.Spec
  Wsync.ApplyProofs Wsync.Theorems.
Local Open Scope Z_scope.

Module WD := Wharf.Wsync.Diff.
Module WA := Wharf.Wsync.Apply.
Module WL := Wharf.Wsync.Library.
Module WS := Wharf.Wsync.Spec.
Module WAP := Wharf.Wsync.ApplyProofs.
Module WT := Wharf.Wsync.Theorems.

Lemma znth_of_N {A} (l : list A) (f : N) : znth l (Z.of_N f) = nth_error l (N.to_nat f).
Proof. rewrite <- N_nat_Z. apply znth_of_nat. Qed.

Lemma slice_of_N (d : list byte) (a n : N) : slice d (Z.of_N a) (Z.of_N n) = WS.sub d a n.
Proof. unfold slice, WS.sub. f_equal; [lia|]. f_equal. lia. Qed.

Lemma sub_nil_list {A} (a n : N) : WS.sub (@nil A) a n = [].
Proof. unfold WS.sub. rewrite skipn_nil, firstn_nil. reflexivity. Qed.

(** pwr.ComputeNumBlocks ([Z.quot], C01) and ceil(len / bs) ([N] division, C11) *)
Lemma num_blocks_agrees (bs : Z) (old : list byte) :
  0 < bs -> Z.of_N (WS.num_blocks (Z.to_N bs) old) = num_blocks bs (Z.of_nat (length old)).
Proof.
  intros Hbs. unfold WS.num_blocks, WS.len, num_blocks. rewrite count_N, count_quot, nat_N_Z, !Z2N.id by lia. reflexivity.
Qed.

(** the opSize / lastSize arithmetic of wsync.ApplySingleFull was transcribed twice
    (Wsync/Apply.v and Patch/Patcher.v): the two transcriptions are the same function *)
Lemma op_size_agrees (bs : N) (fileSize idx span : Z) :
  WA.op_size bs fileSize idx span = Patcher.op_size (Z.of_N bs) fileSize idx span.
Proof. reflexivity. Qed.

Lemma denote_tr_op (bs : Z) (olds : list (list byte)) (src : list byte) (o : WD.op) :
  0 <= bs -> denote bs olds (tr_op src o) = WAP.den_op (Z.to_N bs) olds src o.
Proof.
  intros Hbs. destruct o as [f i sp|s l]; cbn [tr_op denote WAP.den_op]; [|reflexivity].
  rewrite znth_of_N.
  replace (bs * Z.of_N i) with (Z.of_N (Z.to_N bs * i)) by lia.
  replace (bs * Z.of_N sp) with (Z.of_N (Z.to_N bs * sp)) by lia.
  destruct (nth_error olds (N.to_nat f)) as [d|] eqn:E.
  - rewrite (nth_error_nth _ _ _ E). apply slice_of_N.
  - apply nth_error_None in E. rewrite (nth_overflow _ _ E). rewrite sub_nil_list. reflexivity.
Qed.

Lemma replay_tr_ops (bs : Z) (olds : list (list byte)) (src : list byte) (ops : list WD.op) :
  0 <= bs -> replay bs olds (map (tr_op src) ops) = WAP.den (Z.to_N bs) olds src ops.
Proof.
  intros Hbs. unfold replay, WAP.den. induction ops as [|o r IH]; [reflexivity|].
  cbn [map flat_map concat]. rewrite IH, denote_tr_op by assumption. reflexivity.
Qed.

Lemma range_ok_tr_op (bs : Z) (olds : list (list byte)) (src : list byte) (o : WD.op) :
  0 < bs -> WS.range_ok (Z.to_N bs) olds o -> Stream.range_ok bs olds (tr_op src o).
Proof.
  intros Hbs. destruct o as [f i sp|s l]; cbn [tr_op WS.range_ok Stream.range_ok]; [|trivial].
  intros (old & Hf & Hsp & Hin). exists old. rewrite znth_of_N. split; [exact Hf|].
  rewrite <- num_blocks_agrees by assumption. lia.
Qed.

(** wsync.ApplySingleFull on a block range, as modelled by C11 ([Wsync.Apply.apply_op]) and by
    C01 (the bytes [Patcher.apply_range] hands to the writer): the same bytes for EVERY range, in
    bounds or not, when the pool reports the old file's actual size *)
Lemma apply_op_agrees (bs : Z) (olds : list (list byte)) (f i sp : N) :
  0 < bs ->
  WA.apply_op (Z.to_N bs) olds (WA.CRange f i sp) =
  option_map (fun d => slice d (bs * Z.of_N i) (Patcher.op_size bs (Z.of_nat (length d)) (Z.of_N i) (Z.of_N sp)))
             (znth olds (Z.of_N f)).
Proof.
  intros Hbs. cbn [WA.apply_op]. rewrite znth_of_N. unfold byte in *.
  destruct (nth_error olds (N.to_nat f)) as [d|]; cbn [option_map]; [|reflexivity].
  rewrite op_size_agrees. rewrite Z2N.id by lia. unfold slice. do 3 f_equal. lia.
Qed.

Lemma apply_range_agrees (bs : Z) (oldC : container) (olds : list (list byte)) (w : wst) (f i sp : N)
      (d : list byte) (pf : path) :
  0 < bs -> znth (c_files oldC) (Z.of_N f) = Some (pf, Z.of_nat (length d)) -> znth olds (Z.of_N f) = Some d ->
  exists x, WA.apply_op (Z.to_N bs) olds (WA.CRange f i sp) = Some x /\
    apply_range bs oldC olds w (Z.of_N f) (Z.of_N i) (Z.of_N sp) =
    w_write (mkW (ev (ev (w_st w) (EvSize (Z.of_N f))) (EvRead (Z.of_N f))) (w_path w) (w_off w)) x.
Proof.
  intros Hbs Hc Hd. rewrite apply_op_agrees by assumption. rewrite Hd. cbn [option_map].
  eexists. split; [reflexivity|].
  unfold apply_range. rewrite Hc, Hd.
  destruct (Z.ltb_spec (bs * Z.of_N i) 0) as [Hneg|_]; [nia|]. reflexivity.
Qed.

Lemma lookup_in_empty_window {H : Type} (heqb : H -> H -> bool) lib pref swin weak a short :
  WL.lookup_in heqb lib pref swin weak a 0%N short = None.
Proof. unfold WL.lookup_in. destruct (WL.hash_lookup lib weak); reflexivity. Qed.

(** ComputeDiff of an empty source: the first iteration reads nothing (EOF, lastRun), hashes an
    empty window, finds nothing ([findUniqueHash] returns nil for [len(data) == 0]), and the
    trailing-data code enqueues [buffer[0:0]], which the operation cleaner lets through because
    it is the first operation ([sendCount == 0]): exactly one, empty, data operation *)
Lemma compute_diff_empty (bs maxData : N) (get : N -> N) (lookup : N -> N -> N -> N -> option (N * N)) :
  (0 < bs)%N -> (0 < maxData)%N -> (forall w a s, lookup w a 0%N s = None) ->
  WD.compute_diff bs maxData get 0%N lookup = Some [WD.OpData 0 0].
Proof.
  intros Hbs Hmax Hlk.
  (* at numerals [N.pos _] every test of the run computes, but for the buffer-size one *)
  destruct bs as [|b]; [discriminate|]. destruct maxData as [|m]; [discriminate|].
  assert (HL : (WD.L (N.pos b) (N.pos m) <? 0 + N.pos b)%N = false) by (unfold WD.L; apply N.ltb_ge; lia).
  assert (S1 : WD.step (N.pos b) (N.pos m) get 0%N lookup WD.init =
               WD.mkSt 0 0 0 0 0 0 0 0 0 true true 0 false (WD.mkEm None 1 [WD.OpData 0 0])).
  { unfold WD.step, WD.iter, WD.refill, WD.init. cbn [WD.validTo]. rewrite HL. cbv. rewrite Hlk. reflexivity. }
  unfold WD.compute_diff, WD.run. change (N.iter (0 + 2) ?f ?x) with (f (f x)). rewrite !S1. reflexivity.
Qed.

Lemma to_N_pos (bs : Z) : 0 < bs -> (0 < Z.to_N bs)%N.
Proof. intros Hb. change 0%N with (Z.to_N 0). apply Z2N.inj_lt; lia. Qed.

Section RealDiffer.
  Variable H : Type.
  Variable shash : list N -> H.
  Variable heqb : H -> H -> bool.
  Variables (bs : Z) (maxData : N) (olds : list (list byte)).
  Hypothesis bs_pos : 0 < bs.
  Hypothesis max_pos : (0 < maxData)%N.
  Hypothesis heqb_sound : forall x y, heqb x y = true -> x = y.

  Notation differ := (real_differ shash heqb bs maxData olds).

  Lemma diff_ops_empty_source pref :
    WS.diff_ops shash heqb (Z.to_N bs) maxData olds [] pref = Some [WD.OpData 0 0].
  Proof.
    apply compute_diff_empty; [apply to_N_pos; assumption|assumption|].
    intros w a s. apply lookup_in_empty_window.
  Qed.

  (** what C01 assumes of its abstract differ, for one (preferred index, new file), under C11's
      hypothesis for that file *)
  Lemma real_differ_ok_at (pref : Z) (data : list byte) :
    WS.strong_injective shash (Z.to_N bs) olds data -> ops_ok bs olds (differ pref data) data.
  Proof.
    intros Hinj.
    destruct (WT.diff_ops_spec H shash heqb (Z.to_N bs) maxData olds data (pref_of pref)
                (to_N_pos bs bs_pos) max_pos heqb_sound Hinj) as (ops & Hd & Hden & Hr & Hdat & _).
    unfold real_differ. rewrite Hd. split; [|split].
    - destruct data as [|b data'].
      + rewrite diff_ops_empty_source in Hd. injection Hd as <-. discriminate.
      + destruct ops as [|o r]; [discriminate Hden|discriminate].
    - rewrite replay_tr_ops by lia. exact Hden.
    - apply Forall_map. revert Hr. apply Forall_impl. intros o. apply range_ok_tr_op. assumption.
  Qed.
End RealDiffer.

Lemma real_differ_ok_files (H : Type) (shash : list N -> H) (heqb : H -> H -> bool) bs maxData old new :
  0 < bs -> (0 < maxData)%N -> (forall x y, heqb x y = true -> x = y) ->
  strong_injective_on shash bs (contents_of old) (contents_of new) ->
  differ_ok bs (real_differ shash heqb bs maxData (contents_of old)) old new.
Proof.
  intros Hbs Hmax Hsound Hinj. unfold differ_ok, strong_injective_on, contents_of in *. rewrite Forall_map in Hinj.
  revert Hinj. apply Forall_impl. intros f Hf. apply real_differ_ok_at; assumption.
Qed.
