(** The file-system model inside [Arch/Zip.v] refines [FS/{Tree,Ops}.v]: its primitives and
    the three helpers of archiver/archiver.go (Mkdir, Symlink, CopyFile), on well-formed states
    and non-empty paths with no link strictly above them, succeed / fail exactly when the
    general model does and leave the same tree. *)
From Coq Require Import Arith NArith Lia Bool.
From Wharf Require Import Base.ListLemmas Base.PathMap FS.Light.
From Wharf Require FS.Tree FS.TreeProofs FS.Ops FS.OpsProofs Arch.Zip Arch.ZipFsLemmas Arch.ZipProofs.
From Wharf Require Import Compose.FSAgree.
From Wharf Require Compose.FSAgreeGenProofs.
From Wharf Require Import Compose.FSAgreeView.

Module GtP := Wharf.FS.TreeProofs.
Module GoP := Wharf.FS.OpsProofs.
Module ZiP := Wharf.Arch.ZipFsLemmas.
Module ZP := Wharf.Arch.ZipProofs.
Module GG := Wharf.Compose.FSAgreeGenProofs.

(** the two models' path functions are the same functions written twice *)
Lemma zpath_eqb : forall p q, Zi.path_eqb p q = Gt.path_eqb p q.
Proof. reflexivity. Qed.

Lemma zis_prefix : forall p q, Zi.is_prefix p q = Gt.is_prefix p q.
Proof. reflexivity. Qed.

Lemma zpath_eqb_nil : forall q : Zi.path, Zi.path_eqb q [] = is_nil q.
Proof. intros [|a q]; reflexivity. Qed.

Lemma zis_prefix_app : forall p r, Zi.is_prefix p (p ++ r) = true.
Proof. intros p r. apply ZiP.is_prefix_spec. exists r. reflexivity. Qed.

Lemma link_above_false : forall f p,
  zip_link_above f p = false <-> forall a, In a (inits (removelast p)) -> zip_is_link f a = false.
Proof.
  intros f p. unfold zip_link_above. rewrite <- not_true_iff_false, existsb_exists. split.
  - intros H a Ha. apply not_true_is_false. intros Hl. apply H. exists a. split; assumption.
  - intros H [a [Ha Hl]]. rewrite (H a Ha) in Hl. discriminate.
Qed.

Lemma lookup_zt : forall f q, Gt.lookup (zip_tree f) q = option_map zip_node (Zi.lookup f q).
Proof.
  induction f as [|[k n] f IH]; intros q; cbn [zip_tree map Gt.lookup Zi.lookup fst snd]; [reflexivity|].
  rewrite <- zpath_eqb. destruct (Zi.path_eqb k q); [reflexivity | apply IH].
Qed.

Lemma zsim_lookup : forall f T q, zip_sim f T -> Gt.lookup T q = option_map zip_node (Zi.lookup f q).
Proof. intros f T q H. rewrite <- H. apply lookup_zt. Qed.

Lemma zsim_intro : forall f T, (forall q, Gt.lookup T q = option_map zip_node (Zi.lookup f q)) -> zip_sim f T.
Proof. intros f T H q. rewrite lookup_zt, H. reflexivity. Qed.

Lemma zsim_refl : forall f, zip_sim f (zip_tree f).
Proof. intros f q. reflexivity. Qed.

Lemma zsim_equiv_l : forall f f' T, zip_sim f T -> (forall q, Zi.lookup f' q = Zi.lookup f q) -> zip_sim f' T.
Proof. intros f f' T H E. apply zsim_intro. intros q. rewrite E. apply zsim_lookup. exact H. Qed.

Lemma zip_embedding : embedding N.eqb (fun p : Zi.path => p) zip_node Zi.Dir.
Proof.
  split; [split; [exact N.eqb_eq | reflexivity | intros p q E; exact E | intros p a b ->; exists a, b; repeat split]|].
  intros [|d|d]; cbn [zip_node]; split; congruence.
Qed.

Notation zview f := (view (emb := fun p : Zi.path => p) (nd := zip_node) (Zi.lookup f)).

Lemma zsim_view : forall f T, zip_sim f T <-> zview f T.
Proof.
  intros f T. split; [intros H; split; [intros p; apply (zsim_lookup f T p H) | intros q _; exists q; reflexivity]|].
  intros [V _]. apply zsim_intro, V.
Qed.

Lemma zsim_gen_wf : forall f T, zip_wf f -> zip_sim f T -> GG.gen_wf T.
Proof. intros f T W Hs. apply (view_wf zip_embedding (Zi.lookup f) T); [apply zsim_view, Hs | exact W]. Qed.

Lemma zsim_dir : forall f T q, zip_sim f T -> (Gt.lookup T q = Some Gt.Dir <-> Zi.lookup f q = Some Zi.Dir).
Proof. intros f T q Hs. exact (view_dir zip_embedding _ T q (proj1 (zsim_view f T) Hs)). Qed.

Lemma zsim_none : forall f T q, zip_sim f T -> (Gt.lookup T q = None <-> Zi.lookup f q = None).
Proof. intros f T q Hs. rewrite (zsim_lookup f T q Hs). destruct (Zi.lookup f q); cbn; split; congruence. Qed.

Lemma dirs_of_lit : forall f T p, zip_sim f T -> GoP.lit T p ->
  forall a r, p = a ++ r -> a <> [] -> r <> [] -> Zi.lookup f a = Some Zi.Dir.
Proof. intros f T p Hs L. exact (proj1 (view_lit zip_embedding _ T p (proj1 (zsim_view f T) Hs)) L). Qed.

Lemma lit_of_dirs : forall f T p, zip_sim f T ->
  (forall a r, p = a ++ r -> a <> [] -> r <> [] -> Zi.lookup f a = Some Zi.Dir) -> GoP.lit T p.
Proof. intros f T p Hs D. exact (proj2 (view_lit zip_embedding _ T p (proj1 (zsim_view f T) Hs)) D). Qed.

Lemma zwf_below_nondir : forall f p r, zip_wf f -> p <> [] -> r <> [] -> Zi.lookup f p <> Some Zi.Dir ->
  Zi.lookup f (p ++ r) = None.
Proof. intros f. exact (wf_below_nondir (Zi.lookup f)). Qed.

Lemma zwf_lit : forall f T p, zip_wf f -> zip_sim f T -> Zi.lookup f p <> None -> GoP.lit T p.
Proof. intros f T p W Hs H. exact (lit_of_dirs f T p Hs (wf_dirs_above _ p W H)). Qed.

Lemma zsim_node_at : forall f T p, zip_sim f T -> p <> [] -> Gt.node_at T p = option_map zip_node (Zi.lookup f p).
Proof. intros f T p H Hp. rewrite (GtP.node_at_nonempty T p Hp). apply zsim_lookup. exact H. Qed.

Lemma in_inits_removelast : forall (a : Gt.path) n r, r <> [] -> In (a ++ [n]) (inits (removelast (a ++ n :: r))).
Proof.
  intros a n r Hr. apply GG.in_inits_above. split; [destruct a; discriminate|].
  exists r. split; [exact Hr | rewrite <- app_assoc; reflexivity].
Qed.

Notation zdirs f := (dirs_above Zi.Dir (Zi.lookup f)).

(** in a well-formed state Arch/Zip's test of the parent alone says that the path lies below directories *)
Lemma parent_ok_dirs : forall f p, zip_wf f -> (Zi.parent_ok p f = true <-> zdirs f p).
Proof.
  intros f p W. rewrite ZiP.parent_ok_spec. unfold Zi.parent. destruct (snoc_cases p) as [-> | [q [x ->]]].
  - split; [intros _; apply dirs_above_nil | left; reflexivity].
  - rewrite removelast_last. split.
    + intros H. apply dirs_above_snoc; [|intros Hq; destruct H; congruence].
      destruct H as [-> | H]; [apply dirs_above_nil | apply (wf_dirs_above _ q W); congruence].
    + intros D. destruct q as [|y q]; [left; reflexivity | right; apply (D (y :: q) [x] eq_refl); discriminate].
Qed.

Lemma parent_ok_lit : forall f T p, zip_wf f -> zip_sim f T -> Zi.parent_ok p f = true -> GoP.lit T p.
Proof. intros f T p W Hs H. exact (lit_of_dirs f T p Hs (proj1 (parent_ok_dirs f p W) H)). Qed.

(** where resolution of [p] ends in a state without links above [p], and what Arch/Zip's own
    test of the parent says there *)
Inductive zresolve_view (f : Zi.fs) (T : Gt.tree) (fl : bool) (p : Zi.path) : Prop :=
| ZR_lit : GoP.lit T p -> Go.resolve T fl p = Go.Ok p -> Zi.parent_ok p f = true -> zresolve_view f T fl p
| ZR_err e : ~ GoP.lit T p -> Go.resolve T fl p = Go.Err e -> (forall r, Zi.lookup f (p ++ r) = None) ->
    e = Go.ENOENT \/ e = Go.ENOTDIR /\ zip_file_above f p = true -> Zi.parent_ok p f = false -> zresolve_view f T fl p.

Lemma zresolve_cases : forall f T fl p, zip_wf f -> zip_sim f T -> zip_link_above f p = false ->
  (fl = true -> zip_is_link f p = false) -> zresolve_view f T fl p.
Proof.
  intros f T fl p W Hs Hnl Hfl. pose proof (proj1 (zsim_view f T) Hs) as V.
  destruct (view_check zip_embedding (Zi.lookup f) T p V) as [D L | q r -> Hq Hr D Hn R].
  - apply ZR_lit; [exact L | | apply (parent_ok_dirs f p W), D]. apply GoP.resolve_lit; [exact L|]. intros E d Hd. specialize (Hfl E).
    unfold zip_is_link in Hfl. destruct p as [|x p]; [discriminate Hd|]. cbn [Gt.node_at] in Hd.
    rewrite (zsim_lookup f T _ Hs) in Hd. destruct (Zi.lookup f (x :: p)) as [[]|]; cbn in Hd; congruence.
  - assert (Hin : In q (inits (removelast (q ++ r)))) by (apply GG.in_inits_above; split; [exact Hq | exists r; split; [exact Hr | reflexivity]]).
    assert (Hnd : ~ zdirs f (q ++ r)) by (intros D'; apply Hn, (D' q r eq_refl Hq Hr)).
    assert (Hb : forall r2, Zi.lookup f ((q ++ r) ++ r2) = None).
    { intros r2. rewrite <- app_assoc. apply (wf_below_nondir (Zi.lookup f) q (r ++ r2) W Hq); [|exact Hn].
      intros E. apply app_eq_nil in E as [E _]. contradiction. }
    assert (Hpo : Zi.parent_ok (q ++ r) f = false).
    { apply not_true_is_false. intros E. apply Hnd, (parent_ok_dirs f _ W), E. }
    assert (HL : ~ GoP.lit T (q ++ r)) by (intros L; apply Hnd, (view_lit zip_embedding (Zi.lookup f) T _ V), L).
    pose proof (proj1 (link_above_false f _) Hnl q Hin) as Hl. unfold zip_is_link in Hl. specialize (R fl).
    destruct (Zi.lookup f q) as [[|c|d]|] eqn:E; cbn [option_map zip_node] in R; try congruence.
    + apply (ZR_err f T fl _ Go.ENOTDIR); try assumption. right. split; [reflexivity|].
      apply existsb_exists. exists q. split; [exact Hin | unfold zip_is_file; rewrite E; reflexivity].
    + apply (ZR_err f T fl _ Go.ENOENT); try assumption. left. reflexivity.
Qed.

Lemma set_at_upd : forall f p n, set_at N.eqb (Zi.lookup f) (Zi.lookup (Zi.upd f p n)) p (Some n).
Proof. intros f p n q. rewrite ZiP.lookup_upd, ZiP.path_eqb_sym. reflexivity. Qed.

Lemma set_at_zdel : forall f p, set_at N.eqb (Zi.lookup f) (Zi.lookup (Zi.del f p)) p None.
Proof. intros f p q. rewrite ZiP.lookup_del, ZiP.path_eqb_sym. reflexivity. Qed.

Notation rm_all p f := (filter (fun x => negb (Zi.is_prefix p (fst x))) f).

Lemma zwf_closed : forall f, zip_wf f <-> Zi.lookup f [] = None /\ ZP.closed f.
Proof.
  intros f. unfold zip_wf, ZP.closed. split; intros [W0 W]; (split; [exact W0|]).
  - intros q r H Hr Hp Hne. apply ZiP.is_prefix_spec in Hp as [x ->]. apply (W (r ++ x) r x H eq_refl Hr).
    intros ->. apply Hne. symmetry. apply app_nil_r.
  - intros p q r H -> Hq Hr. apply (W (q ++ r) q H Hq (zis_prefix_app q r)). apply app_neq_self. exact Hr.
Qed.

Lemma zwf_filter : forall f p, zip_wf f -> zip_wf (rm_all p f).
Proof. intros f p W. exact (wf_cut N.eqb_eq (Zi.lookup f) _ p W (ZiP.lookup_remove_all f p)). Qed.

Lemma zwf_del : forall f p, zip_wf f -> (forall r, r <> [] -> Zi.lookup f (p ++ r) = None) -> zip_wf (Zi.del f p).
Proof.
  intros f [|x p] W Hb.
  - (* an empty root and nothing below it: the map is empty and stays so *)
    assert (E : forall q, Zi.lookup (Zi.del f []) q = None).
    { intros q. rewrite ZiP.lookup_del. destruct (Zi.path_eqb _ _); [reflexivity|].
      destruct q as [|y q]; [apply W | apply (Hb (y :: q)); discriminate]. }
    split; [apply E | intros q a r H; rewrite E in H; congruence].
  - apply (wf_set N.eqb_eq (Zi.lookup f) _ (x :: p) None W ltac:(discriminate) (set_at_zdel f _) Hb). congruence.
Qed.

Lemma zwf_upd : forall f p n, zip_wf f -> p <> [] ->
  (forall a r, p = a ++ r -> a <> [] -> r <> [] -> Zi.lookup f a = Some Zi.Dir) ->
  (forall r, r <> [] -> Zi.lookup f (p ++ r) = None) -> zip_wf (Zi.upd f p n).
Proof. intros f p n W Hp D Hb. exact (wf_set N.eqb_eq (Zi.lookup f) _ p (Some n) W Hp (set_at_upd f p n) Hb (fun _ => D)). Qed.

(** the form the operations meet: the cell at [p] is not a directory *)
Lemma zwf_del_nondir : forall f p, zip_wf f -> p <> [] -> Zi.lookup f p <> Some Zi.Dir -> zip_wf (Zi.del f p).
Proof. intros f p W Hp Hnd. apply (wf_set_nondir N.eqb_eq (Zi.lookup f) _ p None W Hp (set_at_zdel f p) Hnd). congruence. Qed.

Lemma zwf_upd_nondir : forall f p n, zip_wf f -> p <> [] -> Zi.lookup f p <> Some Zi.Dir -> zdirs f p -> zip_wf (Zi.upd f p n).
Proof. intros f p n W Hp Hnd D. exact (wf_set_nondir N.eqb_eq (Zi.lookup f) _ p (Some n) W Hp (set_at_upd f p n) Hnd (fun _ => D)). Qed.

Lemma zsim_filter : forall f T p, zip_sim f T -> zip_sim (rm_all p f) (Gt.del_tree T p).
Proof. intros f T p Hs. apply zsim_view, (view_del_tree zip_embedding (Zi.lookup f) _ T p); [apply zsim_view, Hs | exact (ZiP.lookup_remove_all f p)]. Qed.

Lemma filter_nothing : forall f p, (forall r, Zi.lookup f (p ++ r) = None) -> forall q, Zi.lookup (rm_all p f) q = Zi.lookup f q.
Proof.
  intros f p H q. rewrite ZiP.lookup_remove_all. destruct (Zi.is_prefix p q) eqn:E; [|reflexivity].
  apply ZiP.is_prefix_spec in E as [r ->]. symmetry. apply H.
Qed.

(** RemoveAll: the general model removes the subtree too, or finds nothing to remove (and then
    there is nothing), or - the one difference - refuses a path below a regular file *)
Lemma zip_remove_all_cases : forall f T p, zip_wf f -> zip_sim f T -> p <> [] -> zip_link_above f p = false ->
  (exists T1, Go.remove_all T p = Go.Ok T1 /\ zip_sim (rm_all p f) T1) \/
  (Go.remove_all T p = Go.Err Go.ENOTDIR /\ zip_file_above f p = true /\ zip_sim (rm_all p f) T).
Proof.
  intros f T p W Hs Hp Hnl. destruct (zresolve_cases f T false p W Hs Hnl) as [L R _ | e L R Hb He _]; [discriminate | |].
  - left. exists (Gt.del_tree T p). split; [apply (GoP.remove_all_lit T p L Hp) | apply zsim_filter; exact Hs].
  - assert (S1 : zip_sim (rm_all p f) T) by (apply (zsim_equiv_l f _ T Hs); apply filter_nothing; exact Hb).
    destruct He as [-> | [-> Hf]].
    + left. exists T. split; [apply (GG.remove_all_enoent T p R) | exact S1].
    + right. split; [apply (GG.remove_all_enotdir T p R)|]. split; [exact Hf | exact S1].
Qed.

Lemma in_prefixes_inits : forall (q p : Zi.path), In q (Zi.prefixes p) <-> In q (inits p).
Proof. intros q p. rewrite (ZiP.in_prefixes q p), (GG.inits_spec p q), (ZiP.is_prefix_spec q p). reflexivity. Qed.

Definition mkdir_spec (f f' : Zi.fs) (p : Zi.path) : Prop :=
  forall q, Zi.lookup f' q = match Zi.lookup f q with
                             | None => if negb (is_nil q) && Gt.is_prefix q p then Some Zi.Dir else None
                             | x => x
                             end.

Theorem zip_fs_mkdir_all_refines_lemma : forall f T p, zip_wf f -> zip_sim f T ->
  (forall q, In q (inits p) -> zip_is_link f q = false) ->
  zip_agree (Zi.fs_mkdir_all p f) (Go.mkdir_all T p) /\
  (forall f', Zi.fs_mkdir_all p f = Some f' -> zip_wf f' /\ mkdir_spec f f' p).
Proof.
  intros f T p W Hs Hnl.
  destruct (forallb (fun q => Zi.dir_or_none (Zi.lookup f q)) (Zi.prefixes p)) eqn:Ef.
  - assert (Hdn : forall q, q <> [] -> Zi.is_prefix q p = true -> Zi.dir_or_none (Zi.lookup f q) = true).
    { intros q Hq1 Hq2. rewrite forallb_forall in Ef. apply Ef. apply ZiP.in_prefixes. tauto. }
    destruct (ZiP.mkdir_all_spec p f Hdn) as [f' [Hf' Sf']].
    assert (S : mkdir_spec f f' p).
    { intros q. rewrite Sf', zpath_eqb_nil. reflexivity. }
    destruct (GG.mkdir_all_creates T p (zsim_gen_wf f T W Hs)) as [T' [HT' ST']].
    { intros a Ha. apply GG.inits_spec in Ha as [Ha [r ->]]. pose proof (Hdn a Ha (zis_prefix_app a r)) as X.
      rewrite (zsim_lookup f T a Hs). destruct (Zi.lookup f a) as [[]|]; try discriminate X; [left | right]; reflexivity. }
    rewrite Hf', HT'. split.
    + apply ZA_ok. apply zsim_intro. intros q. rewrite ST', S, (zsim_lookup f T q Hs).
      destruct (Zi.lookup f q) as [n|]; cbn [option_map]; [reflexivity|].
      unfold Zi.name, Gt.name, Zi.path, Gt.path in *. match goal with |- context [if ?c then _ else _] => destruct c end; reflexivity.
    + intros f0 E. injection E as <-. split; [|exact S]. apply zwf_closed in W as [W0 Wc]. apply zwf_closed.
      split; [rewrite Sf', W0; reflexivity | apply (ZP.closed_mkdir f f' p Wc Hdn Sf')].
  - assert (En : Zi.fs_mkdir_all p f = None) by (unfold Zi.fs_mkdir_all; rewrite Ef; reflexivity).
    rewrite En. split; [|discriminate].
    apply forallb_false_exists in Ef as [q [Hq Hd]]. apply in_prefixes_inits in Hq.
    pose proof (Hnl q Hq) as Hl. unfold zip_is_link in Hl. unfold Zi.dir_or_none in Hd.
    destruct (Zi.lookup f q) as [[|c|d]|] eqn:Eq; try discriminate.
    apply GG.inits_spec in Hq as [Hq [r ->]].
    assert (X : Go.mkdir_all T (q ++ r) = Go.Err Go.ENOTDIR).
    { apply (GG.mkdir_all_file T q r c).
      - apply (zwf_lit f T q W Hs). congruence.
      - exact Hq.
      - rewrite (zsim_lookup f T q Hs), Eq. reflexivity. }
    rewrite X. apply ZA_err.
Qed.

Lemma zsim_upd : forall f T p n, zip_sim f T -> zip_sim (Zi.upd f p n) (Gt.set T p (zip_node n)).
Proof. intros f T p n Hs. apply zsim_view, (view_set zip_embedding (Zi.lookup f) _ T p n); [apply zsim_view, Hs | apply set_at_upd]. Qed.

Lemma zsim_del : forall f T p, zip_sim f T -> zip_sim (Zi.del f p) (Gt.del T p).
Proof. intros f T p Hs. apply zsim_view, (view_del zip_embedding (Zi.lookup f) _ T p); [apply zsim_view, Hs | apply set_at_zdel]. Qed.

Theorem zip_fs_symlink_refines_lemma : forall f T p dest, zip_wf f -> zip_sim f T -> p <> [] -> zip_link_above f p = false ->
  zip_agree (Zi.fs_symlink p dest f) (Go.symlink T (map Gt.Nm dest) p) /\
  (forall f', Zi.fs_symlink p dest f = Some f' -> zip_wf f').
Proof.
  intros f T p dest W Hs Hp Hnl. unfold Zi.fs_symlink.
  destruct (zresolve_cases f T false p W Hs Hnl) as [L R Epo | e L R _ _ Epo]; [discriminate | |]; rewrite Epo.
  - rewrite (GG.symlink_lit_gen T _ p L), (zsim_node_at f T p Hs Hp).
    destruct (Zi.lookup f p) as [n|] eqn:El; cbn [option_map]; [split; [apply ZA_err | discriminate]|].
    split; [apply ZA_ok; apply (zsim_upd f T p (Zi.Link dest) Hs)|].
    intros f' E. injection E as <-. apply zwf_upd_nondir; [exact W | exact Hp | congruence | exact (dirs_of_lit f T p Hs L)].
  - rewrite (GG.symlink_err T _ p _ R). split; [apply ZA_err | discriminate].
Qed.

(** open(O_CREATE|O_TRUNC|O_WRONLY) of a path that is not itself a link *)
Theorem zip_fs_create_refines_lemma : forall f T p, zip_wf f -> zip_sim f T -> p <> [] ->
  zip_link_above f p = false -> zip_is_link f p = false ->
  match Zi.fs_create p f, Go.open_trunc T p with
  | Some f', Go.Ok (T', q) => q = p /\ zip_sim f' T' /\ zip_wf f' /\ Zi.lookup f' p = Some (Zi.File [])
  | None, Go.Err _ => True
  | _, _ => False
  end.
Proof.
  intros f T p W Hs Hp Hnl Hl. unfold Zi.fs_create.
  assert (Hnlk : forall d, Gt.node_at T p <> Some (Gt.Link d)).
  { intros d. rewrite (zsim_node_at f T p Hs Hp). unfold zip_is_link in Hl. destruct (Zi.lookup f p) as [[]|]; cbn; congruence. }
  destruct (zresolve_cases f T true p W Hs Hnl (fun _ => Hl)) as [L R Epo | e L R _ _ Epo]; rewrite Epo.
  - rewrite (GG.open_trunc_lit_gen T p L Hnlk), (zsim_node_at f T p Hs Hp).
    assert (X : Zi.lookup f p <> Some Zi.Dir ->
                p = p /\ zip_sim (Zi.upd f p (Zi.File [])) (Gt.set T p (Gt.File [])) /\ zip_wf (Zi.upd f p (Zi.File [])) /\
                Zi.lookup (Zi.upd f p (Zi.File [])) p = Some (Zi.File [])).
    { intros Hnd. split; [reflexivity|]. split; [apply (zsim_upd f T p (Zi.File []) Hs)|]. split.
      - apply zwf_upd_nondir; [exact W | exact Hp | exact Hnd | exact (dirs_of_lit f T p Hs L)].
      - rewrite ZiP.lookup_upd, ZiP.path_eqb_refl. reflexivity. }
    unfold zip_is_link in Hl. destruct (Zi.lookup f p) as [[|c|d]|] eqn:El; cbn [option_map zip_node]; try exact I.
    + apply X. congruence.
    + apply X. congruence.
  - rewrite (GG.open_trunc_err T p _ R). exact I.
Qed.

(** os.Remove of something that is not a directory (archiver.Mkdir's use) or is absent *)
Theorem zip_fs_remove_refines_lemma : forall f T p, zip_wf f -> zip_sim f T -> p <> [] -> zip_link_above f p = false ->
  Zi.lookup f p <> Some Zi.Dir ->
  zip_agree (Zi.fs_remove p f) (Go.remove T p) /\ (forall f', Zi.fs_remove p f = Some f' -> f' = Zi.del f p /\ zip_wf f').
Proof.
  intros f T p W Hs Hp Hnl Hnd. unfold Zi.fs_remove.
  assert (Hw : zip_wf (Zi.del f p)).
  { apply zwf_del_nondir; assumption. }
  destruct (zresolve_cases f T false p W Hs Hnl) as [L R _ | e L R Hb _ _]; [discriminate | |].
  - rewrite (GG.remove_lit_gen T p L Hp), (zsim_lookup f T p Hs).
    destruct (Zi.lookup f p) as [[|c|d]|] eqn:El; cbn [option_map zip_node].
    + congruence.
    + split; [apply ZA_ok; apply zsim_del; exact Hs | intros f' E; injection E as <-; tauto].
    + split; [apply ZA_ok; apply zsim_del; exact Hs | intros f' E; injection E as <-; tauto].
    + split; [apply ZA_err | discriminate].
  - specialize (Hb []). rewrite app_nil_r in Hb. rewrite Hb, (GG.remove_err T p _ R). split; [apply ZA_err | discriminate].
Qed.

(** os.Lstat as archiver.Mkdir uses it: the node, or some error *)
Theorem zip_lstat_refines_lemma : forall f T p, zip_wf f -> zip_sim f T -> p <> [] -> zip_link_above f p = false ->
  match Zi.lookup f p, Go.lstat T p with
  | Some n, Go.Ok n' => n' = zip_node n
  | None, Go.Err _ => True
  | _, _ => False
  end.
Proof.
  intros f T p W Hs Hp Hnl.
  destruct (zresolve_cases f T false p W Hs Hnl) as [L R _ | e L R Hb _ _]; [discriminate | |].
  - rewrite (GoP.lstat_lit T p L), (zsim_node_at f T p Hs Hp). destruct (Zi.lookup f p); cbn [option_map]; [reflexivity | exact I].
  - specialize (Hb []). rewrite app_nil_r in Hb. rewrite Hb, (GG.lstat_err T p _ R). exact I.
Qed.

Lemma write_at_data_end : forall (d c : list N), Go.write_at_data d (length d) c = d ++ c.
Proof.
  intros d c. unfold Go.write_at_data. destruct c as [|x c]; [rewrite app_nil_r; reflexivity|].
  rewrite firstn_all, Nat.sub_diag. cbn [repeat app]. rewrite skipn_all2; [rewrite app_nil_r; reflexivity|].
  cbn [length]. lia.
Qed.

(** one Write call: the small model appends to the file at the path, the general model
    writes at the descriptor's offset; they agree when the descriptor is the path and the
    offset is the length written so far *)
Theorem zip_fs_append_refines_lemma : forall f T p c, zip_sim f T -> p <> [] ->
  match Zi.fs_append p c f with
  | Some f' => exists d, Zi.lookup f p = Some (Zi.File d) /\ Zi.lookup f' p = Some (Zi.File (d ++ c)) /\
                         zip_sim f' (Go.write_at_fd T p (length d) c)
  | None => forall d, Gt.node_at T p <> Some (Gt.File d)
  end.
Proof.
  intros f T p c Hs Hp. unfold Zi.fs_append. pose proof (zsim_node_at f T p Hs Hp) as Hn.
  destruct (Zi.lookup f p) as [[|d|l]|] eqn:El; cbn [option_map zip_node] in Hn; try (intros d'; congruence).
  exists d. split; [reflexivity|]. split; [rewrite ZiP.lookup_upd, ZiP.path_eqb_refl; reflexivity|].
  unfold Go.write_at_fd. rewrite Hn, write_at_data_end. apply (zsim_upd f T p (Zi.File (d ++ c)) Hs).
Qed.

Lemma zip_appends_writes : forall chunks f T p d, zip_wf f -> zip_sim f T -> p <> [] -> Zi.lookup f p = Some (Zi.File d) ->
  exists f', zip_appends p chunks f = (true, f') /\ zip_sim f' (gen_writes p (length d) chunks T) /\ zip_wf f'.
Proof.
  induction chunks as [|c chunks IH]; intros f T p d W Hs Hp El; cbn [zip_appends gen_writes].
  - exists f. split; [reflexivity | split; assumption].
  - pose proof (zip_fs_append_refines_lemma f T p c Hs Hp) as A. destruct (Zi.fs_append p c f) as [f1|] eqn:Ea.
    + destruct A as [d' [E1 [E2 S1]]]. rewrite El in E1. injection E1 as <-.
      assert (W1 : zip_wf f1).
      { unfold Zi.fs_append in Ea. rewrite El in Ea. injection Ea as <-. apply zwf_upd_nondir; [exact W | exact Hp | congruence|].
        intros a r E. apply (proj2 W p a r); [congruence | exact E]. }
      destruct (IH f1 _ p (d ++ c) W1 S1 Hp E2) as [f' [H1 [H2 H3]]]. exists f'. rewrite H1.
      rewrite app_length in H2. split; [reflexivity | split; assumption].
    + exfalso. unfold Zi.fs_append in Ea. rewrite El in Ea. discriminate.
Qed.

Lemma link_above_mono : forall f f' p,
  (forall a, In a (inits (removelast p)) -> zip_is_link f' a = true -> zip_is_link f a = true) ->
  zip_link_above f p = false -> zip_link_above f' p = false.
Proof.
  intros f f' p H. rewrite !link_above_false. intros Hf a Ha. apply not_true_is_false. intros Hl.
  apply H in Hl; [|exact Ha]. rewrite (Hf a Ha) in Hl. discriminate.
Qed.

Lemma is_link_filter : forall f p a, zip_is_link (rm_all p f) a = true -> zip_is_link f a = true.
Proof. intros f p a. unfold zip_is_link. rewrite ZiP.lookup_remove_all. destruct (Zi.is_prefix p a); [discriminate | tauto]. Qed.

Lemma is_link_del : forall f p a, zip_is_link (Zi.del f p) a = true -> zip_is_link f a = true.
Proof. intros f p a. unfold zip_is_link. rewrite ZiP.lookup_del. destruct (Zi.path_eqb a p); [discriminate | tauto]. Qed.

Lemma is_link_mkdir : forall f f' p a, mkdir_spec f f' p -> zip_is_link f' a = true -> zip_is_link f a = true.
Proof.
  intros f f' p a S. unfold zip_is_link. rewrite S. destruct (Zi.lookup f a) as [n|]; [tauto|].
  match goal with |- context [if ?c then _ else _] => destruct c end; discriminate.
Qed.

Lemma helper_flag : forall (b : bool) (e : option Go.errno), (b = true <-> e = None) -> b = errno_is_none e.
Proof. intros [|] [e|] [H1 H2]; cbn; try reflexivity; [discriminate (H1 eq_refl) | discriminate (H2 eq_refl)]. Qed.

Definition helper_ok (r : bool * Zi.fs) (g : option Go.errno * Gt.tree) : Prop :=
  zip_agree_helper r g /\ zip_wf (snd r).

Lemma helper_ret : forall f T, zip_wf f -> zip_sim f T -> helper_ok (true, f) (None, T).
Proof. intros f T W Hs. split; [split; [tauto | exact Hs] | exact W]. Qed.

Lemma helper_fail : forall f T e, zip_wf f -> zip_sim f T -> helper_ok (false, f) (Some e, T).
Proof. intros f T e W Hs. split; [split; [split; discriminate | exact Hs] | exact W]. Qed.

Lemma helper_bind : forall (r : option Zi.fs) (g : Go.res Gt.tree) f T kz kg,
  zip_agree r g -> zip_wf f -> zip_sim f T ->
  (forall f1 T1, r = Some f1 -> zip_sim f1 T1 -> helper_ok (kz f1) (kg T1)) ->
  helper_ok (match r with None => (false, f) | Some f1 => kz f1 end)
            (match g with Go.Err e => (Some e, T) | Go.Ok T1 => kg T1 end).
Proof.
  intros r g f T kz kg A W Hs K. destruct A as [f1 T1 S1 | e]; [apply (K f1 T1 eq_refl S1) | apply helper_fail; assumption].
Qed.

(** the tail of archiver.Mkdir: MkdirAll *)
Lemma mkdir_tail : forall f T p, zip_wf f -> zip_sim f T -> (forall q, In q (inits p) -> zip_is_link f q = false) ->
  helper_ok (match Zi.fs_mkdir_all p f with None => (false, f) | Some f2 => (true, f2) end)
            (match Go.mkdir_all T p with Go.Err e => (Some e, T) | Go.Ok T2 => (None, T2) end).
Proof.
  intros f T p W Hs Hnl. destruct (zip_fs_mkdir_all_refines_lemma f T p W Hs Hnl) as [A F].
  apply helper_bind; try assumption. intros f2 T2 E S2. apply helper_ret; [apply (F f2 E) | exact S2].
Qed.

Lemma nolink_all : forall f p, p <> [] -> zip_link_above f p = false -> zip_is_link f p = false ->
  forall q, In q (inits p) -> zip_is_link f q = false.
Proof.
  intros f p Hp Ha Hl q Hq. destruct (snoc_cases p) as [-> | [p' [x ->]]]; [congruence|].
  rewrite GG.inits_app_last in Hq. apply in_app_or in Hq as [Hq | [<- | []]]; [|exact Hl].
  apply (proj1 (link_above_false f _) Ha). rewrite removelast_last. exact Hq.
Qed.

Theorem zip_mkdir_refines_lemma : forall f T p, zip_wf f -> zip_sim f T -> p <> [] -> zip_link_above f p = false ->
  zip_agree_helper (zip_mkdir p f) (gen_mkdir p T) /\ zip_wf (snd (zip_mkdir p f)).
Proof.
  intros f T p W Hs Hp Hnl. pose proof (zip_lstat_refines_lemma f T p W Hs Hp Hnl) as HL.
  unfold zip_mkdir, gen_mkdir.
  assert (Hrm : Zi.lookup f p <> Some Zi.Dir ->
            helper_ok (match Zi.fs_remove p f with
                       | None => (false, f)
                       | Some f1 => match Zi.fs_mkdir_all p f1 with None => (false, f1) | Some f2 => (true, f2) end
                       end)
                      (match Go.remove T p with
                       | Go.Err e => (Some e, T)
                       | Go.Ok T1 => match Go.mkdir_all T1 p with Go.Err e => (Some e, T1) | Go.Ok T2 => (None, T2) end
                       end)).
  { intros Hnd. destruct (zip_fs_remove_refines_lemma f T p W Hs Hp Hnl Hnd) as [A F].
    apply helper_bind; try assumption. intros f1 T1 E S1. destruct (F f1 E) as [-> W1]. apply mkdir_tail; [exact W1 | exact S1|].
    apply nolink_all; [exact Hp | apply (link_above_mono f _ p); [intros a _; apply is_link_del | exact Hnl]|].
    unfold zip_is_link. rewrite ZiP.lookup_del, ZiP.path_eqb_refl. reflexivity. }
  destruct (Zi.lookup f p) as [[|c|d]|] eqn:El; destruct (Go.lstat T p) as [n'|e]; try contradiction; subst; cbn [zip_node].
  - apply helper_ret; assumption.
  - apply Hrm; discriminate.
  - apply Hrm; discriminate.
  - apply mkdir_tail; [exact W | exact Hs|]. apply nolink_all; [exact Hp | exact Hnl|]. unfold zip_is_link. rewrite El. reflexivity.
Qed.

Lemma zip_mkdir_all_file : forall f p a, In a (inits p) -> zip_is_file f a = true -> Zi.fs_mkdir_all p f = None.
Proof.
  intros f p a Ha Hf. unfold Zi.fs_mkdir_all. destruct (forallb _ (Zi.prefixes p)) eqn:E; [|reflexivity].
  rewrite forallb_forall in E. specialize (E a (proj2 (in_prefixes_inits a p) Ha)).
  unfold zip_is_file in Hf. destruct (Zi.lookup f a) as [[]|]; discriminate.
Qed.

(** the common start of archiver.Symlink and archiver.CopyFile: RemoveAll(p), MkdirAll(dir(p)),
    then something at [p], which is absent by then *)
Lemma zip_prep_refines : forall (kz : Zi.fs -> bool * Zi.fs) (kg : Gt.tree -> option Go.errno * Gt.tree) f T p,
  (forall f2 T2, zip_wf f2 -> zip_sim f2 T2 -> zip_link_above f2 p = false -> Zi.lookup f2 p = None -> helper_ok (kz f2) (kg T2)) ->
  zip_wf f -> zip_sim f T -> p <> [] -> zip_link_above f p = false ->
  helper_ok (match Zi.fs_remove_all p f with
             | None => (false, f)
             | Some f1 => match Zi.fs_mkdir_all (Zi.parent p) f1 with None => (false, f1) | Some f2 => kz f2 end
             end)
            (match Go.remove_all T p with
             | Go.Err e => (Some e, T)
             | Go.Ok T1 => match Go.mkdir_all T1 (removelast p) with Go.Err e => (Some e, T1) | Go.Ok T2 => kg T2 end
             end).
Proof.
  intros kz kg f T p Hk W Hs Hp Hnl. unfold Zi.fs_remove_all, Zi.parent.
  pose proof (zwf_filter f p W) as W1.
  assert (Hnl1 : zip_link_above (rm_all p f) p = false).
  { apply (link_above_mono f _ p); [intros a _; apply is_link_filter | exact Hnl]. }
  destruct (zip_remove_all_cases f T p W Hs Hp Hnl) as [[T1 [-> S1]] | [-> [Hf S1]]].
  - destruct (zip_fs_mkdir_all_refines_lemma (rm_all p f) T1 (removelast p) W1 S1 (proj1 (link_above_false _ p) Hnl1)) as [A F].
    apply helper_bind; try assumption. intros f2 T2 E S2. destruct (F f2 E) as [W2 M2]. apply Hk; try assumption.
    + apply (link_above_mono (rm_all p f) f2 p); [intros a _; apply (is_link_mkdir _ _ _ a M2) | exact Hnl1].
    + rewrite M2, ZiP.lookup_remove_all, ZiP.is_prefix_refl.
      replace (Gt.is_prefix p (removelast p)) with false by (symmetry; apply ZiP.is_prefix_parent_self; exact Hp).
      rewrite andb_false_r. reflexivity.
  - (* RemoveAll below a regular file: ENOTDIR in the general model; in Arch/Zip the file is still
       there afterwards, and MkdirAll fails at it *)
    unfold zip_file_above in Hf. apply existsb_exists in Hf as [a [Ha Hfa]].
    rewrite (zip_mkdir_all_file (rm_all p f) (removelast p) a Ha); [apply helper_fail; assumption|].
    unfold zip_is_file. rewrite ZiP.lookup_remove_all. replace (Zi.is_prefix p a) with false; [exact Hfa|].
    destruct (Zi.is_prefix p a) eqn:Ep; [|reflexivity]. rewrite <- (ZiP.is_prefix_parent_self p Hp).
    apply (ZiP.is_prefix_trans p a _ Ep), (ZiP.in_prefixes a), in_prefixes_inits, Ha.
Qed.

Theorem zip_symlink_refines_lemma : forall f T p dest, zip_wf f -> zip_sim f T -> p <> [] -> zip_link_above f p = false ->
  zip_agree_helper (zip_symlink p dest f) (gen_symlink p (map Gt.Nm dest) T) /\ zip_wf (snd (zip_symlink p dest f)).
Proof.
  intros f T p dest W Hs Hp Hnl. unfold zip_symlink, gen_symlink.
  apply (zip_prep_refines
           (fun f2 => match Zi.fs_symlink p dest f2 with None => (false, f2) | Some f3 => (true, f3) end)
           (fun T2 => match Go.symlink T2 (map Gt.Nm dest) p with Go.Err e => (Some e, T2) | Go.Ok T3 => (None, T3) end));
    try assumption.
  intros f2 T2 W2 S2 Hnl2 _. destruct (zip_fs_symlink_refines_lemma f2 T2 p dest W2 S2 Hp Hnl2) as [A F].
  apply helper_bind; try assumption. intros f3 T3 E S3. apply helper_ret; [apply (F f3 E) | exact S3].
Qed.

Theorem zip_copyfile_refines_lemma : forall f T p chunks, zip_wf f -> zip_sim f T -> p <> [] -> zip_link_above f p = false ->
  zip_agree_helper (zip_copyfile p chunks f) (gen_copyfile p chunks T) /\ zip_wf (snd (zip_copyfile p chunks f)).
Proof.
  intros f T p chunks W Hs Hp Hnl. unfold zip_copyfile, gen_copyfile.
  apply (zip_prep_refines
           (fun f2 => match Zi.fs_create p f2 with None => (false, f2) | Some f3 => zip_appends p chunks f3 end)
           (fun T2 => match Go.open_trunc T2 p with Go.Err e => (Some e, T2) | Go.Ok (T3, q) => (None, gen_writes q 0 chunks T3) end));
    try assumption.
  intros f2 T2 W2 S2 Hnl2 Hn2.
  assert (Hl2 : zip_is_link f2 p = false) by (unfold zip_is_link; rewrite Hn2; reflexivity).
  pose proof (zip_fs_create_refines_lemma f2 T2 p W2 S2 Hp Hnl2 Hl2) as C.
  destruct (Zi.fs_create p f2) as [f3|]; destruct (Go.open_trunc T2 p) as [[T3 q]|e]; try contradiction.
  - destruct C as [-> [S3 [W3 E3]]].
    destruct (zip_appends_writes chunks f3 T3 p [] W3 S3 Hp E3) as [f' [H1 [H2 H3]]]. rewrite H1. apply helper_ret; assumption.
  - apply helper_fail; assumption.
Qed.

Lemma zip_appends_content : forall chunks f p d, Zi.lookup f p = Some (Zi.File d) ->
  exists f', zip_appends p chunks f = (true, f') /\ Zi.lookup f' p = Some (Zi.File (d ++ concat chunks)).
Proof.
  induction chunks as [|c chunks IH]; intros f p d El; cbn [zip_appends concat].
  - exists f. rewrite app_nil_r. split; [reflexivity | exact El].
  - unfold Zi.fs_append. rewrite El. destruct (IH (Zi.upd f p (Zi.File (d ++ c))) p (d ++ c)) as [f' [H1 H2]].
    + rewrite ZiP.lookup_upd, ZiP.path_eqb_refl. reflexivity.
    + exists f'. rewrite H1, H2, <- app_assoc. split; reflexivity.
Qed.

Lemma zip_call_refines : forall f T c, zip_wf f -> zip_sim f T -> zip_call_ok f c = true ->
  zip_agree_helper (zip_call_step f c) (gen_call_step T c) /\ zip_wf (snd (zip_call_step f c)).
Proof.
  intros f T c W Hs Hok. unfold zip_call_ok in Hok. apply andb_true_iff in Hok as [H1 H2].
  apply negb_true_iff in H2.
  assert (Hp : call_path c <> []) by (destruct (call_path c); [discriminate H1 | discriminate]).
  destruct c as [p | p d | p ch]; cbn [call_path zip_call_step gen_call_step] in *.
  - apply zip_mkdir_refines_lemma; assumption.
  - apply zip_symlink_refines_lemma; assumption.
  - apply zip_copyfile_refines_lemma; assumption.
Qed.

Theorem zipfs_refines_fs_lemma : forall cs f T bs f', zip_wf f -> zip_sim f T -> zip_calls_ok f cs = true ->
  zip_calls f cs = (bs, f') ->
  exists es T', gen_calls T cs = (es, T') /\ bs = map errno_is_none es /\ zip_sim f' T' /\ zip_wf f'.
Proof.
  induction cs as [|c cs IH]; intros f T bs f' W Hs Hok E.
  - cbn in E. injection E as <- <-. exists [], T. split; [reflexivity | split; [reflexivity | split; assumption]].
  - cbn [zip_calls gen_calls zip_calls_ok] in *. apply andb_true_iff in Hok as [Hok1 Hok2].
    destruct (zip_call_refines f T c W Hs Hok1) as [[Hflag Hsim] W1].
    destruct (zip_call_step f c) as [b f1]. destruct (gen_call_step T c) as [e T1]. cbn [fst snd] in *.
    destruct (zip_calls f1 cs) as [bs1 f2] eqn:E1. injection E as <- <-.
    destruct (IH f1 T1 bs1 f2 W1 Hsim Hok2 E1) as [es [T2 [G [Hb [Hs2 W2]]]]].
    exists (e :: es), T2. rewrite G. split; [reflexivity|]. split; [|split; assumption].
    cbn [map]. rewrite <- Hb, (helper_flag b e Hflag). reflexivity.
Qed.

Lemma zip_wfb_sound : forall f, zip_wfb f = true -> zip_wf f.
Proof.
  intros f. apply (GG.wfb_sound Zi.Dir f (Zi.lookup f) (zip_is_dir f) (ZiP.lookup_In f)).
  intros q. unfold zip_is_dir. destruct (Zi.lookup f q) as [[]|]; congruence.
Qed.
