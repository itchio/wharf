(** Compose/ValidateProtocol.v - DEFINITIONS (executable, and the predicate [matching] of the
    statements): the parameters of the goroutine / channel protocol of pwr.ValidatorContext.Validate (Heal/Protocol.v, C16) built from the
    per-entry observations of the validator model (Val/FileVal.v on Val/VPool.v, Val/Drip.v, C05).
    Proofs: Compose/ValidateProtocolProofs.v.

    C16 leaves abstract WHAT the passes of Validate find ([p_pre], [p_files]); C05 computes it
    for a concrete directory but runs the passes sequentially.  [params_of] is the bridge, at the
    model's unscaled semantics (the C16 harness scales counts down; nothing is scaled here):

    - [p_pre]: one [PWound] per directory that is not a directory (after [eff]: a wounded
      directory hides what is below it), then one per symlink that is not the signed link, in
      container order; [PErr] at the first entry whose Lstat / Readlink fails otherwise
      (pwr/validator.go `return err`; main never looks at a later entry).  [dirs_pass] /
      [links_pass] of C05 return [None] exactly when a [PErr] is present, else one wound per
      [PWound] (ValidateProtocolProofs.pre_items_spec).
    - [p_files]: per file of the container, in container order, what the worker's doOne does:
      [FWhole] when the entry is not a regular file (or hidden); else [FData ws1 mid ws2] where
      the markers are the RAW block markers [vpool_wounds] that C05's [file_wounds] feeds to
      [aggregate] (C16's [fmsg] is what the block validator sends TO the aggregator, not what
      comes out of it): [ws1] = markers of the complete blocks, validated by drip.Writer.Write
      during io.Copy; [mid] = [FMShort] iff the number of bytes copied differs from the signed
      size (doOne then sends the size wound itself, straight to vctx.Wounds); [ws2] = the marker
      of the short last block, validated by drip.Writer.Close (the deferred writer.Close()).
      The two booleans of [FBad] are the decisions AggregateWounds takes on that marker
      ([fmsgs_of] threads [lastWound] exactly as [aggregate] does), so that C16's aggregator
      ([agg_in], run sequentially: [agg_run]) emits what C05's [aggregate] emits
      (ValidateProtocolProofs.agg_run_aggregate).
      [FOpenErr] (GetWriter / ComputeHashInfo error) and [FMErr] (io.Copy error) have no
      counterpart among C05's observations and are never produced. *)
From Wharf Require Import Base.Prelude Val.Drip Val.VPool Val.FileVal Heal.Protocol.
Local Open Scope Z_scope.

(** what a marker is for the consumers of C16: CLOSED_FILE / a real wound *)
Definition msg_of (w : wound) : msg := if healthy w then Healthy else Bad.

(** raw block markers -> what the aggregator model of C16 is told about them; [last] is
    AggregateWounds' lastWound, threaded as in [aggregate] (Val/VPool.v).  The flags of an
    [FBad] met with no pending wound are not looked at by [agg_in]. *)
Fixpoint fmsgs_of (maxSize : Z) (last : option wound) (ws : list wound) : list fmsg :=
  match ws with
  | [] => []
  | w :: r =>
    match wk w with
    | WFile =>
      match last with
      | None => FBad false false :: fmsgs_of maxSize (Some w) r
      | Some l =>
        if (wend l <=? wstart w) && (wstart w >=? wstart l) then
          let l' := mkwound (wk l) (widx l) (wstart l) (wend w) in
          if wend l' - wstart l' >=? maxSize then FBad true true :: fmsgs_of maxSize None r
          else FBad true false :: fmsgs_of maxSize (Some l') r
        else FBad false false :: fmsgs_of maxSize (Some w) r
      end
    | _ => FHealthy :: fmsgs_of maxSize None r
    end
  end.

(** the aggregator of Heal/Protocol.v run on its own: [agg_in] on each input (action AWA), then
    the flush of a pending wound when the input is closed (action AAgg); output in send order *)
Fixpoint agg_run (last : bool) (ms : list fmsg) : list msg :=
  match ms with
  | [] => if last then [Bad] else []
  | m :: r => let '(l, o) := agg_in last m in o ++ agg_run l r
  end.

(** the directory matches the signature (the conclusion of C05's [never_false_valid]): every
    signed directory is a directory, every symlink has the signed destination, every file is a
    regular file with exactly the signed content *)
Definition matching (ds : list (list nat * obs)) (ls : list (list nat * N * obs))
           (fs : list (list nat * list N * obs)) : Prop :=
  Forall (fun p => snd p = ODir) ds /\
  Forall (fun x => let '(_, want, o) := x in o = OLink want) ls /\
  Forall (fun x => let '(_, signed, o) := x in o = OFile signed) fs.

Section ValidateProtocol.
  Context {H : Type}.
  Variable bs : Z.               (* pwr.BlockSize *)
  Variable maxWound : Z.         (* pwr.MaxWoundSize *)
  Variable hash : list N -> H.
  Variable heqb : H -> H -> bool.

  (** doOne for file [i] (same arguments as [file_wounds]) *)
  Definition file_of (i : Z) (signed : list N) (o : obs) : file :=
    match o with
    | OFile content =>
      let size := Z.of_nat (length signed) in
      let raw := vpool_wounds bs hash heqb i size (group_of bs hash signed) [content] in
      let ms := fmsgs_of maxWound None raw in
      let nfull := (length content / Z.to_nat bs)%nat in
      FData (firstn nfull ms)
            (if Z.of_nat (length content) =? size then FMNone else FMShort)
            (skipn nfull ms)
    | _ => FWhole                                                  (* doWholeFileWound *)
    end.

  Fixpoint files_of (i : Z) (fs : list (list N * obs)) : list file :=
    match fs with
    | [] => []
    | (signed, o) :: r => file_of i signed o :: files_of (i + 1) r
    end.

  (** symlink pass *)
  Fixpoint link_items (ls : list (N * obs)) : list pitem :=
    match ls with
    | [] => []
    | (want, o) :: r =>
      match o with
      | OErr => [PErr]
      | OLink d => if N.eqb d want then link_items r else PWound :: link_items r
      | _ => PWound :: link_items r
      end
    end.

  (** directory pass, followed by [k] (the symlink pass) when it does not return early *)
  Fixpoint dir_items (ds : list obs) (k : list pitem) : list pitem :=
    match ds with
    | [] => k
    | o :: r =>
      match o with
      | OErr => [PErr]
      | ODir => dir_items r k
      | _ => PWound :: dir_items r k
      end
    end.

  (** on effective observations (the arguments of [validate_core]) *)
  Definition params_core (cap : nat) (startfail closefail ctx0 : bool)
             (ds : list obs) (ls : list (N * obs)) (fs : list (list N * obs)) : params :=
    mkparams cap (dir_items ds (link_items ls)) startfail (files_of 0 fs) guardian ctx0 closefail.

  (** on the observations with ancestors (the arguments of [validate]): channel capacity [cap],
      [startfail] = pools.New fails in the worker, [closefail] = targetPool.Close fails,
      [ctx0] = the context is cancelled before the call (a later cancellation is the action
      [ACancel] of the schedule); the consumer is the repaired WoundsGuardian (FailFast) *)
  Definition params_of (cap : nat) (startfail closefail ctx0 : bool)
             (ds : list (list nat * obs)) (ls : list (list nat * N * obs))
             (fs : list (list nat * list N * obs)) : params :=
    let e := eff_dirs [] ds in
    params_core cap startfail closefail ctx0 (fst e)
      (map (fun x => let '(anc, want, o) := x in (want, eff (under (snd e) anc) o)) ls)
      (map (fun x => let '(anc, signed, o) := x in (signed, eff (under (snd e) anc) o)) fs).
End ValidateProtocol.
