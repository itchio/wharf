(** C02 x C14 - an executed instance at bufSize 4 / threshold 1: the old build has a file [P 1]
    that is patched in place through an overlay and a file [P 2] that is renamed to [P 3].  The
    hypotheses of [inplace_apply_equals_new_overlay_instance] hold for it (non-vacuity) and the
    stage file, its decoding and the committed tree are computed. *)
From Coq Require Import Permutation.
From Wharf Require Import Base.Prelude Bowl.FSmini Bowl.OverlayCommit Bowl.CommitSpec Bowl.CommitExamples
  Bowl.PatchPhaseProofs.
From Wharf Require Import Overlay.Writer Overlay.Codec.
From Wharf Require Import Compose.CommitOverlay Compose.CommitOverlayBytes.
Local Open Scope N_scope.

Module PatchAndRename.
  Definition ob := mkB [] [] [([P 1], [1; 1; 1; 1; 1; 1; 1; 1]); ([P 2], [5; 6])].
  Definition nb := mkB [] [] [([P 1], [1; 1; 9; 1; 1; 1; 1; 7]); ([P 3], [5; 6])].
  Definition steps := [PWrite [P 1] (fun _ => [1; 1; 9; 1; 1; 1; 1; 7]); PTranspose [P 3] [P 2]].
  (** three bytes, a Flush, the rest; the stage file already held 40 bytes of junk *)
  Definition sched (cur new : list N) : list event := [EvWrite (firstn 3 new); EvFlush; EvWrite (skipn 3 new)].
  Definition junk (cur new : list N) : list byte := repeat 255 40.
  Definition mk := mk_overlay_c14 4 1 sched junk.
  Definition wd := patch_phase mk (cont ob) steps (world0 ob).
  Definition order := [[P 2]].
  Definition go : list ghost := [(GFile, [P 2])].
  Definition stage_file : list byte := overlay_file 4 1 [1; 1; 1; 1; 1; 1; 1; 1] (sched [] [1; 1; 9; 1; 1; 1; 1; 7]) (junk [] []).

  Lemma sched_ok : forall cur new, written (sched cur new) = new.
  Proof. intros cur new. cbn [sched written]. rewrite app_nil_r. apply firstn_skipn. Qed.

  Lemma wf_ob : wf_build ob.
  Proof. now apply wf_shallow. Qed.

  Lemma wf_nb : wf_build nb.
  Proof. now apply wf_shallow. Qed.

  Lemma describe : steps_describe ob nb steps.
  Proof.
    constructor.
    - repeat constructor; cbn; intuition congruence.
    - intros p. cbn. intuition.
    - intros p k H. cbn in H. destruct H as [H|[H|[]]]; [discriminate|]. injection H as <- <-.
      exists [5; 6]. cbn. intuition.
    - intros p f H. cbn in H. destruct H as [H|[H|[]]]; [|discriminate]. injection H as <- <-. cbn. now left.
  Qed.

  Lemma phase :
    wk wd = OverlayCommit.mkW [([P 3], [P 2])] [[P 1]] [] /\
    stg wd = [([P 1], SOverlay [OverlayCommit.Skip 2; OverlayCommit.Fresh [9]; OverlayCommit.Skip 4; OverlayCommit.Fresh [7]])] /\
    out wd = tree_of ob.
  Proof. vm_compute. repeat split. Qed.

  Lemma kinds : H_kinds ob nb (wk wd).
  Proof.
    rewrite (proj1 phase). constructor.
    - intros p k H. cbn in H. destruct H as [E|[]]. injection E as <- <-. split.
      + left. reflexivity.
      + intros q A. now apply above_1 in A.
    - intros p H. cbn in H. destruct H as [<-|[<-|[]]]; vm_compute; discriminate.
  Qed.

  Lemma orders : Permutation order (trans_keys (wk wd)) /\ ghost_order_ok nb ob go.
  Proof.
    rewrite (proj1 phase). split; [apply Permutation_refl|]. apply short_ghost_order; [cbn; lia | apply Permutation_refl].
  Qed.

  (** the stage file as bytes: magic, header (an empty message), SKIP 2, FRESH [9], SKIP 4,
      FRESH [7], end marker, then what is left of the junk; [Patch] + truncate on the old
      content gives the new content *)
  Lemma file :
    stage_file = [0; 111; 239; 15; 0; 2; 16; 2; 5; 8; 1; 26; 1; 9; 2; 16; 4; 5; 8; 1; 26; 1; 7; 3; 8; 248; 15]
                 ++ repeat 255 13 /\
    decode_file Codec.dec Codec.magic stage_file
      = Some [Writer.Skip 0; Writer.Skip 2; Writer.Fresh [9]; Writer.Skip 4; Writer.Fresh [7]; EndMark] /\
    apply_overlay_file Codec.dec Codec.magic [1; 1; 1; 1; 1; 1; 1; 1] stage_file = Some [1; 1; 9; 1; 1; 1; 1; 7].
  Proof. vm_compute. repeat split. Qed.

  Lemma result :
    OverlayCommit.commit (cont ob) (cont nb) (wk wd) (stg wd) order order go (out wd)
    = Ok [([P 1], File [1; 1; 9; 1; 1; 1; 1; 7]); ([P 3], File [5; 6])].
  Proof. vm_compute. reflexivity. Qed.

  (** the same on bytes: the stage folder holds the overlay file itself, Commit runs [Patch] +
      truncate on it *)
  Definition bsteps :=
    [BWrite [P 1] (fun _ => [EvWrite [1; 1; 9]; EvFlush; EvWrite [1; 1; 1; 1; 7]]) (repeat 255 40); BTranspose [P 3] [P 2]].
  Definition bw := patch_phase_b 4 1 (cont ob) bsteps (bworld0 (tree_of ob)).

  (** [bsteps] erase to [steps] *)
  Lemma bytes_describe : steps_describe ob nb (map erase bsteps).
  Proof. exact describe. Qed.

  Lemma bytes_phase :
    (bwk bw = OverlayCommit.mkW [([P 3], [P 2])] [[P 1]] []) /\ bstg bw = [([P 1], stage_file)] /\ bout bw = tree_of ob /\
    decode_stage (bwk bw) (bstg bw) = stg wd.
  Proof. vm_compute. repeat split. Qed.

  Lemma bytes_result :
    commit_b (cont ob) (cont nb) (bwk bw) (bstg bw) order order go (bout bw)
    = Ok [([P 1], File [1; 1; 9; 1; 1; 1; 1; 7]); ([P 3], File [5; 6])].
  Proof. vm_compute. reflexivity. Qed.
End PatchAndRename.
