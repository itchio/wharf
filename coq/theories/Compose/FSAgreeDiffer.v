(** Inputs on which the three filesystem models do NOT agree, as executed witnesses, and a few
    on which one might expect a difference but there is none.  They delimit the refinement
    theorems of [Compose/FSAgree{Mini,Zip}Proofs.v]: every hypothesis of those theorems about
    states and inputs is needed (there is no witness for [zip_wf]).  What the kernel / Go's os
    package really do on these inputs is recorded in the comments.  At the end, one executed
    instance of each summary theorem ([fsmini_refines_fs_instance], [zipfs_refines_fs_instance]).

    Genuine differences (no symbolic link involved, well-formed state, input accepted by both):
      1. [fsmini_rename_errno_differ]   errno of os.Rename when the old name is missing AND the
                                         new name lies below a regular file: FSmini ENOENT, general
                                         model ENOTDIR.  Linux: ENOTDIR.  FSmini is wrong (in the
                                         errno only: both fail and leave the tree alone).
      2. [zip_remove_all_differ]        os.RemoveAll of a path below a regular file: Arch/Zip
                                         succeeds (nothing to remove), general model ENOTDIR.
                                         Go/Linux: ENOTDIR.  Arch/Zip is wrong; the helpers that
                                         use it (Symlink, CopyFile) fail one call later, in
                                         MkdirAll, with the same tree ([zip_symlink_below_file_agree]).
      3. [zip_remove_dir_differ]        os.Remove of an empty directory: Arch/Zip fails (by its
                                         own comment: "directory: error"), general model removes
                                         it.  Go/Linux: removed.  Arch/Zip is wrong outside
                                         archiver.Mkdir's use (Remove only after Lstat saw a
                                         non-directory).
    Differences by design (documented in the small models):
      4. the empty relative path = the target directory itself ([fsmini_root_differ],
         [zip_root_differ]): not an input of either small model;
      5. a link strictly above the path: FSmini declines ([fsmini_link_above_declines]),
         Arch/Zip answers "error", the general model follows the link ([zip_link_above_differ]);
      6. association lists that are not trees ([fsmini_nonwf_differ]). *)
From Wharf Require Import FS.Light.
From Wharf Require Import Compose.FSAgree.
Local Open Scope N_scope.

Notation mt := (mini_tree enc_std ldest_std).
Notation mp := (mini_path enc_std).

Example fsmini_rename_errno_differ :
  let t := [([Mi.P 2], Mi.File [7])] in
  let src := [Mi.P 1] in let dst := [Mi.P 2; Mi.P 1] in
  mini_wfb t = true /\
  Mi.rename t src dst = Mi.Err Mi.ENOENT /\
  Go.rename (mt t) (mp src) (mp dst) = Go.Err Go.ENOTDIR /\
  mini_rename_precedence_ok t src dst = false.
Proof. vm_compute. repeat split. Qed.

Example zip_remove_all_differ :
  let f := [([2], Zi.File [7])] in
  zip_wfb f = true /\ zip_link_above f [2; 1] = false /\ zip_file_above f [2; 1] = true /\
  Zi.fs_remove_all [2; 1] f = Some f /\
  Go.remove_all (zip_tree f) [2; 1] = Go.Err Go.ENOTDIR.
Proof. vm_compute. repeat split. Qed.

(** ... and the helper built on it still agrees: both fail, same tree *)
Example zip_symlink_below_file_agree :
  let f := [([2], Zi.File [7])] in
  zip_symlink [2; 1] [9] f = (false, f) /\
  gen_symlink [2; 1] [Gt.Nm 9] (zip_tree f) = (Some Go.ENOTDIR, zip_tree f).
Proof. vm_compute. repeat split. Qed.

Example zip_remove_dir_differ :
  let f := [([2], Zi.Dir)] in
  zip_wfb f = true /\
  Zi.fs_remove [2] f = None /\
  Go.remove (zip_tree f) [2] = Go.Ok [].
Proof. vm_compute. repeat split. Qed.

(** Linux on the target directory itself: Lstat ok (a directory), Remove EBUSY/ENOTEMPTY...,
    Symlink EEXIST, open(O_CREATE|O_TRUNC|O_WRONLY) EISDIR, MkdirAll ok (the one call on which
    the two agree: last line) *)
Example fsmini_root_differ :
  Mi.lstat [] [] = Mi.Err Mi.ENOENT /\ Go.lstat [] [] = Go.Ok Gt.Dir /\
  Mi.symlink [] 5 [] = Mi.Ok [([], Mi.Link 5)] /\ Go.symlink [] [Gt.Nm 5] [] = Go.Err Go.EEXIST /\
  Mi.create_trunc [] [] [9] = Mi.Ok [([], Mi.File [9])] /\ gen_create [] [] [9] = Go.Err Go.EISDIR /\
  Mi.remove [] [] = Mi.Err Mi.ENOENT /\ Go.remove [] [] = Go.Err Go.EBUSY /\
  Mi.remove_all [] [] = Mi.Ok [] /\ Go.remove_all [] [] = Go.Err Go.EINVAL /\
  Mi.mkdir_all [] [] = Mi.Ok [] /\ Go.mkdir_all [] [] = Go.Ok [].
Proof. vm_compute. repeat split. Qed.

Example zip_root_differ :
  let f := [([2], Zi.File [7])] in
  Zi.fs_remove_all [] f = Some [] /\ Go.remove_all (zip_tree f) [] = Go.Err Go.EINVAL /\
  Zi.fs_symlink [] [9] f = Some (([], Zi.Link [9]) :: f) /\ Go.symlink (zip_tree f) [Gt.Nm 9] [] = Go.Err Go.EEXIST /\
  Zi.lookup f [] = None /\ Go.lstat (zip_tree f) [] = Go.Ok Gt.Dir.
Proof. vm_compute. repeat split. Qed.

(** [2] is a link to the directory [1]: MkdirAll(2/3) creates 1/3 on Linux *)
Example zip_link_above_differ :
  let f := [([1], Zi.Dir); ([2], Zi.Link [1])] in
  zip_wfb f = true /\ zip_link_above f [2; 3] = true /\
  Zi.fs_mkdir_all [2; 3] f = None /\
  Go.mkdir_all (zip_tree f) [2; 3] = Go.Ok (([1; 3], Gt.Dir) :: zip_tree f).
Proof. vm_compute. repeat split. Qed.

Example fsmini_link_above_declines :
  let t := [([Mi.P 1], Mi.Dir); ([Mi.P 2], Mi.Link 2)] in
  Mi.mkdir_all t [Mi.P 2; Mi.P 3] = Mi.Unmodelled /\ Mi.lstat t [Mi.P 2; Mi.P 3] = Mi.Unmodelled.
Proof. vm_compute. repeat split. Qed.

(** an entry below nothing: RemoveAll of the missing parent *)
Example fsmini_nonwf_differ :
  let t := [([Mi.P 1; Mi.P 2], Mi.File [7])] in
  mini_wfb t = false /\
  Mi.remove_all t [Mi.P 1] = Mi.Ok t /\
  Go.remove_all (mt t) (mp [Mi.P 1]) = Go.Ok [].
Proof. vm_compute. repeat split. Qed.

(** Inputs on which the models might be suspected to differ and do not (Linux agrees with
    both): os.Rename onto an existing empty directory (EEXIST, Go's own check), of a directory
    into itself (EINVAL), of a directory onto a file (ENOTDIR), onto one of its ancestors (EEXIST:
    the ancestor is a directory), Remove of a non-empty directory (ENOTEMPTY), MkdirAll over and
    below a regular file (ENOTDIR; plain mkdir(2) would say EEXIST). *)
Example fsmini_suspected_cases_agree :
  let t := [([Mi.P 1], Mi.Dir); ([Mi.P 1; Mi.P 4], Mi.Dir); ([Mi.P 2], Mi.Dir); ([Mi.P 3], Mi.File [7])] in
  let T := mt t in
  mini_wfb t = true /\
  Mi.rename t [Mi.P 1] [Mi.P 2] = Mi.Err Mi.EEXIST /\ Go.rename T (mp [Mi.P 1]) (mp [Mi.P 2]) = Go.Err Go.EEXIST /\
  Mi.rename t [Mi.P 1] [Mi.P 1; Mi.P 5] = Mi.Err Mi.EINVAL /\ Go.rename T (mp [Mi.P 1]) (mp [Mi.P 1; Mi.P 5]) = Go.Err Go.EINVAL /\
  Mi.rename t [Mi.P 1] [Mi.P 3] = Mi.Err Mi.ENOTDIR /\ Go.rename T (mp [Mi.P 1]) (mp [Mi.P 3]) = Go.Err Go.ENOTDIR /\
  Mi.rename t [Mi.P 1; Mi.P 4] [Mi.P 1] = Mi.Err Mi.EEXIST /\ Go.rename T (mp [Mi.P 1; Mi.P 4]) (mp [Mi.P 1]) = Go.Err Go.EEXIST /\
  Mi.rename t [Mi.P 3] [Mi.P 2] = Mi.Err Mi.EEXIST /\ Go.rename T (mp [Mi.P 3]) (mp [Mi.P 2]) = Go.Err Go.EEXIST /\
  Mi.remove t [Mi.P 1] = Mi.Err Mi.ENOTEMPTY /\ Go.remove T (mp [Mi.P 1]) = Go.Err Go.ENOTEMPTY /\
  Mi.mkdir_all t [Mi.P 3] = Mi.Err Mi.ENOTDIR /\ Go.mkdir_all T (mp [Mi.P 3]) = Go.Err Go.ENOTDIR /\
  Mi.mkdir_all t [Mi.P 3; Mi.P 6] = Mi.Err Mi.ENOTDIR /\ Go.mkdir_all T (mp [Mi.P 3; Mi.P 6]) = Go.Err Go.ENOTDIR /\
  Go.mkdir T (mp [Mi.P 3]) = Go.Err Go.EEXIST.
Proof. vm_compute. repeat split. Qed.

(** a commit-like sequence with a temporary name: park b under b.butler-rename-0, move a to b,
    make a directory, write a file in it, link, read back, clean up *)
Definition mini_demo_tree : Mi.fs :=
  [([Mi.P 1], Mi.File [1; 2]); ([Mi.P 2], Mi.File [3]); ([Mi.P 3], Mi.Dir); ([Mi.P 3; Mi.P 4], Mi.Link 8)].

Definition mini_demo_ops : list mini_op :=
  [ORename [Mi.P 2] [Mi.R (Mi.P 2) 0]; ORename [Mi.P 1] [Mi.P 2]; OLstat [Mi.P 1];
   OMkdirAll [Mi.P 5; Mi.P 6]; OCreate [Mi.P 5; Mi.P 6; Mi.P 7] [9; 9]; ORead [Mi.P 5; Mi.P 6; Mi.P 7];
   OSymlink 4 [Mi.P 5; Mi.P 8]; OReadlink [Mi.P 3; Mi.P 4]; ORename [Mi.P 3] [Mi.P 5; Mi.P 6; Mi.P 3];
   ORemove [Mi.P 5]; ORemove [Mi.R (Mi.P 2) 0]; ORename [Mi.P 5] [Mi.P 5; Mi.P 6; Mi.P 1];
   OOpenExisting [Mi.P 2]; ORemoveAll [Mi.P 5; Mi.P 6]; ORemoveAll [Mi.P 9; Mi.P 9]; ORename [Mi.P 9] [Mi.P 7; Mi.P 1]].

Example fsmini_refines_fs_instance :
  mini_wfb mini_demo_tree = true /\
  mini_ops_ok mini_demo_tree mini_demo_ops = true /\
  exists outs t',
    mini_run ldest_std mini_demo_tree mini_demo_ops = Some (outs, t') /\
    fst (gen_run enc_std ldest_std (mt mini_demo_tree) mini_demo_ops) = outs /\
    Gt.tree_eqb (mt t') (snd (gen_run enc_std ldest_std (mt mini_demo_tree) mini_demo_ops)) = true /\
    map fst outs = [None; None; Some Go.ENOENT; None; None; None; None; None; None; Some Go.ENOTEMPTY; None;
                    Some Go.EINVAL; None; None; None; Some Go.ENOENT].
Proof. split; [vm_compute; reflexivity|]. split; [vm_compute; reflexivity|]. eexists. eexists. vm_compute. repeat split. Qed.

Definition zip_demo_tree : Zi.fs := [([1], Zi.File [5]); ([2], Zi.Dir); ([2; 3], Zi.Link [1]); ([4], Zi.Link [2])].

Definition zip_demo_calls : list zip_call :=
  [CMkdir [1]; CCopyFile [1; 2] [[7; 8]; []; [9]]; CSymlink [2] [1]; CMkdir [1; 5]; CCopyFile [1; 2; 6] [[1]];
   CSymlink [4] [9; 9]; CCopyFile [6] []; CMkdir [6; 7; 8]; CSymlink [1; 2; 3] [7]].

Example zipfs_refines_fs_instance :
  zip_wfb zip_demo_tree = true /\
  zip_calls_ok zip_demo_tree zip_demo_calls = true /\
  fst (zip_calls zip_demo_tree zip_demo_calls) = map errno_is_none (fst (gen_calls (zip_tree zip_demo_tree) zip_demo_calls)) /\
  Gt.tree_eqb (zip_tree (snd (zip_calls zip_demo_tree zip_demo_calls))) (snd (gen_calls (zip_tree zip_demo_tree) zip_demo_calls)) = true /\
  fst (zip_calls zip_demo_tree zip_demo_calls) = [true; true; true; true; false; true; true; false; false].
Proof. vm_compute. repeat split. Qed.
