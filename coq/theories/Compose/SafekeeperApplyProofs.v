(** Proofs about Compose/SafekeeperApply.v: the patcher reading the old build through the
    safekeeper either fails or computes exactly what the patcher computes on the signed build.

    1. [sk_range_ok] (J/E form, used in Section [Sim]) and its corollary [sk_range_sound]: the
       block-range consumer as the patcher drives it (any offset that is a multiple of the read
       size, ANY size - the op size comes from the patch's container), from [range_loop_sound]
       of Val/SafekeeperProofs.v.
    2. [lf_read_sound]: lrufile over the safekeeper reader, chunk by chunk, with its cache.
    3. Section [Sim]: the control structure of Patcher.v is walked once, for an abstract
       "may fail" / "may accept what the signed build rejects" pair [E] / [X] and an abstract
       invariant [J] of the verdict caches under which a Read fails only if [E].
    4. Instances: any damage ([E] = True, [X] = some file on disk is longer than signed, [J]
       trivial); pristine build ([E] = [X] = False, [J] = no cached verdict is an error). *)
From Wharf Require Import Base.Prelude Base.BlocksLemmas Val.Safekeeper Val.SafekeeperProofs
     Bowl.Fresh Patch.Reinterp Patch.Stream Patch.Patcher Compose.SafekeeperApply.
From Coq Require Import ZifyBool ZifyNat ZifyN.
Local Open Scope N_scope.

Notation sslice := Safekeeper.slice.

Section Lists.
  Context {A : Type}.
  Implicit Types l : list A.

  Lemma In_firstn (n : nat) l x : In x (firstn n l) -> In x l.
  Proof. intros Hx. rewrite <- (firstn_skipn n l). apply in_or_app. left. assumption. Qed.

  Lemma slice_full l a n : a + n <= nlen l -> nlen (sslice l a n) = n.
  Proof. intros Hn. rewrite slice_length. lia. Qed.

  (** chunk [off / c] of [l] holds [l] from [off] up to the next multiple of [c] *)
  Lemma chunk_slice l ch (c off k : N) : 0 < c -> ch = sslice l (off / c * c) c -> off mod c + k <= c ->
    sslice ch (off mod c) k = sslice l off k.
  Proof. intros Hc -> Hk. rewrite slice_slice by assumption. f_equal. pose proof (N.div_mod off c). lia. Qed.

  (** the size lrufile computes for chunk [ci] of a file of [nlen l] bytes *)
  Lemma chunk_cap l (c ci : N) :
    (if nlen l <? ci * c + c then nlen l else ci * c + c) - ci * c = nlen (sslice l (ci * c) c).
  Proof. rewrite slice_length. destruct (N.ltb_spec (nlen l) (ci * c + c)); lia. Qed.
End Lists.

Lemma slice_ZN (d : list byte) (from len : Z) : sslice d (Z.to_N from) (Z.to_N len) = Stream.slice d from len.
Proof. unfold Safekeeper.slice, Stream.slice. rewrite !Z_N_nat. reflexivity. Qed.

Lemma add_bytes_firstn : forall (a l : list byte), add_bytes a (firstn (length a) l) = add_bytes a l.
Proof.
  induction a as [|x a IH]; intros l; [reflexivity|].
  destruct l as [|y l]; [reflexivity|]. cbn [length firstn add_bytes]. rewrite IH. reflexivity.
Qed.

Lemma add_bytes_slice (a s : list byte) (off : Z) :
  (0 <= off)%Z -> add_bytes a (sslice s (Z.to_N off) (nlen a)) = add_bytes a (skipn (Z.to_nat off) s).
Proof.
  intros Ho. unfold Safekeeper.slice, nlen. rewrite Nat2N.id, Z_N_nat. apply add_bytes_firstn.
Qed.

(** the two bounds checks of [bs_apply] are one: the add part lies inside the old file *)
Lemma bs_apply_checks {T} (off n len : Z) (t : res T) : (0 <= n)%Z ->
  (if (off <? 0) || (off >? len) then Err else if off + n >? len then Err else t)%Z =
  (if (off <? 0) || (off + n >? len) then Err else t)%Z.
Proof. intros Hn. destruct (off <? 0)%Z eqn:E1, (off >? len)%Z eqn:E2, (off + n >? len)%Z eqn:E3; try reflexivity; lia. Qed.

Lemma lru_find_In ci : forall l d, lru_find ci l = Some d -> In (ci, d) l.
Proof.
  induction l as [|[k x] l IH]; intros d; cbn [lru_find]; [discriminate|].
  destruct (k =? ci) eqn:E.
  - apply N.eqb_eq in E. subst k. intros E'. inversion E'. left. reflexivity.
  - intros E'. right. apply IH. assumption.
Qed.

Lemma lru_remove_In ci x : forall l, In x (lru_remove ci l) -> In x l.
Proof.
  induction l as [|[k y] l IH]; cbn [lru_remove]; [tauto|].
  destruct (k =? ci); [intros Hx; right; assumption|].
  intros [Hx|Hx]; [left; assumption|right; apply IH; assumption].
Qed.

Section OneFile.
  Context {H : Type}.
  Variables bs c m : N.
  Hypothesis c_pos : 0 < c.
  Hypothesis m_pos : 0 < m.
  Hypothesis bs_c : bs = c * m.
  Variable entries : nat.
  Variable hash : list byte -> H.
  Variable heqb : H -> H -> bool.
  Hypothesis hash_inj : forall a b, heqb (hash a) (hash b) = true -> a = b.
  Variables signed actual : list byte.

  Let f := skfile_of bs hash signed actual.

  (** what a Read returns is what the file holds (model of os.File: full reads) *)
  Lemma sk_read_actual s len s' r :
    rd_ok bs signed actual s -> 0 < len ->
    sk_read bs hash heqb Fixed f s len = (s', r) ->
    match r with
    | RData d => d = sslice actual (roff s) len
    | REOF => nlen actual <= roff s
    | RErr => True
    end.
  Proof.
    intros [Hpos Hca] Hlen. unfold sk_read.
    destruct (validate_block bs hash heqb Fixed f (rcache s) (roff s)) as [[ca' r'] mv] eqn:V.
    apply (validate_fixed bs c m c_pos m_pos bs_c hash heqb hash_inj) in V; [|assumption].
    destruct V as (_ & Hne & _).
    assert (Hp : (if mv then roff s else rpos s) = roff s) by (destruct mv; congruence).
    rewrite Hp. destruct r'; [|intros R; inversion R; exact I|congruence].
    cbn [factual f skfile_of].
    destruct (len =? 0) eqn:E0; [apply N.eqb_eq in E0; lia|].
    destruct (is_nil (sslice actual (roff s) len)) eqn:En; intros R; inversion R; subst; clear R.
    - destruct (sslice actual (roff s) len) eqn:Ed; [|discriminate].
      apply slice_is_nil in Ed. lia.
    - reflexivity.
  Qed.

  (** wsync.ApplySingleFull as the patcher drives it: from any multiple of the read size, for
      any number of bytes - the op size is computed from the size in the patch's container and
      may reach past the end of the signed file, where the copy ends at EOF without an error,
      exactly as on the signed file *)
  Lemma sk_range_ok J E p fi off size r' ps o :
    reads_keep bs hash heqb f J E ->
    cache_ok bs signed actual (pcache p fi) -> J (pcache p fi) -> off mod c = 0 ->
    sk_range bs c hash heqb f p fi off size = (r', ps, o) ->
    o <> OutOfFuel /\ cache_ok bs signed actual (rcache r') /\ J (rcache r') /\ (o = Failed -> E) /\
    (o = Done -> concat ps = sslice signed off size).
  Proof.
    intros HJ Hca Hj Hal. unfold sk_range. intros L.
    apply (range_loop_sound bs c m c_pos m_pos bs_c hash heqb hash_inj _ _ J E HJ) in L.
    - destruct L as (Ho & [_ Hca'] & Hj' & Hf & Hs). apply served_bytes in Hs. rewrite concat_blocks in Hs by lia.
      cbn [sk_seek roff] in Hs. destruct Hs. auto 6.
    - split; [reflexivity|exact Hca].
    - exact Hj.
    - left. exact Hal.
    - lia.
  Qed.

  Lemma sk_range_sound p fi off size r' ps o :
    cache_ok bs signed actual (pcache p fi) -> off mod c = 0 ->
    sk_range bs c hash heqb f p fi off size = (r', ps, o) ->
    o <> OutOfFuel /\ cache_ok bs signed actual (rcache r') /\
    (o = Done -> concat ps = sslice signed off size).
  Proof.
    intros Hca Hal L. apply (sk_range_ok (fun _ => True) True) in L; [|apply reads_keep_any|auto..].
    destruct L as (Ho & Hca' & _ & _ & Hd). auto.
  Qed.

  Definition lru_ok (l : lru) : Prop :=
    forall ci d, In (ci, d) l -> d = sslice signed (ci * c) c /\ d = sslice actual (ci * c) c.
  Definition bs_ok (b : bsst) : Prop := cache_ok bs signed actual (rcache (b_rd b)) /\ lru_ok (b_lru b).

  Lemma lru_ok_cons ci d l :
    lru_ok l -> d = sslice signed (ci * c) c -> d = sslice actual (ci * c) c -> lru_ok ((ci, d) :: lru_remove ci l).
  Proof.
    intros Hl Hs Ha ci' d' [E|Hin]; [inversion E; subst ci' d'; split; assumption|].
    apply Hl. eapply lru_remove_In; eassumption.
  Qed.

  Lemma lru_ok_add ci d l :
    lru_ok l -> d = sslice signed (ci * c) c -> d = sslice actual (ci * c) c -> lru_ok (lru_add entries ci d l).
  Proof. intros Hl Hs Ha ci' d' Hin. apply In_firstn in Hin. revert ci' d' Hin. apply lru_ok_cons; assumption. Qed.

  (** [J] and [E] as in [reads_keep] *)
  Variable J : cache -> Prop.
  Variable E : Prop.
  Hypothesis J_read : reads_keep bs hash heqb f J E.
  Definition bs_inv (b : bsst) : Prop := bs_ok b /\ J (rcache (b_rd b)).

  Lemma get_chunk_sound b ci b' r :
    bs_inv b -> get_chunk bs c entries hash heqb f b ci = (b', r) ->
    bs_inv b' /\
    match r with
    | Some d => d = sslice signed (ci * c) c /\ d = sslice actual (ci * c) c
    | None => E
    end.
  Proof.
    intros [[Hca Hl] Hj]. unfold get_chunk. destruct (lru_find ci (b_lru b)) as [d|] eqn:F.
    - intros [= <- <-]. apply lru_find_In in F. destruct (Hl _ _ F) as [Hs Ha].
      split; [|split; assumption]. split; [|assumption]. split; [assumption|]. apply lru_ok_cons; assumption.
    - cbn [chunk_loop].
      destruct (sk_read bs hash heqb Fixed f (sk_seek (b_rd b) (ci * c)) c) as [s1 r1] eqn:R.
      destruct (J_read (sk_seek (b_rd b) (ci * c)) _ _ _ Hj R) as [Hj1 Hx].
      apply (chunk_read_sound bs c m c_pos m_pos bs_c hash heqb hash_inj) in R; [|assumption].
      destruct R as [Hca1 R]. destruct r1 as [d| |]; cbn [rbytes] in R.
      3:{ intros [= <- <-]. split; [split; [split|]; assumption|auto]. }
      all: destruct R as [Hs Ha]; [discriminate|]; intros [= <- <-];
        (split; [split; [split; [assumption|apply lru_ok_add; assumption]|assumption]|split; assumption]).
  Qed.

  (** lrufile.Read of [remaining] bytes at [offset] <= the size of the file on disk: all of
      them, and they are the signed bytes (so the signed file is long enough); or io.EOF because
      the file on disk is too short; or an error of the safekeeper *)
  Lemma lf_read_sound : forall fuel b offset remaining acc b' r,
    bs_inv b -> offset <= nlen actual -> 0 < remaining -> remaining < N.of_nat fuel ->
    lf_read bs c entries hash heqb fuel f (nlen actual) b offset remaining acc = (b', r) ->
    bs_inv b' /\
    match r with
    | LBytes d => d = acc ++ sslice signed offset remaining /\ offset + remaining <= nlen signed
    | LShort => nlen actual < offset + remaining
    | LFail => E
    | LFuel => False
    end.
  Proof.
    induction fuel as [|fuel IH]; intros b offset remaining acc b' r Hb Hoff Hrem Hfuel; [lia|].
    cbn [lf_read]. destruct (N.eqb_spec remaining 0); [lia|].
    destruct (get_chunk bs c entries hash heqb f b (offset / c)) as [b1 o] eqn:G.
    apply get_chunk_sound in G; [|assumption]. destruct G as [Hb1 G].
    destruct o as [chunk|]; [|intros [= <- <-]; auto]. destruct G as [Hcs Hca].
    (* the cap lrufile computes from the size of the file is the length of the chunk it holds *)
    rewrite chunk_cap, <- Hca.
    pose proof (fun k => chunk_slice signed chunk c offset k c_pos Hcs) as Hfit.
    apply (f_equal nlen) in Hcs, Hca. rewrite slice_length in Hcs, Hca.
    pose proof (N.div_mod offset c ltac:(lia)) as Hdm. pose proof (N.mod_lt offset c ltac:(lia)) as Hml.
    (* quotient and remainder as variables: on the terms themselves [lia] is several times slower *)
    remember (offset / c) as ci eqn:Eci. remember (offset mod c) as start eqn:Est. clear Eci Est.
    destruct (N.ltb_spec (nlen chunk) (start + remaining)) as [Ecap|Ecap].
    - destruct (N.ltb_spec (nlen actual) (ci * c + c)) as [Elast|Elast].
      + intros [= <- <-]. split; [assumption|]. lia.
      + (* the rest of this chunk, then on from the next multiple of [c] *)
        replace (nlen chunk) with c in * by lia. clear Hca.
        intros L. apply IH in L; [|assumption|lia..].
        destruct L as [Hb' L]. split; [assumption|]. destruct r as [d| | |]; try assumption; [|lia].
        destruct L as [-> Hin]. split; [|lia]. rewrite <- app_assoc. f_equal.
        rewrite Hfit, (slice_split signed offset (c - start) remaining), slice_full by lia. reflexivity.
    - intros [= <- <-]. split; [assumption|]. split; [f_equal; apply Hfit; lia|lia].
  Qed.
End OneFile.

Section Sim.
  Context {H : Type}.
  Variables bs c m : N.
  Hypothesis c_pos : 0 < c.
  Hypothesis m_pos : 0 < m.
  Hypothesis bs_c : bs = c * m.
  Variable entries : nat.
  Variable hash : list byte -> H.
  Variable heqb : H -> H -> bool.
  Hypothesis hash_inj : forall a b, heqb (hash a) (hash b) = true -> a = b.
  Variables oldC newC : container.
  Variable signed : list (list byte).
  Variable actual : list (option (list byte)).
  Variable whitelist : option (list Z).
  Hypothesis len_eq : length actual = length signed.

  Definition present (fi : N) (s a : list byte) : Prop :=
    nth_error signed (N.to_nat fi) = Some s /\ nth_error actual (N.to_nat fi) = Some (Some a).

  (** [E]: the safekeeper may report an error; [X]: the patcher on the signed build may report
      an error that the run through the safekeeper does not see; [J]: what the verdict caches
      satisfy besides [cache_ok], so that a Read fails only if [E] *)
  Variables E X : Prop.
  Variable J : cache -> Prop.

  Hypothesis H_missing : In None actual -> E.
  Hypothesis H_size : forall fi s a, present fi s a -> (nlen a < nlen s -> E) /\ (nlen s < nlen a -> X).
  Hypothesis J_empty : J cache_empty.
  Hypothesis J_read : forall fi s a, present fi s a -> reads_keep bs hash heqb (skfile_of bs hash s a) J E.

  Definition pool_inv (p : pool) : Prop := pool_ok bs present J p.

  Lemma pool_inv_after p fi s a r :
    pool_inv p -> present fi s a -> cache_ok bs s a (rcache r) -> J (rcache r) -> pool_inv (pool_after p fi r).
  Proof. intros Hp [Hs Ha]. apply pool_ok_after; [|exact Hp]. intros s' a' [Hs' Ha']. split; congruence. Qed.

  Lemma copy_ok p fi s a r' ps o :
    pool_inv p -> present fi s a ->
    run_pattern bs c hash heqb Fixed (skfile_of bs hash s a) p fi PCopy = (r', ps, o) ->
    o <> OutOfFuel /\ (o = Failed -> E) /\ (o = Done -> concat ps = s /\ pool_inv (pool_after p fi r')).
  Proof.
    intros Hp Hpr R. destruct (Hp fi) as [Hj Hca].
    apply (run_pattern_fixed bs c m c_pos m_pos bs_c hash heqb hash_inj _ _ J E) in R;
      [|apply (J_read fi), Hpr|apply Hca, Hpr|exact Hj].
    destruct R as (Ho & Hca' & Hj' & Hf & Hs).
    apply served_bytes in Hs. cbn [ideal_pieces] in Hs. rewrite concat_blocks in Hs by lia.
    split; [assumption|]. split; [assumption|]. intros Eo.
    split; [apply Hs, Eo|apply (pool_inv_after p fi s a); assumption].
  Qed.

  Lemma range_ok p fi s a i size r' ps o :
    pool_inv p -> present fi s a ->
    sk_range bs c hash heqb (skfile_of bs hash s a) p fi (bs * i) size = (r', ps, o) ->
    o <> OutOfFuel /\ (o = Failed -> E) /\ (o = Done -> concat ps = sslice s (bs * i) size /\ pool_inv (pool_after p fi r')).
  Proof.
    intros Hp Hpr R. destruct (Hp fi) as [Hj Hca].
    apply (sk_range_ok bs c m c_pos m_pos bs_c hash heqb hash_inj _ _ J E) in R;
      [|apply (J_read fi), Hpr|apply Hca, Hpr|exact Hj|apply (block_aligned bs c m); assumption].
    destruct R as (Ho & Hca' & Hj' & Hf & Hd).
    split; [assumption|]. split; [assumption|]. intros Eo.
    split; [auto|apply (pool_inv_after p fi s a); assumption].
  Qed.

  (** the run through the safekeeper [rs] (result + state) against the plain run [rp] *)
  Definition simg {T S : Type} (P : S -> Prop) (rs : res (T * S)) (rp : res T) : Prop :=
    (E /\ rs = Err) \/ (X /\ rp = Err) \/ (rs = Err /\ rp = Err) \/ (rs = Panic /\ rp = Panic) \/
    (exists x st, rs = Ok (x, st) /\ rp = Ok x /\ P st).

  Lemma simg_E {T S} (P : S -> Prop) (rp : res T) : E -> simg P Err rp.
  Proof. intros He. left. split; [assumption|reflexivity]. Qed.
  Lemma simg_X {T S} (P : S -> Prop) (rs : res (T * S)) : X -> simg P rs Err.
  Proof. intros Hx. right. left. split; [assumption|reflexivity]. Qed.
  Lemma simg_err {T S} (P : S -> Prop) : @simg T S P Err Err.
  Proof. right. right. left. split; reflexivity. Qed.
  Lemma simg_panic {T S} (P : S -> Prop) : @simg T S P Panic Panic.
  Proof. right. right. right. left. split; reflexivity. Qed.
  Lemma simg_ok {T S} (P : S -> Prop) (x : T) (st : S) : P st -> simg P (Ok (x, st)) (Ok x).
  Proof. intros Hp. right. right. right. right. exists x, st. auto. Qed.

  Lemma simg_bind {T S U S'} (P : S -> Prop) (Q : S' -> Prop) (rs : res (T * S)) (rp : res T)
      (fs : T * S -> res (U * S')) (fp : T -> res U) :
    simg P rs rp -> (forall x st, P st -> simg Q (fs (x, st)) (fp x)) -> simg Q (bind rs fs) (bind rp fp).
  Proof.
    intros [[He ->]|[[Hx ->]|[[-> ->]|[[-> ->]|(x & st & -> & -> & Hp)]]]] Hf; cbn [bind].
    - apply simg_E. assumption.
    - destruct (bind rs fs); apply simg_X; assumption.
    - apply simg_err.
    - apply simg_panic.
    - apply Hf. assumption.
  Qed.

  (** the same computation on both sides (nothing read from the old build) *)
  Lemma simg_bind_same {T U S'} (Q : S' -> Prop) (r : res T) (fs : T -> res (U * S')) (fp : T -> res U) :
    (forall x, r = Ok x -> simg Q (fs x) (fp x)) -> simg Q (bind r fs) (bind r fp).
  Proof.
    intros Hf. destruct r as [x| |]; cbn [bind]; [apply Hf; reflexivity|apply simg_err|apply simg_panic].
  Qed.

  Lemma simg_bind_same_r {T S'} (Q : S' -> Prop) (r : res T) (fs : T -> res (T * S')) :
    (forall x, r = Ok x -> simg Q (fs x) (Ok x)) -> simg Q (bind r fs) r.
  Proof.
    intros Hf. destruct r as [x| |]; cbn [bind]; [apply Hf; reflexivity|apply simg_err|apply simg_panic].
  Qed.

  Lemma sk_file_cases i :
    match znth signed i with
    | None => sk_file bs hash signed actual i = Err
    | Some s => (E /\ sk_file bs hash signed actual i = Err) \/
                exists a, sk_file bs hash signed actual i = Ok (Z.to_N i, skfile_of bs hash s a) /\ present (Z.to_N i) s a
    end.
  Proof.
    unfold sk_file, znth. destruct (i <? 0)%Z eqn:Ei; [reflexivity|].
    assert (Hn : nth_error signed (Z.to_nat i) = None <-> nth_error actual (Z.to_nat i) = None)
      by (rewrite !nth_error_None, len_eq; reflexivity).
    destruct (nth_error signed (Z.to_nat i)) as [s|] eqn:Es, (nth_error actual (Z.to_nat i)) as [[a|]|] eqn:Ea;
      try reflexivity.
    - right. exists a. split; [reflexivity|]. unfold present. rewrite Z_N_nat. auto.
    - left. split; [|reflexivity]. apply H_missing. eapply nth_error_In; eassumption.
    - destruct Hn as [_ Hn]. discriminate (Hn eq_refl).
    - destruct Hn as [Hn _]. discriminate (Hn eq_refl).
  Qed.

  Local Notation bz := (Z.of_N bs).

  (** freshBowl.Transpose *)
  Lemma transpose_sim s p src tgt :
    pool_inv p ->
    simg pool_inv (transpose_sk bs c hash heqb oldC newC signed actual s p src tgt)
            (transpose oldC newC signed s src tgt).
  Proof.
    intros Hp. unfold transpose_sk, transpose, sk_open, pool_open.
    destruct (znth (c_files oldC) tgt) as [cf|]; [|apply simg_panic].
    pose proof (sk_file_cases tgt) as Hf.
    destruct (znth signed tgt) as [d|]; [|rewrite Hf; apply simg_err].
    destruct Hf as [[He ->]|(a & -> & Hpr)]; [apply simg_E; assumption|].
    cbn [bind fst snd].
    destruct (znth (c_files newC) src) as [[pth sz]|]; [|apply simg_panic].
    destruct (run_pattern bs c hash heqb Fixed (skfile_of bs hash d a) p (Z.to_N tgt) PCopy) as [[r' ps] o] eqn:R.
    apply (copy_ok p _ _ _ _ _ _ Hp Hpr) in R. destruct R as (Ho & Hfail & Hdone).
    destruct o; cbn [of_outcome bind]; [|apply simg_E; auto|congruence].
    destruct (Hdone eq_refl) as [-> Hp'].
    apply simg_bind_same. intros t _. apply simg_ok. assumption.
  Qed.

  Lemma to_N_mul i : (0 <= bz * i)%Z -> Z.to_N (bz * i) = bs * Z.to_N i.
  Proof. intros Hi. pose proof (block_size_pos bs c m c_pos m_pos bs_c). assert (0 <= i)%Z by nia. rewrite Z2N.inj_mul by lia. rewrite N2Z.id. reflexivity. Qed.

  (** wsync.ApplySingleFull on a block range *)
  Lemma apply_range_sim w p f i sp :
    pool_inv p ->
    simg pool_inv (apply_range_sk bs c hash heqb oldC signed actual w p f i sp)
            (apply_range bz oldC signed w f i sp).
  Proof.
    intros Hp. unfold apply_range_sk, apply_range, bsz.
    destruct (znth (c_files oldC) f) as [[pf fileSize]|]; [|apply simg_panic].
    pose proof (sk_file_cases f) as Hf.
    destruct (znth signed f) as [d|]; [|rewrite Hf; apply simg_err].
    destruct Hf as [[He ->]|(a & -> & Hpr)]; [apply simg_E; assumption|].
    cbn [bind fst snd].
    destruct (bz * i <? 0)%Z eqn:Ei; [apply simg_err|]. apply Z.ltb_ge in Ei.
    rewrite to_N_mul by assumption.
    destruct (sk_range bs c hash heqb (skfile_of bs hash d a) p (Z.to_N f) (bs * Z.to_N i)
                       (Z.to_N (op_size bz fileSize i sp))) as [[r' ps] o] eqn:R.
    apply (range_ok p _ _ _ _ _ _ _ _ Hp Hpr) in R. destruct R as (Ho & Hfail & Hdone).
    destruct o; cbn [of_outcome bind]; [|apply simg_E; auto|congruence].
    destruct (Hdone eq_refl) as [-> Hp'].
    rewrite <- to_N_mul by assumption. rewrite slice_ZN.
    apply simg_bind_same_r. intros w3 _. apply simg_ok. assumption.
  Qed.

  Lemma apply_op_sim w p o :
    pool_inv p ->
    simg pool_inv (apply_op_sk bs c hash heqb oldC signed actual w p o) (apply_op bz oldC signed w o).
  Proof.
    intros Hp. unfold apply_op_sk, apply_op.
    destruct (so_type o =? T_BLOCK_RANGE)%Z; [apply apply_range_sim; assumption|].
    destruct (so_type o =? T_DATA)%Z; [|apply simg_err].
    apply simg_bind_same_r. intros w' _. apply simg_ok. assumption.
  Qed.

  Lemma relay_sim : forall ms w p,
    pool_inv p ->
    simg pool_inv (relay_sk bs c hash heqb oldC signed actual ms w p) (relay bz oldC signed ms w).
  Proof.
    induction ms as [|m1 r IH]; intros w p Hp; cbn [relay_sk relay]; [apply simg_err|].
    destruct (so_type (as_so m1) =? HEY)%Z; [apply simg_ok; assumption|].
    destruct (negb (validate_op oldC (as_so m1))); [apply simg_err|].
    apply (simg_bind pool_inv); [apply apply_op_sim; assumption|].
    intros w' p' Hp'. cbn [fst snd]. apply IH. assumption.
  Qed.

  Lemma process_rsync_sim idx ms s p :
    pool_inv p ->
    simg pool_inv (process_rsync_sk bs c hash heqb oldC newC signed actual idx ms s p)
            (process_rsync bz oldC newC signed idx ms s).
  Proof.
    intros Hp. unfold process_rsync_sk, process_rsync, bsz. destruct ms as [|m1 r]; [apply simg_err|].
    destruct (negb (validate_op oldC (as_so m1))); [apply simg_err|].
    apply simg_bind_same. intros full _. destruct full.
    - apply (simg_bind pool_inv); [apply transpose_sim; assumption|].
      intros s' p' Hp'. cbn [fst snd]. apply simg_bind_same. intros r' _. apply simg_ok. assumption.
    - apply simg_bind_same. intros w _.
      apply (simg_bind pool_inv); [apply apply_op_sim; assumption|].
      intros w' p' Hp'. cbn [fst snd]. apply relay_sim. assumption.
  Qed.

  (** bsdiff.IndividualPatchContext.Apply over lrufile over the safekeeper reader *)
  Lemma bs_apply_sim fi s a b off ct w :
    present fi s a -> bs_inv bs c s a J b ->
    simg (bs_inv bs c s a J) (bs_apply_sk bs c entries hash heqb (skfile_of bs hash s a) (nlen a) b off ct w)
                  (bs_apply s off ct w).
  Proof.
    intros Hpr Hb. unfold bs_apply_sk, bs_apply. rewrite bs_apply_checks by lia.
    destruct (H_size _ _ _ Hpr) as [HE HX]. unfold nlen in HE, HX.
    assert (Hadd : Z.of_N (nlen (ct_add ct)) = Z.of_nat (length (ct_add ct))) by (unfold nlen; lia).
    (* the plain run refuses unless the add part lies inside the signed file *)
    set (gs := (off <? 0)%Z || (off + Z.of_nat (length (ct_add ct)) >? Z.of_nat (length s))%Z).
    destruct ((off <? 0)%Z || (off >? Z.of_N (nlen a))%Z) eqn:Ga.
    - destruct gs eqn:Gs; [apply simg_err|]. apply simg_E, HE. unfold gs, nlen in *. lia.
    - destruct (N.eqb_spec (nlen (ct_add ct)) 0) as [E0|E0].
      + apply nlen_zero in E0. destruct gs eqn:Gs; [apply simg_X, HX; unfold gs, nlen in *; rewrite E0 in Gs; cbn [length] in Gs; lia|].
        rewrite E0. cbn [length Z.of_nat nlen N.of_nat Z.of_N bind fst snd add_bytes].
        apply simg_bind_same. intros w1 _. apply simg_bind_same. intros w2 _. apply simg_ok. assumption.
      + destruct (lf_read bs c entries hash heqb (S (N.to_nat (nlen (ct_add ct)))) (skfile_of bs hash s a) (nlen a) b
                          (Z.to_N off) (nlen (ct_add ct)) []) as [b' r] eqn:L.
        apply (lf_read_sound bs c m c_pos m_pos bs_c entries hash heqb hash_inj _ _ J E (J_read fi s a Hpr)) in L;
          [|assumption|lia|lia|lia].
        destruct L as [Hb' L]. cbn [app] in L. destruct r as [d| | |]; cbn [bind]; [| |apply simg_E; assumption|contradiction].
        * destruct L as [-> Hin]. replace gs with false by (unfold gs, nlen in *; lia).
          cbn [fst snd]. rewrite add_bytes_slice by lia. rewrite Hadd.
          apply simg_bind_same. intros w1 _. apply simg_bind_same. intros w2 _. apply simg_ok. assumption.
        * destruct gs eqn:Gs; [apply simg_err|]. apply simg_E, HE. unfold gs, nlen in *. lia.
  Qed.

  Lemma ctrl_loop_sim fi s a : forall ms b off w,
    present fi s a -> bs_inv bs c s a J b ->
    simg (bs_inv bs c s a J) (ctrl_loop_sk bs c entries hash heqb (skfile_of bs hash s a) (nlen a) b off ms w)
                  (ctrl_loop s off ms w).
  Proof.
    induction ms as [|m1 r IH]; intros b off w Hpr Hb; cbn [ctrl_loop_sk ctrl_loop]; [apply simg_err|].
    destruct (ct_eof (as_ct m1)); [apply simg_ok; assumption|].
    apply (simg_bind (bs_inv bs c s a J)); [eapply bs_apply_sim; eassumption|].
    intros [off' w'] b' Hb'. cbn [fst snd]. apply IH; assumption.
  Qed.

  Lemma process_bsdiff_sim idx ms s p :
    pool_inv p ->
    simg pool_inv (process_bsdiff_sk bs c entries hash heqb oldC newC signed actual idx ms s p)
            (process_bsdiff oldC newC signed idx ms s).
  Proof.
    intros Hp. unfold process_bsdiff_sk, process_bsdiff, sk_open, pool_open. destruct ms as [|m1 r]; [apply simg_err|].
    destruct ((bh_target (as_bh m1) <? 0)%Z || (bh_target (as_bh m1) >=? Z.of_nat (length (c_files oldC)))%Z); [apply simg_err|].
    set (tgt := bh_target (as_bh m1)).
    destruct (znth (c_files oldC) tgt) as [cf|]; [|apply simg_panic].
    pose proof (sk_file_cases tgt) as Hf.
    destruct (znth signed tgt) as [d|]; [|rewrite Hf; apply simg_err].
    destruct Hf as [[He ->]|(a & -> & Hpr)]; [apply simg_E; assumption|].
    cbn [bind fst snd].
    apply simg_bind_same. intros w _.
    cbn [sk_seek_end sk_seek roff skfile_of factual].
    apply (simg_bind (bs_inv bs c d a J)).
    - apply (ctrl_loop_sim (Z.to_N tgt)); [assumption|]. destruct (Hp (Z.to_N tgt)) as [Hj Hca].
      split; [split; [apply Hca; assumption|intros ci x []]|exact Hj].
    - intros [r' w'] b Hb. cbn [fst snd].
      destruct r' as [|m2 r2]; [apply simg_err|].
      destruct (negb (so_type (as_so m2) =? HEY)%Z); [apply simg_err|].
      destruct (znth (c_files newC) idx) as [[pth size]|]; [|apply simg_panic].
      destruct (Z.of_nat (w_off w') =? size)%Z; [|apply simg_err].
      apply simg_ok. destruct Hb as [[Hca _] Hj]. eapply pool_inv_after; eassumption.
  Qed.

  Lemma process_file_sim kind idx ms s p :
    pool_inv p ->
    simg pool_inv (process_file_sk bs c entries hash heqb oldC newC signed actual kind idx ms s p)
            (process_file bz oldC newC signed kind idx ms s).
  Proof.
    intros Hp. unfold process_file_sk, process_file.
    destruct (kind =? SH_RSYNC)%Z; [apply process_rsync_sim|apply process_bsdiff_sim]; assumption.
  Qed.

  Lemma run_files_sim : forall n idx ms s p touched,
    pool_inv p ->
    simg pool_inv (run_files_sk bs c entries hash heqb oldC newC signed actual whitelist n idx ms s p touched)
            (run_files bz oldC newC signed whitelist n idx ms s touched).
  Proof.
    induction n as [|n IH]; intros idx ms s p touched Hp; cbn [run_files_sk run_files]; [apply simg_ok; assumption|].
    destruct ms as [|m1 r]; [apply simg_err|].
    destruct (negb (sh_file (as_sh m1) =? idx)%Z); [apply simg_err|].
    destruct (negb ((sh_type (as_sh m1) =? SH_RSYNC)%Z || (sh_type (as_sh m1) =? SH_BSDIFF)%Z)); [apply simg_err|].
    destruct (wl_skip whitelist (sh_file (as_sh m1))).
    - apply simg_bind_same. intros r' _. apply IH. assumption.
    - apply (simg_bind pool_inv); [apply process_file_sim; assumption|].
      intros [r' s'] p' Hp'. cbn [fst snd]. apply IH. assumption.
  Qed.

  Definition simf {T : Type} (rs rp : res T) : Prop := (E /\ rs = Err) \/ (X /\ rp = Err) \/ rs = rp.

  Lemma apply_fresh_sim ms :
    simf (apply_fresh_sk bs c entries hash heqb oldC newC signed actual whitelist ms)
         (apply_fresh bz oldC newC signed whitelist ms).
  Proof.
    unfold apply_fresh_sk, apply_fresh.
    destruct (prepare newC []) as [t| |]; cbn [bind]; [|right; right; reflexivity|right; right; reflexivity].
    pose proof (run_files_sim (length (c_files newC)) 0%Z ms (mkP t []) pool_empty 0%Z (pool_ok_empty bs present J J_empty)) as Hs.
    destruct Hs as [[He ->]|[[Hx ->]|[[-> ->]|[[-> ->]|([s' tch] & p' & -> & -> & Hp')]]]]; cbn [bind fst snd].
    - left. auto.
    - right. left. auto.
    - right. right. reflexivity.
    - right. right. reflexivity.
    - right. right. reflexivity.
  Qed.
End Sim.

Definition extended (signed : list (list byte)) (actual : list (option (list byte))) : Prop :=
  exists i s a, nth_error signed i = Some s /\ nth_error actual i = Some (Some a) /\ (length s < length a)%nat.

Lemma apply_fresh_sk_sound {H : Type} (bs c m : N) (entries : nat) (hash : list byte -> H) (heqb : H -> H -> bool)
    (oldC newC : container) (signed : list (list byte)) (actual : list (option (list byte))) (whitelist : option (list Z)) ms :
  0 < c -> 0 < m -> bs = c * m ->
  (forall a b, heqb (hash a) (hash b) = true -> a = b) ->
  length actual = length signed ->
  let rs := apply_fresh_sk bs c entries hash heqb oldC newC signed actual whitelist ms in
  let rp := apply_fresh (Z.of_N bs) oldC newC signed whitelist ms in
  rs = Err \/ rs = rp \/ (rp = Err /\ extended signed actual).
Proof.
  intros Hc Hm Hbs Hinj Hlen. cbv zeta.
  destruct (apply_fresh_sim bs c m Hc Hm Hbs entries hash heqb Hinj oldC newC signed actual whitelist Hlen
              True (extended signed actual) (fun _ => True)) with (ms := ms) as [[_ E]|[[Hx E]|E]]; auto.
  - intros fi s a [Hs Ha]. split; [auto|]. intros Hl.
    exists (N.to_nat fi), s, a. unfold nlen in Hl. split; [assumption|]. split; [assumption|lia].
  - intros. apply reads_keep_any.
Qed.

Lemma present_pristine signed fi s a : present signed (map Some signed) fi s a -> a = s.
Proof. intros [Hs Ha]. rewrite nth_error_map, Hs in Ha. injection Ha as <-. reflexivity. Qed.

Lemma cache_true_after p fi r :
  (forall fi', cache_true (pcache p fi')) -> cache_true (rcache r) -> forall fi', cache_true (pcache (pool_after p fi r) fi').
Proof. intros Hp Hr fi'. unfold pool_after. cbn [pcache]. destruct (fi' =? fi); [assumption|apply Hp]. Qed.

Lemma apply_fresh_sk_pristine {H : Type} (bs c m : N) (entries : nat) (hash : list byte -> H) (heqb : H -> H -> bool)
    (oldC newC : container) (signed : list (list byte)) (whitelist : option (list Z)) ms :
  0 < c -> 0 < m -> bs = c * m ->
  (forall a b, heqb (hash a) (hash b) = true -> a = b) ->
  (forall a, heqb (hash a) (hash a) = true) ->
  apply_fresh_sk bs c entries hash heqb oldC newC signed (map Some signed) whitelist ms =
  apply_fresh (Z.of_N bs) oldC newC signed whitelist ms.
Proof.
  intros Hc Hm Hbs Hinj Hrefl. pose proof (block_size_pos bs c m Hc Hm Hbs) as Hb.
  pose proof (present_pristine signed) as Hpr.
  destruct (apply_fresh_sim bs c m Hc Hm Hbs entries hash heqb Hinj oldC newC signed (map Some signed) whitelist
              (map_length _ _) False False cache_true) with (ms := ms) as [[[] _]|[[[] _]|E]]; [| | | |exact E].
  - intros Hin. apply in_map_iff in Hin. destruct Hin as (x & Hx & _). discriminate.
  - intros fi s a Hp. apply Hpr in Hp. subst a. lia.
  - apply cache_true_empty.
  - intros fi s a Hp. rewrite (Hpr fi s a Hp). apply sk_read_pristine; assumption.
Qed.

(** executed instances: bs = 4, c = 2, one or two cache entries, strong hash := the block *)
Definition ex_idh := fun b : list N => b.
Definition ex_old : build := [([1], File [1;2;3;4;5;6]); ([2], File [9])]%N.
Definition ex_new : build :=
  [([5], Dir); ([5;1], File [1;2;3;4;5;6]); ([3], File [1;2;3;4;7;7]); ([4], File []); ([6], Link [65])]%N.
Definition ex_differ := fun (pref : Z) (data : list byte) =>
  if nlist_eqb data [1;2;3;4;5;6]%N then [OpRange 0 0 2]
  else if nlist_eqb data [1;2;3;4;7;7]%N then [OpRange 0 0 1; OpData [7;7]%N]
  else [OpData data].
Definition ex_patch : list frame := write_patch ex_differ 2 9 ex_old ex_new.
Definition ex_run (actual : list (option (list byte))) := apply_patch_fresh_sk 4 2 2 ex_idh nlist_eqb (contents_of ex_old) actual None ex_patch.
Definition is_build (r : res (tree * Z * list event)) (b : build) : bool :=
  match r with
  | Ok (t, _, _) => forallb (fun e => match tlookup t (fst e), snd e with
                                      | Some (File x), File y => nlist_eqb x y
                                      | Some Dir, Dir => true
                                      | Some (Link x), Link y => nlist_eqb x y
                                      | _, _ => false end) b
  | _ => false
  end.

(** a bsdiff series on a 4-byte old file: add 3 bytes from offset 0, copy [7], seek -2, add 3
    bytes from offset 1: [2;3;4;7;2;3;4] *)
Definition ex_oldC := mkC [([1%N], 4%Z)] [] [].
Definition ex_bs_series : list frame :=
  [FMsg (MSH (mkSH SH_BSDIFF 0)); FMsg (MBH (mkBH 0));
   FMsg (MCT (mkCT [1;1;1]%N [7]%N (-2) false)); FMsg (MCT (mkCT [0;0;0]%N [] 0 false));
   FMsg (MCT (mkCT [] [] 0 true)); FMsg hey_msg].
Definition ex_bs_patch : list frame :=
  [FHeader 0 0; FContainer ex_oldC; FContainer (mkC [([1%N], 7%Z)] [] [])] ++ ex_bs_series.

Example safekeeper_apply_example_lemma :
  (* pristine old build: the new build, and the very result of the plain application *)
  is_build (ex_run [Some [1;2;3;4;5;6]; Some [9]]%N) ex_new = true /\
  ex_run [Some [1;2;3;4;5;6]; Some [9]]%N = apply_patch_fresh 4 (contents_of ex_old) None ex_patch /\
  (* truncated, extended, flipped, emptied, missing: an error *)
  ex_run [Some [1;2;3;4;5]; Some [9]]%N = Err /\
  ex_run [Some [1;2;3;4;5;6;6]; Some [9]]%N = Err /\
  ex_run [Some [1;2;3;0;5;6]; Some [9]]%N = Err /\
  ex_run [Some []; Some [9]]%N = Err /\
  ex_run [None; Some [9]]%N = Err /\
  (* the damaged file is one the patch does not read: the new build *)
  is_build (ex_run [Some [1;2;3;4;5;6]; Some [8;8]]%N) ex_new = true /\
  (* bsdiff through lrufile with one cache entry (every chunk reloaded) and with two *)
  is_build (apply_patch_fresh_sk 4 2 1 ex_idh nlist_eqb [[1;2;3;4]%N] [Some [1;2;3;4]%N] None ex_bs_patch)
           [([1%N], File [2;3;4;7;2;3;4]%N)] = true /\
  apply_patch_fresh_sk 4 2 2 ex_idh nlist_eqb [[1;2;3;4]%N] [Some [1;2;3;4]%N] None ex_bs_patch =
  apply_patch_fresh 4 [[1;2;3;4]%N] None ex_bs_patch /\
  apply_patch_fresh_sk 4 2 2 ex_idh nlist_eqb [[1;2;3;4]%N] [Some [1;2;3;5]%N] None ex_bs_patch = Err /\
  apply_patch_fresh_sk 4 2 2 ex_idh nlist_eqb [[1;2;3;4]%N] [Some [1;2;3]%N] None ex_bs_patch = Err.
Proof. vm_compute. repeat split; reflexivity. Qed.
