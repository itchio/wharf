(** C09 composed with C01: the patcher (Patch/Patcher.v) reading the old build THROUGH the
    safekeeper pool (Val/Safekeeper.v) instead of reading the list [olds] directly.

    [apply_patch_fresh_sk bs c entries hash heqb signed actual whitelist frames] has the control
    structure of [Patcher.apply_patch_fresh] (copied below, function by function, with the
    suffix [_sk]); the only difference is how the bytes of an old file are obtained:

      Patcher.transpose     [pool_open tgt] (the whole list)
        => [transpose_sk]   safeKeeper.GetReader + io.CopyBuffer = C09's consumer [PCopy]
                            ([run_pattern ... PCopy], bowl_fresh.go Transpose)
      Patcher.apply_range   [slice d (bs*i) (op_size fileSize i s)]
        => [apply_range_sk] safeKeeper.GetReadSeeker, Seek(bs*i), io.CopyBuffer(LimitReader(opSize))
                            = C09's loop [range_loop] (wsync/algo.go ApplySingleFull) started at
                            [bs*i] for [op_size fileSize i s] bytes, where [fileSize] is
                            pool.GetSize = safeKeeper.GetSize = inner.GetSize = the size in the
                            PATCH's target container - not the size in the signature's
                            container, not the size on disk.  C09's pattern [PRange] computes
                            the op size from the signed size and is stated for ranges inside
                            the signed file ([pattern_ok]); the patcher's range can start
                            anywhere and have any size, so this is a consumer of its own:
                            [sk_range], sound by [sk_range_sound] (SafekeeperApplyProofs.v).
      Patcher.bs_apply      [skipn off old], with the checks against [length old]
        => [bs_apply_sk]    bsdiff/patch.go Apply over bsdiff/lrufile over the safekeeper reader:
                            [lf.Reset] = Seek(0, End) - the size lrufile works with is the size
                            of the file ON DISK -, [lf.Seek(OldOffset)] checked against that
                            size, then [lf.Read] loading 32 KiB chunks, each miss being C09's
                            chunk-read consumer for one chunk ([chunk_loop ... [ci]]:
                            Seek(ci*c), one Read of c bytes, io.EOF tolerated), hits served
                            from the LRU cache ([lru], recency list of capacity [entries]).

    [signed] = the old build the signature was computed from (file contents by index);
    [actual] = the old build on disk now: [Some d] a file holding [d], [None] a file that is
    not there (fspool.GetReadSeeker fails).  The patch's own target container [oldC] is
    whatever the patch says (sizes for GetSize, number of files for the index checks).

    As in Patcher.v: the pieces an io.CopyBuffer hands to the output are written with ONE
    [w_write] / [transpose_write] of their concatenation (Patcher.v does the same with the
    whole slice), so that results can be compared with [=]; a copy that fails half-way is [Err]
    (the partial output is not part of the result of a failed application).
    A loop of C09's model that runs out of fuel is [Panic] here (it never does:
    SafekeeperApplyProofs.v).  Definitions only. *)
From Wharf Require Import Base.Prelude Val.Drip Val.VPool Val.Safekeeper
     Bowl.Fresh Patch.Reinterp Patch.Stream Patch.Patcher.
Local Open Scope Z_scope.

(** ---- lrufile over the safekeeper reader ---- *)

(** simplelru + storage: chunk index -> the bytes loaded for it, most recent first.  (The slots
    of [storage] keep stale bytes behind what was loaded; [Read] never serves them because it
    slices by the file size - C12, Bsdiff/LruProofs.v - and here [lsize] is the size of the
    very file the chunks are read from: every cached chunk is [slice actual (ci*c) c],
    [get_chunk_sound] in the proofs.) *)
Definition lru := list (N * list byte).

Fixpoint lru_find (ci : N) (l : lru) : option (list byte) :=
  match l with
  | [] => None
  | (k, d) :: r => if (k =? ci)%N then Some d else lru_find ci r
  end.
Fixpoint lru_remove (ci : N) (l : lru) : lru :=
  match l with
  | [] => []
  | (k, d) :: r => if (k =? ci)%N then r else (k, d) :: lru_remove ci r
  end.
(** Get (hit): moved to the front *)
Definition lru_touch (ci : N) (d : list byte) (l : lru) : lru := (ci, d) :: lru_remove ci l.
(** Add: pushed to the front, the oldest entry evicted beyond the capacity *)
Definition lru_add (entries : nat) (ci : N) (d : list byte) (l : lru) : lru :=
  firstn entries ((ci, d) :: lru_remove ci l).

(** the safekeeper reader of the old file + the lrufile cache *)
Record bsst := mkB { b_rd : rd; b_lru : lru }.

(** what reading [n] bytes from lrufile gives: all of them, fewer (io.EOF), an error; [LFuel] = the
    fuel ran out (never: [lf_read_sound]) *)
Inductive lfres := LBytes (d : list byte) | LShort | LFail | LFuel.

Section SkPatcher.
  Context {H : Type}.
  Variable bs : N.                       (* pwr.BlockSize *)
  Variable c : N.                        (* 32 KiB: io.Copy buffer, wsync buffer, lrufile chunk *)
  Variable entries : nat.                (* lrufile: 1024 chunks *)
  Variable hash : list byte -> H.
  Variable heqb : H -> H -> bool.
  Variables oldC newC : container.       (* target / source container of the patch *)
  Variable signed : list (list byte).    (* what the signature describes, by old file index *)
  Variable actual : list (option (list byte)).   (* what is on disk now *)
  Variable whitelist : option (list Z).

  Definition bsz : Z := Z.of_N bs.

  (** safeKeeper.GetReadSeeker / GetReader up to the point where the inner pool has opened the
      file: fspool indexes the patch's container (a panic when out of range), then opens the
      file (an error when it is not there).  What the safekeeper knows of file [i] is entry
      [i] of the signature.  A file on disk that the signature has no entry for (a signature
      of another build): the first Read panics in Go (index out of range on the signature's
      container.Files, replayed on the real code); [Panic] here, excluded in the theorems by
      [length actual = length signed]. *)
  Definition sk_file (i : Z) : res (N * skfile byte H) :=
    match znth actual i with
    | None | Some None => Err
    | Some (Some a) =>
      match znth signed i with
      | Some s => Ok (Z.to_N i, skfile_of bs hash s a)
      | None => Panic
      end
    end.
  Definition sk_open (i : Z) : res (N * skfile byte H) :=
    match znth (c_files oldC) i with
    | None => Panic
    | Some _ => sk_file i
    end.

  Definition of_outcome {A} (o : outcome) (a : A) : res A :=
    match o with Done => Ok a | Failed => Err | OutOfFuel => Panic end.

  (** freshBowl.Transpose: TargetPool.GetReader(tgt), OutputPool.GetWriter(src), io.CopyBuffer
      = C09's whole-file-copy consumer on the safekeeper pool [p] *)
  Definition transpose_sk (s : pst) (p : pool) (src tgt : Z) : res (pst * pool) :=
    let s1 := ev (ev s (EvTranspose src tgt)) (EvRead tgt) in
    bind (sk_open tgt) (fun ff =>
    match znth (c_files newC) src with
    | None => Panic
    | Some (pth, _) =>
      let '(r', ps, o) := run_pattern bs c hash heqb Fixed (snd ff) p (fst ff) PCopy in
      bind (of_outcome o tt) (fun _ =>
      bind (transpose_write (p_tree s1) pth (concat ps)) (fun t =>
      Ok (mkP t (p_trace s1), pool_after p (fst ff) r')))
    end).

  (** the block-range consumer as the patcher drives it: GetReadSeeker, Seek(off),
      io.CopyBuffer(output, io.LimitReader(target, size), buffer) - any [off], any [size] *)
  Definition sk_range (f : skfile byte H) (p : pool) (fi off size : N) : rd * list (list byte) * outcome :=
    range_loop bs c hash heqb Fixed (S (N.to_nat size)) f (sk_seek (sk_get_read_seeker Fixed p fi) off) size.

  (** wsync.ApplySingleFull, OpBlockRange, through the safekeeper *)
  Definition apply_range_sk (w : wst) (p : pool) (f i s : Z) : res (wst * pool) :=
    let w1 := mkW (ev (w_st w) (EvSize f)) (w_path w) (w_off w) in
    match znth (c_files oldC) f with
    | None => Panic
    | Some (_, fileSize) =>                      (* safeKeeper.GetSize = inner.GetSize *)
      let w2 := mkW (ev (w_st w1) (EvRead f)) (w_path w) (w_off w) in
      bind (sk_file f) (fun ff =>
      if bsz * i <? 0 then Err                   (* Seek to a negative offset *)
      else
        let '(r', ps, o) := sk_range (snd ff) p (fst ff) (Z.to_N (bsz * i)) (Z.to_N (op_size bsz fileSize i s)) in
        bind (of_outcome o tt) (fun _ =>
        bind (w_write w2 (concat ps)) (fun w3 => Ok (w3, pool_after p (fst ff) r'))))
    end.

  Definition apply_op_sk (w : wst) (p : pool) (o : sync_op) : res (wst * pool) :=
    if so_type o =? T_BLOCK_RANGE then apply_range_sk w p (so_file o) (so_block o) (so_span o)
    else if so_type o =? T_DATA then bind (w_write w (so_data o)) (fun w' => Ok (w', p))
    else Err.

  Fixpoint relay_sk (ms : list pmsg) (w : wst) (p : pool) : res (list pmsg * pst * pool) :=
    match ms with
    | [] => Err
    | m :: r => let o := as_so m in
                if so_type o =? HEY then Ok (r, w_st w, p)
                else if negb (validate_op oldC o) then Err
                else bind (apply_op_sk w p o) (fun wp => relay_sk r (fst wp) (snd wp))
    end.

  Definition process_rsync_sk (idx : Z) (ms : list pmsg) (s : pst) (p : pool) : res (list pmsg * pst * pool) :=
    match ms with
    | [] => Err
    | m :: r =>
      let o := as_so m in
      if negb (validate_op oldC o) then Err else
      bind (is_full_file_op bsz oldC newC idx o) (fun full =>
      if full then
        bind (transpose_sk s p idx (so_file o)) (fun sp =>
        bind (until_marker r) (fun r' => Ok (r', fst sp, snd sp)))
      else
        bind (open_writer newC s idx) (fun w =>
        bind (apply_op_sk w p o) (fun wp => relay_sk r (fst wp) (snd wp))))
    end.

  (** ---- bsdiff ---- *)

  (** lrufile.getChunk: a hit returns the stored chunk; a miss is C09's chunk-read consumer for
      this one chunk (Seek(ci*c), one Read of c bytes, io.EOF tolerated = an empty chunk) *)
  Definition get_chunk (f : skfile byte H) (b : bsst) (ci : N) : bsst * option (list byte) :=
    match lru_find ci (b_lru b) with
    | Some d => (mkB (b_rd b) (lru_touch ci d (b_lru b)), Some d)
    | None =>
      let '(r', ps, o) := chunk_loop bs c hash heqb Fixed f (b_rd b) [ci] in
      match o, ps with
      | Done, d :: _ => (mkB r' (lru_add entries ci d (b_lru b)), Some d)
      | _, _ => (mkB r' (b_lru b), None)
      end
    end.

  (** lrufile.Read, for the [remaining] bytes that io.CopyBuffer(out, LimitReader(AdderReader{lf},
      addlen)) asks for in turn (its split into 32 KiB reads only repeats the Get of the chunk
      just used): per chunk, [chunk[start:end]] with [end] capped by the chunk's size computed
      from [lsize] (lf.size); io.EOF when the cap is hit in the last chunk *)
  Fixpoint lf_read (fuel : nat) (f : skfile byte H) (lsize : N) (b : bsst) (offset remaining : N) (acc : list byte)
    : bsst * lfres :=
    match fuel with
    | O => (b, LFuel)
    | S k =>
      if (remaining =? 0)%N then (b, LBytes acc)
      else
        let ci := (offset / c)%N in
        match get_chunk f b ci with
        | (b', None) => (b', LFail)
        | (b', Some chunk) =>
          let start := (offset mod c)%N in
          let end0 := (start + remaining)%N in
          let chunkStart := (ci * c)%N in
          let lastChunk := (lsize <? chunkStart + c)%N in
          let chunkEnd := if lastChunk then lsize else (chunkStart + c)%N in
          let csz := (chunkEnd - chunkStart)%N in
          if (csz <? end0)%N then
            if lastChunk then (b', LShort)
            else let piece := Safekeeper.slice chunk start (csz - start) in
                 lf_read k f lsize b' (offset + (csz - start))%N (remaining - (csz - start))%N (acc ++ piece)
          else (b', LBytes (acc ++ Safekeeper.slice chunk start remaining))
        end
    end.

  (** bsdiff.IndividualPatchContext.Apply *)
  Definition bs_apply_sk (f : skfile byte H) (lsize : N) (b : bsst) (off : Z) (ct : control) (w : wst)
    : res (Z * wst * bsst) :=
    if (off <? 0) || (off >? Z.of_N lsize) then Err      (* lrufile.Seek: must be in [0, lf.size] *)
    else
      let addlen := nlen (ct_add ct) in
      bind (if (addlen =? 0)%N then Ok (b, [])
            else match lf_read (S (N.to_nat addlen)) f lsize b (Z.to_N off) addlen [] with
                 | (b', LBytes d) => Ok (b', d)
                 | (_, LShort) => Err                  (* "expected to copy %d bytes but copied %d" *)
                 | (_, LFail) => Err
                 | (_, LFuel) => Panic
                 end) (fun bd =>
      bind (w_write w (add_bytes (ct_add ct) (snd bd))) (fun w1 =>
      bind (w_write w1 (ct_copy ct)) (fun w2 =>
      Ok (off + Z.of_N addlen + ct_seek ct, w2, fst bd)))).

  Fixpoint ctrl_loop_sk (f : skfile byte H) (lsize : N) (b : bsst) (off : Z) (ms : list pmsg) (w : wst)
    : res (list pmsg * wst * bsst) :=
    match ms with
    | [] => Err
    | m :: r => let ct := as_ct m in
                if ct_eof ct then Ok (r, w, b)
                else bind (bs_apply_sk f lsize b off ct w) (fun owb =>
                     ctrl_loop_sk f lsize (snd owb) (fst (fst owb)) r (snd (fst owb)))
    end.

  Definition process_bsdiff_sk (idx : Z) (ms : list pmsg) (s : pst) (p : pool) : res (list pmsg * pst * pool) :=
    match ms with
    | [] => Err
    | m :: r =>
      let tgt := bh_target (as_bh m) in
      if (tgt <? 0) || (tgt >=? Z.of_nat (length (c_files oldC))) then Err else
      let s1 := ev s (EvRead tgt) in
      bind (sk_open tgt) (fun ff =>
      bind (open_writer newC s1 idx) (fun w =>
      (* NewIndividualPatchContext: lf.Reset(old): size := old.Seek(0, io.SeekEnd), cache purged *)
      let rd0 := sk_seek_end (snd ff) (sk_get_read_seeker Fixed p (fst ff)) in
      let lsize := roff rd0 in
      bind (ctrl_loop_sk (snd ff) lsize (mkB rd0 []) 0 r w) (fun rwb =>
      match fst (fst rwb) with
      | [] => Err
      | m2 :: r2 =>
        if negb (so_type (as_so m2) =? HEY) then Err
        else match znth (c_files newC) idx with
             | Some (_, size) =>
               if Z.of_nat (w_off (snd (fst rwb))) =? size
               then Ok (r2, w_st (snd (fst rwb)), pool_after p (fst ff) (b_rd (snd rwb)))
               else Err
             | None => Panic
             end
      end)))
    end.

  Definition process_file_sk (kind idx : Z) (ms : list pmsg) (s : pst) (p : pool) : res (list pmsg * pst * pool) :=
    if kind =? SH_RSYNC then process_rsync_sk idx ms s p else process_bsdiff_sk idx ms s p.

  (** the Resume loop *)
  Fixpoint run_files_sk (n : nat) (idx : Z) (ms : list pmsg) (s : pst) (p : pool) (touched : Z) : res (pst * Z * pool) :=
    match n with
    | O => Ok (s, touched, p)
    | S n' =>
      match ms with
      | [] => Err
      | m :: r =>
        let sh := as_sh m in
        if negb (sh_file sh =? idx) then Err
        else if negb ((sh_type sh =? SH_RSYNC) || (sh_type sh =? SH_BSDIFF)) then Err
        else if wl_skip whitelist (sh_file sh) then
          bind (skip_file (sh_type sh) r) (fun r' => run_files_sk n' (idx + 1) r' s p touched)
        else
          bind (process_file_sk (sh_type sh) idx r s p)
               (fun rs => run_files_sk n' (idx + 1) (fst (fst rs)) (snd (fst rs)) (snd rs) (touched + 1))
      end
    end.

  (** NewFreshBowl + NewSafeKeeper (nothing validated yet, no file open) + Resume(nil) + Commit *)
  Definition apply_fresh_sk (ms : list pmsg) : res (tree * Z * list event) :=
    bind (prepare newC []) (fun t =>
    bind (run_files_sk (length (c_files newC)) 0 ms (mkP t []) pool_empty 0) (fun st =>
    Ok (p_tree (fst (fst st)), snd (fst st), p_trace (fst (fst st))))).
End SkPatcher.

(** a whole patch given as frames, applied to an empty directory, the old build being read
    through the safekeeper built from the signature of [signed] *)
Definition apply_patch_fresh_sk {H : Type} (bs c : N) (entries : nat) (hash : list byte -> H) (heqb : H -> H -> bool)
    (signed : list (list byte)) (actual : list (option (list byte))) (whitelist : option (list Z)) (fs : list frame)
  : res (tree * Z * list event) :=
  match read_patch fs with
  | None => Err
  | Some (_, _, oldC, newC, ms) => apply_fresh_sk bs c entries hash heqb oldC newC signed actual whitelist ms
  end.
