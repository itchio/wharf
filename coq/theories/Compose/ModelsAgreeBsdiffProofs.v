(** Pair 5 of the index Compose/ModelsAgree.v: bsdiff Apply.

    bsdiff.IndividualPatchContext.Apply / PatchContext.Patch exist four times:
      Bsdiff/Patch.v     [apply_ctrl] / [apply_series]        (C12)
      Patch/Patcher.v    [bs_apply] / [ctrl_loop]             (C01)
      Patch/Malformed.v  [controls]  (lengths only, int64)    (C10)
      Patch/Resume.v     the [PBsLoop] step with [bs_data]    (C03)
    C12 <-> C01 is Compose/OptimizeApplyProofs.v ([bs_apply_ctrl], [ctrl_loop_series],
    Properties/C07.v [bsdiff_series_applied_by_patcher]); C01 <-> C10 on EVERY control list is
    [ctrl_loop_agrees] (Compose/ModelsAgreeMalformedProofs.v); C01 <-> C03 wherever C01 returns
    Ok is [ctrl_loop_models_agree_c03] (Compose/ModelsAgreeResumeProofs.v).  The three are composed
    through C01 in Properties/C10.v ([bsdiff_series_models_agree_c12_c10]) and Properties/C03.v
    ([bsdiff_apply_models_agree_c12_c03], [bsdiff_series_models_agree_c12_c03]), on well-formed
    series (int64 seeks, the last control - and only it - marked eof, Apply succeeds).  Here:
    what the compositions read off a successful C01 run ([ctrl_loop_controls] for C10,
    [wsim_wgood] for C03), the frames of a series as C03 messages ([abs_ct_ctrl_msg]), and
    [c03_ctrl], the C12 control as the typed C03 message (it occurs in the statement of
    [bsdiff_series_models_agree_c12_c03]).

    Differences (see the two files above): C10 keeps lengths only; C03 has no bounds check (an
    add part that runs past the end of the old file is an error in C12 / C01 / C10 and Go, C03
    goes on - [diff_bsdiff_bounds]) and no check of the target index. *)
From Coq Require Import ZifyBool ZifyNat ZifyN.
From Wharf Require Import Base.Prelude Bowl.Fresh Patch.Reinterp Patch.Patcher Patch.DiffApplyProofs Compose.OptimizeApply
     Compose.OptimizeApplyProofs Compose.ModelsAgreeResume Compose.ModelsAgreeMalformed Compose.ModelsAgreeMalformedProofs.
From Wharf Require Bsdiff.Scan Bsdiff.Patch Patch.Resume.
Local Open Scope Z_scope.

Module BP := Wharf.Bsdiff.Patch.

(** C10's length bookkeeping for one control of C12's Apply: a control that Apply accepts passed
    both range checks and wrote [len add + len copy] bytes *)
Lemma apply_ctrl_lengths (old : list byte) (off : Z) (c : Scan.ctrl) (o : list byte) (off' : Z) :
  BP.apply_ctrl old off c = Some (o, off') ->
  0 <= off <= Z.of_nat (length old) /\ off + Z.of_nat (length (Scan.c_add c)) <= Z.of_nat (length old) /\
  Z.of_nat (length o) = Z.of_nat (length (Scan.c_add c)) + Z.of_nat (length (Scan.c_copy c)).
Proof.
  intros H. destruct (apply_ctrl_some _ _ _ _ _ H) as (H0 & Hle & -> & _).
  split; [lia|]. split; [lia|].
  rewrite app_length, add_bytes_len, skipn_length. lia.
Qed.

Definition c03_ctrl (c : Scan.ctrl) : cmsg :=
  if Scan.c_eof c then Resume.MCtrlEof else Resume.MCtrl (Scan.c_add c) (Scan.c_copy c) (Scan.c_seek c).

Lemma abs_ct_ctrl_msg (b : bseries) :
  forallb seek_okb b = true ->
  map (fun m => abs_ct (as_ct m)) (map ctrl_msg b) = map c03_ctrl b.
Proof.
  induction b as [|c r IH]; intros Hs; [reflexivity|].
  cbn [forallb] in Hs. apply andb_prop in Hs. destruct Hs as [Hc Hr].
  cbn [map]. rewrite IH by assumption. rewrite (as_ct_ctrl c Hc). reflexivity.
Qed.

(** a C01 control loop that succeeds: C10's loop from the same offset stops behind the same frames
    with the writer's offset as its byte count *)
Lemma ctrl_loop_controls (old : list byte) ms off w rest w' fuel :
  Z.of_nat (length old) < 2^63 -> wfile w -> (length ms < fuel)%nat ->
  ctrl_loop old off ms w = Ok (rest, w') ->
  M.controls fuel (Z.of_nat (length old)) off (Z.of_nat (w_off w)) (stream_of ms) = M.Cont (Z.of_nat (w_off w'), stream_of rest).
Proof.
  intros Hold Hw Hfuel Ec.
  pose proof (ctrl_loop_agrees old ms off off w fuel Hold Hw (or_introl eq_refl) Hfuel) as H. rewrite Ec in H.
  destruct (M.controls fuel (Z.of_nat (length old)) off (Z.of_nat (w_off w)) (stream_of ms)) as [[wc s]|r]; [|contradiction].
  destruct H as (-> & -> & _). reflexivity.
Qed.

(** where the two invariants of the C01 writer meet: the C03 disk holds what [wgood] says *)
Lemma wsim_wgood p L w content (S : cstate) wN :
  wsim w S wN -> wgood p L w content ->
  N.to_nat wN = length content /\
  Resume.s_disk _ _ _ S (Resume.s_file _ _ _ S) = content ++ zeros (L - length content).
Proof.
  intros (raw & Hraw & Hdisk & Hoff & _) (Hp & Ho & Hf). rewrite Hp, Hf in Hraw. injection Hraw as <-.
  split; [rewrite <- Hoff; exact Ho|exact Hdisk].
Qed.
