(** [Bowl/FSmini.v] refines [FS/{Tree,Ops}.v]: every operation of the small model, on a
    well-formed state and a non-empty relative path, returns what the general model returns on
    any general state that stands for it - unless the small model declines.  Per operation
    ([fsmini_*_refines_lemma]; every operation preserves [mini_wf]), the renames left out
    ([fsmini_rename_excluded_lemma]), sequences of operations ([fsmini_refines_fs_lemma]); after
    the section [dbl_odd_inj], from which Properties/C02.v has that [enc_std] is injective. *)
From Coq Require Import Lia.
From Wharf Require Import Base.ListLemmas Base.PathMap FS.Light.
From Wharf Require FS.Tree FS.TreeProofs FS.Ops FS.OpsProofs Bowl.FSmini Bowl.FSminiProofs.
From Wharf Require Import Compose.FSAgree.
From Wharf Require Compose.FSAgreeGenProofs.
From Wharf Require Import Compose.FSAgreeView.

Module GtP := Wharf.FS.TreeProofs.
Module GoP := Wharf.FS.OpsProofs.
Module MiP := Wharf.Bowl.FSminiProofs.
Module GG := Wharf.Compose.FSAgreeGenProofs.

Section Mini.
  Variable enc : Mi.comp -> N.
  Variable ldest : N -> list Gt.comp.
  Hypothesis enc_inj : forall a b, enc a = enc b -> a = b.

  Notation mp := (mini_path enc).
  Notation mn := (mini_node ldest).
  Notation mt := (mini_tree enc ldest).
  Notation sim := (mini_sim enc ldest).

  Lemma mp_inj : forall p q, mp p = mp q -> p = q.
  Proof.
    induction p as [|a p IH]; destruct q as [|b q]; cbn; intros H; try discriminate; [reflexivity|].
    injection H as H1 H2. apply enc_inj in H1. apply IH in H2. congruence.
  Qed.

  Lemma mp_app : forall p q, mp (p ++ q) = mp p ++ mp q.
  Proof. intros. apply map_app. Qed.

  Lemma mp_nil_iff : forall p, mp p = [] <-> p = [].
  Proof. intros [|a p]; cbn; split; intros H; try reflexivity; discriminate. Qed.

  Lemma mp_nonempty : forall p, p <> [] -> mp p <> [].
  Proof. intros [|a p] H; [contradiction | discriminate]. Qed.

  Lemma mp_split : forall p a b, mp p = a ++ b -> exists pa pb, p = pa ++ pb /\ a = mp pa /\ b = mp pb.
  Proof.
    intros p a b H. apply map_eq_app in H as [pa [pb [H1 [H2 H3]]]]. exists pa, pb. split; [exact H1 | split; symmetry; assumption].
  Qed.

  Lemma mp_removelast : forall p, removelast (mp p) = mp (removelast p).
  Proof.
    intros p. destruct (snoc_cases p) as [-> | [q [x ->]]]; [reflexivity|].
    rewrite mp_app. cbn [mini_path map]. now rewrite !removelast_last.
  Qed.

  Lemma mini_paths : path_embedding Mi.comp_eqb mp.
  Proof. split; [exact MiP.comp_eqb_eq | exact mp_app | exact mp_inj | exact mp_split]. Qed.

  Lemma mini_embedding : embedding Mi.comp_eqb mp mn Mi.Dir.
  Proof. split; [exact mini_paths | intros [| |]; cbn [mini_node]; split; congruence]. Qed.

  Lemma path_eqb_mp : forall p q, Gt.path_eqb (mp p) (mp q) = Mi.path_eqb p q.
  Proof. exact (eqb_emb mini_paths). Qed.

  Lemma is_prefix_mp : forall p q, Gt.is_prefix (mp p) (mp q) = Mi.is_prefix p q.
  Proof. exact (prefixb_emb mini_paths). Qed.

  Lemma lookup_mt : forall t p, Gt.lookup (mt t) (mp p) = option_map mn (Mi.lookup t p).
  Proof.
    induction t as [|[k n] t IH]; intros p; cbn [mini_tree map Gt.lookup Mi.lookup fst snd]; [reflexivity|].
    rewrite path_eqb_mp. destruct (Mi.path_eqb k p); [reflexivity | apply IH].
  Qed.

  Lemma lookup_mt_key : forall t q, Gt.lookup (mt t) q <> None -> exists p, q = mp p.
  Proof.
    induction t as [|[k n] t IH]; intros q; cbn [mini_tree map Gt.lookup fst snd]; [congruence|].
    destruct (Gt.path_eqb (mp k) q) eqn:E.
    - intros _. apply GtP.path_eqb_eq in E. exists k. congruence.
    - apply IH.
  Qed.

  Lemma sim_lookup : forall t T p, sim t T -> Gt.lookup T (mp p) = option_map mn (Mi.lookup t p).
  Proof. intros t T p H. rewrite <- H. apply lookup_mt. Qed.

  Lemma sim_key : forall t T q, sim t T -> Gt.lookup T q <> None -> exists p, q = mp p.
  Proof. intros t T q H. rewrite <- H. apply lookup_mt_key. Qed.

  Lemma sim_intro : forall t T,
    (forall p, Gt.lookup T (mp p) = option_map mn (Mi.lookup t p)) ->
    (forall q, Gt.lookup T q <> None -> exists p, q = mp p) -> sim t T.
  Proof.
    intros t T H1 H2 q. destruct (Gt.lookup T q) as [n|] eqn:E.
    - destruct (H2 q) as [p ->]; [congruence|]. rewrite lookup_mt, <- H1. exact E.
    - destruct (Gt.lookup (mt t) q) as [n|] eqn:E2; [|reflexivity].
      destruct (lookup_mt_key t q) as [p ->]; [congruence|]. rewrite lookup_mt in E2. rewrite H1 in E. congruence.
  Qed.

  Lemma sim_refl : forall t, sim t (mt t).
  Proof. intros t q. reflexivity. Qed.

  Lemma sim_node_at : forall t T p, sim t T -> p <> [] -> Gt.node_at T (mp p) = option_map mn (Mi.lookup t p).
  Proof. intros t T p H Hp. rewrite (GtP.node_at_nonempty T (mp p) (mp_nonempty p Hp)). apply sim_lookup. exact H. Qed.

  Lemma sim_lookup_dir : forall t T p, sim t T -> Mi.lookup t p = Some Mi.Dir -> Gt.lookup T (mp p) = Some Gt.Dir.
  Proof. intros t T p H E. rewrite (sim_lookup t T p H), E. reflexivity. Qed.

  Lemma sim_lookup_none : forall t T p, sim t T -> Mi.lookup t p = None -> Gt.lookup T (mp p) = None.
  Proof. intros t T p H E. rewrite (sim_lookup t T p H), E. reflexivity. Qed.

  Lemma sim_lookup_some : forall t T p, sim t T -> Gt.lookup T (mp p) <> None -> Mi.lookup t p <> None.
  Proof. intros t T p H E E2. rewrite (sim_lookup t T p H), E2 in E. apply E. reflexivity. Qed.

  Lemma sim_view : forall t T, sim t T <-> view (emb := mp) (nd := mn) (Mi.lookup t) T.
  Proof.
    intros t T. split; [intros H; split; [intros p; apply (sim_lookup t T p H) | intros q; apply (sim_key t T q H)]|].
    intros [V1 V2]. apply (sim_intro t T V1 V2).
  Qed.

  Lemma sim_lit : forall t T p, sim t T -> MiP.dirs_above t p -> GoP.lit T (mp p).
  Proof. intros t T p Hs. apply (view_lit mini_embedding (Mi.lookup t) T p), sim_view, Hs. Qed.

  Lemma sim_gen_wf : forall t T, mini_wf t -> sim t T -> GG.gen_wf T.
  Proof. intros t T W Hs. apply (view_wf mini_embedding (Mi.lookup t) T); [apply sim_view, Hs | exact W]. Qed.

  (** the three outcomes of FSmini's path check, seen from the general model *)
  Inductive parent_view (t : Mi.fs) (T : Gt.tree) (p : Mi.path) : Prop :=
  | PV_ok : Mi.parent_ok t p = Mi.Ok tt -> MiP.dirs_above t p -> GoP.lit T (mp p) -> parent_view t T p
  | PV_err : forall e, Mi.parent_ok t p = Mi.Err e ->
      (forall fl, Go.resolve T fl (mp p) = Go.Err (mini_errno e)) -> parent_view t T p
  | PV_un : Mi.parent_ok t p = Mi.Unmodelled -> parent_view t T p.

  Lemma parent_cases : forall t T p, sim t T -> parent_view t T p.
  Proof.
    intros t T p Hs. destruct (view_check mini_embedding (Mi.lookup t) T p (proj1 (sim_view t T) Hs)) as [D L | q r -> Hq Hr D Hn R].
    - apply PV_ok; [apply MiP.parent_ok_ok, D | exact D | exact L].
    - pose proof (MiP.parent_ok_stop t q r D Hq Hr Hn) as E.
      destruct (Mi.lookup t q) as [[c| |d]|]; cbn [option_map mini_node] in R;
        [apply (PV_err t T _ Mi.ENOTDIR E R) | congruence | apply PV_un, E | apply (PV_err t T _ Mi.ENOENT E R)].
  Qed.

  Lemma parent_ok_Err : forall t T p e fl, sim t T -> Mi.parent_ok t p = Mi.Err e ->
    Go.resolve T fl (mp p) = Go.Err (mini_errno e).
  Proof. intros t T p e fl Hs H. destruct (parent_cases t T p Hs) as [E|e' E R|E]; congruence. Qed.

  Lemma wf_dirs_above : forall t p, mini_wf t -> Mi.lookup t p <> None -> MiP.dirs_above t p.
  Proof. intros t p. apply (PathMap.wf_dirs_above (Mi.lookup t) p). Qed.

  Lemma wf_below_nondir : forall t p r, mini_wf t -> p <> [] -> r <> [] -> Mi.lookup t p <> Some Mi.Dir ->
    Mi.lookup t (p ++ r) = None.
  Proof. intros t. apply (PathMap.wf_below_nondir (Mi.lookup t)). Qed.

  (** the same three outcomes for [Mi.lstat], from which readlink, remove, remove_all and read_file are made *)
  Inductive lstat_view (t : Mi.fs) (T : Gt.tree) (p : Mi.path) : Prop :=
  | LV_ok : Mi.lstat t p = match Mi.lookup t p with Some n => Mi.Ok n | None => Mi.Err Mi.ENOENT end ->
      MiP.dirs_above t p -> GoP.lit T (mp p) -> lstat_view t T p
  | LV_err : forall e, Mi.lstat t p = Mi.Err e ->
      (forall fl, Go.resolve T fl (mp p) = Go.Err (mini_errno e)) -> lstat_view t T p
  | LV_un : Mi.lstat t p = Mi.Unmodelled -> lstat_view t T p.

  Lemma lstat_cases : forall t T p, sim t T -> lstat_view t T p.
  Proof.
    intros t T p Hs. destruct (parent_cases t T p Hs) as [E D L | e E R | E].
    - apply LV_ok; [unfold Mi.lstat; rewrite E; reflexivity | exact D | exact L].
    - apply (LV_err t T p e); [unfold Mi.lstat; rewrite E; reflexivity | exact R].
    - apply LV_un. unfold Mi.lstat. rewrite E. reflexivity.
  Qed.

  Theorem fsmini_lstat_refines_lemma : forall t T p, sim t T -> p <> [] -> Mi.lstat t p <> Mi.Unmodelled ->
    mini_agree (fun n n' => n' = mn n) (Mi.lstat t p) (Go.lstat T (mp p)).
  Proof.
    intros t T p Hs Hp Hu. destruct (lstat_cases t T p Hs) as [E D L | e E R | E]; rewrite E in *.
    - rewrite (GoP.lstat_lit T (mp p) L), (sim_node_at t T p Hs Hp).
      destruct (Mi.lookup t p) as [n|]; cbn [option_map].
      + apply MA_ok. reflexivity.
      + apply (MA_err _ Mi.ENOENT).
    - rewrite (GG.lstat_err T (mp p) _ (R false)). apply MA_err.
    - congruence.
  Qed.

  Theorem fsmini_readlink_refines_lemma : forall t T p, sim t T -> p <> [] -> Mi.readlink t p <> Mi.Unmodelled ->
    mini_agree (fun d d' => d' = ldest d) (Mi.readlink t p) (Go.readlink T (mp p)).
  Proof.
    intros t T p Hs Hp Hu. unfold Mi.readlink in *.
    destruct (lstat_cases t T p Hs) as [E D L | e E R | E]; rewrite E in *; cbn [Mi.bind] in *.
    - rewrite (GoP.readlink_lit T (mp p) L), (sim_node_at t T p Hs Hp).
      destruct (Mi.lookup t p) as [[c| |d]|]; cbn [option_map mini_node Mi.bind].
      + apply (MA_err _ Mi.EINVAL).
      + apply (MA_err _ Mi.EINVAL).
      + apply MA_ok. reflexivity.
      + apply (MA_err _ Mi.ENOENT).
    - rewrite (GG.readlink_err T (mp p) _ (R false)). apply MA_err.
    - congruence.
  Qed.

  Theorem fsmini_read_file_refines_lemma : forall t T p, sim t T -> p <> [] -> Mi.read_file t p <> Mi.Unmodelled ->
    mini_agree (fun c c' => c' = c) (Mi.read_file t p) (Go.read_file T (mp p)).
  Proof.
    intros t T p Hs Hp Hu. unfold Mi.read_file in *.
    destruct (lstat_cases t T p Hs) as [E D L | e E R | E]; rewrite E in *; cbn [Mi.bind] in *.
    - pose proof (sim_node_at t T p Hs Hp) as Hn. rewrite (GoP.read_file_lit T (mp p) L), Hn.
      + destruct (Mi.lookup t p) as [[c| |d]|]; cbn [option_map mini_node Mi.bind] in *.
        * apply MA_ok. reflexivity.
        * apply (MA_err _ Mi.EISDIR).
        * congruence.
        * apply (MA_err _ Mi.ENOENT).
      + intros d. rewrite Hn. destruct (Mi.lookup t p) as [[]|]; cbn in *; congruence.
    - rewrite (GG.read_file_err T (mp p) _ (R true)). apply MA_err.
    - congruence.
  Qed.

  Theorem fsmini_open_existing_refines_lemma : forall t T p, sim t T -> p <> [] -> Mi.open_existing t p <> Mi.Unmodelled ->
    mini_agree (fun c c' => c' = c) (Mi.open_existing t p) (gen_open_existing T (mp p)).
  Proof. intros t T p. rewrite GG.gen_open_existing_read. apply fsmini_read_file_refines_lemma. Qed.

  Lemma sim_unset : forall t T p, sim t T -> sim (Mi.unset t p) (Gt.del T (mp p)).
  Proof. intros t T p Hs. apply sim_view, (view_del mini_embedding (Mi.lookup t) _ T p); [apply sim_view, Hs | exact (MiP.lookup_unset t p)]. Qed.

  Lemma sim_unset_tree : forall t T p, sim t T -> sim (Mi.unset_tree t p) (Gt.del_tree T (mp p)).
  Proof. intros t T p Hs. apply sim_view, (view_del_tree mini_embedding (Mi.lookup t) _ T p); [apply sim_view, Hs | exact (MiP.lookup_unset_tree t p)]. Qed.

  Lemma sim_set : forall t T p n, sim t T -> sim (Mi.set t p n) (Gt.set T (mp p) (mn n)).
  Proof. intros t T p n Hs. apply sim_view, (view_set mini_embedding (Mi.lookup t) _ T p n); [apply sim_view, Hs | exact (MiP.lookup_set t p n)]. Qed.

  Lemma sim_equiv_r : forall t T T', sim t T -> tree_equiv T T' -> sim t T'.
  Proof. intros t T T' H E q. rewrite (H q). apply E. Qed.

  Lemma has_child_sim : forall t T p, sim t T -> Gt.has_child T (mp p) = Mi.has_child t p.
  Proof.
    intros t T p Hs. rewrite <- (GG.has_child_ext _ _ (mp p) Hs). clear Hs.
    unfold Gt.has_child, Mi.has_child, Mi.is_proper_prefix.
    induction t as [|[k n] t IH]; cbn [mini_tree map existsb fst]; [reflexivity|].
    rewrite is_prefix_mp, path_eqb_mp. f_equal. exact IH.
  Qed.

  Theorem fsmini_remove_refines_lemma : forall t T p, sim t T -> p <> [] -> Mi.remove t p <> Mi.Unmodelled ->
    mini_agree sim (Mi.remove t p) (Go.remove T (mp p)).
  Proof.
    intros t T p Hs Hp Hu. unfold Mi.remove in *.
    destruct (lstat_cases t T p Hs) as [E D L | e E R | E]; rewrite E in *; cbn [Mi.bind] in *.
    - rewrite (GG.remove_lit_gen T (mp p) L (mp_nonempty p Hp)), (sim_lookup t T p Hs), (has_child_sim t T p Hs).
      destruct (Mi.lookup t p) as [[c| |d]|]; cbn [option_map mini_node Mi.bind].
      + apply MA_ok. apply sim_unset. exact Hs.
      + destruct (Mi.has_child t p); [apply (MA_err _ Mi.ENOTEMPTY) | apply MA_ok; apply sim_unset; exact Hs].
      + apply MA_ok. apply sim_unset. exact Hs.
      + apply (MA_err _ Mi.ENOENT).
    - rewrite (GG.remove_err T (mp p) _ (R false)). apply MA_err.
    - congruence.
  Qed.

  Theorem fsmini_remove_all_refines_lemma : forall t T p, mini_wf t -> sim t T -> p <> [] -> Mi.remove_all t p <> Mi.Unmodelled ->
    mini_agree sim (Mi.remove_all t p) (Go.remove_all T (mp p)).
  Proof.
    intros t T p W Hs Hp Hu. unfold Mi.remove_all in *.
    destruct (lstat_cases t T p Hs) as [E D L | e E R | E]; rewrite E in *.
    - rewrite (GoP.remove_all_lit T (mp p) L (mp_nonempty p Hp)).
      destruct (Mi.lookup t p) as [n|] eqn:El.
      + apply MA_ok. apply sim_unset_tree. exact Hs.
      + (* nothing at or below [p]: nothing changes *)
        apply MA_ok. apply (sim_equiv_r t T _ Hs). intros q. rewrite GtP.lookup_del_tree.
        destruct (Gt.is_prefix (mp p) q) eqn:Eq; [|reflexivity]. apply GtP.is_prefix_spec in Eq as [s ->].
        apply (view_free mini_embedding _ T p s W (proj1 (sim_view t T) Hs) Hp El).
    - unfold Go.remove_all. rewrite (R false). destruct e; cbn [mini_errno]; try apply MA_err.
      apply MA_ok. exact Hs.
    - congruence.
  Qed.

  Theorem fsmini_symlink_refines_lemma : forall t T d p, sim t T -> p <> [] -> Mi.symlink t d p <> Mi.Unmodelled ->
    mini_agree sim (Mi.symlink t d p) (Go.symlink T (ldest d) (mp p)).
  Proof.
    intros t T d p Hs Hp Hu. unfold Mi.symlink in *.
    destruct (parent_cases t T p Hs) as [E D L | e E R | E]; rewrite E in *; cbn [Mi.bind] in *.
    - rewrite (GG.symlink_lit_gen T (ldest d) (mp p) L), (sim_node_at t T p Hs Hp).
      destruct (Mi.lookup t p) as [n|]; cbn [option_map].
      + apply (MA_err _ Mi.EEXIST).
      + apply MA_ok. apply (sim_set t T p (Mi.Link d) Hs).
    - rewrite (GG.symlink_err T (ldest d) (mp p) _ (R false)). apply MA_err.
    - congruence.
  Qed.

  Theorem fsmini_write_refines_lemma : forall t T p c, sim t T -> p <> [] -> Mi.create_trunc t p c <> Mi.Unmodelled ->
    mini_agree sim (Mi.create_trunc t p c) (gen_create T (mp p) c).
  Proof.
    intros t T p c Hs Hp Hu. unfold Mi.create_trunc, gen_create in *.
    destruct (parent_cases t T p Hs) as [E D L | e E R | E]; rewrite E in *; cbn [Mi.bind] in *.
    - pose proof (sim_node_at t T p Hs Hp) as Hn. rewrite (GG.open_trunc_lit_gen T (mp p) L), Hn.
      + (* the descriptor still points at the file just made *)
        assert (Hok : mini_agree sim (Mi.Ok (Mi.set t p (Mi.File c)))
                        (Go.Ok (Go.write_fd (Gt.set T (mp p) (Gt.File [])) (mp p) c))).
        { apply MA_ok. unfold Go.write_fd. rewrite (GoP.node_at_set _ _ _ _ (mp_nonempty p Hp)), GtP.path_eqb_refl.
          eapply sim_equiv_r; [apply (sim_set t T p (Mi.File c) Hs)|]. intros q. cbn [mini_node]. rewrite !GtP.lookup_set.
          destruct (Gt.path_eqb (mp p) q); reflexivity. }
        destruct (Mi.lookup t p) as [[c'| |d]|]; cbn [option_map mini_node] in *;
          [exact Hok | apply (MA_err _ Mi.EISDIR) | congruence | exact Hok].
      + intros d. rewrite Hn. destruct (Mi.lookup t p) as [[]|]; cbn in *; congruence.
    - rewrite (GG.open_trunc_err T (mp p) _ (R true)). apply MA_err.
    - congruence.
  Qed.

  Lemma wf_unset : forall t p, mini_wf t -> (forall r, r <> [] -> Mi.lookup t (p ++ r) = None) -> mini_wf (Mi.unset t p).
  Proof.
    intros t [|x p] W Hc.
    - (* an empty root and nothing below it: the map is empty and stays so *)
      assert (E : forall q, Mi.lookup (Mi.unset t []) q = None).
      { intros q. rewrite MiP.lookup_unset. destruct (Mi.path_eqb [] q); [reflexivity|].
        destruct q as [|y q]; [apply W | apply (Hc (y :: q)); discriminate]. }
      split; [apply E | intros q a r H; rewrite E in H; congruence].
    - apply (PathMap.wf_set MiP.comp_eqb_eq (Mi.lookup t) _ (x :: p) None W ltac:(discriminate) (MiP.lookup_unset t (x :: p)) Hc). congruence.
  Qed.

  Lemma wf_unset_tree : forall t p, mini_wf t -> mini_wf (Mi.unset_tree t p).
  Proof. intros t p W. exact (PathMap.wf_cut MiP.comp_eqb_eq (Mi.lookup t) _ p W (MiP.lookup_unset_tree t p)). Qed.

  Lemma wf_set : forall t p n, mini_wf t -> p <> [] -> MiP.dirs_above t p ->
    (forall r, r <> [] -> Mi.lookup t (p ++ r) = None) -> mini_wf (Mi.set t p n).
  Proof.
    intros t p n W Hp D Hb. exact (PathMap.wf_set MiP.comp_eqb_eq (Mi.lookup t) _ p (Some n) W Hp (MiP.lookup_set t p n) Hb (fun _ => D)).
  Qed.

  Lemma wf_set_nondir : forall t p n, mini_wf t -> p <> [] -> MiP.dirs_above t p -> Mi.lookup t p <> Some Mi.Dir ->
    mini_wf (Mi.set t p n).
  Proof.
    intros t p n W Hp D Hn. exact (PathMap.wf_set_nondir MiP.comp_eqb_eq (Mi.lookup t) _ p (Some n) W Hp (MiP.lookup_set t p n) Hn (fun _ => D)).
  Qed.

  Lemma mini_wf_remove : forall t p t', mini_wf t -> p <> [] -> Mi.remove t p = Mi.Ok t' -> mini_wf t'.
  Proof.
    intros t p t' W Hp H. unfold Mi.remove, Mi.lstat in H.
    destruct (Mi.parent_ok t p) as [[]|e|]; cbn [Mi.bind] in H; try discriminate.
    destruct (Mi.lookup t p) as [[c| |d]|] eqn:El; cbn [Mi.bind] in H; try discriminate.
    2: destruct (Mi.has_child t p) eqn:Eh; [discriminate|].
    all: injection H as <-; apply wf_unset; [exact W|].
    2: apply MiP.no_child_of_has_child; exact Eh.
    all: intros r Hr; apply (wf_below_nondir t p r W Hp Hr); congruence.
  Qed.

  Lemma mini_wf_remove_all : forall t p t', mini_wf t -> Mi.remove_all t p = Mi.Ok t' -> mini_wf t'.
  Proof.
    intros t p t' W H. unfold Mi.remove_all in H. destruct (Mi.lstat t p) as [n|e|]; try discriminate.
    - injection H as <-. apply wf_unset_tree. exact W.
    - destruct e; try discriminate. injection H as <-. exact W.
  Qed.

  Lemma mini_wf_symlink : forall t d p t', mini_wf t -> p <> [] -> Mi.symlink t d p = Mi.Ok t' -> mini_wf t'.
  Proof.
    intros t d p t' W Hp H. unfold Mi.symlink in H.
    destruct (Mi.parent_ok t p) as [[]|e|] eqn:E; cbn [Mi.bind] in H; try discriminate.
    destruct (Mi.lookup t p) eqn:El; [discriminate|]. injection H as <-.
    apply wf_set_nondir; [exact W | exact Hp | apply (MiP.parent_ok_inv t p tt E) | congruence].
  Qed.

  Lemma mini_wf_create : forall t p c t', mini_wf t -> p <> [] -> Mi.create_trunc t p c = Mi.Ok t' -> mini_wf t'.
  Proof.
    intros t p c t' W Hp H. unfold Mi.create_trunc in H.
    destruct (Mi.parent_ok t p) as [[]|e|] eqn:E; cbn [Mi.bind] in H; try discriminate.
    destruct (Mi.lookup t p) as [[c'| |d]|] eqn:El; try discriminate; injection H as <-;
      (apply wf_set_nondir; [exact W | exact Hp | apply (MiP.parent_ok_inv t p tt E) | congruence]).
  Qed.

  Notation Rw := (fun t' T' => sim t' T' /\ mini_wf t').

  Lemma in_inits_cons : forall {A} (c : A) rest q, In q (inits (c :: rest)) <-> q = [c] \/ exists q', q = c :: q' /\ In q' (inits rest).
  Proof.
    intros A c rest q. cbn [inits]. split.
    - intros [<- | H]; [left; reflexivity|]. apply in_map_iff in H as [q' [<- H]]. right. exists q'. split; [reflexivity | exact H].
    - intros [-> | [q' [-> H]]]; [left; reflexivity | right; apply in_map; exact H].
  Qed.

  Lemma mkdir_from_spec : forall rest t pre,
    (forall q, In q (inits rest) -> Mi.lookup t (pre ++ q) = None ->
       forall q', In q' (inits rest) -> Mi.is_prefix q q' = true -> Mi.lookup t (pre ++ q') = None) ->
    match Mi.mkdir_from t pre rest with
    | Mi.Ok t' =>
        (forall q, In q (inits rest) -> Mi.lookup t (pre ++ q) = Some Mi.Dir \/ Mi.lookup t (pre ++ q) = None) /\
        (forall q, In q (inits rest) -> Mi.lookup t' (pre ++ q) = Some Mi.Dir) /\
        (forall x, (forall q, In q (inits rest) -> x <> pre ++ q) -> Mi.lookup t' x = Mi.lookup t x)
    | Mi.Err e =>
        e = Mi.ENOTDIR /\
        exists a r c, rest = a ++ r /\ a <> [] /\ Mi.lookup t (pre ++ a) = Some (Mi.File c) /\
                      forall a1 a2, a = a1 ++ a2 -> a1 <> [] -> a2 <> [] -> Mi.lookup t (pre ++ a1) = Some Mi.Dir
    | Mi.Unmodelled => True
    end.
  Proof.
    (* from the far end: [mkdir_from] over [a ++ [x]] is [mkdir_from] over [a], then one step at [pre ++ a ++ [x]],
       where the tree made so far still holds what [t] held *)
    induction rest as [|x a IH] using rev_ind; intros t pre NJ; [cbn; repeat split; intros; try contradiction|].
    assert (Hsub : forall q, In q (inits a) -> In q (inits (a ++ [x]))) by (intros q Hq; rewrite GG.inits_app_last; apply in_or_app; left; exact Hq).
    assert (Hlast : In (a ++ [x]) (inits (a ++ [x]))) by (rewrite GG.inits_app_last; apply in_or_app; right; left; reflexivity).
    assert (Hne : forall q, In q (inits a) -> pre ++ a ++ [x] <> pre ++ q).
    { intros q Hq E. apply app_inv_head in E. subst q. exact (GG.inits_snoc_out a x Hq). }
    specialize (IH t pre (fun q Hq Hn q' Hq' => NJ q (Hsub q Hq) Hn q' (Hsub q' Hq'))).
    rewrite MiP.mkdir_from_app. destruct (Mi.mkdir_from t pre a) as [t1|e|]; cbn [Mi.bind]; [| | exact I].
    - destruct IH as [I1 [I2 I3]]. cbn [Mi.mkdir_from]. rewrite <- app_assoc, (I3 _ Hne).
      assert (Hcases : forall q, In q (inits (a ++ [x])) -> In q (inits a) \/ q = a ++ [x]).
      { intros q Hq. rewrite GG.inits_app_last in Hq. apply in_app_or in Hq as [Hq | [<- | []]]; auto. }
      destruct (Mi.lookup t (pre ++ a ++ [x])) as [[c| |d]|] eqn:El; [| | exact I |].
      + (* a file: everything above it is a directory, for an absent one would have nothing below *)
        split; [reflexivity|]. exists (a ++ [x]), [], c. rewrite app_nil_r. repeat split; [destruct a; discriminate | exact El|].
        intros a1 a2 E H1 H2. assert (Hin : In a1 (inits a)).
        { rewrite <- (removelast_last a x). apply GG.in_inits_above. split; [exact H1 | exists a2; split; assumption]. }
        destruct (I1 a1 Hin) as [Hd | Hn]; [exact Hd|]. rewrite (NJ a1 (Hsub a1 Hin) Hn (a ++ [x]) Hlast) in El; [discriminate|].
        rewrite E. apply MiP.is_prefix_app.
      + split; [|split]; [intros q Hq | intros q Hq | intros y Hy; apply I3; intros q Hq; apply Hy, Hsub, Hq];
          destruct (Hcases q Hq) as [Hi | ->]; auto.
        rewrite (I3 _ Hne). exact El.
      + split; [|split].
        * intros q Hq. destruct (Hcases q Hq) as [Hi | ->]; auto.
        * intros q Hq. rewrite MiP.lookup_set. destruct (Hcases q Hq) as [Hi | ->]; [|rewrite MiP.path_eqb_refl; reflexivity].
          rewrite (proj2 (MiP.path_eqb_neq _ _) (Hne q Hi)). apply I2, Hi.
        * intros y Hy. rewrite MiP.lookup_set, (proj2 (MiP.path_eqb_neq _ _) (not_eq_sym (Hy _ Hlast))).
          apply I3. intros q Hq. apply Hy, Hsub, Hq.
    - destruct IH as [-> [a0 [r [c [-> [Ha [Hf Hd]]]]]]]. split; [reflexivity|]. exists a0, (r ++ [x]), c.
      rewrite app_assoc. repeat split; assumption.
  Qed.

  (** FSmini walks down from the top and makes what is missing on the way ([pre]: the part
      already walked, a chain of directories); Go's MkdirAll recurses from the bottom, but by
      [GG.mkdir_all_first] it may be handed the topmost missing directory ready-made. *)
  Lemma mkdir_from_refines : forall rest pre t T, mini_wf t -> sim t T ->
    MiP.dirs_above t pre -> (pre <> [] -> Mi.lookup t pre = Some Mi.Dir) ->
    Mi.mkdir_from t pre rest <> Mi.Unmodelled ->
    mini_agree Rw (Mi.mkdir_from t pre rest) (Go.mkdir_all T (mp (pre ++ rest))).
  Proof.
    induction rest as [|c rest IH]; intros pre t T W Hs D Hd Hu.
    - rewrite app_nil_r. cbn [Mi.mkdir_from]. rewrite GoP.mkdir_all_dir.
      + apply MA_ok. split; assumption.
      + apply (sim_lit t T pre Hs D).
      + destruct pre as [|x pre]; [reflexivity|]. rewrite (sim_node_at t T _ Hs), Hd by discriminate. reflexivity.
    - cbn [Mi.mkdir_from] in *. replace (pre ++ c :: rest) with ((pre ++ [c]) ++ rest) by (rewrite <- app_assoc; reflexivity).
      pose proof (MiP.dirs_above_snoc t pre c D Hd) as Dq. set (q := pre ++ [c]) in *.
      assert (Hq : q <> []) by (destruct pre; discriminate).
      pose proof (sim_lit t T q Hs Dq) as Lq.
      destruct (Mi.lookup t q) as [[x| |x]|] eqn:El.
      + rewrite mp_app, (GG.mkdir_all_file T (mp q) (mp rest) x Lq (mp_nonempty q Hq)); [apply (MA_err _ Mi.ENOTDIR)|].
        rewrite (sim_lookup t T q Hs), El. reflexivity.
      + apply (IH q t T W Hs Dq (fun _ => El) Hu).
      + congruence.
      + rewrite mp_app, (GG.mkdir_all_first T (mp q) (mp rest) (mp_nonempty q Hq) Lq), <- mp_app;
          [|exact (fun s => view_free mini_embedding _ T q s W (proj1 (sim_view t T) Hs) Hq El)].
        apply (IH q (Mi.set t q Mi.Dir) (Gt.set T (mp q) Gt.Dir)).
        * apply (wf_set_nondir t q Mi.Dir W Hq Dq). congruence.
        * apply (sim_set t T q Mi.Dir Hs).
        * apply (MiP.dirs_above_ext t _ q); [|exact Dq]. intros a Ha. rewrite MiP.lookup_set, Ha.
          destruct (Mi.path_eqb q a); reflexivity.
        * intros _. rewrite MiP.lookup_set, MiP.path_eqb_refl. reflexivity.
        * exact Hu.
  Qed.

  Theorem fsmini_mkdir_all_refines_lemma : forall t T p, mini_wf t -> sim t T -> Mi.mkdir_all t p <> Mi.Unmodelled ->
    mini_agree (fun t' T' => sim t' T' /\ mini_wf t') (Mi.mkdir_all t p) (Go.mkdir_all T (mp p)).
  Proof.
    intros t T p W Hs Hu. apply (mkdir_from_refines p [] t T W Hs (MiP.dirs_above_nil t)); [congruence | exact Hu].
  Qed.

  Lemma mini_is_prefix_false_eq : forall p k, Mi.is_prefix p k = false -> forall r, k <> p ++ r.
  Proof. intros p k H r ->. rewrite MiP.is_prefix_app in H. discriminate. Qed.

  Lemma mp_skipn : forall d x, skipn (length (mp d)) (mp x) = mp (skipn (length d) x).
  Proof. intros d x. unfold mini_path. rewrite map_length, skipn_map. reflexivity. Qed.

  Lemma sim_move_dir : forall t T s d, mini_wf t -> sim t T -> d <> [] ->
    Mi.lookup t d = None -> Mi.is_prefix s d = false ->
    sim (Mi.move_subtree t s d) (Gt.move_tree T (mp s) (mp d)).
  Proof.
    intros t T s d W Hs Hd Hn Hsd.
    assert (Hfree : forall K, Gt.lookup T K <> None -> Gt.is_prefix (mp d) K = false).
    { intros K HK. destruct (Gt.is_prefix (mp d) K) eqn:E; [exfalso | reflexivity]. apply GtP.is_prefix_spec in E as [r ->].
      apply HK. apply (view_free mini_embedding _ T d r W (proj1 (sim_view t T) Hs) Hd Hn). }
    assert (Hsd' : Gt.is_prefix (mp s) (mp d) = false) by (rewrite is_prefix_mp; exact Hsd).
    apply sim_intro.
    - intros x. rewrite (GG.lookup_move_tree T (mp s) (mp d) (mp x) Hfree Hsd'), MiP.lookup_move_subtree.
      rewrite !is_prefix_mp, mp_skipn, <- mp_app, !(sim_lookup t T _ Hs).
      destruct (Mi.is_prefix d x); [reflexivity|]. destruct (Mi.is_prefix s x); reflexivity.
    - intros q. rewrite (GG.lookup_move_tree T (mp s) (mp d) q Hfree Hsd').
      destruct (Gt.is_prefix (mp d) q) eqn:E.
      + intros H. apply GtP.is_prefix_spec in E as [R ->]. rewrite skipn_app_exact in H.
        destruct (sim_key t T _ Hs H) as [y Hy]. symmetry in Hy. apply mp_split in Hy as [pa [pb [_ [_ ->]]]].
        exists (d ++ pb). rewrite mp_app. reflexivity.
      + destruct (Gt.is_prefix (mp s) q); [congruence | apply (sim_key t T q Hs)].
  Qed.

  Lemma wf_move_dir : forall t s d, mini_wf t -> s <> [] -> d <> [] -> MiP.dirs_above t d ->
    Mi.lookup t d = None -> Mi.is_prefix s d = false -> mini_wf (Mi.move_subtree t s d).
  Proof.
    intros t s d [W0 W] Hs Hd Dd Hn Hsd. split.
    - rewrite MiP.lookup_move_subtree. destruct d; [congruence|]. destruct s; [congruence|]. exact W0.
    - intros x q r Hx -> Hq Hr. rewrite MiP.lookup_move_subtree in *.
      destruct (Mi.is_prefix d (q ++ r)) eqn:Edx.
      + destruct (Mi.is_prefix d q) eqn:Edq.
        * (* at or below the new name: what was at or below the old one *)
          apply MiP.is_prefix_spec in Edq as [rq ->]. rewrite <- app_assoc, skipn_app_exact in *.
          apply (W (s ++ rq ++ r) (s ++ rq) r Hx); [rewrite app_assoc; reflexivity | destruct s; [congruence | discriminate] | exact Hr].
        * apply MiP.is_prefix_spec in Edx as [rx E].
          destruct (app_eq_app _ _ _ _ E) as [r' [[-> _] | [-> _]]]; [rewrite MiP.is_prefix_app in Edq; discriminate|].
          rewrite (MiP.is_prefix_app_false s q r' Hsd). apply (Dd q r' eq_refl Hq).
          intros ->. rewrite app_nil_r, MiP.is_prefix_refl in Edq. discriminate.
      + destruct (Mi.is_prefix s (q ++ r)) eqn:Esx; [congruence|].
        rewrite (MiP.is_prefix_app_false d q r Edx), (MiP.is_prefix_app_false s q r Esx). apply (W (q ++ r) q r Hx eq_refl Hq Hr).
  Qed.

  Lemma sim_move_file : forall t T s d n, mini_wf t -> sim t T -> s <> [] -> d <> [] ->
    Mi.lookup t s = Some n -> n <> Mi.Dir -> Mi.lookup t d <> Some Mi.Dir -> Mi.is_prefix s d = false ->
    sim (Mi.set (Mi.unset t s) d n) (Gt.move_tree (Gt.del T (mp d)) (mp s) (mp d)).
  Proof.
    intros t T s d n W Hs Hsn Hdn Hls Hnd Hld Hsd.
    eapply sim_equiv_r; [apply (sim_set _ _ d n (sim_unset t T s Hs))|]. intros q. symmetry.
    apply (GG.move_leaf T (mp s) (mp d) (mn n)).
    - rewrite (sim_lookup t T s Hs), Hls. reflexivity.
    - intros r Hr. apply (view_below mini_embedding _ T s r W (proj1 (sim_view t T) Hs) Hsn Hr). congruence.
    - intros r Hr. apply (view_below mini_embedding _ T d r W (proj1 (sim_view t T) Hs) Hdn Hr Hld).
    - rewrite is_prefix_mp. exact Hsd.
  Qed.

  Lemma wf_move_file : forall t s d n, mini_wf t -> s <> [] -> d <> [] -> MiP.dirs_above t d ->
    Mi.lookup t s = Some n -> n <> Mi.Dir -> Mi.lookup t d <> Some Mi.Dir ->
    Mi.is_prefix s d = false -> mini_wf (Mi.set (Mi.unset t s) d n).
  Proof.
    intros t s d n W Hsn Hdn Dd Hls Hnd Hld Hsd.
    apply wf_set_nondir.
    - apply wf_unset; [exact W|]. intros r Hr. apply (wf_below_nondir t s r W Hsn Hr). congruence.
    - exact Hdn.
    - intros q r E Hq Hr. rewrite MiP.lookup_unset. destruct (Mi.path_eqb s q) eqn:E1.
      + apply MiP.path_eqb_eq in E1. subst q d. rewrite MiP.is_prefix_app in Hsd. discriminate.
      + apply (Dd q r E Hq Hr).
    - rewrite MiP.lookup_unset. destruct (Mi.path_eqb s d); [discriminate | exact Hld].
  Qed.

  (** what [Mi.rename] does once the new name is known not to be a directory *)
  Definition rename_rest (t : Mi.fs) (src dst : Mi.path) : Mi.res Mi.fs :=
    Mi.bind (Mi.lstat t src) (fun n =>
    Mi.bind (Mi.parent_ok t dst) (fun _ =>
      match n with
      | Mi.Dir =>
          if Mi.is_prefix src dst then Mi.Err Mi.EINVAL
          else match Mi.lookup t dst with
               | Some _ => Mi.Err Mi.ENOTDIR
               | None => Mi.Ok (Mi.move_subtree t src dst)
               end
      | _ => if Mi.path_eqb src dst then Mi.Ok t else Mi.Ok (Mi.set (Mi.unset t src) dst n)
      end)).

  Lemma rename_default : forall t s d, Mi.lstat t d <> Mi.Ok Mi.Dir -> Mi.lstat t d <> Mi.Unmodelled ->
    Mi.rename t s d = rename_rest t s d.
  Proof.
    intros t s d H1 H2. unfold Mi.rename, rename_rest. destruct (Mi.lstat t d) as [[c| |l]|e|]; try reflexivity; congruence.
  Qed.

  Lemma mini_dir_or_not : forall o : option Mi.node, o = Some Mi.Dir \/ o <> Some Mi.Dir.
  Proof. intros [[| |]|]; (left; reflexivity) || (right; discriminate). Qed.

  (** a file or a link renamed onto a name that is free or held by a file or a link; the
      right-hand side is what [GG.rename2_lit] leaves for a source that is not a directory *)
  Lemma rename_leaf : forall t T s d n, mini_wf t -> sim t T -> s <> [] -> d <> [] ->
    MiP.dirs_above t s -> MiP.dirs_above t d ->
    Mi.lookup t s = Some n -> n <> Mi.Dir -> Mi.lookup t d <> Some Mi.Dir ->
    mini_agree Rw (if Mi.path_eqb s d then Mi.Ok t else Mi.Ok (Mi.set (Mi.unset t s) d n))
      (if Mi.path_eqb s d then Go.Ok T else
       if Mi.is_prefix s d then Go.Err Go.EINVAL else
       if Mi.is_prefix d s then Go.Err Go.ENOTEMPTY else
       match option_map mn (Mi.lookup t d) with
       | Some Gt.Dir => Go.Err Go.EISDIR
       | _ => Go.Ok (Gt.move_tree (Gt.del T (mp d)) (mp s) (mp d))
       end).
  Proof.
    intros t T s d n W Hs Hsn Hdn Ds Dd Els Hn Hld.
    destruct (Mi.path_eqb s d) eqn:Eq; [apply MA_ok; split; assumption|]. apply MiP.path_eqb_neq in Eq.
    assert (Hsd : Mi.is_prefix s d = false) by (apply (MiP.nondir_not_prefix t s d Dd Hsn Eq); congruence).
    assert (Hds : Mi.is_prefix d s = false) by (apply (MiP.nondir_not_prefix t d s Ds Hdn (not_eq_sym Eq) Hld)).
    rewrite Hsd, Hds.
    assert (X : mini_agree Rw (Mi.Ok (Mi.set (Mi.unset t s) d n)) (Go.Ok (Gt.move_tree (Gt.del T (mp d)) (mp s) (mp d)))).
    { apply MA_ok. split.
      - apply (sim_move_file t T s d n W Hs Hsn Hdn Els Hn Hld Hsd).
      - apply (wf_move_file t s d n W Hsn Hdn Dd Els Hn Hld Hsd). }
    destruct (Mi.lookup t d) as [[c'| |l']|]; cbn [option_map mini_node]; try exact X. congruence.
  Qed.

  (** a directory renamed onto a name that is not a directory; the right-hand side is what
      [GG.rename2_lit] leaves for a source that is one *)
  Lemma rename_dir : forall t T s d, mini_wf t -> sim t T -> s <> [] -> d <> [] ->
    MiP.dirs_above t s -> MiP.dirs_above t d -> Mi.lookup t s = Some Mi.Dir -> Mi.lookup t d <> Some Mi.Dir ->
    mini_agree Rw
      (if Mi.is_prefix s d then Mi.Err Mi.EINVAL
       else match Mi.lookup t d with Some _ => Mi.Err Mi.ENOTDIR | None => Mi.Ok (Mi.move_subtree t s d) end)
      (if Mi.path_eqb s d then Go.Ok T else
       if Mi.is_prefix s d then Go.Err Go.EINVAL else
       if Mi.is_prefix d s then Go.Err Go.ENOTEMPTY else
       match option_map mn (Mi.lookup t d) with
       | None => Go.Ok (Gt.move_tree T (mp s) (mp d))
       | Some Gt.Dir => if Gt.has_child T (mp d) then Go.Err Go.ENOTEMPTY
                        else Go.Ok (Gt.move_tree (Gt.del T (mp d)) (mp s) (mp d))
       | Some _ => Go.Err Go.ENOTDIR
       end).
  Proof.
    intros t T s d W Hs Hsn Hdn Ds Dd Els Hld.
    assert (Eq : s <> d) by (intros ->; congruence).
    replace (Mi.path_eqb s d) with false by (symmetry; apply MiP.path_eqb_neq; exact Eq).
    destruct (Mi.is_prefix s d) eqn:Hsd; [apply (MA_err _ Mi.EINVAL)|].
    rewrite (MiP.nondir_not_prefix t d s Ds Hdn (not_eq_sym Eq) Hld).
    destruct (Mi.lookup t d) as [[c'| |l']|] eqn:Eld; cbn [option_map mini_node].
    - apply (MA_err _ Mi.ENOTDIR).
    - congruence.
    - apply (MA_err _ Mi.ENOTDIR).
    - apply MA_ok. split; [apply (sim_move_dir t T s d W Hs Hdn Eld Hsd) | apply (wf_move_dir t s d W Hsn Hdn Dd Eld Hsd)].
  Qed.

  (** by the two path checks, the old name first (as both models report it first) *)
  Theorem fsmini_rename_refines_lemma : forall t T s d, mini_wf t -> sim t T -> s <> [] -> d <> [] ->
    mini_rename_precedence_ok t s d = true -> Mi.rename t s d <> Mi.Unmodelled ->
    mini_agree Rw (Mi.rename t s d) (Go.rename T (mp s) (mp d)).
  Proof.
    intros t T s d W Hs Hsn Hdn Hp Hu.
    destruct (parent_cases t T s Hs) as [Es Ds Ls | es Es Rs | Es].
    2: { rewrite (GG.gen_rename_src_err T (mp s) (mp d) _ (Rs false)).
         destruct (MiP.rename_src_err t s d es Es) as [-> | E]; [apply MA_err | contradiction]. }
    2: { destruct Hu. apply MiP.rename_declines. left. exact Es. }
    pose proof (MiP.lstat_ok t s Ds) as Els.
    destruct (parent_cases t T d Hs) as [Ed Dd Ld | ed Ed Rd | Ed].
    - pose proof (MiP.lstat_ok t d Dd) as Eld. pose proof (GoP.lstat_lit T (mp d) Ld) as EgD.
      rewrite (sim_node_at t T d Hs Hdn) in EgD.
      destruct (mini_dir_or_not (Mi.lookup t d)) as [El | El].
      + (* the new name is a directory: refused up front *)
        rewrite El in *. unfold Mi.rename, Go.rename.
        rewrite Eld, EgD, Els, (GoP.lstat_lit T (mp s) Ls), (sim_node_at t T s Hs Hsn).
        destruct (Mi.lookup t s) as [n|]; cbn [option_map Mi.bind]; [|apply (MA_err _ Mi.ENOENT)].
        rewrite (GoP.resolve_lit T false (mp s) Ls), (GoP.resolve_lit T false (mp d) Ld) by discriminate.
        rewrite andb_negb_r. apply (MA_err _ Mi.EEXIST).
      + rewrite (rename_default t s d) by (rewrite Eld; destruct (Mi.lookup t d) as [[]|]; congruence).
        rewrite (GG.gen_rename_default T (mp s) (mp d)) by (rewrite EgD; destruct (Mi.lookup t d) as [[]|]; cbn; congruence).
        unfold rename_rest. rewrite Els, Ed.
        rewrite (GG.rename2_lit T (mp s) (mp d) Ls Ld (mp_nonempty s Hsn) (mp_nonempty d Hdn)).
        rewrite path_eqb_mp, !is_prefix_mp, !(sim_lookup t T _ Hs).
        destruct (Mi.lookup t s) as [[c| |l]|] eqn:Elk; cbn [option_map mini_node Mi.bind].
        * apply (rename_leaf t T s d (Mi.File c) W Hs Hsn Hdn Ds Dd Elk); [discriminate | exact El].
        * apply (rename_dir t T s d W Hs Hsn Hdn Ds Dd Elk El).
        * apply (rename_leaf t T s d (Mi.Link l) W Hs Hsn Hdn Ds Dd Elk); [discriminate | exact El].
        * apply (MA_err _ Mi.ENOENT).
    - (* the new name does not resolve: a missing or non-directory component above it *)
      rewrite (MiP.rename_dst_err t s d ed Ds Ed), (GG.gen_rename_dst_err T (mp s) (mp d) _ Ls (mp_nonempty s Hsn) (Rd false)).
      unfold mini_rename_precedence_ok in Hp. rewrite Es, Ed in Hp.
      destruct (Mi.lookup t s) as [n|]; [apply MA_err|]. destruct ed; try discriminate. apply (MA_err _ Mi.ENOENT).
    - destruct Hu. apply MiP.rename_declines. right. exact Ed.
  Qed.

  (** on the excluded inputs both models fail and change nothing: only the errno differs *)
  Theorem fsmini_rename_excluded_lemma : forall t T s d, sim t T -> s <> [] ->
    mini_rename_precedence_ok t s d = false ->
    Mi.rename t s d = Mi.Err Mi.ENOENT /\
    exists e, Mi.parent_ok t d = Mi.Err e /\ e <> Mi.ENOENT /\ Go.rename T (mp s) (mp d) = Go.Err (mini_errno e).
  Proof.
    intros t T s d Hs Hsn Hp. unfold mini_rename_precedence_ok in Hp.
    destruct (parent_cases t T s Hs) as [Es Ds Ls | es Es Rs | Es]; rewrite Es in Hp; try discriminate.
    destruct (Mi.lookup t s) as [n|] eqn:Els; [discriminate|].
    destruct (parent_cases t T d Hs) as [Ed Dd Ld | ed Ed Rd | Ed]; rewrite Ed in Hp; try discriminate.
    split; [rewrite (MiP.rename_dst_err t s d ed Ds Ed), Els; reflexivity|].
    exists ed. split; [exact Ed|]. split; [intros ->; discriminate|].
    apply (GG.gen_rename_dst_err T (mp s) (mp d) _ Ls (mp_nonempty s Hsn) (Rd false)).
  Qed.

  Lemma agree_add_wf : forall r g, mini_agree sim r g -> (forall t', r = Mi.Ok t' -> mini_wf t') -> mini_agree Rw r g.
  Proof.
    intros r g H W. destruct H as [a b Hab | e]; [|apply MA_err]. apply MA_ok. split; [exact Hab | apply W; reflexivity].
  Qed.

  Lemma agree_drop_wf : forall r g, mini_agree Rw r g -> mini_agree sim r g.
  Proof. intros r g H. destruct H as [a b [Hab _] | e]; [apply MA_ok; exact Hab | apply MA_err]. Qed.

  Lemma proper_prefix_dir : forall t a r, MiP.dirs_above t (a ++ r) -> a <> [] -> r <> [] -> Mi.lookup t a = Some Mi.Dir.
  Proof. intros t a r D Ha Hr. apply (D a r eq_refl Ha Hr). Qed.

  Lemma lift_some : forall t r x t', mini_lift t r = Some (x, t') -> r <> Mi.Unmodelled.
  Proof. intros t r x t' H ->. discriminate. Qed.

  Lemma lift_obs_some : forall {A} t (f : A -> call_obs) r x t', mini_lift_obs t f r = Some (x, t') -> r <> Mi.Unmodelled.
  Proof. intros A t f r x t' H ->. discriminate. Qed.

  Lemma lift_step : forall t T r g x t', sim t T -> mini_wf t -> mini_lift t r = Some (x, t') ->
    (r <> Mi.Unmodelled -> mini_agree Rw r g) ->
    exists T', gen_lift T g = (x, T') /\ sim t' T' /\ mini_wf t'.
  Proof.
    intros t T r g x t' Hs W E H. assert (Hr : r <> Mi.Unmodelled) by (intros ->; discriminate).
    destruct (H Hr) as [a b [Hab Hw] | e]; cbn [mini_lift gen_lift] in *; injection E as <- <-.
    - exists b. split; [reflexivity | split; assumption].
    - exists T. split; [reflexivity | split; assumption].
  Qed.

  Lemma lift_obs_step : forall {A B} (f : A -> call_obs) (f' : B -> call_obs) (conv : A -> B) t T r g x t',
    (forall a, f a = f' (conv a)) -> mini_agree (fun a b => b = conv a) r g ->
    mini_lift_obs t f r = Some (x, t') -> gen_lift_obs T f' g = (x, T) /\ t' = t.
  Proof.
    intros A B f f' conv t T r g x t' Hf H E. destruct H as [a b -> | e]; cbn [mini_lift_obs gen_lift_obs] in *.
    - injection E as <- <-. rewrite Hf. split; reflexivity.
    - injection E as <- <-. split; reflexivity.
  Qed.

  Lemma lift_obs_sim : forall {A B} (f : B -> call_obs) (conv : A -> B) t T r g x t',
    sim t T -> mini_wf t -> mini_lift_obs t (fun a => f (conv a)) r = Some (x, t') ->
    (r <> Mi.Unmodelled -> mini_agree (fun a b => b = conv a) r g) ->
    exists T', gen_lift_obs T f g = (x, T') /\ sim t' T' /\ mini_wf t'.
  Proof.
    intros A B f conv t T r g x t' Hs W E H.
    destruct (lift_obs_step _ f conv t T r g x t' (fun a => eq_refl) (H (lift_obs_some t _ r x t' E)) E) as [Eg ->].
    exists T. auto.
  Qed.

  Lemma is_nil_false : forall {A} (p : list A), negb (is_nil p) = true -> p <> [].
  Proof. intros A [|a p] H; [discriminate H | discriminate]. Qed.

  Lemma mini_step_refines : forall t T o x t', mini_wf t -> sim t T -> mini_op_ok t o = true ->
    mini_step ldest t o = Some (x, t') ->
    exists T', gen_step enc ldest T o = (x, T') /\ sim t' T' /\ mini_wf t'.
  Proof.
    intros t T o x t' W Hs Hok E. destruct o as [p|p|p|p|p|d p|s d|p|p c|p]; cbn [mini_step gen_step mini_op_ok] in *;
      try apply is_nil_false in Hok.
    - apply (lift_obs_sim ObsNode mn t T _ _ x t' Hs W E).
      apply (fsmini_lstat_refines_lemma t T p Hs Hok).
    - apply (lift_obs_sim ObsDest ldest t T _ _ x t' Hs W E).
      apply (fsmini_readlink_refines_lemma t T p Hs Hok).
    - apply (lift_step t T _ _ x t' Hs W E). intros Hu.
      apply agree_add_wf; [apply (fsmini_remove_refines_lemma t T p Hs Hok Hu) | exact (fun t0 => mini_wf_remove t p t0 W Hok)].
    - apply (lift_step t T _ _ x t' Hs W E). intros Hu.
      apply agree_add_wf; [apply (fsmini_remove_all_refines_lemma t T p W Hs Hok Hu) | exact (fun t0 => mini_wf_remove_all t p t0 W)].
    - apply (lift_step t T _ _ x t' Hs W E). apply (fsmini_mkdir_all_refines_lemma t T p W Hs).
    - apply (lift_step t T _ _ x t' Hs W E). intros Hu.
      apply agree_add_wf; [apply (fsmini_symlink_refines_lemma t T d p Hs Hok Hu) | exact (fun t0 => mini_wf_symlink t d p t0 W Hok)].
    - apply andb_true_iff in Hok as [Hok Hp]. apply andb_true_iff in Hok as [Hs0 Hd0].
      apply is_nil_false in Hs0. apply is_nil_false in Hd0.
      apply (lift_step t T _ _ x t' Hs W E). apply (fsmini_rename_refines_lemma t T s d W Hs Hs0 Hd0 Hp).
    - apply (lift_obs_sim ObsData (fun c => c) t T _ _ x t' Hs W E).
      apply (fsmini_read_file_refines_lemma t T p Hs Hok).
    - apply (lift_step t T _ _ x t' Hs W E). intros Hu.
      apply agree_add_wf; [apply (fsmini_write_refines_lemma t T p c Hs Hok Hu) | exact (fun t0 => mini_wf_create t p c t0 W Hok)].
    - apply (lift_obs_sim ObsData (fun c => c) t T _ _ x t' Hs W E).
      apply (fsmini_open_existing_refines_lemma t T p Hs Hok).
  Qed.

  Lemma mini_step_tree_indep : forall l1 l2 t o,
    option_map snd (mini_step l1 t o) = option_map snd (mini_step l2 t o).
  Proof.
    assert (H : forall A t (f f' : A -> call_obs) r,
              option_map snd (mini_lift_obs t f r) = option_map snd (mini_lift_obs t f' r))
      by (intros A t f f' []; reflexivity).
    intros l1 l2 t o. destruct o; cbn [mini_step]; try reflexivity; apply H.
  Qed.

  Theorem fsmini_refines_fs_lemma : forall ops t T outs t', mini_wf t -> sim t T -> mini_ops_ok t ops = true ->
    mini_run ldest t ops = Some (outs, t') ->
    exists T', gen_run enc ldest T ops = (outs, T') /\ sim t' T' /\ mini_wf t'.
  Proof.
    induction ops as [|o ops IH]; intros t T outs t' W Hs Hok E.
    - cbn in E. injection E as <- <-. exists T. split; [reflexivity | split; assumption].
    - cbn [mini_run gen_run mini_ops_ok] in *. apply andb_true_iff in Hok as [Hok1 Hok2].
      destruct (mini_step ldest t o) as [[x t1]|] eqn:E1; [|discriminate].
      destruct (mini_run ldest t1 ops) as [[xs t2]|] eqn:E2; [|discriminate]. injection E as <- <-.
      pose proof (mini_step_tree_indep (fun _ => []) ldest t o) as Hi. rewrite E1 in Hi.
      destruct (mini_step (fun _ => []) t o) as [[x0 t0]|]; [|discriminate]. cbn in Hi. injection Hi as ->.
      destruct (mini_step_refines t T o x t1 W Hs Hok1 E1) as [T1 [G1 [Hs1 W1]]].
      destruct (IH t1 T1 xs t2 W1 Hs1 Hok2 E2) as [T2 [G2 [Hs2 W2]]].
      exists T2. rewrite G1, G2. split; [reflexivity | split; assumption].
  Qed.

End Mini.

Lemma dbl_odd_inj : forall n m a b, dbl n (2 * a + 1) = dbl m (2 * b + 1) -> n = m /\ a = b.
Proof.
  induction n as [|n IH]; destruct m as [|m]; cbn [dbl]; intros a b H.
  - split; [reflexivity | lia].
  - exfalso. lia.
  - exfalso. lia.
  - assert (H' : dbl n (2 * a + 1) = dbl m (2 * b + 1)) by lia. destruct (IH m a b H') as [-> ->]. split; reflexivity.
Qed.
