(** C07 composed with C12 and C01: the abstract series of Patch/Rediff.v instantiated with the
    message lists rediff.Optimize really writes, applied by the C01 patcher model.

    Patch/Rediff.v states [optimize] over abstract types [Content], [RSeries], [BSeries] and
    Patch/RediffProofs.v proves [optimize_preserves_lemma] / [rediff_preserves_lemma]
    (Properties/C07.v: [optimize_preserves], [rediff_preserves]) from two hypotheses
    about abstract denotations [den_rsync] / [den_bsdiff].  Here:

      Content := list byte
      RSeries := list op          the wsync operations of one new file (Patch/Stream.v)
      BSeries := list Scan.ctrl   the Control messages bsdiff.DiffContext.Do hands to
                                  writeMessage, the eof control included (Bsdiff/Scan.v)

    and [render] turns a [series] into the frames of the per-file part of a patch exactly as
    repo/pwr/rediff/rediff.go:Optimize writes them:

      no mapping:  sh as read (RSYNC, fileIndex); every SyncOp as read; HEY_YOU_DID_IT
      mapping:     SyncHeader{BSDIFF, fileIndex}; BsdiffHeader{TargetIndex};
                   bdc.Do(target, source, wctx.WriteMessage): one Control per match, the last
                   with Seek 0, then Control{Eof: true} (repo/bsdiff/diff.go:writeMessages);
                   SyncOp{HEY_YOU_DID_IT}

    (Optimize decodes a frame as SyncOp and re-marshals it; on the frames WritePatch emits
    that is the identity - [as_so_op] of Patch/DiffApplyProofs.v - so the copied series is
    [map op_msg ops].)  The patch header is rewritten with the optimizer's own compression
    setting, the two containers are copied.

    [den_rsync] is C01's [replay]; [den_bsdiff] is C12's [apply_series] from old-offset 0,
    restricted to series a Go [Control] list can hold (int64 seeks) that end with their only
    eof control.  That the C01 patcher model ([process_rsync] / [process_bsdiff] of
    Patch/Patcher.v) writes exactly these denotations when fed the rendered frames is proved
    in Compose/OptimizeApplyProofs.v.  Definitions only. *)
From Wharf Require Import Base.Prelude Bowl.Fresh Patch.Reinterp Patch.Stream Patch.Patcher
     Patch.Rediff Patch.RediffProofs.
From Wharf Require Bsdiff.Scan Bsdiff.Patch Bsdiff.Suffix.
Local Open Scope Z_scope.

Definition rseries := list op.
Definition bseries := list Scan.ctrl.
Definition oseries := series rseries bseries.

(** ---- the frames ---- *)

(** a bsdiff.Control as a frame of the patch *)
Definition ctrl_msg (c : Scan.ctrl) : pmsg :=
  MCT (mkCT (Scan.c_add c) (Scan.c_copy c) (Scan.c_seek c) (Scan.c_eof c)).

(** the series of new file [i] as Optimize writes it *)
Definition render (i : Z) (s : oseries) : list pmsg :=
  match s with
  | Rsync ops => MSH (mkSH SH_RSYNC i) :: map op_msg ops ++ [hey_msg]
  | Bsdiff t b => MSH (mkSH SH_BSDIFF i) :: MBH (mkBH t) :: map ctrl_msg b ++ [hey_msg]
  end.

Fixpoint render_all (i : Z) (ss : list oseries) : list pmsg :=
  match ss with
  | [] => []
  | s :: r => render i s ++ render_all (i + 1) r
  end.

(** the optimized patch: new header, the two containers of the patch being rewritten, the
    rendered series *)
Definition optimized_patch (algo quality : Z) (old new : build) (opt : list oseries) : list frame :=
  FHeader algo quality :: FContainer (container_of old) :: FContainer (container_of new)
  :: map FMsg (render_all 0 opt).

(** ---- the denotations ---- *)

Definition den_rsync (bs : Z) (r : rseries) (olds : list (list byte)) : option (list byte) :=
  Some (replay bs olds r).

Definition seek_okb (c : Scan.ctrl) : bool := (- 2^63 <=? Scan.c_seek c) && (Scan.c_seek c <? 2^63).

(** the last control, and only the last, is marked eof *)
Fixpoint eof_lastb (b : bseries) : bool :=
  match b with
  | [] => false
  | c :: r => match r with
              | [] => Scan.c_eof c
              | _ => negb (Scan.c_eof c) && eof_lastb r
              end
  end.

Definition den_bsdiff (b : bseries) (old : list byte) : option (list byte) :=
  if forallb seek_okb b && eof_lastb b
  then option_map fst (Bsdiff.Patch.apply_series old 0 b)
  else None.

(** ---- bsdiff.DiffContext.Do as the total function [Content -> Content -> BSeries] C07 wants ---- *)
Section BsdiffInstance.
  Variable bsz : Z.                                            (* scan block size, 128 KiB in Go *)
  Variable search : list byte -> N -> list byte -> Z * Z.      (* the suffix-array oracle built for an old file *)
  Variable partitions : Z.

  Definition bsd_go (old new : list byte) : Scan.res (list Scan.ctrl) :=
    Scan.bsdiff_do bsz (search old) partitions old new.

  Definition bytes_okb (l : list byte) : bool := forallb (fun b => (b <? 256)%N) l.

  (** one control that adds nothing and copies the whole new file *)
  Definition copy_series (new : list byte) : bseries := [([], new, 0, false); Scan.ctrl_eof].

  (** Go's []byte holds bytes, and a Go slice has fewer than 2^63 elements; the model's [byte]
      is [N] and lists are unbounded.  C07's hypothesis quantifies over ALL contents, so on
      that junk part of the domain (and on it only - [bsd_series_is_go] in the proofs) the
      function is completed with the literal-copy series. *)
  Definition bsd_series (old new : list byte) : bseries :=
    if bytes_okb old && bytes_okb new && (Scan.len old <? 2^63) then
      match bsd_go old new with
      | Scan.Ok cs => cs
      | _ => copy_series new
      end
    else copy_series new.
End BsdiffInstance.

(** the oracle of the executable instance [run_bsd] of Exec/C12.v (the one the C12
    correspondence compares with psa.search on every run) *)
Definition psa_oracle (partitions : Z) (old : list byte) : N -> list byte -> Z * Z :=
  fun _ suf => Suffix.psa_search (Suffix.new_psa (Scan.norm_partitions partitions (Scan.len old)) old) suf.

(** ---- what the analysis pass sees of the patch WritePatch emits ---- *)

Definition sop_of (o : op) : sop :=
  match o with
  | OpRange f i s => SRange f i s
  | OpData d => SData (Z.of_nat (length d))
  end.

(** targetPathsToIndex[sourceFile.Path]: filled in index order, the last old file of that path wins *)
Definition same_path (oldC : container) (p : path) : option Z :=
  let k := preferred_index oldC p in if k <? 0 then None else Some k.

Definition tsizes_of (oldC : container) : list Z := map snd (c_files oldC).

Definition file_in_of (differ : Z -> list byte -> list op) (oldC : container)
           (f : path * list byte) (ord : list (Z * Z)) : @file_in (list byte) rseries :=
  let ops := differ (preferred_index oldC (fst f)) (snd f) in
  (Z.of_nat (length (snd f)), same_path oldC (fst f), map sop_of ops, ord, ops, snd f).

(** one [file_in] per new file; [ords] = the order in which Go happens to iterate the
    reused-bytes map of each file *)
Definition file_ins (differ : Z -> list byte -> list op) (old new : build) (ords : list (list (Z * Z)))
  : list (@file_in (list byte) rseries) :=
  map (fun fo => file_in_of differ (container_of old) (fst fo) (snd fo)) (combine (files_of new) ords).

(** [ord] enumerates the reused-bytes map of the file *)
Definition order_ok (bs : Z) (tsizes : list Z) (f : @file_in (list byte) rseries) : Prop :=
  let '(_, _, ops, ord, _, _) := f in
  forall m, reused bs tsizes ops = Some m -> Permutation.Permutation ord m.

(** the (ops, content) of every new file, in container order: what both passes of rediff read
    of the patch WritePatch emitted *)
Definition originals (differ : Z -> list byte -> list op) (old new : build) : list (rseries * list byte) :=
  map (fun f : path * list byte => (differ (preferred_index (container_of old) (fst f)) (snd f), snd f)) (files_of new).

(** every byte of every file of the build is a byte *)
Definition build_bytes (b : build) : Prop :=
  Forall (fun d => Forall (fun x => (x < 256)%N) d) (contents_of b).

(** the series of the optimized patch are what the Go code computes: the original ops where
    no mapping was chosen, otherwise the controls [bsdiff.DiffContext.Do] returned - it did
    not fail - for (mapped old file, new file) *)
Definition written_by_go (bsz : Z) (search : list byte -> N -> list byte -> Z * Z) (partitions : Z)
           (olds : list (list byte)) (x : rseries * list byte * option (Z * Z)) (s : oseries) : Prop :=
  match snd x with
  | None => s = Rsync (fst (fst x))
  | Some (t, _) => exists o cs, znth olds t = Some o /\
                                bsd_go bsz search partitions o (snd (fst x)) = Scan.Ok cs /\
                                s = Bsdiff t cs
  end.

(** ---- a tiny instance (block size 4): new file 0 = old file 0 with one byte changed and one
    appended (one block reused + 5 fresh bytes: mapped to old file 0, rewritten as a bsdiff
    series), new file 1 = old file 1 under another name (one full-file block range: left as it is,
    the patcher transposes it) ---- *)
Definition ex_old : build := [([1%N], File [1;2;3;4;5;6;7;8]%N); ([2%N], File [9;9]%N)].
Definition ex_new : build := [([1%N], File [1;2;3;4;0;6;7;8;9]%N); ([3%N], File [9;9]%N)].
Definition ex_differ : Z -> list byte -> list op :=
  fun _ d => if nlist_eqb d [9;9]%N then [OpRange 1 0 1] else [OpRange 0 0 1; OpData (skipn 4 d)].
Definition ex_ords : list (list (Z * Z)) := [[(0, 7)]; [(1, 5)]].
Definition ex_xs : list (rseries * list byte * option (Z * Z)) :=
  [([OpRange 0 0 1; OpData [0;6;7;8;9]%N], [1;2;3;4;0;6;7;8;9]%N, Some (0, 7)); ([OpRange 1 0 1], [9;9]%N, None)].
Definition ex_ctrls : bseries := [([0;0;0;0;251;0;0;0]%N, [9]%N, 0, false); Scan.ctrl_eof].
Definition ex_opt : list oseries := [Bsdiff 0 ex_ctrls; Rsync [OpRange 1 0 1]].
