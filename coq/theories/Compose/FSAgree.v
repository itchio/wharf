(** The three filesystem models related: [Bowl/FSmini.v] (C02) and the association-list model
    of [Arch/Zip.v] (C19) are refinements of the general model [FS/{Tree,Ops}.v] (C06).

    This file holds the definitions only: the abstraction functions, the well-formedness
    predicates that delimit the states the small models are about (that of the general model,
    [gen_wf], is in [Compose/FSAgreeGenProofs.v]), the general-model call
    sequences that correspond to the composite operations of the small models, and the
    operation sequences of the summary theorems.  Proofs: [Compose/FSAgreeGenProofs.v]
    (extensional facts about the general model), [Compose/FSAgreeView.v] (what both refinements
    share: a small model's state as the image of a general tree), [Compose/FSAgreeMiniProofs.v],
    [Compose/FSAgreeZipProofs.v], [Compose/FSAgreeZipJobProofs.v] (the helpers are what a worker
    of the pool runs); inputs on which the models genuinely differ: [Compose/FSAgreeDiffer.v].
    The property theorems are in [Properties/C02.v] (FSmini) and [Properties/C19.v] (Zip).

    How each model represents the root and relative paths.
    - General model: a path is the list of names from the root [[]] of the model; [[]] always
      exists and is a directory ([node_at]), is never a key of the association list, and [".."]
      at the root stays at the root.
    - FSmini: paths are relative to the directory Commit works in (the target directory); that
      directory itself is implicit: it is not a key, every one-component path has it as its
      parent without any check ([resolve_dirs] starts below it).  The empty path is not a
      meaningful input (Commit never passes it); the model answers ENOENT for it.
    - Arch/Zip: paths are relative to the directory being extracted into; "the root (path [])
      always exists" ([parent_ok] accepts an empty parent unchecked), it is not a key.
    Both abstractions map the implicit directory to the root [[]] of the general model and a
    relative path to the same list of names from the root, i.e. the general model is used with
    its root standing for the target directory.  What is lost: in the real filesystem [".."]
    leads out of the target directory and the path to it may go through links; neither small
    model follows links, so this cannot be observed where they do not decline.

    Names.  FSmini's components are structured ([P id | R c k]: temporary names are injective
    by construction); the abstraction takes any injective [enc : comp -> N] (one is given:
    [enc_std]).  FSmini's link destinations are opaque numbers: any [ldest : N -> list comp]
    will do (the small model never follows a link, so the destination is only ever compared).
    Arch/Zip's names are numbers already; a link destination [list N] becomes that list of
    names (no [".."]).

    Equality of trees is equality as finite maps ([tree_equiv]: same [lookup] at every path):
    the three association-list representations shadow / delete differently. *)
From Wharf Require Import FS.Light.
From Wharf Require FS.Tree FS.Ops Bowl.FSmini Arch.Zip.

Module Gt := Wharf.FS.Tree.
Module Go := Wharf.FS.Ops.
Module Mi := Wharf.Bowl.FSmini.
Module Zi := Wharf.Arch.Zip.

Local Open Scope N_scope.

Definition tree_equiv (a b : Gt.tree) : Prop := forall q, Gt.lookup a q = Gt.lookup b q.

(** non-empty prefixes, shortest first, the list itself last *)
Fixpoint inits {A} (p : list A) : list (list A) :=
  match p with
  | [] => []
  | a :: r => [a] :: map (cons a) (inits r)
  end.

Definition is_nil {A} (p : list A) : bool := match p with [] => true | _ => false end.

(* ========================================================================================== *)
(** * FSmini -> general model *)

Definition mini_path (enc : Mi.comp -> N) (p : Mi.path) : Gt.path := map enc p.

Definition mini_node (ldest : N -> list Gt.comp) (n : Mi.node) : Gt.node :=
  match n with
  | Mi.File c => Gt.File c
  | Mi.Dir => Gt.Dir
  | Mi.Link d => Gt.Link (ldest d)
  end.

Definition mini_tree (enc : Mi.comp -> N) (ldest : N -> list Gt.comp) (t : Mi.fs) : Gt.tree :=
  map (fun e => (mini_path enc (fst e), mini_node ldest (snd e))) t.

Definition mini_errno (e : Mi.errno) : Go.errno :=
  match e with
  | Mi.ENOENT => Go.ENOENT | Mi.ENOTDIR => Go.ENOTDIR | Mi.EISDIR => Go.EISDIR
  | Mi.ENOTEMPTY => Go.ENOTEMPTY | Mi.EEXIST => Go.EEXIST | Mi.EINVAL => Go.EINVAL
  end.

(** [T] is a general-model state that stands for the FSmini state [t] *)
Definition mini_sim (enc : Mi.comp -> N) (ldest : N -> list Gt.comp) (t : Mi.fs) (T : Gt.tree) : Prop :=
  tree_equiv (mini_tree enc ldest t) T.

(** an injective numbering of FSmini's names: [P id -> 2 id], [R c k -> 2 <c, k> + 1] with the
    pairing <a, b> = 2^a (2 b + 1) *)
Fixpoint dbl (n : nat) (x : N) : N := match n with O => x | S n' => 2 * dbl n' x end.
Fixpoint enc_std (c : Mi.comp) : N :=
  match c with
  | Mi.P id => 2 * id
  | Mi.R c' k => 2 * dbl (N.to_nat (enc_std c')) (2 * k + 1) + 1
  end.
Definition ldest_std (d : N) : list Gt.comp := [Gt.Nm d].

(** The states FSmini is about: the target directory itself is not an entry, and an entry
    lies below directories only.  (All three models are association lists and can hold
    "trees" without this property; no filesystem does.) *)
Definition mini_wf (t : Mi.fs) : Prop :=
  Mi.lookup t [] = None /\
  forall p q r, Mi.lookup t p <> None -> p = q ++ r -> q <> [] -> r <> [] -> Mi.lookup t q = Some Mi.Dir.

Definition mini_is_dir (t : Mi.fs) (q : Mi.path) : bool :=
  match Mi.lookup t q with Some Mi.Dir => true | _ => false end.

Definition mini_wfb (t : Mi.fs) : bool :=
  forallb (fun e => negb (is_nil (fst e)) && forallb (mini_is_dir t) (inits (removelast (fst e)))) t.

(** agreement of a result of the small model with a result of the general one: same errno,
    or both succeed with related values; the declined outcome agrees with nothing *)
Inductive mini_agree {A B} (R : A -> B -> Prop) : Mi.res A -> Go.res B -> Prop :=
| MA_ok : forall a b, R a b -> mini_agree R (Mi.Ok a) (Go.Ok b)
| MA_err : forall e, mini_agree R (Mi.Err e) (Go.Err (mini_errno e)).

(** the general-model call sequences for FSmini's two composite operations *)

(** [create_trunc]: open(O_CREATE|O_WRONLY|O_TRUNC), then one write through the descriptor *)
Definition gen_create (T : Gt.tree) (p : Gt.path) (c : list N) : Go.res Gt.tree :=
  match Go.open_trunc T p with
  | Go.Ok (T1, q) => Go.Ok (Go.write_fd T1 q c)
  | Go.Err e => Go.Err e
  end.

(** [open_existing]: open(O_WRONLY) without O_CREATE, the content found at the descriptor *)
Definition gen_open_existing (T : Gt.tree) (p : Gt.path) : Go.res (list N) :=
  match Go.open_nocreate T p with
  | Go.Ok q => match Gt.node_at T q with Some (Gt.File d) => Go.Ok d | _ => Go.Ok [] end
  | Go.Err e => Go.Err e
  end.

(** The one input class on which [Mi.rename] and [Go.rename] give different errno values
    although neither follows a link ([fsmini_rename_errno_differ]): the old name is missing
    in an existing directory AND the new name lies below a regular file.  The kernel resolves
    both parents before it looks the old name up (ENOTDIR), FSmini reports the missing old name
    first (ENOENT). *)
Definition mini_rename_precedence_ok (t : Mi.fs) (src dst : Mi.path) : bool :=
  match Mi.parent_ok t src, Mi.lookup t src, Mi.parent_ok t dst with
  | Mi.Ok _, None, Mi.Err Mi.ENOENT => true
  | Mi.Ok _, None, Mi.Err _ => false
  | _, _, _ => true
  end.

(** ** operation sequences *)
Inductive mini_op :=
| OLstat (p : Mi.path) | OReadlink (p : Mi.path) | ORemove (p : Mi.path) | ORemoveAll (p : Mi.path)
| OMkdirAll (p : Mi.path) | OSymlink (d : N) (p : Mi.path) | ORename (src dst : Mi.path)
| ORead (p : Mi.path) | OCreate (p : Mi.path) (c : list N) | OOpenExisting (p : Mi.path).

(** what a call returns besides its errno *)
Inductive call_obs := ObsNone | ObsNode (n : Gt.node) | ObsDest (d : list Gt.comp) | ObsData (c : list N).

(** errno ([None]: success) and returned value *)
Definition call_outcome := (option Go.errno * call_obs)%type.

Section MiniRun.
  Variable enc : Mi.comp -> N.
  Variable ldest : N -> list Gt.comp.

  Definition mini_lift (t : Mi.fs) (r : Mi.res Mi.fs) : option (call_outcome * Mi.fs) :=
    match r with
    | Mi.Ok t' => Some ((None, ObsNone), t')
    | Mi.Err e => Some ((Some (mini_errno e), ObsNone), t)
    | Mi.Unmodelled => None
    end.

  Definition mini_lift_obs {A} (t : Mi.fs) (f : A -> call_obs) (r : Mi.res A) : option (call_outcome * Mi.fs) :=
    match r with
    | Mi.Ok a => Some ((None, f a), t)
    | Mi.Err e => Some ((Some (mini_errno e), ObsNone), t)
    | Mi.Unmodelled => None
    end.

  (** one operation in the small model; [None]: the model declines *)
  Definition mini_step (t : Mi.fs) (o : mini_op) : option (call_outcome * Mi.fs) :=
    match o with
    | OLstat p => mini_lift_obs t (fun n => ObsNode (mini_node ldest n)) (Mi.lstat t p)
    | OReadlink p => mini_lift_obs t (fun d => ObsDest (ldest d)) (Mi.readlink t p)
    | ORemove p => mini_lift t (Mi.remove t p)
    | ORemoveAll p => mini_lift t (Mi.remove_all t p)
    | OMkdirAll p => mini_lift t (Mi.mkdir_all t p)
    | OSymlink d p => mini_lift t (Mi.symlink t d p)
    | ORename s d => mini_lift t (Mi.rename t s d)
    | ORead p => mini_lift_obs t ObsData (Mi.read_file t p)
    | OCreate p c => mini_lift t (Mi.create_trunc t p c)
    | OOpenExisting p => mini_lift_obs t ObsData (Mi.open_existing t p)
    end.

  Definition gen_lift (T : Gt.tree) (r : Go.res Gt.tree) : call_outcome * Gt.tree :=
    match r with
    | Go.Ok T' => ((None, ObsNone), T')
    | Go.Err e => ((Some e, ObsNone), T)
    end.

  Definition gen_lift_obs {A} (T : Gt.tree) (f : A -> call_obs) (r : Go.res A) : call_outcome * Gt.tree :=
    match r with
    | Go.Ok a => ((None, f a), T)
    | Go.Err e => ((Some e, ObsNone), T)
    end.

  (** the corresponding call (sequence) in the general model *)
  Definition gen_step (T : Gt.tree) (o : mini_op) : call_outcome * Gt.tree :=
    match o with
    | OLstat p => gen_lift_obs T ObsNode (Go.lstat T (mini_path enc p))
    | OReadlink p => gen_lift_obs T ObsDest (Go.readlink T (mini_path enc p))
    | ORemove p => gen_lift T (Go.remove T (mini_path enc p))
    | ORemoveAll p => gen_lift T (Go.remove_all T (mini_path enc p))
    | OMkdirAll p => gen_lift T (Go.mkdir_all T (mini_path enc p))
    | OSymlink d p => gen_lift T (Go.symlink T (ldest d) (mini_path enc p))
    | ORename s d => gen_lift T (Go.rename T (mini_path enc s) (mini_path enc d))
    | ORead p => gen_lift_obs T ObsData (Go.read_file T (mini_path enc p))
    | OCreate p c => gen_lift T (gen_create T (mini_path enc p) c)
    | OOpenExisting p => gen_lift_obs T ObsData (gen_open_existing T (mini_path enc p))
    end.

  Fixpoint mini_run (t : Mi.fs) (ops : list mini_op) : option (list call_outcome * Mi.fs) :=
    match ops with
    | [] => Some ([], t)
    | o :: r =>
        match mini_step t o with
        | None => None
        | Some (x, t') => match mini_run t' r with
                          | None => None
                          | Some (xs, t'') => Some (x :: xs, t'')
                          end
        end
    end.

  Fixpoint gen_run (T : Gt.tree) (ops : list mini_op) : list call_outcome * Gt.tree :=
    match ops with
    | [] => ([], T)
    | o :: r => let '(x, T') := gen_step T o in
                let '(xs, T'') := gen_run T' r in (x :: xs, T'')
    end.
End MiniRun.

(** the inputs FSmini is about: non-empty relative paths; for rename not the precedence case *)
Definition mini_op_ok (t : Mi.fs) (o : mini_op) : bool :=
  match o with
  | OLstat p | OReadlink p | ORemove p | ORemoveAll p | OSymlink _ p
  | ORead p | OCreate p _ | OOpenExisting p => negb (is_nil p)
  | OMkdirAll _ => true                      (* MkdirAll of the target directory itself: a no-op in both *)
  | ORename s d => negb (is_nil s) && negb (is_nil d) && mini_rename_precedence_ok t s d
  end.

(** ... for every operation of a sequence, in the state in which it runs *)
Fixpoint mini_ops_ok (t : Mi.fs) (ops : list mini_op) : bool :=
  match ops with
  | [] => true
  | o :: r => mini_op_ok t o &&
              match mini_step (fun _ => []) t o with
              | Some (_, t') => mini_ops_ok t' r
              | None => true
              end
  end.

(* ========================================================================================== *)
(** * Arch/Zip -> general model *)

Definition zip_node (n : Zi.node) : Gt.node :=
  match n with
  | Zi.Dir => Gt.Dir
  | Zi.File d => Gt.File d
  | Zi.Link d => Gt.Link (map Gt.Nm d)
  end.

Definition zip_tree (f : Zi.fs) : Gt.tree := map (fun e => (fst e, zip_node (snd e))) f.

Definition zip_sim (f : Zi.fs) (T : Gt.tree) : Prop := tree_equiv (zip_tree f) T.

Definition zip_wf (f : Zi.fs) : Prop :=
  Zi.lookup f [] = None /\
  forall p q r, Zi.lookup f p <> None -> p = q ++ r -> q <> [] -> r <> [] -> Zi.lookup f q = Some Zi.Dir.

Definition zip_is_dir (f : Zi.fs) (q : Zi.path) : bool :=
  match Zi.lookup f q with Some Zi.Dir => true | _ => false end.
Definition zip_is_link (f : Zi.fs) (q : Zi.path) : bool :=
  match Zi.lookup f q with Some (Zi.Link _) => true | _ => false end.
Definition zip_is_file (f : Zi.fs) (q : Zi.path) : bool :=
  match Zi.lookup f q with Some (Zi.File _) => true | _ => false end.

Definition zip_wfb (f : Zi.fs) : bool :=
  forallb (fun e => negb (is_nil (fst e)) && forallb (zip_is_dir f) (inits (removelast (fst e)))) f.

(** Arch/Zip has no "declined" outcome: where the kernel would follow a link in the middle of
    a path it answers "error" ([fs_mkdir_all]: "a component that is a symlink is an error
    here"; [parent_ok]: the parent must be a directory itself).  The inputs it is about are
    those with no link strictly above the path. *)
Definition zip_link_above (f : Zi.fs) (p : Zi.path) : bool :=
  existsb (zip_is_link f) (inits (removelast p)).
Definition zip_file_above (f : Zi.fs) (p : Zi.path) : bool :=
  existsb (zip_is_file f) (inits (removelast p)).

(** ok / error of the small model against the general one; the small model has no errno *)
Inductive zip_agree : option Zi.fs -> Go.res Gt.tree -> Prop :=
| ZA_ok : forall f T, zip_sim f T -> zip_agree (Some f) (Go.Ok T)
| ZA_err : forall e, zip_agree None (Go.Err e).

(** ** the helpers of archiver/archiver.go as the worker of [Zi.job] / [Zi.exec] runs them: one
    system call after the other, the first failure ends the helper and leaves the tree as
    the earlier calls made it.  Result: (succeeded?, tree). *)
Definition zip_mkdir (p : Zi.path) (f : Zi.fs) : bool * Zi.fs :=
  match Zi.lookup f p with                                        (* MLstat *)
  | Some Zi.Dir => (true, f)
  | Some _ =>
      match Zi.fs_remove p f with                                 (* MMkRemove *)
      | None => (false, f)
      | Some f1 => match Zi.fs_mkdir_all p f1 with                (* MMkMkdir *)
                   | None => (false, f1)
                   | Some f2 => (true, f2)
                   end
      end
  | None => match Zi.fs_mkdir_all p f with                        (* MMkMkdir *)
            | None => (false, f)
            | Some f2 => (true, f2)
            end
  end.

Definition zip_symlink (p : Zi.path) (dest : list N) (f : Zi.fs) : bool * Zi.fs :=
  match Zi.fs_remove_all p f with
  | None => (false, f)
  | Some f1 =>
      match Zi.fs_mkdir_all (Zi.parent p) f1 with
      | None => (false, f1)
      | Some f2 => match Zi.fs_symlink p dest f2 with
                   | None => (false, f2)
                   | Some f3 => (true, f3)
                   end
      end
  end.

Fixpoint zip_appends (p : Zi.path) (chunks : list (list N)) (f : Zi.fs) : bool * Zi.fs :=
  match chunks with
  | [] => (true, f)
  | c :: r => match Zi.fs_append p c f with
              | None => (false, f)
              | Some f' => zip_appends p r f'
              end
  end.

Definition zip_copyfile (p : Zi.path) (chunks : list (list N)) (f : Zi.fs) : bool * Zi.fs :=
  match Zi.fs_remove_all p f with
  | None => (false, f)
  | Some f1 =>
      match Zi.fs_mkdir_all (Zi.parent p) f1 with
      | None => (false, f1)
      | Some f2 => match Zi.fs_create p f2 with
                   | None => (false, f2)
                   | Some f3 => zip_appends p chunks f3
                   end
      end
  end.

(** ** the same helpers over the general model (Go source: archiver.Mkdir / Symlink / CopyFile).
    Result: (errno of the failing call or [None], tree). *)
Definition gen_mkdir (p : Gt.path) (T : Gt.tree) : option Go.errno * Gt.tree :=
  match Go.lstat T p with
  | Go.Ok Gt.Dir => (None, T)
  | Go.Ok _ =>
      match Go.remove T p with
      | Go.Err e => (Some e, T)
      | Go.Ok T1 => match Go.mkdir_all T1 p with
                    | Go.Err e => (Some e, T1)
                    | Go.Ok T2 => (None, T2)
                    end
      end
  | Go.Err _ => match Go.mkdir_all T p with
                | Go.Err e => (Some e, T)
                | Go.Ok T2 => (None, T2)
                end
  end.

Definition gen_symlink (p : Gt.path) (dest : list Gt.comp) (T : Gt.tree) : option Go.errno * Gt.tree :=
  match Go.remove_all T p with
  | Go.Err e => (Some e, T)
  | Go.Ok T1 =>
      match Go.mkdir_all T1 (removelast p) with
      | Go.Err e => (Some e, T1)
      | Go.Ok T2 => match Go.symlink T2 dest p with
                    | Go.Err e => (Some e, T2)
                    | Go.Ok T3 => (None, T3)
                    end
      end
  end.

(** the Write calls of io.Copy through the descriptor [q], the file offset advancing *)
Fixpoint gen_writes (q : Gt.path) (off : nat) (chunks : list (list N)) (T : Gt.tree) : Gt.tree :=
  match chunks with
  | [] => T
  | c :: r => gen_writes q (off + length c) r (Go.write_at_fd T q off c)
  end.

Definition gen_copyfile (p : Gt.path) (chunks : list (list N)) (T : Gt.tree) : option Go.errno * Gt.tree :=
  match Go.remove_all T p with
  | Go.Err e => (Some e, T)
  | Go.Ok T1 =>
      match Go.mkdir_all T1 (removelast p) with
      | Go.Err e => (Some e, T1)
      | Go.Ok T2 => match Go.open_trunc T2 p with
                    | Go.Err e => (Some e, T2)
                    | Go.Ok (T3, q) => (None, gen_writes q 0 chunks T3)
                    end
      end
  end.

(** agreement of helper results: both succeed or both fail, and the trees are related (also
    after a failure: the effects of the calls before the failing one) *)
Definition zip_agree_helper (r : bool * Zi.fs) (g : option Go.errno * Gt.tree) : Prop :=
  (fst r = true <-> fst g = None) /\ zip_sim (snd r) (snd g).

(** ** sequences of helper calls (what a single extraction worker does, entry after entry) *)
Inductive zip_call :=
| CMkdir (p : Zi.path) | CSymlink (p : Zi.path) (dest : list N) | CCopyFile (p : Zi.path) (chunks : list (list N)).

Definition call_path (c : zip_call) : Zi.path :=
  match c with CMkdir p | CSymlink p _ | CCopyFile p _ => p end.

Definition zip_call_step (f : Zi.fs) (c : zip_call) : bool * Zi.fs :=
  match c with
  | CMkdir p => zip_mkdir p f
  | CSymlink p d => zip_symlink p d f
  | CCopyFile p ch => zip_copyfile p ch f
  end.

Definition gen_call_step (T : Gt.tree) (c : zip_call) : option Go.errno * Gt.tree :=
  match c with
  | CMkdir p => gen_mkdir p T
  | CSymlink p d => gen_symlink p (map Gt.Nm d) T
  | CCopyFile p ch => gen_copyfile p ch T
  end.

Fixpoint zip_calls (f : Zi.fs) (cs : list zip_call) : list bool * Zi.fs :=
  match cs with
  | [] => ([], f)
  | c :: r => let '(b, f') := zip_call_step f c in
              let '(bs, f'') := zip_calls f' r in (b :: bs, f'')
  end.

Fixpoint gen_calls (T : Gt.tree) (cs : list zip_call) : list (option Go.errno) * Gt.tree :=
  match cs with
  | [] => ([], T)
  | c :: r => let '(e, T') := gen_call_step T c in
              let '(es, T'') := gen_calls T' r in (e :: es, T'')
  end.

(** the inputs Arch/Zip is about: a non-empty relative path with no link strictly above it,
    in the state in which the helper runs *)
Definition zip_call_ok (f : Zi.fs) (c : zip_call) : bool :=
  negb (is_nil (call_path c)) && negb (zip_link_above f (call_path c)).

Fixpoint zip_calls_ok (f : Zi.fs) (cs : list zip_call) : bool :=
  match cs with
  | [] => true
  | c :: r => zip_call_ok f c && zip_calls_ok (snd (zip_call_step f c)) r
  end.

Definition errno_is_none (e : option Go.errno) : bool := match e with None => true | Some _ => false end.

(* ========================================================================================== *)
(** * The helpers above are what a worker of [Zi.exec] does with the operations of [Zi.job] *)

(** effect of one micro-step on (what Lstat saw, the tree): [None] no file-system call,
    [Some r] the call's result *)
Definition zip_mop_effect (seen : option Zi.node) (op : Zi.mop) (f : Zi.fs) : option Zi.node * option (option Zi.fs) :=
  match op with
  | Zi.MLstat p => (Zi.lookup f p, None)
  | Zi.MMkRemove p => (seen, match seen with None | Some Zi.Dir => None | Some _ => Some (Zi.fs_remove p f) end)
  | Zi.MMkMkdir p => (seen, match seen with Some Zi.Dir => None | _ => Some (Zi.fs_mkdir_all p f) end)
  | Zi.MRemoveAll p => (seen, Some (Zi.fs_remove_all p f))
  | Zi.MMkdirAll p => (seen, Some (Zi.fs_mkdir_all p f))
  | Zi.MCreate p => (seen, Some (Zi.fs_create p f))
  | Zi.MAppend p c => (seen, Some (Zi.fs_append p c f))
  | Zi.MSymlink p d => (seen, Some (Zi.fs_symlink p d f))
  | _ => (seen, None)
  end.

(** a list of micro-steps run one after the other; the first failing call ends it *)
Fixpoint zip_seq_ops (seen : option Zi.node) (ops : list Zi.mop) (f : Zi.fs) : bool * Zi.fs :=
  match ops with
  | [] => (true, f)
  | op :: r =>
      match zip_mop_effect seen op f with
      | (seen', None) => zip_seq_ops seen' r f
      | (seen', Some (Some f')) => zip_seq_ops seen' r f'
      | (_, Some None) => (false, f)
      end
  end.

Definition call_of_entry (chunk : list N -> list (list N)) (e : Zi.entry) : zip_call :=
  match e with
  | Zi.EDir p => CMkdir p
  | Zi.ELink p d => CSymlink p d
  | Zi.EFile p d => CCopyFile p (chunk d)
  end.
