(** C03 x C13 - proofs about the wire instance of Compose/ResumeWire.v:
    - the index <-> offset bridge ([bnd], [idx_of]);
    - the C13 save-state automaton ([want_save], [pop_checkpoint], [read_message]) over the
      framed message list refines the message-granularity automaton of Patch/Resume.v
      ([rd_want], [rd_pop], [rd_read]) under every schedule that does not read past the last
      message ([reads_within]), every popped checkpoint of the one
      being the translation ([ckpt_to_wire]) of the checkpoint popped by the other
      ([wire_refines]); the relation implies C13's [coherent] and C03's [rd_inv];
    - [H_wire] for the instance ([src_resume_w_ok]): for every checkpoint the instance can
      produce, [ReadContext.Resume] restarts at the checkpoint's reader offset, and the resumed
      reader yields exactly the unread messages ([src_resume_w_yields]) - from C13's
      [resume_good] / [read_all_rest] (the two halves of [checkpoint_resumes_exactly]). *)
From Wharf Require Import Base.Prelude Base.ListLemmas Patch.Resume Patch.ResumeLive
  Wire.Frame Wire.FrameProofs Wire.Reader Wire.ReaderProofs Compose.ResumeWire.
Local Open Scope N_scope.

Section Bridge.
  Context {M : Type}.
  Variable marshal : M -> list byte.

  Notation stream := (stream marshal).
  Notation flen m := (N.of_nat (length (frame (marshal m)))).

  Lemma flen_pos : forall m, 1 <= flen m.
  Proof. intros m. pose proof (frame_nonempty (marshal m)). lia. Qed.

  Lemma firstn_S_nth : forall (l : list M) k m, nth_error l k = Some m -> firstn (S k) l = firstn k l ++ [m].
  Proof. intros l k m H. rewrite <- Nat.add_1_r, <- firstn_add, (skipn_nth_error _ _ _ H). reflexivity. Qed.

  Lemma nth_error_lt : forall (l : list M) k, (k < length l)%nat -> exists m, nth_error l k = Some m.
  Proof.
    intros l k H. destruct (nth_error l k) eqn:E; [eauto|]. apply nth_error_None in E. lia.
  Qed.

  Section Msgs.
    Variable msgs : list M.
    Notation bnd := (bnd marshal msgs).

    Lemma bnd_off_of : forall k, bnd k = off_of marshal (firstn k msgs).
    Proof. reflexivity. Qed.

    Lemma bnd_0 : bnd 0 = 0.
    Proof. reflexivity. Qed.

    Lemma bnd_S : forall k m, nth_error msgs k = Some m -> bnd (S k) = bnd k + flen m.
    Proof.
      intros k m H. rewrite !bnd_off_of, (firstn_S_nth _ _ _ H). apply off_of_snoc.
    Qed.

    Lemma bnd_past : forall k, (length msgs <= k)%nat -> bnd (S k) = bnd k.
    Proof. intros k H. unfold ResumeWire.bnd. rewrite !firstn_all2 by lia. reflexivity. Qed.

    Lemma bnd_mono : forall j k, (j <= k)%nat -> bnd j <= bnd k.
    Proof.
      intros j k H. unfold ResumeWire.bnd.
      rewrite <- (firstn_skipn j (firstn k msgs)), firstn_firstn, Nat.min_l, stream_app, app_length by exact H. lia.
    Qed.

    Lemma bnd_le_S : forall k, bnd k <= bnd (S k).
    Proof. intros k. apply bnd_mono. lia. Qed.

    Lemma bnd_lt_S : forall k, (k < length msgs)%nat -> bnd k < bnd (S k).
    Proof.
      intros k H. destruct (nth_error_lt _ _ H) as (m & E). rewrite (bnd_S _ _ E). pose proof (flen_pos m). lia.
    Qed.
  End Msgs.

  Lemma idx_of_frame : forall m (ms : list M) o, idx_of marshal (m :: ms) (flen m + o) = option_map S (idx_of marshal ms o).
  Proof.
    intros m ms o. cbn [idx_of]. pose proof (flen_pos m).
    replace (flen m + o =? 0) with false by lia. replace (flen m + o <? flen m) with false by lia.
    replace (flen m + o - flen m) with o by lia. reflexivity.
  Qed.

  Lemma idx_of_bnd : forall (ms : list M) k, (k <= length ms)%nat -> idx_of marshal ms (bnd marshal ms k) = Some k.
  Proof.
    unfold ResumeWire.bnd. induction ms as [|m ms IH]; intros k Hk.
    - cbn in Hk. replace k with O by lia. reflexivity.
    - destruct k as [|k]; [reflexivity|]. cbn [firstn]. rewrite stream_cons, app_length, Nat2N.inj_add, idx_of_frame.
      rewrite IH by (cbn in Hk; lia). reflexivity.
  Qed.

  Lemma idx_of_sound : forall (ms : list M) o k, idx_of marshal ms o = Some k -> (k <= length ms)%nat /\ o = bnd marshal ms k.
  Proof.
    unfold ResumeWire.bnd. induction ms as [|m ms IH]; intros o k H; cbn [idx_of] in H.
    - destruct (N.eqb_spec o 0) as [->|Hne]; [|discriminate]. inversion H; subst. cbn. split; [lia|reflexivity].
    - destruct (N.eqb_spec o 0) as [->|Hne].
      + inversion H; subst. cbn. split; [lia|reflexivity].
      + destruct (N.ltb_spec o (flen m)) as [Hlt|Hge]; [discriminate|].
        destruct (idx_of marshal ms (o - flen m)) as [k'|] eqn:E; [|discriminate].
        cbn [option_map] in H. inversion H; subst k. destruct (IH _ _ E) as (Hk & Ho).
        cbn [length firstn]. rewrite stream_cons, app_length. split; [lia|lia].
  Qed.

End Bridge.

Local Ltac rsimp := cbn [Resume.r_pos Resume.r_st Resume.r_want Resume.r_src r_src r_off r_cap r_save r_sc
                       s_data s_pos s_rest s_want fst snd andb Resume.mc_off Resume.mc_src mc_off mc_src].

Section Refinement.
  Context {M : Type}.
  Variable marshal : M -> list byte.
  Variable unmarshal : list byte -> option M.
  Hypothesis unmarshal_marshal : forall m, unmarshal (marshal m) = Some m.
  Variable msgs : list M.
  Hypothesis Hfits : Forall (fits_msg marshal) msgs.
  Variable beh : behaviour.
  Variable cap0 : N.

  Notation stream := (stream marshal).
  Notation bnd := (bnd marshal msgs).
  Notation src_event := (src_event marshal msgs beh).
  Notation emit_w := (emit_w marshal msgs beh).
  Notation ckpt_to_wire := (ckpt_to_wire marshal msgs beh).
  Notation src_resume_w := (src_resume_w marshal msgs beh cap0).
  Notation wire_data := (wire_data marshal msgs).
  Notation rd_rel := (rd_rel marshal msgs beh).
  Notation step3 := (step3 marshal msgs beh).
  Notation run3 := (run3 marshal msgs beh).
  Notation ev_rel := (ev_rel marshal msgs beh).
  Notation reads_within := (reads_within msgs).
  Notation wf_mc := (wf_mc marshal msgs beh).

  Lemma rd_rel_coherent : forall a b, rd_rel a b -> coherent a.
  Proof.
    intros a b (_ & _ & _ & _ & _ & Hst & Hw & Hco & _). unfold coherent. rewrite Hw.
    unfold st_rel in Hst. destruct (r_save a), (Resume.r_st b) eqn:E; try contradiction.
    - destruct (Resume.r_want b); [|reflexivity]. destruct Hco as [Hco _]. discriminate (Hco eq_refl).
    - apply Hco. reflexivity.
    - destruct (Resume.r_want b); [|reflexivity]. destruct Hco as [Hco _]. discriminate (Hco eq_refl).
  Qed.

  Lemma rd_rel_rd_inv : forall a b, rd_rel a b -> rd_inv b.
  Proof. intros a b (_ & _ & _ & _ & _ & _ & _ & Hco & _). unfold rd_inv. apply Hco. Qed.

  Lemma sim_want : forall a b, rd_rel a b ->
    rd_rel (want_save a) (Resume.rd_want b) /\
    (match r_save a with Idle => true | _ => false end) = (match Resume.r_st b with Resume.Idle => true | _ => false end).
  Proof.
    intros a [p st wn sr] (Hp & Hd & Hs & Ho & Hr & Hst & Hw & Hco & Hsc). cbn in *.
    unfold want_save, Resume.rd_want. cbn.
    destruct (r_save a) eqn:Ea, st; try contradiction; cbn; (split; [|reflexivity]).
    - unfold ResumeWire.rd_rel. cbn. repeat split; auto; discriminate.
    - unfold ResumeWire.rd_rel. cbn. rewrite Ea. repeat split; auto; apply Hco.
    - unfold ResumeWire.rd_rel. cbn. rewrite Ea. repeat split; auto; apply Hco || apply Hsc.
  Qed.

  Lemma sim_pop : forall a b, rd_rel a b ->
    rd_rel (fst (pop_checkpoint a)) (snd (Resume.rd_pop b)) /\
    match snd (pop_checkpoint a), fst (Resume.rd_pop b) with
    | None, None => True
    | Some c, Some mc => ckpt_to_wire mc = Some c /\ wf_mc mc /\ Resume.mc_off mc = Resume.r_pos b
    | _, _ => False
    end.
  Proof.
    intros a [p st wn sr] (Hp & Hd & Hs & Ho & Hr & Hst & Hw & Hco & Hsc). cbn in *.
    unfold pop_checkpoint, Resume.rd_pop. cbn.
    destruct (r_save a) eqn:Ea, st; try contradiction; cbn.
    - split; [|exact I]. unfold ResumeWire.rd_rel. cbn. rewrite Ea. repeat split; auto; apply Hco.
    - split; [|exact I]. unfold ResumeWire.rd_rel. cbn. rewrite Ea. repeat split; auto; apply Hco.
    - destruct Hsc as (Hlt & Hsc & Hem).
      assert (Hwn : wn = false).
      { destruct wn; [|reflexivity]. destruct Hco as [Hco _]. discriminate (Hco eq_refl). }
      split.
      + unfold ResumeWire.rd_rel. cbn. repeat split; auto; try discriminate. intros Hx. congruence.
      + unfold ResumeWire.ckpt_to_wire, ResumeWire.wf_mc. cbn.
        unfold ResumeWire.emit_w in Hem. destruct src_event as [sc|] eqn:Ee; [|discriminate].
        split; [|split; [repeat split; auto; unfold ResumeWire.emit_w; now rewrite Ee | reflexivity]].
        rewrite Ho, Hsc. reflexivity.
  Qed.

  Lemma sim_read : forall a b, rd_rel a b -> (Resume.r_pos b < length msgs)%nat ->
    exists m, nth_error msgs (Resume.r_pos b) = Some m /\
              snd (read_message unmarshal beh a) = ReadOk m /\
              rd_rel (fst (read_message unmarshal beh a)) (Resume.rd_read emit_w b).
  Proof.
    intros a [p st wn sr] HR Hlt. unfold ResumeWire.rd_rel in HR.
    cbn [Resume.r_pos Resume.r_st Resume.r_want Resume.r_src] in HR, Hlt |- *.
    destruct HR as (Hp & Hd & Hs & Ho & Hr & Hst & Hw & Hco & Hsc).
    destruct (nth_error_lt msgs p Hlt) as (m & Em). exists m. split; [exact Em|].
    assert (Hm : fits_msg marshal m).
    { rewrite Forall_forall in Hfits. apply Hfits. eapply nth_error_In; eauto. }
    unfold read_message. rewrite Hr, (skipn_nth_error _ _ _ Em), stream_cons.
    rewrite (read_one_frame marshal unmarshal unmarshal_marshal) by (apply fits_lt_63; exact Hm).
    rewrite Hs, Ho, <- (bnd_S marshal msgs _ _ Em), Hw.
    unfold Resume.rd_read. cbn [Resume.r_want Resume.r_pos Resume.r_st Resume.r_src].
    unfold ResumeWire.emit_w at 1. fold (src_event p).
    assert (HpS : (S p <= length msgs)%nat) by lia.
    destruct wn.
    - (* a request is pending *)
      assert (Est : st = Resume.Waiting) by (apply Hco; reflexivity). subst st.
      destruct (src_event p) as [sc|] eqn:Ee; rsimp; (split; [reflexivity|]).
      + unfold ResumeWire.rd_rel. rsimp. repeat split; auto; try discriminate.
        unfold ResumeWire.emit_w. now rewrite Ee.
      + unfold ResumeWire.rd_rel. rsimp. destruct (r_save a); try contradiction. repeat split; auto.
    - rsimp. split; [reflexivity|].
      unfold ResumeWire.rd_rel. rsimp. repeat split; auto; try apply Hco.
      destruct st; auto. destruct Hsc as (A & B & C0). repeat split; auto.
  Qed.

  (** the C13 automaton refines the C03 automaton: under any schedule that does not read past
      the last message the two run in lockstep - same forwarded requests, same messages,
      corresponding checkpoints, related states after every operation *)
  Lemma wire_refines : forall ops a b, rd_rel a b -> reads_within (Resume.r_pos b) ops ->
    Forall2 (fun x y => ev_rel (fst x) (fst y) /\ rd_rel (snd x) (snd y))
            (run unmarshal beh a ops) (run3 b ops).
  Proof.
    induction ops as [|o ops IH]; intros a b HR Hw; cbn [run run3]; [constructor|].
    destruct o; cbn [step step3 reads_within] in *.
    - destruct (sim_want a b HR) as (HR' & He). constructor.
      + cbn. split; [exact He|exact HR'].
      + apply IH; [exact HR'|]. unfold Resume.rd_want. destruct (Resume.r_st b); exact Hw.
    - pose proof (sim_pop a b HR) as (HR' & He).
      destruct (pop_checkpoint a) as [a' c] eqn:Ea. destruct (Resume.rd_pop b) as [mc b'] eqn:Eb.
      cbn [fst snd] in *. constructor.
      + cbn. split; [|exact HR']. destruct c, mc; try contradiction; auto. apply He.
      + apply IH; [exact HR'|]. unfold Resume.rd_pop in Eb. destruct (Resume.r_st b); inversion Eb; subst; exact Hw.
    - destruct Hw as (Hlt & Hw). destruct (sim_read a b HR Hlt) as (m & Em & Er & HR').
      destruct (read_message unmarshal beh a) as [a' res] eqn:Ea. cbn [fst snd] in *. subst res. constructor.
      + cbn. split; [exact Em|exact HR'].
      + apply IH; [exact HR'|]. unfold Resume.rd_read. destruct (Resume.r_want b && emit_w (Resume.r_pos b))%bool; exact Hw.
  Qed.

  Hypothesis Hbeh : beh_sound beh.

  Lemma ckpt_to_wire_good : forall mc, wf_mc mc ->
    exists c, ckpt_to_wire mc = Some c /\ good_ckpt marshal (firstn (Resume.mc_off mc) msgs) c.
  Proof.
    intros [off src] (Hlt & Hle & Hem). cbn in *. unfold ResumeWire.ckpt_to_wire. cbn.
    unfold ResumeWire.emit_w in Hem. destruct (src_event src) as [sc|] eqn:Ee; [|discriminate].
    eexists. split; [reflexivity|]. unfold good_ckpt. cbn. split; [reflexivity|].
    exists sc. split; [reflexivity|]. destruct (Hbeh _ _ _ Ee) as (H1 & H2). split; [exact H1|].
    change (off_of marshal (firstn off msgs)) with (bnd off).
    pose proof (bnd_mono marshal msgs (S src) off ltac:(lia)). lia.
  Qed.

  (** [ReadContext.Resume] restarts reading at the reader offset recorded in the checkpoint *)
  Lemma src_resume_w_ok : forall off src, wf_mc (Resume.mkmc off src) -> src_resume_w off src = Some off.
  Proof.
    intros off src Hwf. destruct (ckpt_to_wire_good _ Hwf) as (c & Ec & Hg). cbn in Hg.
    unfold ResumeWire.src_resume_w. rewrite Ec.
    destruct (resume_good marshal (firstn off msgs) (skipn off msgs) c (new_reader cap0 wire_data)) as (r' & Er & Hp & _).
    - cbn. rewrite firstn_skipn. reflexivity.
    - exact Hg.
    - rewrite Er. destruct Hp as (_ & _ & Ho & _). rewrite Ho. apply idx_of_bnd. apply Hwf.
  Qed.

  (** ... so the resumed reader yields exactly the unread messages, whatever the (sound)
      behaviour of the source of the resumed run; and it again refines the reader of
      [resume_state] *)
  Lemma src_resume_w_yields : forall off src p, src_resume_w off src = Some p ->
    exists c r', ckpt_to_wire (Resume.mkmc off src) = Some c /\
                 resume (new_reader cap0 wire_data) (Some c) = Some r' /\
                 rd_rel r' (Resume.mkrd p Resume.Idle false 0) /\
                 forall beh2, beh_sound beh2 -> read_all unmarshal beh2 r' = (skipn p msgs, EEOF).
  Proof.
    intros off src p H. unfold ResumeWire.src_resume_w in H.
    destruct (ckpt_to_wire (Resume.mkmc off src)) as [c|] eqn:Ec; [|discriminate].
    destruct (resume (new_reader cap0 wire_data) (Some c)) as [r'|] eqn:Er; [|discriminate].
    exists c, r'. split; [reflexivity|]. split; [exact Er|].
    destruct (idx_of_sound marshal msgs _ _ H) as (Hp & Ho).
    unfold resume in Er. destruct (mc_src c) as [sc|]; [|discriminate].
    destruct (mc_off c <? sc_restart sc); [discriminate|].
    destruct ((sc_restart sc <? mc_off c) && (N.of_nat (length (s_data (r_src (new_reader cap0 wire_data)))) <? mc_off c))%bool; [discriminate|].
    inversion Er; subst r'; clear Er. cbn in Ho. cbn [new_reader r_src s_data s_want r_cap].
    assert (Hskip : skipn (N.to_nat (mc_off c)) wire_data = stream (skipn p msgs)).
    { rewrite Ho. unfold ResumeWire.bnd, ResumeWire.wire_data. rewrite Nat2N.id.
      rewrite <- (firstn_skipn p msgs) at 2. rewrite (stream_app marshal). apply skipn_app_exact. }
    split.
    - unfold ResumeWire.rd_rel. rsimp. rewrite Hskip, Ho. unfold st_rel.
      repeat split; auto; intros Hx; discriminate Hx.
    - intros beh2 Hb2. rewrite Hskip.
      apply (read_all_rest marshal unmarshal unmarshal_marshal beh2 (skipn p msgs)); [|reflexivity].
      rewrite <- (firstn_skipn p msgs) in Hfits. apply Forall_app in Hfits. apply Hfits.
  Qed.

  (** the seek source hands its checkpoint out at the very next read of a message *)
  Lemma emit_w_seek : forall p, (p < length msgs)%nat -> ResumeWire.emit_w marshal msgs seek_beh p = true.
  Proof.
    intros p H. unfold ResumeWire.emit_w, ResumeWire.src_event, seek_beh.
    pose proof (bnd_lt_S marshal msgs p H) as Hlt. apply N.ltb_lt in Hlt. rewrite Hlt. reflexivity.
  Qed.
End Refinement.
