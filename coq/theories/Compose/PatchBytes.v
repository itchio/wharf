(** C01 x C13 - the patch FILE as bytes.

    C01 (Patch/Stream.v, Patch/Patcher.v) states "diff then apply reproduces the new build" on
    the patch as a list of typed frames [Stream.frame]; C13 (Wire/Frame.v) models the wire
    format (magic, uvarint-framed protobuf bodies, an optional compressor) for ONE message type.
    This file puts the two together: the bytes pwr.DiffContext.WritePatch produces, and the
    way pwr/patcher.New + savingPatcher.Resume consume them.  Definitions only; the proofs are
    in Compose/PatchBytesProofs.v, the statements in Properties/C01.v.

    ---- writer: repo/pwr/diff.go WritePatch, repo/wire/write_context.go, repo/pwr/compression.go
<<
      rawPatchWire := wire.NewWriteContext(patchWriter)
      rawPatchWire.WriteMagic(PatchMagic)                               -- int32, little endian
      rawPatchWire.WriteMessage(&PatchHeader{Compression: dctx.Compression})
      patchWire, _ := CompressWire(rawPatchWire, dctx.Compression)       -- NONE: the same context;
                                                                          -- else a new context over compressor.Apply(writer, quality)
      patchWire.WriteMessage(dctx.TargetContainer)
      patchWire.WriteMessage(dctx.SourceContainer)
      for fileIndex := range SourceContainer.Files {
          patchWire.WriteMessage(syncHeader) ; one patchWire.WriteMessage(wop) per operation ; patchWire.WriteMessage(syncDelimiter) }
      patchWire.Close()                                                 -- closes (flushes) the compressor
>>
    so the file is   magic_enc PatchMagic ++ frame (marshal header) ++ compress (frames of everything else).

    ---- reader: repo/pwr/patcher/patcher.go New, repo/pwr/compression.go DecompressWire
<<
      rawWire := wire.NewReadContext(patchReader)
      rawWire.ExpectMagic(pwr.PatchMagic)
      rawWire.ReadMessage(header)
      rctx := pwr.DecompressWire(rawWire, header.Compression)            -- section source from Tell() to the end of the
                                                                          -- file, the decompressor of header.Compression.Algorithm
                                                                          -- (NONE: none), a NEW ReadContext over it
      rctx.ReadMessage(targetContainer) ; rctx.ReadMessage(sourceContainer)
>>
    and then Resume / processRsync / processBsdiff / skipFile call [rctx.ReadMessage(x)] with
    [x] a *SyncHeader, *SyncOp, *BsdiffHeader or *Control according to where they are.

    ---- what had to be reconciled
    (1) C13's reader has one [unmarshal : list byte -> option M]; a patch is a stream of six Go
        message types whose bodies do not say what they are (protobuf: the empty body is the
        zero value of every type).  No single [unmarshal] can invert the writer, so C01's
        "any codec of the frame list that round-trips" ([diff_apply_fresh_any_codec]: [forall fs,
        decode (encode fs) = Some fs], for EVERY frame list) cannot be instantiated by the wire
        functions.  The bridge: C13's functions are used at [M := list byte] (the body, marshal =
        identity, unmarshal = [Some]): [write_stream]/[read_stream] move the BODIES; which Go type
        a body is unmarshalled as is decided by the reader's position in the grammar of a patch
        ([expect] below: the type of the pointer the patcher passes to ReadMessage there), exactly
        the situation Patch/Reinterp.v describes one level up.  [decode (encode fs) = fs] then
        holds for every frame list that FOLLOWS the grammar ([grammar_ok] below) and every
        prefix of one - in particular for what WritePatch writes - not for arbitrary lists.
    (2) C01 treats header and containers as frames of the same list as the per-file messages;
        on the wire the header is outside the compressed part and is read by another ReadContext,
        and the containers are the first two messages of the compressed part.
    (3) C01's patcher consumes a finished list; the Go patcher reads lazily.  [read_patch_bytes]
        returns the frames that can be read and typed before the first failure (framing error,
        end of stream, or a body the expected type does not unmarshal), and [Patcher.run_files]
        etc. return [Err] when they need a message and the list is exhausted, which is what the Go
        patcher does with the error of that ReadMessage call.  After the last file the Go
        patcher does not read any further (no end-of-stream check), and neither does [run_files].
    (4) C01's patcher re-decodes every message as the type it expects ([as_sh], [as_so], ...:
        Patch/Reinterp.v).  A frame produced by [decode_msgs] was unmarshalled as exactly that
        type, so the re-decoding is the identity whenever the unmarshalled record is in the
        range of the Go field types ([Reinterp.pmsg_ok]; an abstract [unmarshal] returning
        numbers no int64 / int32 field can hold has no Go counterpart). *)
From Wharf Require Import Base.Prelude Bowl.Fresh Patch.Reinterp Patch.Stream Patch.Patcher Wire.Frame.
Local Open Scope Z_scope.

Notation pframe := Wharf.Patch.Stream.frame (only parsing).
Notation wire_frame := Wharf.Wire.Frame.frame (only parsing).

(** pwr.PatchMagic = int32(iota + 0xFEF5F00), iota = 0 *)
Definition PATCH_MAGIC : Z := 267345664.
(** pwr.CompressionAlgorithm_NONE *)
Definition ALGO_NONE : Z := 0.

(** the Go type of the pointer handed to [ReadMessage] at a point of the per-file part:
    Resume reads a SyncHeader; an rsync series is SyncOps up to and including the first
    HEY_YOU_DID_IT (processRsync, readUntilEndMarker, skipFile); a bsdiff series is a
    BsdiffHeader, Controls up to and including the first one marked eof, then one SyncOp (the
    sentinel) (processBsdiff, skipFile) *)
Inductive expect := XSyncHeader | XSyncOp | XBsdiffHeader | XControl | XSentinel.

(** ---- the grammar of the per-file part, on the WRITTEN messages ---- *)

(** the written message [m] is of the type expected at [x]; what is expected after it *)
Definition gstep (x : expect) (m : pmsg) : option expect :=
  match x, m with
  | XSyncHeader, MSH h => Some (if sh_type h =? SH_BSDIFF then XBsdiffHeader else XSyncOp)
  | XSyncOp, MSO o => Some (if so_type o =? HEY then XSyncHeader else XSyncOp)
  | XBsdiffHeader, MBH _ => Some XControl
  | XControl, MCT c => Some (if ct_eof c then XSentinel else XControl)
  | XSentinel, MSO _ => Some XSyncHeader
  | _, _ => None
  end.

Fixpoint grun (x : expect) (ms : list pmsg) : option expect :=
  match ms with
  | [] => Some x
  | m :: r => match gstep x m with Some x' => grun x' r | None => None end
  end.

(** every message of the list is of the type the reader will pass to ReadMessage for it *)
Definition grammar_ok (ms : list pmsg) : Prop := grun XSyncHeader ms <> None.

(** the external components: golang/protobuf Marshal / Unmarshal, one pair per Go message type,
    and the registered compressors / decompressors by algorithm (and quality);
    [decompressor a z = None]: no decompressor registered for [a], or the stream is damaged.
    The theorems quantify over every such record satisfying the round-trip hypotheses below. *)
Record patch_codecs := mkCodecs {
  marshal_ph : Z * Z -> list byte;                 (* pwr.PatchHeader{Compression{Algorithm, Quality}} *)
  unmarshal_ph : list byte -> option (Z * Z);
  marshal_tc : container -> list byte;             (* tlc.Container *)
  unmarshal_tc : list byte -> option container;
  marshal_sh : sync_header -> list byte;           (* pwr.SyncHeader *)
  unmarshal_sh : list byte -> option sync_header;
  marshal_so : sync_op -> list byte;               (* pwr.SyncOp *)
  unmarshal_so : list byte -> option sync_op;
  marshal_bh : bsdiff_header -> list byte;         (* pwr.BsdiffHeader *)
  unmarshal_bh : list byte -> option bsdiff_header;
  marshal_ct : control -> list byte;               (* bsdiff.Control *)
  unmarshal_ct : list byte -> option control;
  compressor : Z -> Z -> list byte -> list byte;
  decompressor : Z -> list byte -> option (list byte)
}.

Section PatchBytes.
  Variable C : patch_codecs.

  (** ---- the writer ---- *)
  Definition marshal_pmsg (m : pmsg) : list byte :=
    match m with MSH x => marshal_sh C x | MSO x => marshal_so C x | MBH x => marshal_bh C x | MCT x => marshal_ct C x end.

  (** the writer knows the type of what it writes *)
  Definition marshal_frame (f : pframe) : list byte :=
    match f with
    | FHeader a q => marshal_ph C (a, q)
    | FContainer c => marshal_tc C c
    | FMsg m => marshal_pmsg m
    end.

  (** CompressWire / DecompressWire *)
  Definition compress_wire (algo quality : Z) (s : list byte) : list byte :=
    if algo =? ALGO_NONE then s else compressor C algo quality s.
  Definition decompress_wire (algo : Z) (z : list byte) : option (list byte) :=
    if algo =? ALGO_NONE then Some z else decompressor C algo z.

  (** the patch file whose header announces [(algo, quality)] and whose compressed part carries
      the frames [rest]; [WPanic]: a body of 2^56 bytes or more (C13, [write_message_panics]) *)
  Definition patch_file (algo quality : Z) (rest : list pframe) : wres :=
    match write_msgs marshal_frame [FHeader algo quality] with
    | WPanic => WPanic
    | WOk h =>
      match write_stream marshal_frame (compress_wire algo quality) rest with
      | WPanic => WPanic
      | WOk z => WOk (magic_enc PATCH_MAGIC ++ h ++ z)
      end
    end.

  (** WritePatch for (old, new): [Stream.write_patch] is [FHeader algo quality ::] these frames *)
  Definition patch_bytes (differ : Z -> list byte -> list op) (algo quality : Z) (old new : build) : wres :=
    patch_file algo quality
      (FContainer (container_of old) :: FContainer (container_of new) :: map FMsg (patch_msgs differ old new)).

  (** ---- the reader ---- *)

  (** one [ReadMessage] of the per-file part on the body [b]: the message as the expected type,
      and what is expected next *)
  Definition decode_one (x : expect) (b : list byte) : option (pmsg * expect) :=
    match x with
    | XSyncHeader =>
      match unmarshal_sh C b with
      | Some h => Some (MSH h, if sh_type h =? SH_BSDIFF then XBsdiffHeader else XSyncOp)
      | None => None
      end
    | XSyncOp =>
      match unmarshal_so C b with
      | Some o => Some (MSO o, if so_type o =? HEY then XSyncHeader else XSyncOp)
      | None => None
      end
    | XBsdiffHeader =>
      match unmarshal_bh C b with
      | Some h => Some (MBH h, XControl)
      | None => None
      end
    | XControl =>
      match unmarshal_ct C b with
      | Some c => Some (MCT c, if ct_eof c then XSentinel else XControl)
      | None => None
      end
    | XSentinel =>
      match unmarshal_so C b with
      | Some o => Some (MSO o, XSyncHeader)
      | None => None
      end
    end.

  (** the per-file messages up to the first body that does not unmarshal *)
  Fixpoint decode_msgs (x : expect) (bodies : list (list byte)) : list pmsg :=
    match bodies with
    | [] => []
    | b :: r => match decode_one x b with
                | None => []
                | Some (m, x') => m :: decode_msgs x' r
                end
    end.

  (** the messages behind the decompressor: target container, source container, per-file part *)
  Definition decode_frames (bodies : list (list byte)) : list pframe :=
    match bodies with
    | [] => []
    | b1 :: r1 =>
      match unmarshal_tc C b1 with
      | None => []
      | Some t =>
        FContainer t ::
        match r1 with
        | [] => []
        | b2 :: r2 =>
          match unmarshal_tc C b2 with
          | None => []
          | Some s => FContainer s :: map FMsg (decode_msgs XSyncHeader r2)
          end
        end
      end
    end.

  (** the bodies a ReadContext over [DecompressWire] delivers: C13's [read_stream] with the body
      itself as the message *)
  Definition read_bodies (algo : Z) (cap : N) (z : list byte) : list (list byte) * rerr :=
    read_stream (fun b : list byte => Some b) (decompress_wire algo) cap z.

  (** patcher.New and the reads of Resume on the bytes [z] of a file: the frames that can be
      read and typed before the first failure, and the outcome of the framing layer ([EEOF] at
      the end of a complete stream).  [cap]: initial buffer capacity of the ReadContexts. *)
  Definition read_patch_bytes (cap : N) (z : list byte) : list pframe * rerr :=
    match expect_magic PATCH_MAGIC z with
    | inr e => ([], e)
    | inl r1 =>
      match read_one (unmarshal_ph C) cap r1 with
      | (ReadErr e, _, _, _) => ([], e)
      | (ReadOk (a, q), _, r2, _) =>
        let '(bodies, e) := read_bodies a cap r2 in
        (FHeader a q :: decode_frames bodies, e)
      end
    end.

  (** patcher.New over the file, a fresh bowl over an empty directory, Resume(nil), Commit *)
  Definition apply_patch_bytes (bs : Z) (olds : list (list byte)) (whitelist : option (list Z))
             (cap : N) (z : list byte) : res (tree * Z * list event) :=
    apply_patch_fresh bs olds whitelist (fst (read_patch_bytes cap z)).

  (** ---- the hypotheses of the theorems (all about the external components) ---- *)

  (** protobuf round trip, per message type *)
  Definition codecs_roundtrip : Prop :=
    (forall h, unmarshal_ph C (marshal_ph C h) = Some h) /\
    (forall c, unmarshal_tc C (marshal_tc C c) = Some c) /\
    (forall m, unmarshal_sh C (marshal_sh C m) = Some m) /\
    (forall m, unmarshal_so C (marshal_so C m) = Some m) /\
    (forall m, unmarshal_bh C (marshal_bh C m) = Some m) /\
    (forall m, unmarshal_ct C (marshal_ct C m) = Some m).

  (** the compression setting round-trips (C13's hypothesis, for the pair the header selects);
      NONE needs nothing *)
  Definition compression_roundtrips (algo quality : Z) : Prop :=
    algo = ALGO_NONE \/ forall s, decompressor C algo (compressor C algo quality s) = Some s.

  (** a cut compressed stream does not decompress to anything but a prefix of the original:
      the decompressor fails, or delivers a proper prefix ([truncation_detected]) / a prefix,
      possibly everything ([truncation_prefix]: a gzip stream that only lacks its trailer) *)
  Definition truncation_detected (algo quality : Z) : Prop :=
    algo = ALGO_NONE \/
    forall s p q, compressor C algo quality s = p ++ q -> q <> [] ->
      decompressor C algo p = None \/ exists s' r, decompressor C algo p = Some s' /\ s = s' ++ r /\ r <> [].
  Definition truncation_prefix (algo quality : Z) : Prop :=
    algo = ALGO_NONE \/
    forall s p q, compressor C algo quality s = p ++ q -> q <> [] ->
      decompressor C algo p = None \/ exists s' r, decompressor C algo p = Some s' /\ s = s' ++ r.

  (** every body is shorter than 2^56 bytes (what the writer's varint buffer can announce) *)
  Definition bodies_fit (fs : list pframe) : Prop :=
    Forall (fun f => (N.of_nat (length (marshal_frame f)) < 2 ^ 56)%N) fs.
End PatchBytes.
