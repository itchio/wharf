(** The C01 model of the patcher (Patch/Patcher.v) and the C03 model (Patch/Resume.v at the
    fresh bowl's writer, Patch/PlainWriter.v) agree wherever the C01 model returns [Ok]:
    the rsync relay loop, the bsdiff control loop, [processRsync] (both branches) and
    [processBsdiff].  Vocabulary in Compose/ModelsAgreeResume.v.  After [End Agree]: the
    inputs on which the two models genuinely differ (C01: Err, C03: keeps running). *)
From Wharf Require Import Base.Prelude Base.ListLemmas Bowl.Fresh Bowl.FreshProofs Patch.Reinterp Patch.Stream
     Patch.Patcher Patch.PatcherProofs Patch.ApplyProofs Patch.Resume Patch.ResumeProofs Patch.PlainWriter Compose.ModelsAgreeResume.
From Wharf Require Compose.ModelsAgreeMalformedProofs Compose.ModelsAgreeBlocksProofs.
Local Open Scope Z_scope.

Local Arguments s_ph {_ _ _} _.
Local Arguments s_file {_ _ _} _.
Local Arguments s_rd {_ _ _} _.
Local Arguments s_bowl {_ _ _} _.
Local Arguments s_disk {_ _ _} _ _.
Local Arguments s_asked {_ _ _} _.
Local Arguments s_offers {_ _ _} _.
Local Arguments Running {_ _ _} _.
Local Arguments PFile {_}.
Local Arguments PRsFirst {_}.
Local Arguments PRsSkip {_}.
Local Arguments PRsLoop {_} _.
Local Arguments PBsHeader {_}.
Local Arguments PBsLoop {_} _ _ _.
Local Arguments PBsEnd {_} _.
Local Notation St := (mkst (list byte) N unit).

Lemma pwrite_same : Fresh.pwrite = PlainWriter.pwrite.
Proof. reflexivity. Qed.

(** bsdiff Apply writes the add part and the copy part one after the other; C03's step writes
    them at once *)
Lemma pwrite_pwrite raw off a b : (off <= length raw)%nat ->
  pwrite (pwrite raw off a) (off + length a) b = pwrite raw off (a ++ b).
Proof.
  intros H.
  assert (Hl : (off + length a <= length (pwrite raw off a))%nat) by (rewrite pwrite_length by assumption; lia).
  rewrite (pwrite_inside (pwrite raw off a)) by assumption.
  rewrite pwrite_prefix by assumption.
  rewrite (pwrite_inside raw off a) by assumption.
  rewrite (pwrite_inside raw off (a ++ b)) by assumption.
  rewrite <- !app_assoc. f_equal. f_equal. f_equal.
  rewrite (app_assoc (firstn off raw) a).
  rewrite skipn_app.
  assert (Hfl : length (firstn off raw ++ a) = (off + length a)%nat) by (rewrite app_length, firstn_length; lia).
  rewrite Hfl.
  rewrite skipn_all2 by lia. cbn [app].
  replace (off + length a + length b - (off + length a))%nat with (length b) by lia.
  rewrite skipn_skipn_add. f_equal. rewrite app_length. lia.
Qed.

Lemma slice_nonpos d from len : len <= 0 -> slice d from len = [].
Proof. intros H. unfold slice. replace (Z.to_nat len) with 0%nat by lia. reflexivity. Qed.

Lemma op_size_nonpos bs fsz i s : 0 < bs -> 0 <= fsz -> s <= 0 -> op_size bs fsz i s <= 0.
Proof.
  intros Hb Hf Hs. unfold op_size. pose proof (Z.rem_bound_pos fsz bs Hf Hb) as Hr.
  destruct (bs * (i + (s - 1) + 1) >? fsz); nia.
Qed.

Lemma znth_nth_error {A} (l : list A) i x : znth l i = Some x -> 0 <= i /\ nth_error l (Z.to_nat i) = Some x.
Proof. unfold znth. destruct (Z.ltb_spec i 0) as [Hlt|Hge]; [discriminate|]. intros H. split; [lia|assumption]. Qed.

Definition wgoodC (w : wst) (raw : list byte) (wN : N) : Prop :=
  tlookup (p_tree (w_st w)) (w_path w) = Some (File raw) /\ w_off w = N.to_nat wN /\ (w_off w <= length raw)%nat.

Lemma wsim_good w (S : cstate) wN : wsim w S wN <-> wgoodC w (s_disk S (s_file S)) wN.
Proof.
  unfold wsim, wgoodC. split.
  - intros (raw & H1 & <- & H3 & H4). auto.
  - intros (H1 & H3 & H4). eexists. repeat split; eassumption.
Qed.

(** [w'] is [w] after one write of [D] into its file, which held [raw] with the writer at
    [wN]; nothing else in the tree has changed *)
Definition wrote (w w' : wst) (raw : list byte) (wN : N) (D : list byte) : Prop :=
  wgoodC w' (pwrite raw (N.to_nat wN) D) (wN + N.of_nat (length D))%N /\
  w_path w' = w_path w /\
  (forall q, q <> w_path w -> tlookup (p_tree (w_st w')) q = tlookup (p_tree (w_st w)) q).

Lemma wrote_good {w w' raw wN D} :
  wrote w w' raw wN D -> wgoodC w' (pwrite raw (N.to_nat wN) D) (wN + N.of_nat (length D))%N.
Proof. intros H. apply H. Qed.
Lemma wrote_path {w w' raw wN D} : wrote w w' raw wN D -> w_path w' = w_path w.
Proof. intros H. apply H. Qed.
Lemma wrote_frame {w w' raw wN D} :
  wrote w w' raw wN D -> forall q, q <> w_path w -> tlookup (p_tree (w_st w')) q = tlookup (p_tree (w_st w)) q.
Proof. intros H. apply H. Qed.

Lemma w_write_good w D w' raw wN : wgoodC w raw wN -> w_write w D = Ok w' -> wrote w w' raw wN D.
Proof.
  intros (Hl & Ho & Hle) H. destruct (w_write_file w D raw Hl) as (w1 & E & Hp & Ho1 & _ & Hf & Hq).
  rewrite E in H. injection H as <-. unfold wrote, wgoodC. rewrite Hp, Hf, Ho1, <- Ho.
  split; [|split; [reflexivity|exact Hq]]. split; [|split; [lia|]].
  - destruct D; [rewrite <- pwrite_same, pwrite_nil by exact Hle|]; reflexivity.
  - rewrite pwrite_length by exact Hle. lia.
Qed.

Lemma wrote_app w w1 w2 raw wN A B : wgoodC w raw wN ->
  wrote w w1 raw wN A -> wrote w1 w2 (pwrite raw (N.to_nat wN) A) (wN + N.of_nat (length A))%N B ->
  wrote w w2 raw wN (A ++ B).
Proof.
  intros (_ & Ho & Hle) (_ & Hp1 & Hf1) (Hg2 & Hp2 & Hf2). split; [|split; [congruence|]].
  - rewrite <- pwrite_pwrite by lia. rewrite app_length.
    replace (N.to_nat wN + length A)%nat with (N.to_nat (wN + N.of_nat (length A))) by lia.
    replace (wN + N.of_nat (length A + length B))%N with (wN + N.of_nat (length A) + N.of_nat (length B))%N by lia.
    exact Hg2.
  - intros q Hq. rewrite Hf2 by congruence. apply Hf1. assumption.
Qed.

Lemma wrote_sim w w1 D wN ph1 f rd1 b (d : N -> list byte) a1 o :
  wrote w w1 (d f) wN D ->
  wsim w1 (St ph1 f rd1 b (upd d f (pwrite (d f) (N.to_nat wN) D)) a1 o) (wN + N.of_nat (length D))%N.
Proof. intros H. apply wsim_good. cbn. rewrite upd_same. exact (wrote_good H). Qed.

Lemma c03_frame_upd ph f rd b (d : N -> list byte) a o ph1 rd1 v a1 S' :
  c03_frame (St ph1 f rd1 b (upd d f v) a1 o) S' -> c03_frame (St ph f rd b d a o) S'.
Proof. intros (Hd & H). split; [|exact H]. intros g Hg. rewrite (Hd g Hg). apply upd_other. exact Hg. Qed.

Lemma mkdir_all_from_keeps rest : forall t done t',
  mkdir_all_from t done rest = Ok t' ->
  forall q, ~ In q (prefixes_from done rest) -> tlookup t' q = tlookup t q.
Proof.
  induction rest as [|x rest IH]; intros t done t' H q Hq; cbn [mkdir_all_from prefixes_from] in *.
  - injection H as <-. reflexivity.
  - destruct (tlookup t (done ++ [x])) as [[dat| |dst]|] eqn:E; try discriminate.
    + apply (IH _ _ _ H). intros HI. apply Hq. right. assumption.
    + rewrite (IH _ _ _ H) by (intros HI; apply Hq; right; assumption).
      apply tlookup_tset_other. intros <-. apply Hq. left. reflexivity.
Qed.

Lemma self_not_prefix_of_parent (p : path) : p <> [] -> ~ In p (ne_prefixes (parent p)).
Proof.
  intros Hp HI. apply ne_prefixes_in in HI. destruct HI as (bb & E & _).
  destruct (path_snoc p Hp) as [x Hx]. apply (f_equal (@length N)) in E, Hx.
  rewrite app_length in E, Hx. cbn [length] in Hx. lia.
Qed.

Lemma entry_open_keeps t p t1 raw :
  entry_open t p = Ok t1 -> tlookup t p = Some (File raw) -> tlookup t1 p = Some (File raw).
Proof.
  intros H Hl. unfold entry_open in H. destruct p as [|x p'] eqn:Ep; [discriminate|]. rewrite <- Ep in *.
  assert (Hp : p <> []) by (rewrite Ep; discriminate).
  apply bind_ok in H as (t0 & Em & H).
  assert (Hk : tlookup t0 p = Some (File raw)).
  { rewrite <- Hl. apply (mkdir_all_from_keeps _ _ _ _ Em). apply self_not_prefix_of_parent. assumption. }
  rewrite Hk in H. injection H as <-. assumption.
Qed.

Lemma transpose_write_content t p dd t1 : transpose_write t p dd = Ok t1 -> tlookup t1 p = Some (File dd).
Proof.
  intros H. unfold transpose_write in H. destruct p as [|x p'] eqn:Ep; [discriminate|]. rewrite <- Ep in *.
  apply bind_ok in H as (t0 & _ & H). injection H as <-. apply tlookup_tset_same.
Qed.

Section Agree.
  Variable bs : Z.
  Variables oldC newC : container.
  Variable olds : list (list byte).
  Variable nfiles : N.
  Variable is_overlay : N -> bool.
  Variable emit : nat -> bool.
  Variable stop : nat -> bool.

  Local Notation stepC := (c03_step bs oldC newC olds is_overlay emit stop).
  Local Notation runC := (c03_run bs oldC newC olds nfiles is_overlay emit stop).
  Local Notation absso := (fun m : pmsg => abs_so (as_so m)).
  Local Notation absct := (fun m : pmsg => abs_ct (as_ct m)).

  (** the C03 run the theorems speak about is [PlainWriter.fresh_run] at the instance read off
      the C01 parameters, with a consumer that never asks for a save *)
  Lemma c03_run_is_fresh_run :
    runC = fresh_run (Z.to_N bs) (tsize_of oldC) (ssize_of newC) nfiles (old_of olds)
                     (range_data_of bs oldC olds) (bs_data_of olds) is_overlay emit (fun _ => false) stop.
  Proof. reflexivity. Qed.

  Lemma run_cons (S : cstate) m r :
    at_end _ _ _ nfiles S = false ->
    runC S (m :: r) = match stepC S m with Running S1 => runC S1 r | x => x end.
  Proof.
    intros H.
    change (runC S (m :: r)) with
      (if at_end _ _ _ nfiles S then Finished _ _ _ S else match stepC S m with Running S1 => runC S1 r | x => x end).
    rewrite H. reflexivity.
  Qed.

  (** the machine, started in [S], reads exactly [ms] and is then in [S'] *)
  Definition follows (S : cstate) (ms : list cmsg) (S' : cstate) : Prop :=
    forall tail, runC S (ms ++ tail) = runC S' tail.

  Lemma follows_cons S m S1 ms S' :
    stepC S m = Running S1 -> follows S1 ms S' -> at_end _ _ _ nfiles S = false -> follows S (m :: ms) S'.
  Proof. intros Hs Hf He tail. cbn [app]. rewrite run_cons, Hs by exact He. apply Hf. Qed.

  Lemma follows_one S m S' : stepC S m = Running S' -> at_end _ _ _ nfiles S = false -> follows S [m] S'.
  Proof. intros Hs. exact (follows_cons S m S' [] S' Hs (fun tail => eq_refl)). Qed.

  Lemma follows_app S a S1 b S' : follows S a S1 -> follows S1 b S' -> follows S (a ++ b) S'.
  Proof. intros Ha Hb tail. rewrite <- app_assoc, Ha. apply Hb. Qed.

  Definition payload (m : cmsg) : option (list byte) :=
    match m with
    | MRange f bi sp => Some (range_data_of bs oldC olds f bi sp)
    | MData d => Some d
    | _ => None
    end.

  Lemma step_loop_write wN f rd b d a o m D :
    payload m = Some D ->
    stepC (St (PRsLoop wN) f rd b d a o) m =
    Running (St (PRsLoop (wN + N.of_nat (length D))%N) f (rd_read emit rd) b
                (upd d f (pwrite (d f) (N.to_nat wN) D)) (S a) o).
  Proof. destruct m; cbn [payload]; intros [= <-]; reflexivity. Qed.

  Lemma step_loop_end wN f rd b d a o :
    stepC (St (PRsLoop wN) f rd b d a o) MEnd =
    Running (St PFile (f + 1)%N (rd_read emit rd) b (upd d f (d f)) (S a) o).
  Proof. reflexivity. Qed.

  Lemma step_skip_end f rd b d a o :
    stepC (St PRsSkip f rd b d a o) MEnd = Running (St PFile (f + 1)%N (rd_read emit rd) b d a o).
  Proof. reflexivity. Qed.

  Lemma step_skip_other f rd b d a o m :
    m <> MEnd -> stepC (St PRsSkip f rd b d a o) m = Running (St PRsSkip f (rd_read emit rd) b d a o).
  Proof. intros H. destruct m; try reflexivity. contradiction. Qed.

  Lemma step_bsloop_ctrl wN off t f rd b d a o add copy seek :
    stepC (St (PBsLoop wN off t) f rd b d a o) (MCtrl add copy seek) =
    Running (St (PBsLoop (wN + N.of_nat (length (bs_data_of olds t off add copy)))%N
                         (off + Z.of_N (N.of_nat (length add)) + seek) t)
                f (rd_read emit rd) b
                (upd d f (pwrite (d f) (N.to_nat wN) (bs_data_of olds t off add copy))) (S a) o).
  Proof. reflexivity. Qed.

  Lemma step_bsloop_eof wN off t f rd b d a o :
    stepC (St (PBsLoop wN off t) f rd b d a o) MCtrlEof =
    Running (St (PBsEnd wN) f (rd_read emit rd) b d (S a) o).
  Proof. reflexivity. Qed.

  Hypothesis Hbs : 0 < bs.
  Hypothesis Hal : aligned oldC olds.

  Lemma old_of_znth t dd : znth olds t = Some dd -> old_of olds (Z.to_N t) = dd.
  Proof.
    intros H. apply znth_nth_error in H. destruct H as [_ H].
    unfold old_of. rewrite Z_N_nat. apply nth_error_nth. assumption.
  Qed.

  Lemma old_file_agree f pf fsz dd :
    znth (c_files oldC) f = Some (pf, fsz) -> znth olds f = Some dd ->
    old_of olds (Z.to_N f) = dd /\ Z.of_N (tsize_of oldC (Z.to_N f)) = fsz /\ 0 <= fsz /\ 0 <= f.
  Proof.
    intros Hc Ho. destruct (ModelsAgreeMalformedProofs.aligned_znth _ _ _ _ _ Hal Hc) as (d & _ & ->).
    apply znth_nth_error in Hc. destruct Hc as [Hf Hc].
    unfold tsize_of, size_in. rewrite Z_N_nat, Hc. split; [exact (old_of_znth _ _ Ho)|clear - Hf; lia].
  Qed.

  (** whatever [ApplySingle] does in the C01 model is one write of the payload of the
      abstracted message (the writer it goes through differs from [w] by trace events only);
      it fails on a negative block index *)
  Lemma apply_op_good w o w' raw wN :
    apply_op bs oldC olds w o = Ok w' -> wgoodC w raw wN ->
    (so_type o = T_BLOCK_RANGE -> 0 <= so_block o) /\
    exists D, payload (abs_so o) = Some D /\ wrote w w' raw wN D.
  Proof.
    (* [lia] would pull the two section variables into the closed statement *)
    clear nfiles is_overlay.
    intros H Hg. unfold apply_op in H. unfold abs_so.
    destruct (Z.eqb_spec (so_type o) T_BLOCK_RANGE) as [Et|Et].
    - rewrite Et. change (T_BLOCK_RANGE =? HEY) with false. cbn iota.
      unfold apply_range in H.
      destruct (znth (c_files oldC) (so_file o)) as [[pf fsz]|] eqn:Hc; [|discriminate].
      destruct (znth olds (so_file o)) as [dd|] eqn:Ho; [|discriminate].
      destruct (Z.ltb_spec (bs * so_block o) 0) as [|Hi]; [discriminate|].
      destruct (old_file_agree _ _ _ _ Hc Ho) as (Eold & Esz & Hsz & Hf).
      assert (Hblk : 0 <= so_block o) by nia. split; [auto|].
      eexists. split; [|refine (w_write_good _ _ _ raw wN _ H); exact Hg].
      cbn [payload]. f_equal. unfold range_data_of. rewrite Eold, Esz, Z2N.id by assumption.
      destruct (Z.le_gt_cases 0 (so_span o)) as [Hs|Hs].
      + rewrite Z2N.id by assumption. reflexivity.
      + rewrite !slice_nonpos; [reflexivity| |]; apply op_size_nonpos; try assumption; lia.
    - destruct (Z.eqb_spec (so_type o) T_DATA) as [Ed|Ed]; [|discriminate].
      split; [contradiction|]. rewrite Ed. change (T_DATA =? HEY) with false. cbn iota.
      exists (so_data o). split; [reflexivity|exact (w_write_good _ _ _ raw wN Hg H)].
  Qed.

  (** 1. The relay loop of [processRsync]: when the C01 model consumes [pre] and returns Ok,
      the C03 machine, started in the relay loop on a state that sees the same output file at
      the same offset, runs over the abstraction of [pre] without failing or stopping, ends at
      the top of the outer loop on the next file, and holds for the file exactly the bytes the
      C01 tree has at the writer's path; every other file of the C03 disk and every other
      path of the C01 tree is untouched.  No representability hypothesis is needed here: the
      file index is checked by [validate_op], a negative block index is an error of the seek,
      and a negative span copies nothing on both sides ([op_size_nonpos]). *)
  Theorem relay_models_agree_c03 : forall ms w rest s' (S : cstate) wN,
    relay bs oldC olds ms w = Ok (rest, s') ->
    s_ph S = PRsLoop wN -> wsim w S wN ->
    exists pre (S' : cstate),
      ms = pre ++ rest /\
      follows S (map absso pre) S' /\
      s_ph S' = PFile /\ s_file S' = (s_file S + 1)%N /\
      tlookup (p_tree s') (w_path w) = Some (File (s_disk S' (s_file S))) /\
      c03_frame S S' /\
      (forall q, q <> w_path w -> tlookup (p_tree s') q = tlookup (p_tree (w_st w)) q).
  Proof.
    induction ms as [|m ms IH]; intros w rest s' S wN H Hph Hsim; cbn [relay] in H; [discriminate|].
    apply wsim_good in Hsim. destruct S as [ph f rd b d a o]. cbn [s_ph s_file s_disk] in *. subst ph.
    destruct (so_type (as_so m) =? HEY) eqn:Ehey.
    - injection H as <- <-.
      exists [m], (St PFile (f + 1)%N (rd_read emit rd) b (upd d f (d f)) (S a) o).
      split; [reflexivity|]. split.
      { apply follows_one; [|reflexivity]. unfold abs_so. rewrite Ehey. apply step_loop_end. }
      cbn [s_ph s_file s_disk]. rewrite upd_same.
      split; [reflexivity|]. split; [reflexivity|]. split; [apply Hsim|].
      split; [|auto]. split; [|auto]. intros g Hgf. apply upd_other. assumption.
    - destruct (validate_op oldC (as_so m)); cbn [negb] in H; [|discriminate].
      apply bind_ok in H as (w1 & Eop & H).
      destruct (apply_op_good _ _ _ _ _ Eop Hsim) as (_ & D & Hpay & Hw).
      destruct (IH w1 rest s' (St (PRsLoop _) f (rd_read emit rd) b _ (S a) o) _ H eq_refl (wrote_sim _ _ _ _ _ _ _ _ _ _ _ Hw))
        as (pre & S' & Hsplit & Hrun & Hph & Hfile & Htl & Hfr & Htree).
      rewrite (wrote_path Hw) in Htl, Htree.
      exists (m :: pre), S'. split; [cbn [app]; f_equal; exact Hsplit|]. split.
      { exact (follows_cons _ _ _ _ _ (step_loop_write _ _ _ _ _ _ _ _ _ Hpay) Hrun eq_refl). }
      split; [assumption|]. split; [assumption|]. split; [assumption|]. split; [eapply c03_frame_upd, Hfr|].
      intros q Hq. rewrite Htree by assumption. apply (wrote_frame Hw). assumption.
  Qed.

  (** [so_repr] of every op (Compose/ModelsAgreeResume.v) is not needed for it *)
  Corollary relay_models_agree_c03_repr : forall ms w rest s' (S : cstate) wN,
    Forall (fun m => so_repr (as_so m)) ms ->
    relay bs oldC olds ms w = Ok (rest, s') ->
    s_ph S = PRsLoop wN -> wsim w S wN ->
    exists pre (S' : cstate),
      ms = pre ++ rest /\
      (forall tail, runC S (map absso pre ++ tail) = runC S' tail) /\
      s_ph S' = PFile /\ s_file S' = (s_file S + 1)%N /\
      tlookup (p_tree s') (w_path w) = Some (File (s_disk S' (s_file S))) /\
      c03_frame S S'.
  Proof.
    intros ms w rest s' S wN _ H Hph Hsim.
    destruct (relay_models_agree_c03 ms w rest s' S wN H Hph Hsim) as (pre & S' & H1 & H2 & H3 & H4 & H5 & H6 & _).
    exists pre, S'. auto 10.
  Qed.

  (** bsdiff Apply in the C01 model: two writes that amount to one write of [bs_data_of] *)
  Lemma bs_apply_good t off c w off' w' raw wN :
    bs_apply (old_of olds t) off c w = Ok (off', w') -> wgoodC w raw wN ->
    off' = off + Z.of_nat (length (ct_add c)) + ct_seek c /\
    wrote w w' raw wN (bs_data_of olds t off (ct_add c) (ct_copy c)).
  Proof.
    intros H Hg. unfold bs_apply in H.
    destruct ((off <? 0) || (off >? Z.of_nat (length (old_of olds t)))); [discriminate|].
    destruct (off + Z.of_nat (length (ct_add c)) >? Z.of_nat (length (old_of olds t))); [discriminate|].
    apply bind_ok in H as (w1 & E1 & H). apply bind_ok in H as (w2 & E2 & H). injection H as <- <-. split; [reflexivity|].
    pose proof (w_write_good _ _ _ _ _ Hg E1) as H1.
    exact (wrote_app _ _ _ _ _ _ _ Hg H1 (w_write_good _ _ _ _ _ (wrote_good H1) E2)).
  Qed.

  (** 2. The control loop of [processBsdiff]: the C03 machine in phase [PBsLoop wN off t], on a
      state that sees the same output file at the same offset, follows the C01 loop over the
      old file [old_of t] control by control - same bytes written, same old-file cursor (it
      is part of the phase the induction goes through) - and reaches the sentinel phase with
      the writers still in agreement. *)
  Theorem ctrl_loop_models_agree_c03 : forall ms off t w rest w' (S : cstate) wN,
    ctrl_loop (old_of olds t) off ms w = Ok (rest, w') ->
    s_ph S = PBsLoop wN off t -> wsim w S wN ->
    exists pre (S' : cstate) wN',
      ms = pre ++ rest /\
      follows S (map absct pre) S' /\
      s_ph S' = PBsEnd wN' /\ s_file S' = s_file S /\
      wsim w' S' wN' /\ w_path w' = w_path w /\
      c03_frame S S' /\
      (forall q, q <> w_path w -> tlookup (p_tree (w_st w')) q = tlookup (p_tree (w_st w)) q).
  Proof.
    induction ms as [|m ms IH]; intros off t w rest w' S wN H Hph Hsim; cbn [ctrl_loop] in H; [discriminate|].
    destruct S as [ph f rd b d a o]. cbn [s_ph s_file s_disk] in *. subst ph.
    destruct (ct_eof (as_ct m)) eqn:Eeof.
    - injection H as <- <-.
      exists [m], (St (PBsEnd wN) f (rd_read emit rd) b d (S a) o), wN.
      split; [reflexivity|]. split.
      { apply follows_one; [|reflexivity]. unfold abs_ct. rewrite Eeof. apply step_bsloop_eof. }
      unfold c03_frame. cbn [s_ph s_file s_disk s_bowl s_offers]. auto 10.
    - apply wsim_good in Hsim. cbn [s_file s_disk] in Hsim.
      apply bind_ok in H as ([off1 w1] & Eap & H). cbn [fst snd] in H.
      destruct (bs_apply_good _ _ _ _ _ _ _ _ Eap Hsim) as (Eoff & Hw).
      destruct (IH off1 t w1 rest w' (St (PBsLoop _ off1 t) f (rd_read emit rd) b _ (S a) o) _ H eq_refl (wrote_sim _ _ _ _ _ _ _ _ _ _ _ Hw))
        as (pre & S' & wN' & Hsplit & Hrun & Hph & Hfile & Hgood & Hpath & Hfr & Htree).
      rewrite (wrote_path Hw) in Hpath, Htree.
      exists (m :: pre), S', wN'. split; [cbn [app]; f_equal; exact Hsplit|]. split.
      { refine (follows_cons _ _ _ _ _ _ Hrun _); [|reflexivity].
        unfold abs_ct. rewrite Eeof, step_bsloop_ctrl, nat_N_Z, <- Eoff. reflexivity. }
      split; [assumption|]. split; [assumption|]. split; [assumption|]. split; [assumption|].
      split; [eapply c03_frame_upd, Hfr|].
      intros q Hq. rewrite Htree by assumption. apply (wrote_frame Hw). assumption.
  Qed.

  Lemma step_first f rd b d a o m :
    stepC (St PRsFirst f rd b d a o) m =
    match Resume.is_full_file_op (list byte) (Z.to_N bs) (tsize_of oldC) (ssize_of newC) f m with
    | Some t => Running (St PRsSkip f (rd_read emit rd) b (upd d f (old_of olds t)) a o)
    | None =>
        match payload m with
        | Some D => Running (St (PRsLoop (0 + N.of_nat (length D))%N) f (rd_read emit rd) b
                                (upd (upd d f (d f)) f (pwrite (upd d f (d f) f) (N.to_nat 0) D)) a o)
        | None => Failed _ _ _
        end
    end.
  Proof.
    unfold c03_step, step. cbn [s_ph s_file].
    destruct (Resume.is_full_file_op (list byte) (Z.to_N bs) (tsize_of oldC) (ssize_of newC) f m); [reflexivity|].
    destruct m; reflexivity.
  Qed.

  Lemma abs_so_not_end o : (so_type o =? HEY) = false -> abs_so o <> MEnd.
  Proof.
    intros H. unfold abs_so. rewrite H.
    destruct (so_type o =? T_BLOCK_RANGE); [discriminate|]. destruct (so_type o =? T_DATA); discriminate.
  Qed.

  (** readUntilEndMarker against phase [PRsSkip] *)
  Lemma skip_agree_St : forall ms rest f rd b d a o,
    until_marker ms = Ok rest ->
    exists pre (S' : cstate),
      ms = pre ++ rest /\
      follows (St PRsSkip f rd b d a o) (map absso pre) S' /\
      s_ph S' = PFile /\ s_file S' = (f + 1)%N /\ s_disk S' = d /\ s_bowl S' = b /\ s_offers S' = o.
  Proof.
    induction ms as [|m ms IH]; intros rest f rd b d a o H; cbn [until_marker] in H; [discriminate|].
    destruct (so_type (as_so m) =? HEY) eqn:Ehey.
    - injection H as <-. exists [m], (St PFile (f + 1)%N (rd_read emit rd) b d a o).
      split; [reflexivity|]. split; [|cbn [s_ph s_file s_disk s_bowl s_offers]; auto 10].
      apply follows_one; [|reflexivity]. unfold abs_so. rewrite Ehey. apply step_skip_end.
    - destruct (IH rest f (rd_read emit rd) b d a o H) as (pre & S' & Hsplit & Hrun & Hrest).
      exists (m :: pre), S'. split; [cbn [app]; f_equal; exact Hsplit|]. split; [|exact Hrest].
      exact (follows_cons _ _ _ _ _ (step_skip_other _ _ _ _ _ _ _ (abs_so_not_end _ Ehey)) Hrun eq_refl).
  Qed.

  (** pwr.ComputeNumBlocks: C01 divides in int64 ([Z.quot]), C03 in [N] *)
  Lemma num_blocks_agree size :
    0 <= size -> Z.of_N (Resume.num_blocks (Z.to_N bs) (Z.to_N size)) = Stream.num_blocks bs size.
  Proof.
    clear nfiles is_overlay.
    intros Hs. pose proof (ModelsAgreeBlocksProofs.num_blocks_Z_N (Z.to_N bs) (Z.to_N size) ltac:(lia)) as H.
    rewrite !Z2N.id in H by lia. symmetry. exact H.
  Qed.

  Lemma ssize_agree idx p size : znth (c_files newC) idx = Some (p, size) -> ssize_of newC (Z.to_N idx) = Z.to_N size.
  Proof.
    intros H. apply znth_nth_error in H. destruct H as [_ H].
    unfold ssize_of, size_in. rewrite Z_N_nat, H. reflexivity.
  Qed.

  (** isFullFileOp: the two models take the same decision on a representable op *)
  Lemma is_full_agree idx p size o full :
    znth (c_files newC) idx = Some (p, size) -> 0 <= size ->
    Patcher.is_full_file_op bs oldC newC idx o = Ok full ->
    (so_type o = T_BLOCK_RANGE -> 0 <= so_span o /\ (full = false -> 0 <= so_block o)) ->
    Resume.is_full_file_op (list byte) (Z.to_N bs) (tsize_of oldC) (ssize_of newC) (Z.to_N idx) (abs_so o) =
    if full then Some (Z.to_N (so_file o)) else None.
  Proof.
    clear nfiles is_overlay.
    intros Hidx Hsz H Hrep. unfold Patcher.is_full_file_op in H. unfold abs_so.
    destruct (Z.eqb_spec (so_type o) T_BLOCK_RANGE) as [Et|Et]; cbn [negb] in H.
    - destruct (Hrep Et) as [Hspan Hblk]. rewrite Et. change (T_BLOCK_RANGE =? HEY) with false. cbn iota.
      cbn [Resume.is_full_file_op]. rewrite (ssize_agree _ _ _ Hidx).
      destruct (Z.eqb_spec (so_block o) 0) as [Eb|Eb]; cbn [negb] in H.
      + rewrite Hidx in H.
        destruct (znth (c_files oldC) (so_file o)) as [[pf fsz]|] eqn:Hc; [|discriminate].
        destruct (ModelsAgreeMalformedProofs.aligned_znth _ _ _ _ _ Hal Hc) as (dd & Ho & _).
        destruct (old_file_agree _ _ _ _ Hc Ho) as (_ & Esz & Hfsz & _).
        pose proof (num_blocks_agree size Hsz) as Hnb.
        (* both sides decide by the same three comparisons, in [N] and in [Z] *)
        match goal with |- (if ?c then _ else _) = _ => replace c with full; [destruct full; reflexivity|] end.
        destruct (Z.eqb_spec fsz size); cbn [negb] in H; injection H as <-; lia.
      + injection H as <-. specialize (Hblk eq_refl).
        destruct (N.eqb_spec (Z.to_N (so_block o)) 0) as [Hn|_]; [lia|]. reflexivity.
    - injection H as <-.
      destruct (so_type o =? HEY); [reflexivity|]. destruct (so_type o =? T_DATA); reflexivity.
  Qed.

  (** GetWriter on a path that holds a file: a writer at offset 0 that sees the same bytes *)
  Lemma open_writer_good s idx p size raw w0 :
    znth (c_files newC) idx = Some (p, size) -> open_writer newC s idx = Ok w0 ->
    tlookup (p_tree s) p = Some (File raw) -> wgoodC w0 raw 0%N /\ w_path w0 = p.
  Proof.
    clear nfiles is_overlay.
    intros Hidx H Hl. unfold open_writer in H. rewrite Hidx in H.
    apply bind_ok in H as (t0 & Eeo & H). injection H as <-.
    unfold wgoodC. cbn [w_st w_path w_off p_tree]. split; [|reflexivity].
    split; [exact (entry_open_keeps _ _ _ _ Eeo Hl)|]. split; [reflexivity|lia].
  Qed.

  Lemma transpose_good s idx t p size s1 :
    znth (c_files newC) idx = Some (p, size) -> Patcher.transpose oldC newC olds s idx t = Ok s1 ->
    exists dd, znth olds t = Some dd /\ tlookup (p_tree s1) p = Some (File dd).
  Proof.
    intros Hidx H. unfold Patcher.transpose in H. apply bind_ok in H as (dd & Ho & H). rewrite Hidx in H.
    apply bind_ok in H as (t1 & Etw & H). injection H as <-.
    exists dd. split; [exact (pool_open_ok _ _ _ _ Ho)|exact (transpose_write_content _ _ _ _ Etw)].
  Qed.

  (** 3. [processRsync] from its beginning, both branches: a full-file first op is a
      [Transpose] (C03: [copy_old] into the disk) followed by reading up to the end marker
      (C03: phase [PRsSkip]); anything else opens the writer, applies the first op and relays.
      Hypotheses beyond those of 1: the new container declares a non-negative size for the file
      (C03 sizes are [N]), the span of the FIRST op is representable when it is a block range
      ([diff_first_span] below shows that this cannot be dropped), and the C03 disk holds for
      file [idx] what the C01 tree holds at its path.  No [file_ready] is needed: MkdirAll
      never touches the path itself. *)
  Theorem process_rsync_models_agree_c03 : forall idx p size m ms rest s s' (S : cstate),
    znth (c_files newC) idx = Some (p, size) -> 0 <= size ->
    so_span_repr (as_so m) ->
    process_rsync bs oldC newC olds idx (m :: ms) s = Ok (rest, s') ->
    s_ph S = PRsFirst -> s_file S = Z.to_N idx ->
    tlookup (p_tree s) p = Some (File (s_disk S (s_file S))) ->
    exists pre (S' : cstate),
      m :: ms = pre ++ rest /\
      follows S (map absso pre) S' /\
      s_ph S' = PFile /\ s_file S' = (s_file S + 1)%N /\
      tlookup (p_tree s') p = Some (File (s_disk S' (s_file S))) /\
      c03_frame S S'.
  Proof.
    intros idx p size m ms rest s s' S Hidx Hsz Hspan H Hph Hfile Hl.
    destruct S as [ph f rd b d a o]. cbn [s_ph s_file s_disk] in *. subst ph. subst f.
    unfold process_rsync in H. set (op := as_so m) in *.
    destruct (validate_op oldC op); cbn [negb] in H; [|discriminate].
    apply bind_ok in H as (full & Efull & H).
    pose proof (is_full_agree _ _ _ _ _ Hidx Hsz Efull) as Hfull.
    destruct full.
    - (* Transpose, then read up to the end marker *)
      lapply Hfull; [clear Hfull; intros Hfull|intros Et; split; [exact (Hspan Et)|discriminate]].
      apply bind_ok in H as (s1 & Etr & H). apply bind_ok in H as (r' & Eum & H). injection H as <- <-.
      destruct (transpose_good _ _ _ _ _ _ Hidx Etr) as (dd & Ho & Etw).
      destruct (skip_agree_St ms r' (Z.to_N idx) (rd_read emit rd) b (upd d (Z.to_N idx) dd) a o Eum)
        as (pre & S' & Hsplit & Hrun & Hph' & Hfile' & Hdisk & Hbowl & Hoff).
      exists (m :: pre), S'. split; [cbn [app]; f_equal; exact Hsplit|]. split.
      { refine (follows_cons _ _ _ _ _ _ Hrun _); [|reflexivity].
        rewrite step_first. fold op. rewrite Hfull, (old_of_znth _ _ Ho). reflexivity. }
      unfold c03_frame. cbn [s_file s_disk s_bowl s_offers]. rewrite Hdisk. rewrite upd_same.
      split; [assumption|]. split; [assumption|]. split; [assumption|].
      split; [intros g Hg; apply upd_other; assumption|]. auto.
    - (* GetWriter, the first op, the relay loop *)
      apply bind_ok in H as (w0 & Eow & H). apply bind_ok in H as (w1 & Eop & H).
      destruct (open_writer_good _ _ _ _ _ _ Hidx Eow Hl) as (Hg0 & Hp0).
      rewrite <- (upd_same _ d (Z.to_N idx) (d (Z.to_N idx))) in Hg0.
      destruct (apply_op_good _ _ _ _ _ Eop Hg0) as (Hblk & D & Hpay & Hw).
      (* the seek of the first op has succeeded, so its block index is not negative *)
      specialize (Hfull (fun Et => conj (Hspan Et) (fun _ => Hblk Et))).
      destruct (relay_models_agree_c03 ms w1 rest s' (St (PRsLoop _) (Z.to_N idx) (rd_read emit rd) b _ a o) _ H eq_refl
                                       (wrote_sim _ _ _ _ _ _ _ _ _ _ _ Hw))
        as (pre & S' & Hsplit & Hrun & Hph' & Hfile' & Htl & Hfr & _).
      rewrite (wrote_path Hw), Hp0 in Htl.
      exists (m :: pre), S'. split; [cbn [app]; f_equal; exact Hsplit|]. split.
      { refine (follows_cons _ _ _ _ _ _ Hrun _); [|reflexivity]. rewrite step_first. fold op. rewrite Hfull, Hpay. reflexivity. }
      split; [assumption|]. split; [assumption|]. split; [assumption|].
      exact (c03_frame_upd _ _ _ _ _ _ _ PRsFirst rd _ a _ (c03_frame_upd _ _ _ _ _ _ _ _ _ _ _ _ Hfr)).
  Qed.

  Lemma step_bshdr f rd b d a o t :
    stepC (St PBsHeader f rd b d a o) (MBsHeader t) =
    Running (St (PBsLoop 0%N 0 t) f (rd_read emit rd) b (upd d f (d f)) a o).
  Proof. reflexivity. Qed.

  Lemma step_bsend wN f rd b d a o :
    N.eqb wN (ssize_of newC f) = true ->
    stepC (St (PBsEnd wN) f rd b d a o) MEnd =
    Running (St PFile (f + 1)%N (rd_read emit rd) b (upd d f (d f)) a o).
  Proof.
    intros H. unfold c03_step, step. cbn [s_ph s_file]. change (p_tell wN) with wN. rewrite H. reflexivity.
  Qed.

  (** 4. [processBsdiff] from its beginning: BsdiffHeader, the controls up to the one marked
      eof, the sentinel, the final size check [writer.Tell() == f.Size] (C03: [w_tell] against
      [ssize]).  The frames are abstracted by the type each is read as
      ([abs_bsdiff_series]). *)
  Theorem process_bsdiff_models_agree_c03 : forall idx p size m ms rest s s' (S : cstate),
    znth (c_files newC) idx = Some (p, size) ->
    process_bsdiff oldC newC olds idx (m :: ms) s = Ok (rest, s') ->
    s_ph S = PBsHeader -> s_file S = Z.to_N idx ->
    tlookup (p_tree s) p = Some (File (s_disk S (s_file S))) ->
    exists ctrls m2 (S' : cstate),
      ms = ctrls ++ m2 :: rest /\
      follows S (abs_bsdiff_series m ctrls m2) S' /\
      s_ph S' = PFile /\ s_file S' = (s_file S + 1)%N /\
      tlookup (p_tree s') p = Some (File (s_disk S' (s_file S))) /\
      c03_frame S S'.
  Proof.
    intros idx p size m ms rest s s' S Hidx H Hph Hfile Hl.
    destruct S as [ph f rd b d a o]. cbn [s_ph s_file s_disk] in *. subst ph. subst f.
    unfold c03_frame. cbn [s_file s_disk s_bowl s_offers].
    unfold process_bsdiff in H. set (tgt := bh_target (as_bh m)) in *.
    destruct ((tgt <? 0) || (tgt >=? Z.of_nat (length (c_files oldC)))); [discriminate|].
    apply bind_ok in H as (old & Ho & H). apply pool_open_ok in Ho.
    apply bind_ok in H as (w0 & Eow & H).
    apply bind_ok in H as ([[|m2 r2] w1] & Ecl & H); [discriminate|]. cbn [fst snd] in H.
    destruct (so_type (as_so m2) =? HEY) eqn:Ehey; cbn [negb] in H; [|discriminate].
    rewrite Hidx in H.
    destruct (Z.eqb_spec (Z.of_nat (w_off w1)) size) as [Esz|_]; [|discriminate].
    injection H as <- <-.
    destruct (open_writer_good _ _ _ _ _ _ Hidx Eow Hl) as (Hg0 & Hp0).
    set (f := Z.to_N idx) in *.
    set (d1 := upd d f (d f)).
    rewrite <- (old_of_znth _ _ Ho) in Ecl.
    set (S0 := St (PBsLoop 0%N 0 (Z.to_N tgt)) f (rd_read emit rd) b d1 a o).
    assert (Hsim0 : wsim w0 S0 0%N) by (apply wsim_good; cbn; unfold d1; rewrite upd_same; exact Hg0).
    destruct (ctrl_loop_models_agree_c03 ms 0 (Z.to_N tgt) _ _ w1 S0 0%N Ecl eq_refl Hsim0)
      as (pre & S1 & wN1 & Hsplit & Hrun & Hph1 & Hfile1 & Hgood & Hpath & (Hdisk & Hbowl & Hoff) & _).
    apply wsim_good in Hgood. subst S0. rewrite Hp0 in Hpath.
    destruct S1 as [ph1 f1 rd1 b1 dk1 a1 o1]. cbn [s_ph s_file s_disk s_bowl s_offers] in *. subst ph1 f1 b1 o1.
    exists pre, m2, (St PFile (f + 1)%N (rd_read emit rd1) b (upd dk1 f (dk1 f)) a1 o).
    split; [assumption|]. split.
    { refine (follows_cons _ _ _ _ _ (step_bshdr _ _ _ _ _ _ _) (follows_app _ _ _ _ _ Hrun (follows_one _ _ _ _ _)) eq_refl); [|reflexivity].
      unfold abs_so. rewrite Ehey. apply step_bsend.
      unfold f. rewrite (ssize_agree _ _ _ Hidx). destruct Hgood as (_ & G2 & _).
      apply N.eqb_eq. lia. }
    cbn [s_ph s_file s_disk s_bowl s_offers]. rewrite upd_same.
    split; [reflexivity|]. split; [reflexivity|].
    split; [destruct Hgood as (G1 & _); rewrite Hpath in G1; exact G1|].
    split; [|auto].
    intros g Hg. rewrite upd_other by assumption. rewrite Hdisk by assumption. unfold d1. apply upd_other. assumption.
  Qed.

End Agree.

(** The theorems above go one way: C01 returns Ok => C03 runs to the same result.  The converse
    fails, because the C03 machine leaves every index / bounds question to other claims
    (Patch/Resume.v: "index bounds are C10's business") and treats the old build as total
    functions [old_of], [tsize_of]:

    (a) C03 has no [validateOp]: a block range whose file index is outside the old container
        is an error for C01; C03 reads the empty file ([diff_validate_op]);
    (b) C03 has no bounds check in bsdiff [Apply]: a control whose add part runs past the end of
        the old file is an error for C01 (bsdiff/patch.go: "bsdiff-add: expected to copy %d bytes but
        copied %d"); C03 adds what is there
        and goes on, possibly to a Finished run ([diff_bsdiff_bounds]);
    (c) C03 has no check of the BsdiffHeader's target index ([diff_bsdiff_target]);
    (d) a negative block index makes the seek of ApplySingleFull fail in C01; the C03 message
        cannot express it ([abs_so] clamps to 0), nor a negative span.  For the relay loop
        this is harmless (Theorem 1 needs no hypothesis); for the FIRST op it is not: a span
        of -1 is not a full-file op for C01, its clamped image can be one for C03
        ([diff_first_span]) - hence [so_span_repr] in Theorem 3;
    (e) a file that the old container declares but the pool cannot open is an error for C01
        ([pool_open], [apply_range]); C03's [old_of] yields the empty file.  Excluded above by
        [aligned];
    (f) a negative size in the new container: C03 sizes are [N].  Excluded by [0 <= size];
    (g) [Patcher.w_write w []] never reaches the file, [p_write] with [[]] zero-extends a file
        shorter than the offset ([pwrite]); they agree because the offset stays inside the
        file ([wsim]'s last conjunct, [pwrite_nil]) - not so after a resume on a truncated
        file, which C01 does not model.
    The other direction is the theorems above: on the inputs covered, whenever C01 returns Ok
    the C03 machine neither fails nor stops. *)

Definition finished_with (r : cresult) (f : N) (content : list byte) : bool :=
  match r with
  | Finished _ _ _ st => nlist_eqb (s_disk st f) content
  | _ => false
  end.

Definition ex_oldC : container := mkC [([1%N], 3)] [] [].
Definition ex_olds : list (list byte) := [[1; 2; 3]%N].
Definition ex_path : path := [2%N].
Definition ex_pst : pst := mkP [(ex_path, File [])] [].
Definition ex_w : wst := mkW ex_pst ex_path 0.
Definition ex_rd : reader := mkrd 0 Idle false 0.
Definition ex_state (ph : phase N) : cstate := St ph 0%N ex_rd bowl0 (fun _ => []) 0%nat [].
Definition nof (_ : N) : bool := false.
Definition nob (_ : nat) : bool := false.

(** (a) a block range naming old file 7 of a one-file container *)
Definition ex_bad_range : pmsg := MSO (mkSO T_BLOCK_RANGE 7 0 1 []).
Definition ex_newC0 : container := mkC [(ex_path, 0)] [] [].

Lemma diff_validate_op :
  relay 4 ex_oldC ex_olds [ex_bad_range; hey_msg] ex_w = Err /\
  finished_with (c03_run 4 ex_oldC ex_newC0 ex_olds 1 nof nob nob (ex_state (PRsLoop 0%N))
                         (map (fun m => abs_so (as_so m)) [ex_bad_range; hey_msg])) 0 [] = true.
Proof. split; vm_compute; reflexivity. Qed.

(** (b) an add part of five bytes against an old file of three: C01 errs, C03 writes the three
    sums, passes the final size check and finishes *)
Definition ex_long_add : pmsg := MCT (mkCT [1; 1; 1; 1; 1]%N [] 0 false).
Definition ex_eof : pmsg := MCT (mkCT [] [] 0 true).
Definition ex_newC3 : container := mkC [(ex_path, 3)] [] [].

Lemma diff_bsdiff_bounds :
  process_bsdiff ex_oldC ex_newC3 ex_olds 0 [MBH (mkBH 0); ex_long_add; ex_eof; hey_msg] ex_pst = Err /\
  finished_with (c03_run 4 ex_oldC ex_newC3 ex_olds 1 nof nob nob (ex_state PBsHeader)
                         (abs_bsdiff_series (MBH (mkBH 0)) [ex_long_add; ex_eof] hey_msg)) 0 [2; 3; 4]%N = true.
Proof. split; vm_compute; reflexivity. Qed.

(** (c) a BsdiffHeader naming old file 9 *)
Lemma diff_bsdiff_target :
  process_bsdiff ex_oldC ex_newC0 ex_olds 0 [MBH (mkBH 9); ex_eof; hey_msg] ex_pst = Err /\
  finished_with (c03_run 4 ex_oldC ex_newC0 ex_olds 1 nof nob nob (ex_state PBsHeader)
                         (abs_bsdiff_series (MBH (mkBH 9)) [ex_eof] hey_msg)) 0 [] = true.
Proof. split; vm_compute; reflexivity. Qed.

(** (d) a first op with span -1 on empty files: C01 does not see a full-file op, applies it
    (nothing to copy) and relays the DATA op that follows; the clamped C03 message IS a
    full-file op, so C03 transposes and ignores the DATA op.  Both succeed, with different
    files: [so_span_repr] cannot be dropped from Theorem 3. *)
Definition ex_oldC_empty : container := mkC [([1%N], 0)] [] [].
Definition ex_neg_span : pmsg := MSO (mkSO T_BLOCK_RANGE 0 0 (-1) []).
Definition ex_data : pmsg := MSO (mkSO T_DATA 0 0 0 [5%N]).

Lemma diff_first_span :
  (match process_rsync 4 ex_oldC_empty ex_newC0 [[]] 0 [ex_neg_span; ex_data; hey_msg] ex_pst with
   | Ok (_, s') => match tlookup (p_tree s') ex_path with Some (File d) => nlist_eqb d [5%N] | _ => false end
   | _ => false
   end = true) /\
  finished_with (c03_run 4 ex_oldC_empty ex_newC0 [[]] 1 nof nob nob (ex_state PRsFirst)
                         (map (fun m => abs_so (as_so m)) [ex_neg_span; ex_data; hey_msg])) 0 [] = true /\
  ~ so_span_repr (as_so ex_neg_span).
Proof.
  split; [vm_compute; reflexivity|]. split; [vm_compute; reflexivity|].
  intros H. assert (E : so_type (as_so ex_neg_span) = T_BLOCK_RANGE) by (vm_compute; reflexivity).
  specialize (H E). vm_compute in H. apply H. reflexivity.
Qed.
