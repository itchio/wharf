(** Composition of C11 (the rsync differ, Wsync/*.v) with C01 (patch writer + patcher + fresh
    bowl, Patch/{Stream,Patcher}.v, Bowl/Fresh.v): the glue pwr/diff.go puts between
    wsync.ComputeDiff and the patch stream.  Definitions only; proofs in
    Compose/RealDifferProofs.v, statements in Properties/C01.v.

    repo/pwr/diff.go, WritePatch:

        blockLibrary := wsync.NewBlockLibrary(dctx.TargetSignature)
        for index, f := range dctx.TargetContainer.Files { targetContainerPathToIndex[f.Path] = int64(index) }
        for fileIndex, f := range dctx.SourceContainer.Files {
            ... SyncHeader{fileIndex}
            var preferredFileIndex int64 = -1
            if oldIndex, ok := targetContainerPathToIndex[f.Path]; ok { preferredFileIndex = oldIndex }
            diffContext.ComputeDiff(diffReader, blockLibrary, opsWriter, preferredFileIndex)
            ... HEY_YOU_DID_IT
        }

    and makeOpsWriter: a wsync.Operation{OpBlockRange, FileIndex, BlockIndex, BlockSpan} becomes
    SyncOp{BLOCK_RANGE, FileIndex, BlockIndex, BlockSpan}; a wsync.Operation{OpData, Data} becomes
    SyncOp{DATA, Data}.

    C01's [write_patch] already contains the loop, the headers, the end markers and
    [preferred_index] (the map lookup: the last old file with that path, -1 when there is
    none); its parameter [differ : Z -> list byte -> list Stream.op] is the call
    "ComputeDiff(file, library of the old build, preferred index) seen through makeOpsWriter".
    [real_differ] below is that call with C11's model plugged in.

    The two developments use the same byte type ([Prelude.byte = N]) but different number
    types: C11 has the block size, indices, spans, offsets in [N] (Go: int / int64 that are
    never negative inside ComputeDiff) and records a data operation as a span
    [OpData start len] of the source; C01 has [Z] everywhere (int64 message fields, which a
    decoded stream can make negative) and data operations carry their bytes. *)
From Wharf Require Import Base.Prelude Patch.Stream.
From Wharf Require Wsync.Diff Wsync.Spec.
Local Open Scope Z_scope.

(** makeOpsWriter: one pwr operation per wsync operation.  A data operation of ComputeDiff
    carries [buffer[data.tail:data.head]], which is [source[start : start+len]] (C11's group
    [ops] compares those bytes). *)
Definition tr_op (src : list byte) (o : Wsync.Diff.op) : Stream.op :=
  match o with
  | Wsync.Diff.OpRange f i sp => Stream.OpRange (Z.of_N f) (Z.of_N i) (Z.of_N sp)
  | Wsync.Diff.OpData s l => Stream.OpData (Wsync.Spec.sub src s l)
  end.

(** the preferred file index as findUniqueHash uses it: [if preferredFileIndex != -1] then
    [block.FileIndex == preferredFileIndex].  File indices of a signature are never negative, so
    a negative value other than -1 (pwr never passes one) prefers nothing, like -1. *)
Definition pref_of (pref : Z) : option N := if pref <? 0 then None else Some (Z.to_N pref).

(** ComputeDiff of one new file against the signature (CreateSignature of every old file, in
    container order) and block library of the old build, through makeOpsWriter.
    [diff_ops = None] is C11's "out of fuel" outcome (never, for [0 < bs], [0 < maxData]). *)
Definition real_differ {H : Type} (shash : list N -> H) (heqb : H -> H -> bool)
           (bs : Z) (maxData : N) (olds : list (list byte)) (pref : Z) (data : list byte) : list Stream.op :=
  match Wsync.Spec.diff_ops shash heqb (Z.to_N bs) maxData olds data (pref_of pref) with
  | Some ops => map (tr_op data) ops
  | None => []
  end.

(** the strong hash separates the blocks of the old build from the windows of every file of
    the new build (C11's hypothesis, once per new file: these are the only comparisons
    WritePatch makes) *)
Definition strong_injective_on {H : Type} (shash : list N -> H) (bs : Z) (olds : list (list byte))
           (news : list (list byte)) : Prop :=
  Forall (fun data => Wsync.Spec.strong_injective shash (Z.to_N bs) olds data) news.
