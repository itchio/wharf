(** A toy instance of [patch_codecs] (Compose/PatchBytes.v) that runs inside Coq: every record
    is laid out as numbers (zig-zag for the signed ones) and length-prefixed lists, the
    compressor is the identity for every algorithm.  It is NOT protobuf; it only has to be
    executable and to satisfy [codecs_roundtrip] (proved here), so that the hypotheses of
    [diff_apply_fresh_bytes] are inhabited and a patch file can be written, cut and applied by
    [vm_compute] (Properties/C01.v).  Model bytes are unbounded [N] (Prelude.byte), a "byte" of
    this layout may exceed 255. *)
From Coq Require Import ZifyBool ZifyNat ZifyN.
From Wharf Require Import Base.Prelude Base.ListLemmas Bowl.Fresh Patch.Reinterp Compose.PatchBytes.
Local Open Scope Z_scope.

Definition zz (z : Z) : N := if z <? 0 then Z.to_N (- 2 * z - 1) else Z.to_N (2 * z).
Definition unzz (n : N) : Z := if (n mod 2 =? 0)%N then Z.of_N (n / 2) else - Z.of_N ((n + 1) / 2).

Lemma unzz_zz z : unzz (zz z) = z.
Proof.
  unfold unzz, zz. destruct (Z.ltb_spec z 0) as [Hn|Hp].
  - destruct (N.eqb_spec (Z.to_N (- 2 * z - 1) mod 2) 0); lia.
  - destruct (N.eqb_spec (Z.to_N (2 * z) mod 2) 0); lia.
Qed.

Definition enc_bytes (l : list byte) : list byte := N.of_nat (length l) :: l.
Definition dec_bytes (l : list byte) : option (list byte * list byte) :=
  match l with
  | [] => None
  | n :: r => if (N.to_nat n <=? length r)%nat then Some (firstn (N.to_nat n) r, skipn (N.to_nat n) r) else None
  end.

Lemma dec_enc_bytes l r : dec_bytes (enc_bytes l ++ r) = Some (l, r).
Proof.
  unfold enc_bytes, dec_bytes. cbn [app]. rewrite Nat2N.id, firstn_app_exact, skipn_app_exact, app_length.
  destruct (Nat.leb_spec (length l) (length l + length r)) as [_|Hc]; [reflexivity|lia].
Qed.

Section ListCodec.
  Context {A : Type}.
  Variable enc : A -> list byte.
  Variable dec : list byte -> option (A * list byte).
  Hypothesis dec_enc : forall a r, dec (enc a ++ r) = Some (a, r).

  Fixpoint dec_items (n : nat) (l : list byte) : option (list A * list byte) :=
    match n with
    | O => Some ([], l)
    | S n' => match dec l with
              | None => None
              | Some (a, r) => match dec_items n' r with
                               | None => None
                               | Some (xs, r') => Some (a :: xs, r')
                               end
              end
    end.

  Definition enc_list (xs : list A) : list byte := N.of_nat (length xs) :: flat_map enc xs.
  Definition dec_list (l : list byte) : option (list A * list byte) :=
    match l with [] => None | n :: r => dec_items (N.to_nat n) r end.

  Lemma dec_items_enc xs : forall r, dec_items (length xs) (flat_map enc xs ++ r) = Some (xs, r).
  Proof.
    induction xs as [|a xs IH]; intros r; [reflexivity|].
    cbn [length flat_map dec_items]. rewrite <- app_assoc, dec_enc, IH. reflexivity.
  Qed.

  Lemma dec_enc_list xs r : dec_list (enc_list xs ++ r) = Some (xs, r).
  Proof. unfold dec_list, enc_list. cbn [app]. rewrite Nat2N.id. apply dec_items_enc. Qed.
End ListCodec.

(** tlc.Container: files (path, size), directories, symlinks (path, destination) *)
Definition enc_file (f : path * Z) : list byte := enc_bytes (fst f) ++ [zz (snd f)].
Definition dec_file (l : list byte) : option ((path * Z) * list byte) :=
  match dec_bytes l with
  | Some (p, s :: r) => Some ((p, unzz s), r)
  | _ => None
  end.
Definition enc_link (f : path * list byte) : list byte := enc_bytes (fst f) ++ enc_bytes (snd f).
Definition dec_link (l : list byte) : option ((path * list byte) * list byte) :=
  match dec_bytes l with
  | Some (p, r) => match dec_bytes r with Some (d, r') => Some ((p, d), r') | None => None end
  | None => None
  end.

Lemma dec_enc_file f r : dec_file (enc_file f ++ r) = Some (f, r).
Proof.
  destruct f as [p s]. unfold dec_file, enc_file. cbn [fst snd]. rewrite <- app_assoc, dec_enc_bytes.
  cbn [app]. rewrite unzz_zz. reflexivity.
Qed.
Lemma dec_enc_link f r : dec_link (enc_link f ++ r) = Some (f, r).
Proof.
  destruct f as [p d]. unfold dec_link, enc_link. cbn [fst snd]. rewrite <- app_assoc, !dec_enc_bytes. reflexivity.
Qed.

Definition toy_marshal_tc (c : container) : list byte :=
  enc_list enc_file (c_files c) ++ enc_list enc_bytes (c_dirs c) ++ enc_list enc_link (c_links c).
Definition toy_unmarshal_tc (l : list byte) : option container :=
  match dec_list dec_file l with
  | Some (fs, r1) =>
    match dec_list dec_bytes r1 with
    | Some (ds, r2) =>
      match dec_list dec_link r2 with
      | Some (ls, []) => Some (mkC fs ds ls)
      | _ => None
      end
    | None => None
    end
  | None => None
  end.

Definition toy_marshal_ph (h : Z * Z) : list byte := [zz (fst h); zz (snd h)].
Definition toy_unmarshal_ph (l : list byte) : option (Z * Z) :=
  match l with [a; q] => Some (unzz a, unzz q) | _ => None end.

Definition toy_marshal_sh (m : sync_header) : list byte := [zz (sh_type m); zz (sh_file m)].
Definition toy_unmarshal_sh (l : list byte) : option sync_header :=
  match l with [t; f] => Some (mkSH (unzz t) (unzz f)) | _ => None end.

Definition toy_marshal_so (m : sync_op) : list byte :=
  zz (so_type m) :: zz (so_file m) :: zz (so_block m) :: zz (so_span m) :: so_data m.
Definition toy_unmarshal_so (l : list byte) : option sync_op :=
  match l with t :: f :: b :: s :: d => Some (mkSO (unzz t) (unzz f) (unzz b) (unzz s) d) | _ => None end.

Definition toy_marshal_bh (m : bsdiff_header) : list byte := [zz (bh_target m)].
Definition toy_unmarshal_bh (l : list byte) : option bsdiff_header :=
  match l with [t] => Some (mkBH (unzz t)) | _ => None end.

Definition toy_marshal_ct (m : control) : list byte :=
  zz (ct_seek m) :: (if ct_eof m then 1%N else 0%N) :: enc_bytes (ct_add m) ++ ct_copy m.
Definition toy_unmarshal_ct (l : list byte) : option control :=
  match l with
  | s :: e :: r => match dec_bytes r with
                   | Some (a, c) => Some (mkCT a c (unzz s) (negb (e =? 0)%N))
                   | None => None
                   end
  | _ => None
  end.

Definition toy_codecs : patch_codecs :=
  mkCodecs toy_marshal_ph toy_unmarshal_ph toy_marshal_tc toy_unmarshal_tc
           toy_marshal_sh toy_unmarshal_sh toy_marshal_so toy_unmarshal_so
           toy_marshal_bh toy_unmarshal_bh toy_marshal_ct toy_unmarshal_ct
           (fun _ _ s => s) (fun _ z => Some z).

Lemma toy_codecs_roundtrip : codecs_roundtrip toy_codecs.
Proof.
  unfold codecs_roundtrip. cbn [toy_codecs marshal_ph unmarshal_ph marshal_tc unmarshal_tc marshal_sh unmarshal_sh
    marshal_so unmarshal_so marshal_bh unmarshal_bh marshal_ct unmarshal_ct].
  repeat split.
  - intros [a q]. unfold toy_unmarshal_ph, toy_marshal_ph. cbn [fst snd]. rewrite !unzz_zz. reflexivity.
  - intros [fs ds ls]. unfold toy_unmarshal_tc, toy_marshal_tc. cbn [c_files c_dirs c_links].
    rewrite (dec_enc_list enc_file dec_file dec_enc_file).
    rewrite (dec_enc_list enc_bytes dec_bytes dec_enc_bytes).
    rewrite <- (app_nil_r (enc_list enc_link ls)).
    rewrite (dec_enc_list enc_link dec_link dec_enc_link). reflexivity.
  - intros [t f]. unfold toy_unmarshal_sh, toy_marshal_sh. cbn [sh_type sh_file]. rewrite !unzz_zz. reflexivity.
  - intros [t f b s d]. unfold toy_unmarshal_so, toy_marshal_so. cbn [so_type so_file so_block so_span so_data].
    rewrite !unzz_zz. reflexivity.
  - intros [t]. unfold toy_unmarshal_bh, toy_marshal_bh. cbn [bh_target]. rewrite unzz_zz. reflexivity.
  - intros [a c s e]. unfold toy_unmarshal_ct, toy_marshal_ct. cbn [ct_add ct_copy ct_seek ct_eof].
    rewrite dec_enc_bytes, unzz_zz. destruct e; reflexivity.
Qed.

Lemma toy_compression_roundtrips algo quality : compression_roundtrips toy_codecs algo quality.
Proof. right. reflexivity. Qed.

Lemma toy_truncation_detected algo quality : truncation_detected toy_codecs algo quality.
Proof.
  right. cbn [toy_codecs compressor decompressor]. intros s p q E Hq. right. exists p, q. repeat split; assumption.
Qed.

Definition all_cuts_fail (bs : Z) (olds : list (list byte)) (cap : N) (z : list byte) : bool :=
  forallb (fun i => match apply_patch_bytes toy_codecs bs olds None cap (firstn i z) with Err => true | _ => false end)
          (seq 0 (length z)).
