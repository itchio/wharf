(** Proofs for Compose/OptimizeApply.v.

    1. bridge between the two models of bsdiff Apply: [Bsdiff.Patch.apply_ctrl] (C12) and
       [Patcher.bs_apply] (C01); hence [ctrl_loop] / [process_bsdiff] fed the rendered frames of
       a series write exactly [den_bsdiff] of it, and the final size check passes;
    2. C07's hypothesis [bsdiff_roundtrip] for the instance [bsd_series], by C12's theorem, and
       [bsd_series_is_go]: on bytes the instance IS what bsdiff.DiffContext.Do returns;
    3. C07's hypothesis [original_correct] / [file_valid] for the files of [write_patch];
    4. a series that C07's [apply_series] maps to a file's content [writes] that file
       ([denotes_writes]), so the C01 patcher applied to the frames of any series list that
       [apply_patch] maps to the new files yields the new build (the loop is
       [DiffApplyProofs.apply_series_cut]);
    5. the composition. *)
From Coq Require Import ZifyBool ZifyNat ZifyN.
From Wharf Require Import Base.Prelude Base.ListLemmas Bowl.Fresh Patch.Reinterp Patch.ReinterpProofs
     Patch.Stream Patch.Patcher Patch.PatcherProofs Patch.DiffApplyProofs
     Patch.Rediff Patch.RediffProofs Compose.OptimizeApply.
From Wharf Require Bsdiff.Scan Bsdiff.ScanProofs Bsdiff.Patch Bsdiff.RoundtripProofs Bsdiff.Suffix Bsdiff.SuffixProofs Exec.C12.
Local Open Scope Z_scope.


Lemma adder_add_bytes add : forall l, Bsdiff.Patch.adder add (firstn (length add) l) = add_bytes add l.
Proof.
  induction add as [|a add IH]; intros [|o l]; cbn [Bsdiff.Patch.adder add_bytes firstn length]; try reflexivity.
  unfold Scan.add_byte. f_equal. apply IH.
Qed.

(** what a successful [Apply] of the C12 model did, in the vocabulary of the C01 model *)
Lemma apply_ctrl_some old off c o off' :
  Bsdiff.Patch.apply_ctrl old off c = Some (o, off') ->
  0 <= off /\ off + Z.of_nat (length (Scan.c_add c)) <= Z.of_nat (length old) /\
  o = add_bytes (Scan.c_add c) (skipn (Z.to_nat off) old) ++ Scan.c_copy c /\
  off' = off + Z.of_nat (length (Scan.c_add c)) + Scan.c_seek c.
Proof.
  unfold Bsdiff.Patch.apply_ctrl, Scan.len.
  destruct ((off <? 0) || (off >? Z.of_nat (length old))) eqn:E; [discriminate|].
  destruct (Nat.ltb_spec (length (firstn (length (Scan.c_add c)) (skipn (Z.to_nat off) old))) (length (Scan.c_add c))) as [Hlt|Hge];
    [discriminate|].
  intros [= <- <-]. rewrite firstn_length, skipn_length in Hge.
  split; [lia|]. split; [lia|]. split; [|reflexivity]. rewrite adder_add_bytes. reflexivity.
Qed.

Lemma seek_okb_i64 c : seek_okb c = true -> i64_ok (Scan.c_seek c).
Proof. unfold seek_okb, i64_ok. lia. Qed.

Lemma as_ct_ctrl c : seek_okb c = true ->
  as_ct (ctrl_msg c) = mkCT (Scan.c_add c) (Scan.c_copy c) (Scan.c_seek c) (Scan.c_eof c).
Proof. intros H. unfold ctrl_msg. apply as_ct_own. cbn [pmsg_ok ct_seek]. apply seek_okb_i64. assumption. Qed.

Section Writer.
  Variable p : path.
  Variable L : nat.

  Lemma bs_apply_ctrl old off c o off' w written :
    Bsdiff.Patch.apply_ctrl old off c = Some (o, off') -> seek_okb c = true ->
    wgood p L w written -> (length written + length o <= L)%nat ->
    exists w', bs_apply old off (as_ct (ctrl_msg c)) w = Ok (off', w') /\ wgood p L w' (written ++ o).
  Proof.
    intros Ha Hs Hw Hlen. rewrite as_ct_ctrl by assumption.
    destruct (apply_ctrl_some _ _ _ _ _ Ha) as (H0 & Hadd & -> & ->).
    unfold bs_apply. cbn [ct_add ct_copy ct_seek].
    destruct ((off <? 0) || (off >? Z.of_nat (length old))) eqn:E1; [lia|].
    destruct (off + Z.of_nat (length (Scan.c_add c)) >? Z.of_nat (length old)) eqn:E2; [lia|].
    rewrite app_length in Hlen.
    destruct (w_write_next p L w written (add_bytes (Scan.c_add c) (skipn (Z.to_nat off) old)) Hw) as (w1 & E3 & Hw1); [lia|].
    rewrite E3. cbn [bind].
    destruct (w_write_next p L w1 _ (Scan.c_copy c) Hw1) as (w2 & E4 & Hw2); [rewrite app_length; lia|].
    rewrite E4. cbn [bind]. exists w2. split; [reflexivity|]. rewrite app_assoc. assumption.
  Qed.

  Lemma ctrl_loop_series old : forall b off out offf w written rest,
    forallb seek_okb b = true -> eof_lastb b = true ->
    Bsdiff.Patch.apply_series old off b = Some (out, offf) ->
    wgood p L w written -> (length written + length out <= L)%nat ->
    exists w', ctrl_loop old off (map ctrl_msg b ++ rest) w = Ok (rest, w') /\ wgood p L w' (written ++ out).
  Proof.
    induction b as [|c b IH]; intros off out offf w written rest Hseek Hlast Ha Hw Hlen; [discriminate|].
    cbn [forallb] in Hseek. apply andb_prop in Hseek. destruct Hseek as [Hs Hseek].
    assert (Heof : ct_eof (as_ct (ctrl_msg c)) = Scan.c_eof c) by (rewrite (as_ct_ctrl c Hs); reflexivity).
    cbn [map app ctrl_loop]. rewrite Heof. clear Heof.
    cbn [Bsdiff.Patch.apply_series] in Ha. cbn [eof_lastb] in Hlast.
    destruct b as [|c2 b].
    - rewrite Hlast in *. injection Ha as <- <-. exists w. rewrite app_nil_r. cbn [map app].
      split; [reflexivity|assumption].
    - apply andb_prop in Hlast. destruct Hlast as [Hne Hlast]. apply negb_true_iff in Hne. rewrite Hne in *.
      destruct (Bsdiff.Patch.apply_ctrl old off c) as [[o off']|] eqn:Ec; [|discriminate].
      destruct (Bsdiff.Patch.apply_series old off' (c2 :: b)) as [[o2 off2]|] eqn:Er; [|discriminate].
      injection Ha as <- <-. rewrite app_length in Hlen.
      destruct (bs_apply_ctrl old off c o off' w written Ec Hs Hw) as (w1 & E1 & Hw1); [clear - Hlen; lia|].
      rewrite E1. cbn [bind fst snd].
      destruct (IH off' o2 off2 w1 (written ++ o) rest Hseek Hlast Er Hw1) as (w2 & E2 & Hw2); [rewrite app_length; clear - Hlen; lia|].
      exists w2. split; [exact E2|]. rewrite app_assoc. assumption.
  Qed.
End Writer.

Lemma den_bsdiff_some b old data :
  den_bsdiff b old = Some data ->
  forallb seek_okb b = true /\ eof_lastb b = true /\ exists off, Bsdiff.Patch.apply_series old 0 b = Some (data, off).
Proof.
  unfold den_bsdiff. destruct (forallb seek_okb b); [|discriminate]. destruct (eof_lastb b); [|discriminate]. cbn [andb].
  destruct (Bsdiff.Patch.apply_series old 0 b) as [[o off]|]; [|discriminate]. cbn [option_map fst].
  intros [= ->]. repeat split. exists off. reflexivity.
Qed.

(** [processBsdiff] on the frames Optimize writes for a mapped file: BsdiffHeader, the controls,
    the end marker.  It opens old file [t], writes [den_bsdiff b old] through the entry writer
    of new file [idx], accepts the sentinel, and the final size check [writer.Tell() == f.Size]
    passes because the bytes written are the new file. *)
Lemma process_bsdiff_realized oldC newC olds idx p data t pt szt oldt b rest s :
  znth (c_files newC) idx = Some (p, Z.of_nat (length data)) ->
  znth (c_files oldC) t = Some (pt, szt) -> t < 2^63 ->
  znth olds t = Some oldt ->
  file_ready (p_tree s) p -> tlookup (p_tree s) p = Some (File (zeros (length data))) ->
  den_bsdiff b oldt = Some data ->
  exists s', process_bsdiff oldC newC olds idx (MBH (mkBH t) :: map ctrl_msg b ++ hey_msg :: rest) s = Ok (rest, s') /\
    tlookup (p_tree s') p = Some (File data).
Proof.
  intros Hentry Ht Ht63 Hold Hready Hzero Hden.
  destruct (den_bsdiff_some _ _ _ Hden) as (Hseek & Hlast & offf & Happ).
  pose proof (znth_Some _ _ _ Ht) as Hr.
  unfold process_bsdiff.
  assert (Hbh : as_bh (MBH (mkBH t)) = mkBH t).
  { apply as_bh_own. cbn [pmsg_ok bh_target]. unfold i64_ok. lia. }
  rewrite Hbh. cbn [bh_target].
  destruct ((t <? 0) || (t >=? Z.of_nat (length (c_files oldC)))) eqn:E; [lia|].
  unfold pool_open. rewrite Ht, Hold. cbn [bind].
  destruct (open_writer_good p (length data) newC (ev s (EvRead t)) idx _ Hentry Hready Hzero) as (w0 & -> & Hg). cbn [bind].
  destruct (ctrl_loop_series p (length data) oldt b 0 data offf w0 [] (hey_msg :: rest) Hseek Hlast Happ Hg) as (w' & Ec & Hw');
    [clear; cbn [length]; lia|].
  rewrite Ec. cbn [bind fst snd]. rewrite as_so_hey. cbn [so_type]. rewrite Z.eqb_refl. cbn [negb].
  pose proof Hw' as (_ & Ho & _). cbn [app] in Ho. rewrite Hentry, Ho, Z.eqb_refl.
  exists (w_st w'). split; [reflexivity|]. apply (wgood_full p (length data) w' data Hw' eq_refl).
Qed.


Lemma bytes_okb_spec l : bytes_okb l = true <-> RoundtripProofs.bytes_ok l.
Proof.
  unfold bytes_okb, RoundtripProofs.bytes_ok. rewrite forallb_forall, Forall_forall.
  split; intros H x Hx; specialize (H x Hx); lia.
Qed.

Lemma copy_series_den old new : den_bsdiff (copy_series new) old = Some new.
Proof.
  unfold den_bsdiff, copy_series.
  assert (Hs : forallb seek_okb [([], new, 0, false); Scan.ctrl_eof] && eof_lastb [([], new, 0, false); Scan.ctrl_eof] = true) by reflexivity.
  rewrite Hs. cbn [Bsdiff.Patch.apply_series Scan.c_eof Scan.ctrl_eof].
  unfold Bsdiff.Patch.apply_ctrl. cbn [Scan.c_add Scan.c_copy Scan.c_seek length firstn Bsdiff.Patch.adder app].
  pose proof (ScanProofs.len_nonneg _ old) as Hl.
  destruct ((0 <? 0) || (0 >? Scan.len old)) eqn:E; [lia|].
  cbn [Nat.ltb Nat.leb option_map fst]. rewrite app_nil_r. reflexivity.
Qed.

(** [writeMessages]: the control before the eof control always carries Seek 0 *)
Lemma write_loop_tail old new : forall ms prev cs,
  Scan.write_loop old new prev ms = Scan.Ok cs ->
  exists pre a c, cs = (pre ++ [(a, c, 0, false)]) ++ [Scan.ctrl_eof].
Proof.
  induction ms as [|m ms IH]; intros prev cs H; cbn [Scan.write_loop] in H.
  - injection H as <-. destruct prev as [[[pm pa] pc]|]; [exists [], pa, pc|exists [], [], []]; reflexivity.
  - destruct (Scan.match_payload old new m) as [[a c]| |]; cbn [Scan.bind] in H; try discriminate.
    destruct prev as [[[pm pa] pc]|].
    + destruct (Scan.write_loop old new (Some (m, a, c)) ms) as [rest| |] eqn:E; cbn [Scan.bind] in H; try discriminate.
      injection H as <-. destruct (IH _ _ E) as (pre & a' & c' & ->).
      eexists (_ :: pre), a', c'. reflexivity.
    + eapply IH; eassumption.
Qed.

Lemma bsdiff_do_tail bsz srch partitions old new cs :
  Scan.bsdiff_do bsz srch partitions old new = Scan.Ok cs ->
  cs = [Scan.ctrl_eof] \/ exists pre a c, cs = (pre ++ [(a, c, 0, false)]) ++ [Scan.ctrl_eof].
Proof.
  unfold Scan.bsdiff_do, Scan.bsdiff_do_gen. destruct (Scan.len new =? 0); [intros [= <-]; left; reflexivity|].
  destruct (negb true && (Scan.len old =? 0)); [discriminate|].
  destruct (Scan.block_geometry true bsz (Scan.len new) _) as [[blockSize numBlocks]| |]; cbn [Scan.bind]; try discriminate.
  destruct (Scan.blocks_loop _ _ _ _ _ _ _) as [ms| |]; cbn [Scan.bind]; try discriminate.
  intros H. right. eapply write_loop_tail. eassumption.
Qed.

Lemma apply_series_head old off h r out offf :
  Bsdiff.Patch.apply_series old off (h :: r) = Some (out, offf) -> Scan.c_eof h = false ->
  0 <= off <= Z.of_nat (length old).
Proof.
  cbn [Bsdiff.Patch.apply_series]. intros H He. rewrite He in H.
  destruct (Bsdiff.Patch.apply_ctrl old off h) as [[o off']|] eqn:E; [|discriminate].
  apply apply_ctrl_some in E. lia.
Qed.

(** a series that applies from a valid offset only seeks within the old file: between two
    applied controls the old offset stays in [0, |old|] *)
Lemma apply_series_seeks old last e : forall pre off out offf,
  Forall (fun c => Scan.c_eof c = false) pre -> Scan.c_eof last = false ->
  Bsdiff.Patch.apply_series old off ((pre ++ [last]) ++ [e]) = Some (out, offf) ->
  Forall (fun c => - Z.of_nat (length old) <= Scan.c_seek c <= Z.of_nat (length old)) pre.
Proof.
  induction pre as [|c pre IH]; intros off out offf Hne Hl H; [constructor|].
  inversion Hne as [|? ? Hc Hne']; subst. cbn [app Bsdiff.Patch.apply_series] in H. rewrite Hc in H.
  destruct (Bsdiff.Patch.apply_ctrl old off c) as [[o off']|] eqn:E; [|discriminate].
  destruct (Bsdiff.Patch.apply_series old off' ((pre ++ [last]) ++ [e])) as [[o2 off2]|] eqn:Er; [|discriminate].
  constructor; [|eapply IH; eassumption].
  apply apply_ctrl_some in E. destruct E as (H0 & Hadd & _ & ->).
  assert (Hin : 0 <= off + Z.of_nat (length (Scan.c_add c)) + Scan.c_seek c <= Z.of_nat (length old)).
  { destruct pre as [|c2 pre]; cbn [app] in Er; (eapply apply_series_head; [exact Er|]); [assumption|].
    inversion Hne'; assumption. }
  lia.
Qed.

Lemma eof_lastb_app cs : Forall (fun c => Scan.c_eof c = false) cs -> eof_lastb (cs ++ [Scan.ctrl_eof]) = true.
Proof.
  induction 1 as [|c cs Hc _ IH]; [reflexivity|]. cbn [app eof_lastb].
  destruct (cs ++ [Scan.ctrl_eof]) eqn:E; [destruct cs; discriminate|]. rewrite Hc, IH. reflexivity.
Qed.

Section BsdiffInstanceProofs.
  Variable bsz : Z.
  Variable search : list byte -> N -> list byte -> Z * Z.
  Variable partitions : Z.
  Hypothesis Hbsz : 0 < bsz.
  Hypothesis Hparts : 0 <= partitions.
  Hypothesis Hsearch : forall old bi, ScanProofs.search_in_range (Scan.len old) (search old bi).

  (** on byte strings of a length Go can hold, Do returns a series; C12's [bspatch] of it is
      the new file, and it is a series [den_bsdiff] accepts: the only eof control is the last,
      every seek is an int64 *)
  Lemma bsd_go_den old new :
    RoundtripProofs.bytes_ok old -> RoundtripProofs.bytes_ok new -> Scan.len old < 2^63 ->
    exists b, bsd_go bsz search partitions old new = Scan.Ok b /\ den_bsdiff b old = Some new.
  Proof.
    intros Ho Hn Hlen.
    destruct (RoundtripProofs.bsdiff_do_gen_roundtrip true bsz (search old) partitions old new Hbsz Hparts (Hsearch old) Ho Hn
                (or_introl eq_refl))
      as (cs & Edo & Hne & Hpatch).
    exists (cs ++ [Scan.ctrl_eof]). split; [exact Edo|].
    unfold Bsdiff.Patch.bspatch in Hpatch.
    destruct (Bsdiff.Patch.apply_series old 0 (cs ++ [Scan.ctrl_eof])) as [[o offf]|] eqn:Ea; [|discriminate].
    destruct (Scan.len o =? Scan.len new); [|discriminate]. injection Hpatch as ->.
    unfold den_bsdiff. rewrite (eof_lastb_app cs Hne), Ea. cbn [option_map fst].
    assert (Hseek : forallb seek_okb (cs ++ [Scan.ctrl_eof]) = true); [|rewrite Hseek; reflexivity].
    unfold Scan.len in Hlen.
    assert (Hbound : forall c, - Z.of_nat (length old) <= Scan.c_seek c <= Z.of_nat (length old) -> seek_okb c = true).
    { intros c Hc. unfold seek_okb. lia. }
    destruct (bsdiff_do_tail _ _ _ _ _ _ Edo) as [E|(pre & a & c & E)].
    - rewrite E. reflexivity.
    - apply app_inj_tail in E. destruct E as [-> _].
      apply Forall_app in Hne. destruct Hne as [Hpre _].
      pose proof (apply_series_seeks old (a, c, 0, false) Scan.ctrl_eof pre 0 new offf Hpre eq_refl Ea) as Hb.
      rewrite !forallb_app. cbn [forallb]. rewrite andb_true_r.
      apply andb_true_intro. split; [|reflexivity].
      apply forallb_forall. intros x Hx. apply Hbound. rewrite Forall_forall in Hb. apply Hb. assumption.
  Qed.

  (** C07's hypothesis [bsdiff_roundtrip] for the instance - for ALL contents *)
  Lemma bsd_series_roundtrip : forall old new, den_bsdiff (bsd_series bsz search partitions old new) old = Some new.
  Proof.
    intros old new. unfold bsd_series.
    destruct (bytes_okb old && bytes_okb new && (Scan.len old <? 2^63)) eqn:G; [|apply copy_series_den].
    apply andb_prop in G. destruct G as [G G3]. apply andb_prop in G. destruct G as [G1 G2].
    apply bytes_okb_spec in G1. apply bytes_okb_spec in G2. apply Z.ltb_lt in G3.
    destruct (bsd_go_den old new G1 G2 G3) as (b & -> & Hd). exact Hd.
  Qed.

  (** ... and on bytes the instance is Do's own output: Do does not fail *)
  Lemma bsd_series_is_go old new :
    RoundtripProofs.bytes_ok old -> RoundtripProofs.bytes_ok new -> Scan.len old < 2^63 ->
    bsd_go bsz search partitions old new = Scan.Ok (bsd_series bsz search partitions old new).
  Proof.
    intros Ho Hn Hlen. unfold bsd_series.
    rewrite (proj2 (bytes_okb_spec old) Ho), (proj2 (bytes_okb_spec new) Hn), (proj2 (Z.ltb_lt _ _) Hlen). cbn [andb].
    destruct (bsd_go_den old new Ho Hn Hlen) as (b & -> & _). reflexivity.
  Qed.
End BsdiffInstanceProofs.

Lemma psa_oracle_in_range partitions :
  forall old bi, ScanProofs.search_in_range (Scan.len old) (psa_oracle partitions old bi).
Proof. intros old bi. unfold psa_oracle. apply SuffixProofs.psa_search_in_range. Qed.


Lemma preferred_from_range files p : forall i acc,
  preferred_from files p i acc = acc \/ i <= preferred_from files p i acc < i + Z.of_nat (length files).
Proof.
  induction files as [|[q sz] files IH]; intros i acc; cbn [preferred_from length]; [left; reflexivity|].
  destruct (IH (i + 1) (if path_eqb q p then i else acc)) as [E|E].
  - rewrite E. destruct (path_eqb q p); [right; lia|left; reflexivity].
  - right. lia.
Qed.

Lemma same_path_in_range oldC p k : same_path oldC p = Some k -> in_range (tsizes_of oldC) k.
Proof.
  unfold same_path, preferred_index, in_range, tsizes_of. rewrite map_length.
  destruct (preferred_from_range (c_files oldC) p 0 (-1)) as [E|E].
  - rewrite E. cbn. discriminate.
  - destruct (preferred_from (c_files oldC) p 0 (-1) <? 0) eqn:E0; [discriminate|]. intros [= <-]. lia.
Qed.

Lemma tsizes_length old : length (contents_of old) = length (tsizes_of (container_of old)).
Proof. unfold contents_of, tsizes_of. cbn [container_of c_files]. rewrite !map_length. reflexivity. Qed.

(** the analysis never indexes the old container out of range on ops whose ranges are in bounds *)
Lemma scan_ops_total bs olds tsizes ops :
  length olds = length tsizes -> Forall (range_ok bs olds) ops ->
  forall s, exists s', scan_ops bs tsizes (map sop_of ops) s = Some s'.
Proof.
  intros Hlen. induction 1 as [|o ops Ho _ IH]; intros s; cbn [map scan_ops]; [eexists; reflexivity|].
  destruct o as [f i sp|d]; cbn [sop_of]; [|apply IH].
  destruct Ho as (d & Hd & _). apply znth_Some in Hd.
  destruct (f <? 0) eqn:Ef; [lia|].
  destruct (nth_error tsizes (Z.to_nat f)) as [size|] eqn:En; [apply IH|].
  apply nth_error_None in En. lia.
Qed.

Section Valid.
  Variables (bs : Z) (differ : Z -> list byte -> list op) (old : build).
  Hypothesis DOK : diff_ok bs (contents_of old) differ.

  (** C07's [original_correct] for the series WritePatch emits: what C01 assumes of the differ *)
  Lemma original_correct_instance f ord :
    let '(_, _, _, _, orig, new) := file_in_of differ (container_of old) f ord in
    den_rsync bs orig (contents_of old) = Some new.
  Proof.
    unfold file_in_of, den_rsync. destruct (DOK (preferred_index (container_of old) (fst f)) (snd f)) as (_ & -> & _). reflexivity.
  Qed.

  Lemma file_valid_instance f ord :
    order_ok bs (tsizes_of (container_of old)) (file_in_of differ (container_of old) f ord) ->
    file_valid (den_rsync bs) bs (tsizes_of (container_of old)) (contents_of old) (file_in_of differ (container_of old) f ord).
  Proof.
    intros Hord. pose proof (original_correct_instance f ord) as Hoc.
    unfold file_in_of in *. cbn beta iota zeta in *. unfold file_valid. split; [|split].
    - destruct (DOK (preferred_index (container_of old) (fst f)) (snd f)) as (_ & _ & Hall).
      destruct (scan_ops_total bs _ _ _ (tsizes_length old) Hall scan0) as (s' & E).
      assert (Er : reused bs (tsizes_of (container_of old))
                     (map sop_of (differ (preferred_index (container_of old) (fst f)) (snd f))) = Some (sm s'))
        by (unfold reused; rewrite E; reflexivity).
      exists (sm s'). split; [exact Er|]. apply Hord. exact Er.
    - intros k. apply same_path_in_range.
    - exact Hoc.
  Qed.
End Valid.


Lemma analyze_all_shape {Content RSeries : Type} bs force limit tsizes :
  forall (fs : list (@file_in Content RSeries)) xs,
    analyze_all bs force limit tsizes fs = Some xs ->
    map fst xs = map (fun f : @file_in Content RSeries => (snd (fst f), snd f)) fs.
Proof.
  induction fs as [|[[[[[ssize sp] ops] ord] orig] new] fs IH]; intros xs H; cbn [analyze_all] in H.
  - injection H as <-. reflexivity.
  - destruct (analyze_file bs force limit tsizes ssize sp ops ord); [|discriminate].
    destruct (analyze_all bs force limit tsizes fs) as [xs'|]; [|discriminate].
    injection H as <-. cbn [map fst snd]. rewrite (IH xs' eq_refl). reflexivity.
Qed.


Lemma render_all_original differ oldC : forall fs i,
  render_all i (map (fun f : path * list byte => Rsync (differ (preferred_index oldC (fst f)) (snd f))) fs)
  = all_series differ oldC i fs.
Proof.
  induction fs as [|f fs IH]; intros i; cbn [map render_all all_series]; [reflexivity|].
  rewrite IH. reflexivity.
Qed.

(** kind and frames of a series, as [series_msgs] takes them *)
Definition body (s : oseries) : Z * list pmsg :=
  match s with
  | Rsync ops => (SH_RSYNC, map op_msg ops ++ [hey_msg])
  | Bsdiff t b => (SH_BSDIFF, MBH (mkBH t) :: map ctrl_msg b ++ [hey_msg])
  end.

Lemma render_all_msgs : forall ss i, render_all i ss = series_msgs i (map body ss).
Proof.
  induction ss as [|s ss IH]; intros i; cbn [render_all map series_msgs]; [reflexivity|].
  rewrite IH. destruct s; reflexivity.
Qed.

(** what [den_rsync] does not say of an rsync series and C01 needs: at least one operation, every
    range in bounds *)
Definition ranges_ok (bs : Z) (olds : list (list byte)) (s : oseries) : Prop :=
  match s with
  | Rsync r => r <> [] /\ Forall (range_ok bs olds) r
  | Bsdiff _ _ => True
  end.

Lemma optimize_Forall2 {Content RSeries BSeries : Type} (bsd : Content -> Content -> BSeries) olds :
  forall (xs : list (RSeries * Content * option (Z * Z))) opt,
    optimize bsd olds xs = Some opt -> Forall2 (fun x s => optimize_file bsd olds x = Some s) xs opt.
Proof.
  induction xs as [|x xs IH]; intros opt H; cbn [optimize] in H.
  - injection H as <-. constructor.
  - destruct (optimize_file bsd olds x) as [s|] eqn:E; [|discriminate].
    destruct (optimize bsd olds xs) as [ss|]; [|discriminate]. injection H as <-.
    constructor; [assumption|apply IH; reflexivity].
Qed.

Section Apply.
  Variables (bs : Z) (old new : build).
  Hypothesis Hbs : 0 < bs.
  Hypothesis FO : fits63 old.

  Let oldC := container_of old.
  Let newC := container_of new.
  Let olds := contents_of old.

  Lemma denotes_writes f sr :
    apply_series (den_rsync bs) den_bsdiff olds sr = Some (snd f) -> ranges_ok bs olds sr ->
    writes bs oldC olds new f (body sr).
  Proof.
    destruct f as [p data]. destruct sr as [r|t b]; cbn [apply_series ranges_ok body fst snd].
    - intros [= Hrep] [Hne Hall]. apply (rsync_series_writes bs old new Hbs FO r (p, data)). repeat split; assumption.
    - intros Hden _. destruct (t <? 0) eqn:Et; [discriminate|].
      destruct (nth_error olds (Z.to_nat t)) as [o|] eqn:En; [|discriminate].
      assert (Ho : znth olds t = Some o) by (unfold znth; rewrite Et; exact En).
      split; [right; reflexivity|]. cbn [fst snd]. intros idx rest s Hfile Hready Hzero.
      unfold process_file. change (SH_BSDIFF =? SH_RSYNC) with false. cbn [app]. rewrite <- app_assoc. cbn [app].
      destruct (old_aligned old t o Ho) as [pt Hc].
      pose proof (znth_Some _ _ _ Ho) as Ht. unfold olds, contents_of in Ht. rewrite map_length in Ht.
      destruct FO as [Fo _].
      apply (process_bsdiff_realized oldC newC olds idx p data t pt (Z.of_nat (length o)) o b rest s); try assumption;
        [apply new_file_entry; assumption|lia].
  Qed.

  Lemma denotes_all_write : forall (fs : list (path * list byte)) opt,
    apply_patch (den_rsync bs) den_bsdiff olds opt = map (fun f => Some (snd f)) fs -> Forall (ranges_ok bs olds) opt ->
    Forall2 (writes bs oldC olds new) fs (map body opt).
  Proof.
    induction fs as [|f fs IH]; intros [|sr opt] E HR; try discriminate; [constructor|].
    cbn [apply_patch map] in *. injection E as E1 E. inversion HR; subst.
    constructor; [apply denotes_writes|apply IH]; assumption.
  Qed.
End Apply.

Lemma apply_rendered_fresh bs old new algo quality (opt : list oseries) :
  0 < bs -> wf_build new -> fits63 old -> fits63 new ->
  apply_patch (den_rsync bs) den_bsdiff (contents_of old) opt = map (fun f => Some (snd f)) (files_of new) ->
  Forall (ranges_ok bs (contents_of old)) opt ->
  exists t touched trace,
    apply_patch_fresh bs (contents_of old) None (optimized_patch algo quality old new opt) = Ok (t, touched, trace) /\
    touched = Z.of_nat (length (files_of new)) /\
    forall p, tlookup t p = tlookup new p.
Proof.
  intros Hbs WFN FO FN Hden HR. unfold apply_patch_fresh, optimized_patch, read_patch.
  rewrite frames_msgs_map, render_all_msgs. cbn [option_map].
  apply (apply_series_all bs _ _ new WFN FN), denotes_all_write; assumption.
Qed.


Lemma file_ins_originals differ old new ords :
  length ords = length (files_of new) ->
  map (fun f : @file_in (list byte) rseries => (snd (fst f), snd f)) (file_ins differ old new ords) = originals differ old new.
Proof.
  unfold file_ins, originals. generalize (files_of new) as fs. intros fs. revert ords.
  induction fs as [|f fs IH]; intros [|o ords] H; cbn [length combine map] in *; try reflexivity; try discriminate.
  rewrite IH by lia. reflexivity.
Qed.

Lemma write_patch_as_rendered differ algo quality old new :
  write_patch differ algo quality old new = optimized_patch algo quality old new (map (fun x => Rsync (fst x)) (originals differ old new)).
Proof.
  unfold write_patch, optimized_patch, patch_msgs, originals. rewrite map_map. cbn [fst].
  rewrite render_all_original. reflexivity.
Qed.

Section Compose.
  Variables (bs : Z) (differ : Z -> list byte -> list op) (old new : build).
  Variables (bsz : Z) (search : list byte -> N -> list byte -> Z * Z) (partitions : Z).
  Hypothesis Hbs : 0 < bs.
  Hypothesis WFN : wf_build new.
  Hypothesis FO : fits63 old.
  Hypothesis FN : fits63 new.
  Hypothesis DOK : diff_ok bs (contents_of old) differ.
  Hypothesis BO : build_bytes old.
  Hypothesis BN : build_bytes new.
  Hypothesis Hbsz : 0 < bsz.
  Hypothesis Hparts : 0 <= partitions.
  Hypothesis Hsearch : forall o bi, ScanProofs.search_in_range (Scan.len o) (search o bi).

  Let olds := contents_of old.
  Let bsd := bsd_series bsz search partitions.

  Lemma realize_series : forall xs (fs : list (path * list byte)) opt,
    map fst xs = map (fun f => (differ (preferred_index (container_of old) (fst f)) (snd f), snd f)) fs ->
    Forall RoundtripProofs.bytes_ok (map snd fs) ->
    optimize bsd olds xs = Some opt ->
    Forall2 (written_by_go bsz search partitions olds) xs opt /\ Forall (ranges_ok bs olds) opt.
  Proof.
    induction xs as [|[[orig newc] mapping] xs IH]; intros [|f fs] opt Hm Hb Eo; try discriminate; cbn [optimize] in Eo.
    - injection Eo as <-. split; constructor.
    - destruct (optimize_file bsd olds (orig, newc, mapping)) as [s|] eqn:Es; [|discriminate].
      destruct (optimize bsd olds xs) as [ss|]; [|discriminate]. injection Eo as <-.
      cbn [map] in *. injection Hm as Ho Hn Hm. inversion Hb as [|? ? Hb1 Hb2]; subst.
      destruct (IH fs ss Hm Hb2 eq_refl) as [Hgo HR].
      apply optimize_file_cases in Es. cbn [fst snd] in Es.
      destruct mapping as [[t nb]|]; [destruct Es as (Et & o & Hn & ->)|subst s]; (split; constructor; try assumption).
      + (* a mapped file: on bytes the instance is Do's own output *)
        exists o, (bsd o (snd f)). split; [unfold znth; rewrite Et; exact Hn|]. split; [|reflexivity].
        apply nth_error_In in Hn. apply bsd_series_is_go; try assumption.
        * unfold build_bytes in BO. rewrite Forall_forall in BO. apply BO. exact Hn.
        * destruct FO as [_ Fl]. rewrite Forall_forall in Fl. apply Fl. exact Hn.
      + exact I.
      + reflexivity.
      + (* an unmapped file keeps the differ's operations *)
        destruct (DOK (preferred_index (container_of old) (fst f)) (snd f)) as (Hne & _ & Hall). split; assumption.
  Qed.

  (** whatever series list the second pass returns for the files of the patch, if C07's
      abstract application of it yields the new files then (a) it is what the Go code writes
      and (b) the C01 patcher applied to its frames yields the new build *)
  Lemma realize xs opt algo quality :
    map fst xs = originals differ old new ->
    optimize bsd olds xs = Some opt ->
    apply_patch (den_rsync bs) den_bsdiff olds opt = map (fun x => Some (snd (fst x))) xs ->
    Forall2 (written_by_go bsz search partitions olds) xs opt /\
    exists t touched trace,
      apply_patch_fresh bs olds None (optimized_patch algo quality old new opt) = Ok (t, touched, trace) /\
      touched = Z.of_nat (length (files_of new)) /\
      forall p, tlookup t p = tlookup new p.
  Proof.
    intros Hxs Eo En. destruct (realize_series xs (files_of new) opt Hxs BN Eo) as [Hgo HR].
    split; [exact Hgo|]. apply apply_rendered_fresh; try assumption.
    fold olds. rewrite En, <- (map_map fst (fun od : rseries * list byte => Some (snd od)) xs), Hxs.
    unfold originals. rewrite map_map. reflexivity.
  Qed.

  (** the first pass on the files of [write_patch], every parameter setting, every iteration order of
      every reused-bytes map: mappings for exactly these files, every mapped index in range *)
  Lemma analyze_instance force limit ords :
    length ords = length (files_of new) ->
    Forall (order_ok bs (tsizes_of (container_of old))) (file_ins differ old new ords) ->
    exists xs,
      analyze_all bs force limit (tsizes_of (container_of old)) (file_ins differ old new ords) = Some xs /\
      map fst xs = originals differ old new /\ Forall (mapping_in_range olds) xs.
  Proof.
    intros Hlen Hord.
    assert (Hv : Forall (file_valid (den_rsync bs) bs (tsizes_of (container_of old)) olds) (file_ins differ old new ords)).
    { unfold file_ins in *. rewrite Forall_map in *. rewrite Forall_forall in *. intros fo Hin.
      apply file_valid_instance; [exact DOK|]. apply Hord. assumption. }
    destruct (analyze_all_sound (den_rsync bs) bs force limit _ olds (tsizes_length old) _ Hv) as (xs & Ea & Hr & _).
    exists xs. split; [exact Ea|]. split; [|exact Hr].
    rewrite (analyze_all_shape _ _ _ _ _ _ Ea). apply file_ins_originals, Hlen.
  Qed.
End Compose.

(** [run_bsd] of Exec/C12.v, the executable oracle of the C12 correspondence, is [bsd_go] with
    the naive partitioned suffix array, the code's binary search and 128 KiB scan blocks *)
Lemma bsd_go_run_bsd partitions o n :
  bsd_go C12.GO_BLOCK (psa_oracle partitions) partitions o n = C12.run_bsd partitions o n.
Proof. reflexivity. Qed.
