(** Models that were transcribed more than once agree - pair 4 of Compose/ModelsAgree.v: uvarint.

    encoding/binary's [PutUvarint] / [ReadUvarint] are modelled by Wire/Uvarint.v
    [uvarint_enc] / [uvarint_read] (C13: the length prefix of every wire message) and again by
    Overlay/Codec.v [uvarint] / [get_uvarint] (C14: the executable overlay codec, both the
    length prefix and the proto3 varint fields).  Patch/Malformed.v (C10) has no byte-level
    varint: its frames are field lists that carry decoded varint VALUES ([V v]); that decoding
    table is compared with Patch/Reinterp.v in Compose/ModelsAgreeMalformedProofs.v ([dec_*_fld];
    [decoders_agree] in Properties/C10.v).

    Encoder: equal on every [uint64] (in fact below 2^70; beyond, C13's fuel of nine
    continuation bytes runs out - not a [uint64]).
    Decoder: equal whenever C13's reader does not report [errOverflow].  Difference found:
    Overlay/Codec.v has no overflow check - on a varint of more than ten bytes, or whose tenth
    byte is above 1, Go and the C13 model return an error where the C14 decoder returns a number
    ([uvarint_decoders_differ_on_overflow]).  C14 only decodes what its own writer produced, where
    this cannot happen; the C13 model is the faithful one. *)
From Coq Require Import ZifyBool ZifyNat ZifyN.
From Wharf Require Import Base.Prelude Wire.UvarintProofs.
From Wharf Require Wire.Uvarint Overlay.Codec Overlay.CodecProofs.
Local Open Scope N_scope.

Module WU := Wharf.Wire.Uvarint.
Module OC := Wharf.Overlay.Codec.

Lemma cont_byte_small r : r < 256 -> N.lor r 128 = 128 + r mod 128.
Proof. intros Hr. rewrite <- (cont_byte r). change 255 with (N.ones 8). now rewrite N.land_ones, N.mod_small. Qed.

Lemma lor_shiftl_add x b s : x < 2 ^ s -> N.lor x (N.shiftl b s) = x + N.shiftl b s.
Proof. intros Hx. now rewrite (lor_disjoint_add x b s Hx), N.shiftl_mul_pow2. Qed.

Lemma pow128_S k : 128 ^ N.of_nat (S k) = 128 * 128 ^ N.of_nat k.
Proof. rewrite Nat2N.inj_succ, N.pow_succ_r'. reflexivity. Qed.

Lemma enc_fuel_agree : forall f1 f2 x,
  x < 128 ^ N.of_nat (S f1) -> x < 128 ^ N.of_nat (S f2) ->
  WU.uvarint_enc_fuel f1 x = OC.uvarint_fuel f2 x.
Proof.
  assert (Hsmall : forall f x, x < 128 -> OC.uvarint_fuel f x = [x]).
  { intros [|f] x Hx; cbn [OC.uvarint_fuel]; [reflexivity|]. apply N.ltb_lt in Hx. rewrite Hx. reflexivity. }
  induction f1 as [|f1 IH]; intros f2 x H1 H2.
  - change (128 ^ N.of_nat 1) with 128 in H1. cbn [WU.uvarint_enc_fuel].
    rewrite land_255_small, Hsmall by lia. reflexivity.
  - rewrite enc_fuel_S. destruct (N.leb_spec 128 x) as [Hge|Hlt]; [|rewrite Hsmall by lia; reflexivity].
    destruct f2 as [|f2]; [change (128 ^ N.of_nat 1) with 128 in H2; lia|].
    cbn [OC.uvarint_fuel]. apply N.ltb_ge in Hge. rewrite Hge. f_equal.
    rewrite pow128_S in H1, H2. apply IH; lia.
Qed.

Lemma size_fuel_enough x : x < 128 ^ N.of_nat (S (N.to_nat (N.size x))).
Proof. exact (CodecProofs.uvarint_fuel_enough x). Qed.

Lemma uvarint_enc_agrees x : x < 2 ^ 70 -> WU.uvarint_enc x = OC.uvarint x.
Proof. intros Hx. apply enc_fuel_agree; [exact Hx | apply size_fuel_enough]. Qed.

Definition bytes_ok (l : list byte) : Prop := Forall (fun b => b < 256) l.

Lemma dec_loop_agree : forall l i x s,
  bytes_ok l -> x < 2 ^ s ->
  match WU.uv_loop l i x s with
  | WU.UvOk v _ r => OC.get_uvarint l s x = Some (v, r)
  | WU.UvErr WU.UvOverflow _ => True
  | WU.UvErr _ _ => OC.get_uvarint l s x = None
  end.
Proof.
  induction l as [|b r IH]; intros i x s Hb Hx.
  - cbn [WU.uv_loop OC.get_uvarint]. destruct (i =? 0); reflexivity.
  - inversion Hb as [|? ? Hb0 Hbr]; subst. cbn [WU.uv_loop OC.get_uvarint].
    rewrite !lor_shiftl_add by assumption.
    destruct (N.ltb_spec b 128) as [Hlt|Hge].
    + destruct ((i =? 9) && (1 <? b)); [exact I | reflexivity].
    + destruct (i =? 9); [exact I|]. rewrite land_127 by lia.
      apply IH; [assumption|]. rewrite N.shiftl_mul_pow2, pow2_add7. nia.
Qed.

Lemma uvarint_read_agrees (l : list byte) :
  bytes_ok l ->
  match WU.uvarint_read l with
  | WU.UvOk v _ r => OC.get_uvarint l 0 0 = Some (v, r)
  | WU.UvErr WU.UvOverflow _ => True
  | WU.UvErr _ _ => OC.get_uvarint l 0 0 = None
  end.
Proof. intros Hb. unfold WU.uvarint_read. apply dec_loop_agree; [assumption|reflexivity]. Qed.

Lemma uvarint_dec_agrees (l : list byte) v r :
  bytes_ok l -> WU.uvarint_dec l = Some (v, r) -> OC.get_uvarint l 0 0 = Some (v, r).
Proof.
  intros Hb. unfold WU.uvarint_dec. pose proof (uvarint_read_agrees l Hb) as H.
  destruct (WU.uvarint_read l) as [v' c r'|e c]; [|discriminate]. intros [= <- <-]. exact H.
Qed.

(** the difference: eleven bytes / a tenth byte of 2 *)
Lemma uvarint_decoders_differ_on_overflow_lemma :
  (WU.uvarint_read (repeat 128 10 ++ [0]) = WU.UvErr WU.UvOverflow 10 /\
   OC.get_uvarint (repeat 128 10 ++ [0]) 0 0 = Some (0, [])) /\
  (WU.uvarint_read (repeat 128 9 ++ [2]) = WU.UvErr WU.UvOverflow 10 /\
   OC.get_uvarint (repeat 128 9 ++ [2]) 0 0 = Some (2 ^ 64, [])).
Proof. repeat split. Qed.

Theorem uvarint_models_agree_lemma :
  (forall x : N, x < 2 ^ 64 -> WU.uvarint_enc x = OC.uvarint x) /\
  (forall l : list byte, Forall (fun b => b < 256) l ->
     match WU.uvarint_read l with
     | WU.UvOk v _ r => OC.get_uvarint l 0 0 = Some (v, r)
     | WU.UvErr WU.UvOverflow _ => True
     | WU.UvErr _ _ => OC.get_uvarint l 0 0 = None
     end).
Proof.
  split.
  - intros x Hx. apply uvarint_enc_agrees. apply N.lt_trans with (2 ^ 64); [assumption|reflexivity].
  - exact uvarint_read_agrees.
Qed.
