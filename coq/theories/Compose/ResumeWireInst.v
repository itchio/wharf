(** C03 x C13 - the reader hypothesis of the C03 theorems for the wire instance of
    Compose/ResumeWire.v ([resume_equiv_wire_instance] in Properties/C03.v).

    [resume_equiv] asks [src_resume off src = Some off] of ALL pairs [src <= off].  The faithful
    instance [src_resume_w] cannot answer for all of them: [src] names the source checkpoint
    handed out during the read of message [src], which exists only when the source did hand one
    out ([emit_w src]) and lies (for a decompressing source) anywhere up to the END of that
    message, so that [ReadContext.Resume] is only guaranteed to work for [src < off]; and [off]
    must be a message boundary of the stream ([off <= length msgs]).  That is [wf_mc], all C13
    gives - and all C03 needs: it is what a reader can pop ([popped], Patch/ResumeStep.v), hence
    what is offered ([offered_popped]), and [resumed_run_equiv] (Patch/ResumeProofs.v) asks the
    reader for no more ([H_popped] in place of [H_wire]). *)
From Wharf Require Import Base.Prelude Patch.Resume Patch.ResumeStep Patch.ResumeProofs
  Wire.Reader Wire.ReaderProofs
  Compose.ResumeWire Compose.ResumeWireProofs.

Section Inst.
  Variables D RAW WS WCK : Type.
  Variable dlen : D -> N.
  Variable blocksize : N.
  Variables tsize ssize : N -> N.
  Variable nfiles : N.
  Variable range_data : N -> N -> N -> D.
  Variable bs_data : N -> Z -> D -> D -> D.
  Variable w_open  : N -> option (N * WCK) -> RAW -> option (WS * RAW).
  Variable w_write : N -> WS -> RAW -> D -> WS * RAW.
  Variable w_save  : N -> WS -> RAW -> (N * WCK) * WS * RAW.
  Variable w_final : N -> WS -> RAW -> RAW.
  Variable w_tell  : WS -> N.
  Variable fresh : bool.
  Variable is_overlay : N -> bool.
  Variable prepare : N -> RAW -> RAW.
  Variable copy_old : N -> RAW.
  Variable raw_ok : N -> RAW -> Prop.
  Variable covers : N -> N * WCK -> RAW -> RAW -> Prop.

  Variable marshal : msg D -> list byte.
  Variable beh : behaviour.
  Variable cap0 : N.
  Variable msgs : list (msg D).

  Local Notation emitW := (emit_w marshal msgs beh).
  Local Notation srW := (src_resume_w marshal msgs beh cap0).
  Local Notation state := (state RAW WS WCK).
  Local Notation srd := (s_rd RAW WS WCK).
  Local Notation soffers := (s_offers RAW WS WCK).
  Local Notation stepW := (Resume.step D RAW WS WCK dlen blocksize tsize ssize range_data bs_data w_open w_write w_save w_final w_tell fresh is_overlay copy_old emitW).
  Local Notation runW := (Resume.run D RAW WS WCK dlen blocksize tsize ssize nfiles range_data bs_data w_open w_write w_save w_final w_tell fresh is_overlay copy_old emitW).

  (** [wf_mc] unfolds to [popped emitW (length msgs)] (Patch/ResumeStep.v) *)
  Definition ck_wf (x : ckpt WCK * (N -> RAW)) : Prop := wf_mc marshal msgs beh (ck_msg _ (fst x)).

  Lemma step_wf : forall sched stop (s : state) m,
    rd_wf emitW (srd s) -> (Resume.r_pos (srd s) < length msgs)%nat -> Forall ck_wf (soffers s) ->
    match stepW sched stop s m with
    | Running _ _ _ s' => rd_wf emitW (srd s') /\ Resume.r_pos (srd s') = S (Resume.r_pos (srd s)) /\ Forall ck_wf (soffers s')
    | Stopped _ _ _ s' => Forall ck_wf (soffers s')
    | Finished _ _ _ _ => False
    | Failed _ _ _ => True
    end.
  Proof. intros sched stop. exact (step_popped D RAW WS WCK dlen blocksize tsize ssize range_data bs_data w_open w_write w_save w_final w_tell fresh is_overlay copy_old emitW sched stop (length msgs)). Qed.

  Lemma run_wf : forall sched stop ms (s : state),
    rd_wf emitW (srd s) -> (length ms <= length msgs - Resume.r_pos (srd s))%nat -> Forall ck_wf (soffers s) ->
    match runW sched stop s ms with
    | Running _ _ _ s' | Finished _ _ _ s' | Stopped _ _ _ s' => Forall ck_wf (soffers s')
    | Failed _ _ _ => True
    end.
  Proof. intros sched stop. exact (run_popped D RAW WS WCK dlen blocksize tsize ssize nfiles range_data bs_data w_open w_write w_save w_final w_tell fresh is_overlay copy_old emitW sched stop (length msgs)). Qed.

  Lemma offered_wf : forall d0 ck d,
    offered D RAW WS WCK dlen blocksize tsize ssize nfiles range_data bs_data w_open w_write w_save w_final w_tell fresh is_overlay
            prepare copy_old emitW srW raw_ok covers msgs d0 ck d ->
    wf_mc marshal msgs beh (ck_msg _ ck).
  Proof. intros d0. exact (offered_popped _ _ _ _ _ _ _ _ _ _ _ _ _ _ _ _ _ _ _ _ _ _ _ _ _ _). Qed.

  Lemma wire_H_popped : beh_sound beh -> H_popped emitW srW (length msgs).
  Proof. intros Hbeh [off src]. exact (src_resume_w_ok marshal msgs beh cap0 Hbeh off src). Qed.
End Inst.
