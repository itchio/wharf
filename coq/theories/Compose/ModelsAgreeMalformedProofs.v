(** Proofs for Compose/ModelsAgreeMalformed.v: the C01 model (Patch/Patcher.v) and the C10 model
    (Patch/Malformed.v, the code after the fixes: [fx = true]) of pwr/patcher agree: the two
    proto3 decoding tables (Patch/Reinterp.v [dec_*], Patch/Malformed.v [dec_*]), the relay loop,
    processRsync, processBsdiff, skipFile, the Resume loop.  For bsdiff no hypothesis about
    offsets is needed: an old-offset that overflowed int64 is rejected by the next Seek in C10
    exactly where the un-wrapped offset is rejected in C01.

    Difference found: C01 computes in unbounded integers ([relay_models_differ_on_wrapping_seek],
    Properties/C10.v):
    for an op whose [blockSize * BlockIndex] is 2^63 Go's product wraps to a negative offset
    and Seek fails (C10: [Err]); the C01 model seeks beyond the end of the file, copies nothing
    and goes on ([Ok]).  Hence the hypothesis [seek_fits]. *)
From Coq Require Import ZifyBool ZifyNat ZifyN.
From Wharf Require Import Base.Prelude Base.ListLemmas Bowl.Fresh Bowl.FreshProofs Patch.Reinterp Patch.Stream Patch.Patcher
     Patch.PatcherProofs Compose.ModelsAgreeMalformed.
From Wharf Require Patch.Malformed Patch.MalformedProofs.
Module MP := Wharf.Patch.MalformedProofs.
Local Open Scope Z_scope.


Definition u64 (u : Z) : Prop := 0 <= u < 2^64.
Definition fields_ok (fs : list wfield) : Prop :=
  Forall (fun f => match snd f with WVarint u => u64 u | WBytes _ => True end) fs.

Lemma get_varint_fld n fs : forall acc, M.get_varint n (map fld fs) acc = get_varint n fs acc.
Proof.
  induction fs as [|[k [u|b]] r IH]; intros acc; cbn [map fld M.get_varint get_varint]; auto.
Qed.

Lemma get_len_fld n fs : forall acc,
  M.get_len n (map fld fs) (Z.of_nat (length acc)) = Z.of_nat (length (get_bytes n fs acc)).
Proof.
  induction fs as [|[k [u|b]] r IH]; intros acc; cbn [map fld M.get_len get_bytes]; auto.
  destruct (k =? n); apply IH.
Qed.

Lemma get_varint_range n fs : forall acc, fields_ok fs -> u64 acc -> u64 (get_varint n fs acc).
Proof.
  induction fs as [|[k [u|b]] r IH]; intros acc Hf Ha; cbn [get_varint]; [assumption| |];
    inversion Hf as [|? ? Hx Hr]; subst; cbn [snd] in Hx.
  - apply IH; [assumption|]. destruct (k =? n); assumption.
  - apply IH; assumption.
Qed.

Lemma wrap64_i64_of_u64 u : u64 u -> M.wrap64 u = i64_of_u64 u.
Proof.
  unfold u64, M.wrap64, i64_of_u64. intros Hu. destruct (Z.ltb_spec u (2^63)); lia.
Qed.

Lemma wrap32_i32_of_u64 u : M.wrap32 u = i32_of_u64 u.
Proof.
  unfold M.wrap32, i32_of_u64. destruct (Z.ltb_spec (u mod 2^32) (2^31)); lia.
Qed.

Lemma i64_of_u64_range u : u64 u -> i64 (i64_of_u64 u).
Proof.
  unfold u64, i64, i64_of_u64. intros Hu. destruct (Z.ltb_spec u (2^63)); lia.
Qed.

Lemma u64_0 : u64 0.
Proof. unfold u64. lia. Qed.

Lemma f_varint_ok n v : fields_ok (f_varint n v).
Proof.
  unfold f_varint. destruct (v =? 0); constructor; [|constructor].
  cbn [snd]. unfold u64, u64_of_i64. lia.
Qed.
Lemma f_bytes_ok n b : fields_ok (f_bytes n b).
Proof. unfold f_bytes. destruct b; constructor; [exact I|constructor]. Qed.
Lemma f_bool_ok n b : fields_ok (f_bool n b).
Proof. unfold f_bool. destruct b; constructor; [|constructor]. cbn [snd]. unfold u64. lia. Qed.

Lemma fields_ok_app a b : fields_ok a -> fields_ok b -> fields_ok (a ++ b).
Proof. intros Ha Hb. apply Forall_app. split; assumption. Qed.

(** every frame C01 can write (and C01 reads nothing else) carries varints below 2^64 *)
Lemma fields_of_ok m : fields_ok (fields_of m).
Proof.
  destruct m as [x|x|x|x]; cbn [fields_of]; unfold fields_sh, fields_so, fields_bh, fields_ct;
    repeat (apply fields_ok_app || apply f_varint_ok || apply f_bytes_ok || apply f_bool_ok).
Qed.

Section Decode.
  Variable fs : list wfield.
  Hypothesis fs_ok : fields_ok fs.

  Lemma f_int64_fld n : M.f_int64 n (map fld fs) = i64_of_u64 (get_varint n fs 0).
  Proof.
    unfold M.f_int64. rewrite get_varint_fld. apply wrap64_i64_of_u64.
    apply get_varint_range; [exact fs_ok|exact u64_0].
  Qed.
  Lemma f_enum_fld n : M.f_enum n (map fld fs) = i32_of_u64 (get_varint n fs 0).
  Proof. unfold M.f_enum. rewrite get_varint_fld. apply wrap32_i32_of_u64. Qed.
  Lemma f_bool_fld n : M.f_bool n (map fld fs) = bool_of_u64 (get_varint n fs 0).
  Proof. unfold M.f_bool. rewrite get_varint_fld. reflexivity. Qed.
  Lemma f_bytes_fld n : M.f_bytes n (map fld fs) = Z.of_nat (length (get_bytes n fs [])).
  Proof. unfold M.f_bytes. exact (get_len_fld n fs []). Qed.

  (** the two transcriptions of proto3 unmarshalling: same message, payloads seen as lengths *)
  Lemma dec_sh_fld : M.dec_sh (map fld fs) = len_sh (dec_sh fs).
  Proof. unfold M.dec_sh, dec_sh, len_sh. cbn [sh_type sh_file]. rewrite f_enum_fld, f_int64_fld. reflexivity. Qed.
  Lemma dec_op_fld : M.dec_op (map fld fs) = len_so (dec_so fs).
  Proof.
    unfold M.dec_op, dec_so, len_so. cbn [so_type so_file so_block so_span so_data].
    rewrite f_enum_fld, !f_int64_fld, f_bytes_fld. reflexivity.
  Qed.
  Lemma dec_bh_fld : M.dec_bh (map fld fs) = bh_target (dec_bh fs).
  Proof. unfold M.dec_bh, dec_bh. cbn [bh_target]. apply f_int64_fld. Qed.
  Lemma dec_ctl_fld : M.dec_ctl (map fld fs) = len_ct (dec_ct fs).
  Proof.
    unfold M.dec_ctl, dec_ct, len_ct. cbn [ct_add ct_copy ct_seek ct_eof].
    rewrite !f_bytes_fld, f_int64_fld, f_bool_fld. reflexivity.
  Qed.
  Lemma dec_ct_seek_i64 : i64 (ct_seek (dec_ct fs)).
  Proof.
    unfold dec_ct. cbn [ct_seek]. apply i64_of_u64_range. apply get_varint_range; [exact fs_ok|exact u64_0].
  Qed.
End Decode.

Lemma read_frame m r : M.read (frame_of m :: r) = Some (map fld (fields_of m), r).
Proof. reflexivity. Qed.
Lemma read_stream m r : M.read (stream_of (m :: r)) = Some (map fld (fields_of m), stream_of r).
Proof. reflexivity. Qed.
Lemma dec_sh_frame m : M.dec_sh (map fld (fields_of m)) = len_sh (as_sh m).
Proof. apply dec_sh_fld, fields_of_ok. Qed.
Lemma dec_op_frame m : M.dec_op (map fld (fields_of m)) = len_so (as_so m).
Proof. apply dec_op_fld, fields_of_ok. Qed.
Lemma dec_bh_frame m : M.dec_bh (map fld (fields_of m)) = bh_target (as_bh m).
Proof. apply dec_bh_fld, fields_of_ok. Qed.
Lemma dec_ctl_frame m : M.dec_ctl (map fld (fields_of m)) = len_ct (as_ct m).
Proof. apply dec_ctl_fld, fields_of_ok. Qed.
Lemma hey_frame m : (M.op_type (M.dec_op (map fld (fields_of m))) =? M.HEY) = (so_type (as_so m) =? HEY).
Proof. rewrite dec_op_frame. reflexivity. Qed.
Lemma as_ct_seek_i64 m : i64 (ct_seek (as_ct m)).
Proof. apply dec_ct_seek_i64, fields_of_ok. Qed.


Lemma in_range_sizes (c : container) (f : Z) :
  M.in_range (sizes_of c) f = (0 <=? f) && (f <? Z.of_nat (length (c_files c))).
Proof. unfold M.in_range, sizes_of. rewrite map_length. reflexivity. Qed.

Lemma nth_size_znth (c : container) (f : Z) : M.nth_size (sizes_of c) f = option_map snd (znth (c_files c) f).
Proof.
  unfold M.nth_size, M.in_range, znth, sizes_of. rewrite map_length, nth_error_map.
  destruct (Z.ltb_spec f 0); [destruct (Z.leb_spec 0 f); [lia|reflexivity]|].
  destruct (Z.leb_spec 0 f); [|lia]. cbn [andb].
  destruct (Z.ltb_spec f (Z.of_nat (length (c_files c)))); [reflexivity|].
  rewrite (proj2 (nth_error_None _ _)) by lia. reflexivity.
Qed.

Lemma aligned_znth c olds f p sz :
  aligned c olds -> znth (c_files c) f = Some (p, sz) -> exists d, znth olds f = Some d /\ sz = Z.of_nat (length d).
Proof.
  unfold aligned, znth. destruct (f <? 0); [discriminate|]. generalize (Z.to_nat f) as n.
  intros n Hal. revert n. induction Hal as [|x d l l' Hx Hl IH]; intros n Hn.
  - destruct n; discriminate.
  - destruct n as [|n]; cbn [nth_error] in *.
    + injection Hn as ->. exists d. split; [reflexivity|exact Hx].
    + apply IH. assumption.
Qed.

Lemma aligned_sizes_nonneg c olds f p sz : aligned c olds -> znth (c_files c) f = Some (p, sz) -> 0 <= sz.
Proof. intros Hal Hf. destruct (aligned_znth _ _ _ _ _ Hal Hf) as (d & _ & ->). lia. Qed.


Lemma wfile_ev w e : wfile w -> wfile (mkW (ev (w_st w) e) (w_path w) (w_off w)).
Proof. intros H. exact H. Qed.

Lemma w_write_wfile w data :
  wfile w ->
  exists w', w_write w data = Ok w' /\ wfile w' /\ w_path w' = w_path w /\
             w_off w' = (w_off w + length data)%nat /\ p_trace (w_st w') = p_trace (w_st w).
Proof.
  intros (d & Hd). destruct (w_write_file w data d Hd) as (w' & E & Hp & Ho & Ht & Hf & _).
  exists w'. repeat split; try assumption. eexists. rewrite Hp. exact Hf.
Qed.

Lemma slice_len (d : list byte) (from len : Z) :
  0 <= from ->
  Z.of_nat (length (slice d from len)) = Z.max 0 (Z.min len (Z.of_nat (length d) - from)).
Proof.
  intros Hf. unfold slice. rewrite firstn_length, skipn_length. lia.
Qed.

Lemma wrap64_id z : i64 z -> M.wrap64 z = z.
Proof. unfold i64, M.wrap64. lia. Qed.

(** a C01 result against a C10 step: both go on, related by [R], or both stop with an error;
    a panic on either side is no agreement *)
Definition agree {A B} (R : A -> B -> Prop) (r : res A) (x : M.step B) : Prop :=
  match r, x with
  | Ok a, M.Cont b => R a b
  | Err, M.Stop M.Err => True
  | _, _ => False
  end.

Lemma agree_inv {A B} {R : A -> B -> Prop} {r x} :
  agree R r x -> (exists a b, r = Ok a /\ x = M.Cont b /\ R a b) \/ (r = Err /\ x = M.Stop M.Err).
Proof. destruct r as [a| |], x as [b|[| | |]]; cbn [agree]; try contradiction; intros H; [left; exists a, b|right]; auto. Qed.

(** one iteration of the Resume loop: the two readers of a series agree, C10's leaves fewer than [n] frames *)
Lemma agree_loop {A Y} (pos : A -> list pmsg) {n r x} {k : A -> res Y} {k' : M.stream -> M.res} :
  agree (fun a s => s = stream_of (pos a)) r x -> MP.step_ok n x ->
  (forall a, r = Ok a -> (length (pos a) < n)%nat -> res_agrees (k a) (k' (stream_of (pos a)))) ->
  res_agrees (bind r k) (match x with M.Stop y => y | M.Cont s => k' s end).
Proof.
  intros H Hok Hk. destruct (agree_inv H) as [(a & s & -> & -> & ->)|[-> ->]]; [|exact I].
  apply Hk; [reflexivity|]. cbn [MP.step_ok MP.step_safe] in Hok. unfold stream_of in Hok. rewrite map_length in Hok. exact Hok.
Qed.

Lemma agree_step {X} (r : res (list pmsg * X)) x : agree (fun rs s => s = stream_of (fst rs)) r x -> step_agrees r x.
Proof. destruct r as [[rest a]| |], x as [s|[| | |]]; cbn [agree step_agrees]; try contradiction; auto. Qed.


(** readUntilEndMarker / skipFile of an rsync series *)
Lemma until_marker_agrees : forall ms fuel,
  (length ms < fuel)%nat ->
  agree (fun rest s => s = stream_of rest) (until_marker ms) (M.until_hey fuel (stream_of ms)).
Proof.
  induction ms as [|m r IH]; intros fuel Hfuel; (destruct fuel as [|fuel]; [cbn [length] in Hfuel; lia|]); [exact I|].
  cbn [until_marker M.until_hey]. rewrite read_stream, hey_frame.
  destruct (so_type (as_so m) =? HEY); [reflexivity|]. apply IH. cbn [length] in Hfuel. lia.
Qed.
Section Ops.
  Variables (bs maxoff : Z) (oldC : container) (olds : list (list byte)).
  Hypothesis bs_pos : 0 < bs.
  Hypothesis Hal : aligned oldC olds.

  (** wsync.ApplySingleFull on a block range whose file index passed validateOp *)
  Lemma apply_range_agrees w f i s p fileSize :
    wfile w -> znth (c_files oldC) f = Some (p, fileSize) ->
    i64 (bs * i) -> bs * i <= maxoff ->
    agree (fun w' n => wfile w' /\ w_path w' = w_path w /\
             (i64 ((s - 1) * bs) -> i64 (i + (s - 1)) -> i64 (bs * (i + (s - 1) + 1)) -> i64 ((s - 1) * bs + bs) ->
              n = Z.of_nat (w_off w') - Z.of_nat (w_off w)))
          (apply_range bs oldC olds w f i s) (M.apply_block_range bs maxoff (sizes_of oldC) f i s).
  Proof.
    intros Hw Hf Hi Hmax.
    destruct (aligned_znth _ _ _ _ _ Hal Hf) as (d & Hd & Hsz).
    unfold agree, apply_range, M.apply_block_range. rewrite nth_size_znth, Hf, Hd. cbn [option_map snd].
    destruct (Z.eqb_spec bs 0) as [E0|_]; [lia|]. rewrite andb_false_r, (wrap64_id _ Hi).
    destruct (Z.ltb_spec (bs * i) 0) as [Hneg|Hpos]; cbn [orb]; [exact I|].
    destruct (Z.gtb_spec (bs * i) maxoff) as [Hc|_]; [lia|].
    set (w2 := mkW (ev (w_st (mkW (ev (w_st w) (EvSize f)) (w_path w) (w_off w))) (EvRead f)) (w_path w) (w_off w)).
    destruct (w_write_wfile w2 (slice d (bs * i) (op_size bs fileSize i s)) Hw) as (w' & Ew & Hw' & Hp & Ho & _).
    rewrite Ew. split; [exact Hw'|]. split; [exact Hp|].
    intros H1 H2 H3 H4. rewrite Ho. cbn [w2 w_off]. rewrite Nat2Z.inj_add, slice_len by lia.
    rewrite (wrap64_id _ H1), (wrap64_id _ H2), (wrap64_id _ H3). unfold op_size.
    (* the last block has between 0 and [bs] bytes, so [opSize] does not overflow either *)
    set (last := if bs * (i + (s - 1) + 1) >? fileSize then Z.rem fileSize bs else bs).
    assert (Hlast : 0 <= last <= bs).
    { unfold last. destruct (bs * (i + (s - 1) + 1) >? fileSize); [|lia].
      rewrite Z.rem_mod_nonneg by lia. lia. }
    rewrite wrap64_id by (unfold i64 in *; lia). lia.
  Qed.

  Lemma validate_in_range o :
    validate_op oldC o = if so_type o =? T_BLOCK_RANGE then M.in_range (sizes_of oldC) (so_file o) else true.
  Proof. unfold validate_op. rewrite in_range_sizes. reflexivity. Qed.

  Lemma validate_refused o :
    negb (validate_op oldC o) =
    (M.op_type (len_so o) =? M.BLOCK_RANGE) && negb (M.in_range (sizes_of oldC) (M.op_file (len_so o))).
  Proof.
    unfold validate_op, M.in_range, sizes_of. rewrite map_length.
    cbn [len_so M.op_type M.op_file]. change M.BLOCK_RANGE with T_BLOCK_RANGE.
    destruct (so_type o =? T_BLOCK_RANGE); reflexivity.
  Qed.

  Lemma validate_znth o :
    validate_op oldC o = true -> so_type o = T_BLOCK_RANGE -> exists p sz, znth (c_files oldC) (so_file o) = Some (p, sz).
  Proof.
    unfold validate_op. intros Hv Et. rewrite Et in Hv. cbn in Hv.
    destruct (znth_in_range (c_files oldC) (so_file o) ltac:(lia)) as ([p sz] & Hf). eauto.
  Qed.

  (** one iteration of the relay loop after the end-marker test: validateOp, makeWop, ApplySingle *)
  Definition p_op (w : wst) (o : sync_op) : res wst :=
    if negb (validate_op oldC o) then Err else apply_op bs oldC olds w o.

  Lemma op_agrees w o :
    wfile w -> seek_fits bs maxoff o ->
    agree (fun w' n => wfile w' /\ w_path w' = w_path w /\ (size_fits bs o -> n = Z.of_nat (w_off w') - Z.of_nat (w_off w)))
          (p_op w o) (M.apply_op true bs maxoff (sizes_of oldC) (len_so o)).
  Proof.
    intros Hw Hfit. unfold p_op, M.apply_op, apply_op. cbn [andb]. rewrite <- validate_refused.
    destruct (validate_op oldC o) eqn:Ev; cbn [negb]; [|exact I].
    cbn [len_so M.op_type M.op_file M.op_block M.op_span M.op_data].
    change M.BLOCK_RANGE with T_BLOCK_RANGE. change M.DATA with T_DATA.
    destruct (Z.eqb_spec (so_type o) T_BLOCK_RANGE) as [Et|Et].
    - destruct (validate_znth o Ev Et) as (p & sz & Hf). destruct (Hfit Et) as [Hi Hm].
      destruct (agree_inv (apply_range_agrees w (so_file o) (so_block o) (so_span o) p sz Hw Hf Hi Hm))
        as [(w' & n & -> & -> & H1 & H2 & H3)|[-> ->]]; [|exact I].
      split; [exact H1|]. split; [exact H2|].
      intros Hs. destruct (Hs Et) as (A & B & C & D). apply H3; assumption.
    - destruct (Z.eqb_spec (so_type o) T_DATA) as [Ed|Ed]; [|exact I].
      destruct (w_write_wfile w (so_data o) Hw) as (w' & Ew & Hw' & Hp & Ho & _). rewrite Ew.
      split; [exact Hw'|]. split; [exact Hp|]. intros _. rewrite Ho. lia.
  Qed.

  Lemma relay_cons m r w :
    relay bs oldC olds (m :: r) w =
    if so_type (as_so m) =? HEY then Ok (r, w_st w) else bind (p_op w (as_so m)) (fun w' => relay bs oldC olds r w').
  Proof. cbn [relay]. unfold p_op. destruct (negb (validate_op oldC (as_so m))); reflexivity. Qed.

  Lemma relay_agrees : forall ms w fuel wc,
    wfile w -> relay_fits bs maxoff ms -> (length ms < fuel)%nat ->
    agree (fun rs s => s = stream_of (fst rs))
          (relay bs oldC olds ms w) (M.relay fuel true bs maxoff (sizes_of oldC) wc (stream_of ms)).
  Proof.
    induction ms as [|m r IH]; intros w fuel wc Hw Hfit Hfuel;
      (destruct fuel as [|fuel]; [cbn [length] in Hfuel; lia|]); [exact I|].
    rewrite relay_cons. cbn [M.relay]. rewrite read_stream, hey_frame, dec_op_frame.
    cbn [relay_fits] in Hfit. cbn [length] in Hfuel.
    destruct (so_type (as_so m) =? HEY); [reflexivity|]. destruct Hfit as [Hfit Hrest].
    destruct (agree_inv (op_agrees w (as_so m) Hw Hfit)) as [(w' & n & -> & -> & Hw' & _)|[-> ->]]; [|exact I].
    cbn [bind]. apply IH; [exact Hw'|assumption|lia].
  Qed.

End Ops.


Lemma add_bytes_len : forall a b : list byte, length (add_bytes a b) = Nat.min (length a) (length b).
Proof. induction a as [|x a IH]; intros [|y b]; cbn [add_bytes length]; try reflexivity. rewrite IH. reflexivity. Qed.

(** the old-file cursors of the two models: equal, or both outside the old file - C01's
    beyond its end (no wrap-around), C10's negative (wrapped) - where the next Seek fails *)
Definition off_rel (oldlen offP offM : Z) : Prop := offP = offM \/ (oldlen < offP /\ offM < 0).

Lemma off_rel_seek oldlen offP offM :
  off_rel oldlen offP offM ->
  (offM <? 0) || (offM >? oldlen) = (offP <? 0) || (offP >? oldlen) /\
  ((offP <? 0) || (offP >? oldlen) = false -> offM = offP).
Proof. unfold off_rel. lia. Qed.

Lemma off_rel_next oldlen off addlen seek :
  oldlen < 2^63 -> 0 <= off -> 0 <= addlen -> off + addlen <= oldlen -> i64 seek ->
  off_rel oldlen (off + addlen + seek) (M.wrap64 (off + addlen + seek)).
Proof.
  unfold off_rel, i64, M.wrap64. intros Ho H0 Ha Hle Hs.
  destruct (Z.lt_ge_cases (off + addlen + seek) (2^63)) as [Hlt|Hge]; [left|right]; lia.
Qed.

(** bsdiff.IndividualPatchContext.Apply in the loop of processBsdiff: same class, same unread
    messages, same number of bytes written, for ANY control list *)
Lemma ctrl_loop_agrees (old : list byte) : forall ms offP offM w fuel,
  Z.of_nat (length old) < 2^63 -> wfile w -> off_rel (Z.of_nat (length old)) offP offM ->
  (length ms < fuel)%nat ->
  agree (fun '(rest, w') '(wc, s) =>
           s = stream_of rest /\ wc = Z.of_nat (w_off w') /\ wfile w' /\ w_path w' = w_path w /\
           p_trace (w_st w') = p_trace (w_st w))
        (ctrl_loop old offP ms w) (M.controls fuel (Z.of_nat (length old)) offM (Z.of_nat (w_off w)) (stream_of ms)).
Proof.
  induction ms as [|m r IH]; intros offP offM w fuel Hold Hw Hrel Hfuel;
    (destruct fuel as [|fuel]; [cbn [length] in Hfuel; lia|]); [exact I|].
  cbn [ctrl_loop M.controls]. rewrite read_stream, dec_ctl_frame.
  cbn [len_ct M.c_eof M.c_add M.c_copy M.c_seek].
  destruct (ct_eof (as_ct m)); [cbn [agree]; repeat split; exact Hw|].
  unfold bs_apply.
  set (L := Z.of_nat (length old)) in *. set (A := Z.of_nat (length (ct_add (as_ct m)))).
  assert (HA : 0 <= A) by (unfold A; lia).
  (* both Seeks fail, or the cursors are equal *)
  destruct (off_rel_seek _ _ _ Hrel) as [-> Heq].
  destruct ((offP <? 0) || (offP >? L)) eqn:E1; [exact I|]. rewrite (Heq eq_refl).
  destruct (Z.gtb_spec (offP + A) L) as [Hgt|Hle].
  { destruct (Z.ltb_spec 0 A) as [_|Hc]; [exact I|lia]. }
  rewrite andb_false_r.
  destruct (w_write_wfile w (add_bytes (ct_add (as_ct m)) (skipn (Z.to_nat offP) old)) Hw) as (w1 & E3 & Hw1 & Hp1 & Ho1 & Ht1).
  rewrite E3. cbn [bind].
  destruct (w_write_wfile w1 (ct_copy (as_ct m)) Hw1) as (w2 & E4 & Hw2 & Hp2 & Ho2 & Ht2).
  rewrite E4. cbn [bind fst snd].
  rewrite add_bytes_len, skipn_length in Ho1.
  assert (Eoff : (if 0 <? A then offP + A else offP) = offP + A) by (destruct (Z.ltb_spec 0 A); lia).
  assert (Ew : Z.of_nat (w_off w) + Z.max 0 A + Z.max 0 (Z.of_nat (length (ct_copy (as_ct m)))) = Z.of_nat (w_off w2))
    by (unfold A, L in *; lia).
  rewrite Eoff, Ew.
  destruct (agree_inv (IH (offP + A + ct_seek (as_ct m)) (M.wrap64 (offP + A + ct_seek (as_ct m))) w2 fuel Hold Hw2
                         (off_rel_next L offP A (ct_seek (as_ct m)) Hold ltac:(lia) HA Hle (as_ct_seek_i64 m))
                         ltac:(cbn [length] in Hfuel; lia)))
    as [([rest w'] & [wc s1] & -> & -> & Hs & Hwc & Hw' & Hp' & Ht')|[-> ->]]; [|exact I].
  cbn [agree]. repeat split; try assumption; congruence.
Qed.

Lemma skip_ctrls_agrees : forall ms fuel,
  (length ms < fuel)%nat -> agree (fun rest s => s = stream_of rest) (skip_ctrls ms) (M.until_eof fuel (stream_of ms)).
Proof.
  induction ms as [|m r IH]; intros fuel Hfuel; (destruct fuel as [|fuel]; [cbn [length] in Hfuel; lia|]); [exact I|].
  cbn [skip_ctrls M.until_eof]. rewrite read_stream, dec_ctl_frame. cbn [len_ct M.c_eof].
  destruct (ct_eof (as_ct m)); [reflexivity|]. apply IH. cbn [length] in Hfuel. lia.
Qed.

Lemma skip_file_agrees kind ms fuel :
  (length ms < fuel)%nat ->
  agree (fun rest s => s = stream_of rest) (skip_file kind ms) (M.skip_file fuel kind (stream_of ms)).
Proof.
  intros Hfuel. unfold skip_file, M.skip_file. change M.BSDIFF with SH_BSDIFF.
  (* on an rsync series skipFile is the loop of readUntilEndMarker *)
  destruct (kind =? SH_BSDIFF); [|exact (until_marker_agrees ms fuel Hfuel)].
  unfold skip_bsdiff. destruct ms as [|m r]; [exact I|].
  rewrite read_stream. cbn [length] in Hfuel.
  destruct (agree_inv (skip_ctrls_agrees r fuel ltac:(lia))) as [(rest & s1 & -> & -> & ->)|[-> ->]]; [|exact I].
  cbn [bind]. destruct rest as [|m2 r2]; [exact I|].
  rewrite read_stream, hey_frame.
  destruct (so_type (as_so m2) =? HEY); [reflexivity|exact I].
Qed.

Lemma wl_skip_whitelisted wl i : wl_skip wl i = negb (M.whitelisted wl i).
Proof. unfold wl_skip, M.whitelisted. destruct wl; reflexivity. Qed.

Section Series.
  Variables (bs maxoff : Z) (oldC newC : container) (olds : list (list byte)).
  Hypothesis bs_pos : 0 < bs.
  Hypothesis Hal : aligned oldC olds.
  (** a Go file has fewer than 2^63 bytes *)
  Hypothesis olds_fit : Forall (fun d : list byte => Z.of_nat (length d) < 2^63) olds.

  Lemma pool_open_aligned f p sz :
    znth (c_files oldC) f = Some (p, sz) ->
    exists d, pool_open oldC olds f = Ok d /\ sz = Z.of_nat (length d) /\ In d olds.
  Proof.
    intros Hf. destruct (aligned_znth _ _ _ _ _ Hal Hf) as (d & Hd & Hsz).
    exists d. unfold pool_open. rewrite Hf, Hd. split; [reflexivity|]. split; [assumption|].
    eapply znth_In. eassumption.
  Qed.

  Lemma is_full_file_op_agrees idx o p outSize :
    znth (c_files newC) idx = Some (p, outSize) -> validate_op oldC o = true ->
    match is_full_file_op bs oldC newC idx o, M.is_full_file_op bs (sizes_of oldC) outSize (len_so o) with
    | Ok b, Some b' => b = b'
    | _, _ => False
    end.
  Proof.
    intros Hn Hv. unfold is_full_file_op, M.is_full_file_op.
    cbn [len_so M.op_type M.op_file M.op_block M.op_span]. change M.BLOCK_RANGE with T_BLOCK_RANGE.
    destruct (Z.eqb_spec (so_type o) T_BLOCK_RANGE) as [Et|]; cbn [negb]; [|reflexivity].
    destruct (so_block o =? 0); cbn [negb]; [|reflexivity].
    destruct (validate_znth oldC o Hv Et) as (pt & tsz & Hf).
    rewrite nth_size_znth, Hf, Hn. cbn [option_map snd].
    destruct (tsz =? outSize); cbn [negb]; reflexivity.
  Qed.

  Lemma is_full_true_br idx o : is_full_file_op bs oldC newC idx o = Ok true -> so_type o = T_BLOCK_RANGE.
  Proof.
    unfold is_full_file_op. destruct (Z.eqb_spec (so_type o) T_BLOCK_RANGE) as [E|E]; [intros _; exact E|].
    cbn [negb]. discriminate.
  Qed.

  Lemma ready_wfile s p e off : file_ready (p_tree s) p -> wfile (mkW (ev s e) p off).
  Proof. intros (_ & _ & H). exact H. Qed.

  Lemma process_rsync_agrees idx p outSize ms s fuel :
    znth (c_files newC) idx = Some (p, outSize) -> file_ready (p_tree s) p ->
    rsync_fits bs maxoff ms -> (length ms < fuel)%nat ->
    agree (fun rs s2 => s2 = stream_of (fst rs)) (process_rsync bs oldC newC olds idx ms s)
          (M.process_rsync fuel true bs maxoff (sizes_of oldC) outSize (stream_of ms)).
  Proof.
    intros Hn Hr Hfit Hfuel. destruct ms as [|m r]; [exact I|].
    unfold process_rsync, M.process_rsync. rewrite read_stream, dec_op_frame.
    cbn [andb]. rewrite <- validate_refused.
    cbn [rsync_fits] in Hfit. destruct Hfit as [Hfit Hrest]. cbn [length] in Hfuel.
    destruct (validate_op oldC (as_so m)) eqn:Ev; cbn [negb]; [|exact I].
    pose proof (is_full_file_op_agrees idx (as_so m) p outSize Hn Ev) as Hfull.
    destruct (is_full_file_op bs oldC newC idx (as_so m)) as [b| |] eqn:Efull;
      destruct (M.is_full_file_op bs (sizes_of oldC) outSize (len_so (as_so m))) as [b'|]; try contradiction.
    subst b'. cbn [bind]. destruct b.
    - (* a full-file op: Transpose, then everything up to the marker is ignored *)
      destruct (validate_znth oldC (as_so m) Ev (is_full_true_br idx (as_so m) Efull)) as (pt & tsz & Hf).
      destruct (pool_open_aligned _ _ _ Hf) as (d & Ed & _).
      unfold transpose. rewrite Ed, Hn. cbn [bind].
      rewrite transpose_write_ready by exact Hr. cbn [bind].
      destruct (agree_inv (until_marker_agrees r fuel ltac:(lia))) as [(rest & s1 & -> & -> & ->)|[-> ->]];
        [reflexivity|exact I].
    - (* GetWriter, the first op, the relay loop *)
      rewrite (open_writer_ready newC s idx p outSize Hn Hr). cbn [bind].
      pose proof (op_agrees bs maxoff oldC olds bs_pos Hal _ (as_so m) (ready_wfile s p (EvWriter idx) 0 Hr) Hfit) as Ho.
      unfold p_op in Ho. rewrite Ev in Ho. cbn [negb] in Ho.
      destruct (agree_inv Ho) as [(w1 & n & -> & -> & Hw1 & _)|[-> ->]]; [|exact I].
      cbn [bind]. apply relay_agrees; [assumption|assumption|exact Hw1|assumption|lia].
  Qed.


  Lemma process_bsdiff_agrees idx p outSize ms s fuel :
    znth (c_files newC) idx = Some (p, outSize) -> file_ready (p_tree s) p ->
    (length ms < fuel)%nat ->
    agree (fun rs s2 => s2 = stream_of (fst rs)) (process_bsdiff oldC newC olds idx ms s)
          (M.process_bsdiff fuel true (sizes_of oldC) outSize (stream_of ms)).
  Proof.
    intros Hn Hr Hfuel. destruct ms as [|m r]; [exact I|].
    unfold process_bsdiff, M.process_bsdiff.
    rewrite read_stream, dec_bh_frame, nth_size_znth. cbn [length] in Hfuel.
    set (t := bh_target (as_bh m)).
    destruct ((t <? 0) || (t >=? Z.of_nat (length (c_files oldC)))) eqn:Et.
    - assert (E : znth (c_files oldC) t = None).
      { unfold znth. destruct (Z.ltb_spec t 0); [reflexivity|]. apply nth_error_None. lia. }
      rewrite E. exact I.
    - destruct (znth_in_range (c_files oldC) t ltac:(lia)) as ([pt tsz] & Hf). rewrite Hf. cbn [option_map snd].
      destruct (pool_open_aligned _ _ _ Hf) as (old & Eo & Hsz & Hin). rewrite Eo. cbn [bind]. subst tsz.
      assert (Hold : Z.of_nat (length old) < 2^63) by (rewrite Forall_forall in olds_fit; apply olds_fit; exact Hin).
      rewrite (open_writer_ready newC (ev s (EvRead t)) idx p outSize Hn Hr). cbn [bind].
      pose proof (ctrl_loop_agrees old r 0 0 _ fuel Hold (ready_wfile (ev s (EvRead t)) p (EvWriter idx) 0 Hr)
                    (or_introl eq_refl) ltac:(lia)
                  : agree _ _ (M.controls fuel (Z.of_nat (length old)) 0 0 (stream_of r))) as H.
      destruct (agree_inv H) as [([rest w'] & [wc s1] & -> & -> & -> & -> & _)|[-> ->]]; [|exact I].
      cbn [bind fst snd].
      destruct rest as [|m2 r2]; [exact I|]. rewrite read_stream, hey_frame.
      destruct (so_type (as_so m2) =? HEY); cbn [negb]; [|exact I].
      rewrite Hn. destruct (Z.of_nat (w_off w') =? outSize); cbn [negb]; [reflexivity|exact I].
  Qed.


  Lemma skipn_sizes idx p sz :
    0 <= idx -> znth (c_files newC) idx = Some (p, sz) ->
    skipn (Z.to_nat idx) (sizes_of newC) = sz :: skipn (Z.to_nat (idx + 1)) (sizes_of newC).
  Proof.
    intros H0 Hn. unfold znth in Hn. destruct (Z.ltb_spec idx 0); [lia|].
    replace (Z.to_nat (idx + 1)) with (S (Z.to_nat idx)) by lia.
    apply skipn_nth_error. unfold sizes_of. rewrite nth_error_map, Hn. reflexivity.
  Qed.

  Lemma skipn_sizes_none idx :
    0 <= idx -> znth (c_files newC) idx = None -> skipn (Z.to_nat idx) (sizes_of newC) = [].
  Proof.
    intros H0 Hn. unfold znth in Hn. destruct (Z.ltb_spec idx 0); [lia|].
    apply nth_error_None in Hn. apply skipn_all2. unfold sizes_of. rewrite map_length. exact Hn.
  Qed.

  (** savingPatcher.Resume(nil): the loop over the files of the new container *)
  Lemma run_files_agrees wl : forall n idx ms s touched fuel,
    0 <= idx -> n = length (skipn (Z.to_nat idx) (sizes_of newC)) ->
    all_ready newC (p_tree s) -> run_fits bs maxoff wl n ms -> (length ms < fuel)%nat ->
    res_agrees (run_files bs oldC newC olds wl n idx ms s touched)
               (M.resume fuel true bs maxoff (sizes_of oldC) wl idx (skipn (Z.to_nat idx) (sizes_of newC)) (stream_of ms)).
  Proof.
    induction n as [|n IH]; intros idx ms s touched fuel H0 Hn Hall Hfit Hfuel.
    - destruct (skipn (Z.to_nat idx) (sizes_of newC)); [exact I|discriminate].
    - destruct (znth (c_files newC) idx) as [[p outSize]|] eqn:Ez.
      2:{ rewrite (skipn_sizes_none idx H0 Ez) in Hn. discriminate. }
      rewrite (skipn_sizes idx p outSize H0 Ez) in *. cbn [length] in Hn. injection Hn as Hn.
      cbn [run_files M.resume]. destruct ms as [|m r]; [exact I|].
      rewrite read_stream, dec_sh_frame.
      cbn [len_sh M.sh_type M.sh_file]. change M.RSYNC with SH_RSYNC. change M.BSDIFF with SH_BSDIFF.
      cbn [run_fits] in Hfit. cbn [length] in Hfuel.
      destruct (Z.eqb_spec (sh_file (as_sh m)) idx) as [Ei|Ei]; cbn [negb]; [|exact I].
      destruct ((sh_type (as_sh m) =? SH_RSYNC) || (sh_type (as_sh m) =? SH_BSDIFF)) eqn:Ek; cbn [negb]; [|exact I].
      cbn [negb] in Hfit. rewrite Ei in *. rewrite wl_skip_whitelisted in *.
      (* whichever way the series is read, C10 stops or leaves a shorter stream *)
      assert (Hlr : (length (stream_of r) < fuel)%nat) by (unfold stream_of; rewrite map_length; lia).
      pose proof (proj2 (MP.series_fixes fuel bs maxoff (sizes_of oldC) wl idx (sh_type (as_sh m)) outSize (stream_of r)) (conj bs_pos Hlr)) as Hok.
      unfold MP.series in Hok. change M.RSYNC with SH_RSYNC in Hok.
      destruct (M.whitelisted wl idx); cbn [negb] in *.
      + unfold process_file.
        destruct (sh_type (as_sh m) =? SH_RSYNC) eqn:Ers.
        * destruct Hfit as [Hfr Hfn].
          apply (agree_loop fst (process_rsync_agrees idx p outSize r s fuel Ez (Hall idx p outSize Ez) Hfr ltac:(lia)) Hok).
          intros [rest s'] Ep Hlt. cbn [fst snd] in *.
          rewrite (process_rsync_skip bs oldC newC olds idx r s rest s' Ep) in Hfn.
          apply IH; [lia|exact Hn| |exact Hfn|lia].
          apply (process_keeps_ready bs oldC newC olds SH_RSYNC idx p outSize r s rest s' Ez Hall). exact Ep.
        * apply (agree_loop fst (process_bsdiff_agrees idx p outSize r s fuel Ez (Hall idx p outSize Ez) ltac:(lia)) Hok).
          intros [rest s'] Ep Hlt. cbn [fst snd] in *.
          rewrite (process_bsdiff_skip oldC newC olds idx r s rest s' Ep) in Hfit.
          apply IH; [lia|exact Hn| |exact Hfit|lia].
          apply (process_keeps_ready bs oldC newC olds (sh_type (as_sh m)) idx p outSize r s rest s' Ez Hall).
          unfold process_file. rewrite Ers. exact Ep.
      + apply (agree_loop (fun rest => rest) (skip_file_agrees (sh_type (as_sh m)) r fuel ltac:(lia)) Hok).
        intros rest Ep Hlt. rewrite Ep in Hfit. apply IH; [lia|exact Hn|exact Hall|exact Hfit|lia].
  Qed.

  (** NewFreshBowl, Resume(nil) and Commit against [patcher]: Prepare leaves every file ready *)
  Lemma apply_fresh_agrees wl ms :
    wf_container newC -> run_fits bs maxoff wl (length (c_files newC)) ms ->
    res_agrees (apply_fresh bs oldC newC olds wl ms)
               (M.patcher (S (length ms)) true bs maxoff (sizes_of oldC) (sizes_of newC) wl (stream_of ms)).
  Proof.
    intros WF Hfit. unfold apply_fresh, M.patcher.
    destruct (prepare_spec newC WF) as (t0 & -> & H0). cbn [bind].
    pose proof (run_files_agrees wl (length (c_files newC)) 0 ms (mkP t0 []) 0 (S (length ms)) (Z.le_refl 0)
                  (eq_sym (map_length snd (c_files newC)))
                  (fun j pj szj Hj => proj1 (prepared_ready newC t0 j pj szj WF H0 Hj)) Hfit (Nat.lt_succ_diag_r _)) as H.
    cbn [Z.to_nat skipn] in H.
    destruct (run_files bs oldC newC olds wl (length (c_files newC)) 0 ms (mkP t0 []) 0) as [[sf tch]| |]; exact H.
  Qed.
End Series.

(** block size 4; one old file [1..6]; new container: file 0 (9 bytes) patched by an rsync
    series DATA, RANGE, DATA, RANGE, file 1 (6 bytes) by a bsdiff series with a backward seek.
    The hypotheses of [patcher_models_agree_c01_c10] (Properties/C10.v) hold and both models accept
    the patch. *)
Definition ex_oldC : container := mkC [([1%N], 6)] [] [].
Definition ex_olds : list (list byte) := [[1; 2; 3; 4; 5; 6]%N].
Definition ex_newC : container := mkC [([2%N], 9); ([3%N], 6)] [] [].
Definition ex_ms : list pmsg :=
  [MSH (mkSH SH_RSYNC 0); MSO (mkSO T_DATA 0 0 0 [9; 9]%N); MSO (mkSO T_BLOCK_RANGE 0 0 1 []);
   MSO (mkSO T_DATA 0 0 0 [7]%N); MSO (mkSO T_BLOCK_RANGE 0 1 1 []); hey_msg;
   MSH (mkSH SH_BSDIFF 1); MBH (mkBH 0); MCT (mkCT [1; 1; 1]%N [8]%N (-3) false); MCT (mkCT [0; 0]%N [] 0 false);
   MCT (mkCT [] [] 0 true); hey_msg].
