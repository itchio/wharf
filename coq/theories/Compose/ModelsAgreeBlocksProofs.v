(** Pair 3 of the index Compose/ModelsAgree.v: block arithmetic.

    pwr.ComputeNumBlocks ([(fileSize + BlockSize - 1) / BlockSize], int64) exists six times:
      Patch/Stream.v     [num_blocks]          Z, [Z.quot]   (C01)
      Patch/Malformed.v  [num_blocks]          Z, [Z.quot]   (C10)
      Patch/Resume.v     [num_blocks]          N             (C03)
      Sig/SigFile.v      [num_blocks]          N             (C04)
      Wsync/Spec.v       [num_blocks]          N, of a list  (C11)
      Val/VPool.v        [compute_num_blocks]  Z, [Z.div]    (C18, used by C05 / C07 / C09)
    and the reference all of them stand for is [length (blocks bs l)] (Base/Prelude.v).
    pwr.ComputeBlockSize exists twice (Val/VPool.v with [mod], Wsync/Account.v with [Z.rem]) and
    once more inlined in the [lastSize] computation of wsync.ApplySingleFull
    (Patch/Patcher.v [op_size], Wsync/Apply.v [op_size], Patch/Malformed.v [apply_block_range]).

    On block sizes > 0 and sizes >= 0 they all agree.  Differences found, all on inputs that are
    not file sizes: for a NEGATIVE size Go's [/] and [%] truncate towards zero ([Z.quot] /
    [Z.rem]: C01, C10, Wsync/Account.v), Val/VPool.v's [/] and [mod] round down
    ([num_blocks_models_differ_on_negative_size] in Properties/C10.v,
    [block_size_negative_size_differs_lemma]); the [N] versions
    cannot express a negative size at all.  Only C10 feeds sizes from an arbitrary stream, and
    it uses the truncating version.  Also here: the two transcriptions of os.File.WriteAt /
    Truncate agree ([pwrite_models_agree_lemma]).  Proofs only. *)
From Coq Require Import ZifyBool ZifyNat ZifyN.
From Wharf Require Import Base.Prelude Base.BlocksLemmas Base.BlockArith.
From Wharf Require Patch.Stream Patch.Malformed Patch.Resume Patch.Patcher
     Sig.SigFile Sig.SigFileProofs Wsync.Spec Wsync.Account Wsync.Apply Val.VPool Bowl.Fresh Patch.PlainWriter.

Lemma blocks_count {A} (bs : nat) (l : list A) :
  (0 < bs)%nat -> length (blocks bs l) = ((length l + bs - 1) / bs)%nat.
Proof.
  intros Hbs. exact (BlocksLemmas.blocks_count bs Hbs l).
Qed.

Local Open Scope Z_scope.

Lemma num_blocks_stream_malformed (bs size : Z) : Stream.num_blocks bs size = Malformed.num_blocks bs size.
Proof. reflexivity. Qed.

Lemma num_blocks_resume_sigfile (bs size : N) :
  Resume.num_blocks bs size = SigFile.num_blocks bs size.
Proof. reflexivity. Qed.

Lemma num_blocks_spec_sigfile (bs : N) (old : list N) :
  Spec.num_blocks bs old = SigFile.num_blocks bs (N.of_nat (length old)).
Proof. reflexivity. Qed.

Lemma num_blocks_Z_N (bs size : N) :
  (0 < bs)%N -> Stream.num_blocks (Z.of_N bs) (Z.of_N size) = Z.of_N (SigFile.num_blocks bs size).
Proof.
  intros Hbs. unfold Stream.num_blocks, SigFile.num_blocks. rewrite count_N, count_quot by lia. reflexivity.
Qed.

Lemma num_blocks_quot_div (bs size : Z) :
  0 < bs -> 0 <= size -> Stream.num_blocks bs size = VPool.compute_num_blocks bs size.
Proof.
  exact (count_quot bs size).
Qed.

Lemma num_blocks_counts_blocks {A} (bs : N) (l : list A) :
  (0 < bs)%N -> N.of_nat (length (blocks (N.to_nat bs) l)) = SigFile.num_blocks bs (N.of_nat (length l)).
Proof.
  intros Hbs. rewrite (SigFileProofs.blocks_length bs Hbs). apply N2Nat.id.
Qed.

Lemma compute_block_size_agrees (bs fileSize blockIndex : Z) :
  0 < bs -> 0 <= fileSize ->
  VPool.compute_block_size bs fileSize blockIndex = Account.compute_block_size bs fileSize blockIndex.
Proof.
  intros Hbs Hs. unfold VPool.compute_block_size, Account.compute_block_size.
  rewrite Z.rem_mod_nonneg by lia. reflexivity.
Qed.

Lemma block_size_negative_size_differs_lemma :
  VPool.compute_block_size 2 (-3) 0 = 1 /\ Account.compute_block_size 2 (-3) 0 = -1.
Proof. split; reflexivity. Qed.

(** the [opSize] of wsync.ApplySingleFull is [(span - 1)] whole blocks plus ComputeBlockSize of
    the last block: the inlined arithmetic of C01's / C11's [op_size] is the function of
    Wsync/Account.v (C08), and of Val/VPool.v on sizes >= 0 *)
Lemma op_size_is_block_size (bs fileSize blockIndex blockSpan : Z) :
  Patcher.op_size bs fileSize blockIndex blockSpan =
  (blockSpan - 1) * bs + Account.compute_block_size bs fileSize (blockIndex + (blockSpan - 1)).
Proof. reflexivity. Qed.

Lemma op_size_wsync_patcher (bs : N) (fileSize idx span : Z) :
  Apply.op_size bs fileSize idx span = Patcher.op_size (Z.of_N bs) fileSize idx span.
Proof. reflexivity. Qed.

Lemma compute_block_size_is_block_length {A} (bs : nat) (l b : list A) (j : nat) :
  (0 < bs)%nat -> nth_error (blocks bs l) j = Some b ->
  VPool.compute_block_size (Z.of_nat bs) (Z.of_nat (length l)) (Z.of_nat j) = Z.of_nat (length b).
Proof.
  intros Hbs Hn. destruct (blocks_nth_length bs Hbs j l b Hn) as [Hlen Hj].
  unfold VPool.compute_block_size. rewrite block_size by lia. lia.
Qed.

(** os.File.WriteAt / Truncate exist in Bowl/Fresh.v (C01, C02) and in Patch/PlainWriter.v (C03) *)
Lemma pwrite_models_agree_lemma (raw : list byte) (off : nat) (d : list byte) :
  Fresh.pwrite raw off d = PlainWriter.pwrite raw off d /\
  Fresh.resize raw off = PlainWriter.resize off raw /\
  Fresh.zeros off = PlainWriter.zeros off.
Proof. repeat split. Qed.
