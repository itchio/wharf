(** C15 — the choice of the bsdiff target (Conc/Pick.v): the list sorted by file index holds the given
    candidates ([sort_perm]); two insertions commute when the indices differ ([insert_comm]), hence, by
    induction on the permutation, [sort_canonical]: the order in which the map hands out the candidates
    does not reach [pick_sorted] (Properties/C15.v [optimize_choice_deterministic]). *)
From Wharf Require Import Base.Prelude Conc.Pick.
From Coq Require Import Permutation.

Lemma insert_perm c l : Permutation (insert_cand c l) (c :: l).
Proof.
  induction l as [|x l IH]; [apply Permutation_refl|]. cbn [insert_cand].
  destruct (N.leb (cidx c) (cidx x)); [apply Permutation_refl|].
  eapply Permutation_trans; [apply perm_skip; exact IH|apply perm_swap].
Qed.

Lemma sort_perm l : Permutation (sort_cands l) l.
Proof.
  induction l as [|x l IH]; [apply Permutation_refl|]. cbn [sort_cands fold_right]. fold (sort_cands l).
  eapply Permutation_trans; [apply insert_perm|apply perm_skip; exact IH].
Qed.

Lemma insert_comm_lt c d l :
  N.lt (cidx c) (cidx d) -> insert_cand c (insert_cand d l) = insert_cand d (insert_cand c l).
Proof.
  intro Hlt. pose proof (proj2 (N.leb_le _ _) (N.lt_le_incl _ _ Hlt)) as Hcd. pose proof (proj2 (N.leb_gt _ _) Hlt) as Hdc.
  induction l as [|x l IH]; cbn [insert_cand]; [rewrite Hcd, Hdc; reflexivity|].
  destruct (N.leb (cidx d) (cidx x)) eqn:Ed; cbn [insert_cand].
  - (* [d] goes in front of [x]; so does [c], in front of [d] *)
    apply N.leb_le in Ed as Hle. rewrite Hcd, (proj2 (N.leb_le (cidx c) (cidx x))) by lia. cbn [insert_cand]. rewrite Hdc, Ed. reflexivity.
  - destruct (N.leb (cidx c) (cidx x)); cbn [insert_cand]; rewrite ?Hdc, Ed, ?IH; reflexivity.
Qed.

Lemma insert_comm c d l :
  cidx c <> cidx d -> insert_cand c (insert_cand d l) = insert_cand d (insert_cand c l).
Proof.
  intro Hne. destruct (N.lt_total (cidx c) (cidx d)) as [H|[H|H]];
    [apply insert_comm_lt, H|destruct (Hne H)|symmetry; apply insert_comm_lt, H].
Qed.

(** whatever order the map hands the candidates out in, the repaired loop visits them in the same *)
Lemma sort_canonical l l' : NoDup (map cidx l) -> Permutation l l' -> sort_cands l = sort_cands l'.
Proof.
  intros Hn Hp. induction Hp as [|x l l' Hp IH|x y l|l l' l'' Hp1 IH1 Hp2 IH2]; cbn [sort_cands fold_right map] in *.
  - reflexivity.
  - f_equal. apply IH. inversion Hn. assumption.
  - apply insert_comm. inversion Hn as [|? ? Hnot _]. intro E. apply Hnot. left. symmetry. exact E.
  - rewrite IH1, IH2; [reflexivity| |assumption]. apply (Permutation_NoDup (Permutation_map cidx Hp1) Hn).
Qed.
