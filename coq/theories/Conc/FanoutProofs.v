(** C15 — proofs about the fan-out of Conc/Fanout.v: under every schedule, every upstream
    chunking and every pair of consumer buffer sizes each consumer receives exactly the
    upstream bytes, the end marker comes after both consumers, and no reachable state is stuck. *)
From Wharf Require Import Base.Prelude Base.StepSystem Conc.Fanout.

Lemma concat_snoc {A} (l : list (list A)) (x : list A) : concat (l ++ [x]) = concat l ++ x.
Proof. rewrite concat_app. cbn [concat]. rewrite app_nil_r. reflexivity. Qed.

Section FanoutProofs.
  Variable data : list N.

  Definition accounting (s : fstate) : Prop :=
    match fpc s with
    | PFetch => concat (fp1 s) = fsent s /\ concat (fp2 s) = fsent s /\ fsent s ++ concat (fup s) = data
    | PWrite false rest once =>
        concat (fp1 s) ++ rest = fsent s ++ fcur s /\ concat (fp2 s) = fsent s /\ fsent s ++ fcur s ++ concat (fup s) = data
    | PWrite true rest once =>
        concat (fp1 s) = fsent s ++ fcur s /\ concat (fp2 s) ++ rest = fsent s ++ fcur s /\ fsent s ++ fcur s ++ concat (fup s) = data
    | PClosed => concat (fp1 s) = data /\ concat (fp2 s) = data
    end.

  Lemma accounting_step s th : accounting s -> accounting (fstep s th).
  Proof.
    destruct s as [up eof cur sent pc p1 d1 p2 d2 mk]. unfold accounting, fstep.
    cbn [fup feof fcur fsent fpc fp1 fdone1 fp2 fdone2 fmarker]. intro H.
    destruct th as [|buf|buf|].
    - destruct pc as [|second rest once|]; try exact H.
      destruct H as (A1 & A2 & A3). destruct up as [|c r]; [destruct eof|]; cbn in *;
        rewrite ?app_nil_r in *; repeat split; congruence.
    - destruct d1; [exact H|]. destruct pc as [|[] rest once|]; try exact H.
      destruct (offer_valid rest once); [|exact H]. destruct H as (A1 & A2 & A3).
      pose proof (firstn_skipn (Nat.max buf 1) rest) as Hfs.
      destruct (skipn (Nat.max buf 1) rest); cbn; rewrite concat_snoc.
      + rewrite app_nil_r in Hfs. rewrite Hfs, A2. auto.
      + rewrite <- app_assoc, Hfs. auto.
    - destruct d2; [exact H|]. destruct pc as [|[] rest once|]; try exact H.
      destruct (offer_valid rest once); [|exact H]. destruct H as (A1 & A2 & A3).
      pose proof (firstn_skipn (Nat.max buf 1) rest) as Hfs.
      destruct (skipn (Nat.max buf 1) rest); cbn; rewrite concat_snoc, <- app_assoc.
      + rewrite app_nil_r in Hfs. rewrite Hfs. auto.
      + rewrite Hfs. auto.
    - destruct pc; try exact H. destruct (d1 && d2); exact H.
  Qed.

  Record FCtl (s : fstate) : Prop := mkFCtl {
    fi_offer : match fpc s with PWrite _ rest once => offer_valid rest once = true | _ => True end;
    fi_open : fpc s <> PClosed -> fdone1 s = false /\ fdone2 s = false /\ fmarker s = false;
    fi_marker : fmarker s = true -> fdone1 s = true /\ fdone2 s = true }.

  Lemma fctl_step s th : FCtl s -> FCtl (fstep s th).
  Proof.
    intro HI. pose proof HI as [Hoff Hopen Hmk].
    destruct th as [|buf|buf|]; unfold fstep.
    - destruct (fpc s) as [|second rest once|]; try exact HI.
      destruct Hopen as (N1 & N2 & N3); [discriminate|].
      destruct (fup s); [destruct (feof s)|]; split; cbn; rewrite ?N3; auto; congruence.
    - destruct (fdone1 s) eqn:E1; [exact HI|]. destruct (fpc s) as [|[] rest once|]; try exact HI.
      + rewrite Hoff. destruct Hopen as (_ & N2 & N3); [discriminate|].
        destruct (skipn (Nat.max buf 1) rest); split; cbn; rewrite ?N3; auto; congruence.
      + split; cbn; [exact I|congruence|]. intro H. destruct (Hmk H). congruence.
    - destruct (fdone2 s) eqn:E2; [exact HI|]. destruct (fpc s) as [|[] rest once|]; try exact HI.
      + rewrite Hoff. destruct Hopen as (N1 & _ & N3); [discriminate|].
        destruct (skipn (Nat.max buf 1) rest); split; cbn; rewrite ?N3; auto; congruence.
      + split; cbn; [exact I|congruence|]. intro H. destruct (Hmk H). congruence.
    - destruct (fpc s); try exact HI. destruct (fdone1 s && fdone2 s) eqn:Ed; [|exact HI].
      apply andb_true_iff in Ed. split; cbn; [exact I|congruence|auto].
  Qed.

  Definition FInv (s : fstate) : Prop := FCtl s /\ accounting s.

  Lemma finv_init chunks eofdata : concat chunks = data -> FInv (init_fanout_eof chunks eofdata).
  Proof. intro H. split; [split; cbn; auto; discriminate|cbn; auto]. Qed.

  Lemma finv_run sched : forall s, FInv s -> FInv (frun sched s).
  Proof. apply run_keeps. intros s th [H1 H2]. split; [apply fctl_step|apply accounting_step]; assumption. Qed.

  Lemma fanout_progress s :
    FCtl s -> fmarker s = false -> exists th, fmeasure (fstep s th) < fmeasure s.
  Proof.
    intros [Hoff Hopen Hmk] Hm. destruct (fpc s) as [|second rest once|] eqn:Epc.
    - exists TProducer. unfold fstep, fmeasure. rewrite Epc.
      destruct (fup s), (feof s); cbn; unfold chunk_cost; lia.
    - destruct Hopen as (E1 & E2 & _); [discriminate|].
      destruct second; [exists (TCons2 1)|exists (TCons1 1)]; unfold fstep, fmeasure; rewrite ?E1, ?E2, Epc, Hoff;
        unfold offer_valid in Hoff; destruct rest as [|y [|z rest]], once; try discriminate Hoff; cbn; lia.
    - destruct (fdone1 s) eqn:E1; [destruct (fdone2 s) eqn:E2|];
        [exists TGroup|exists (TCons2 1)|exists (TCons1 1)]; unfold fstep, fmeasure; rewrite Epc, ?E1, ?E2, Hm; cbn; lia.
  Qed.

  Lemma finv_results s :
    FInv s ->
    (fdone1 s = true -> concat (fp1 s) = data) /\
    (fdone2 s = true -> concat (fp2 s) = data) /\
    (fmarker s = true -> fdone1 s = true /\ fdone2 s = true) /\
    (exists more, fmarker (frun more s) = true).
  Proof.
    intros [HC Hacc]. pose proof HC as [_ Hopen Hmk]. unfold accounting in Hacc.
    assert (Hclosed : fdone1 s = true \/ fdone2 s = true -> fpc s = PClosed).
    { intros H. destruct (fpc s); try reflexivity; destruct Hopen as (N1 & N2 & _); try discriminate; destruct H; congruence. }
    split; [|split; [|split; [exact Hmk|]]].
    - intro H. rewrite Hclosed in Hacc by auto. apply Hacc.
    - intro H. rewrite Hclosed in Hacc by auto. apply Hacc.
    - exact (progress_terminates fstep FCtl fmarker fmeasure fctl_step fanout_progress s HC).
  Qed.

  Lemma fanout_reachable chunks eofdata sched :
    concat chunks = data -> FInv (frun sched (init_fanout_eof chunks eofdata)).
  Proof. intro H. apply finv_run, finv_init, H. Qed.
End FanoutProofs.

Example fanout_example :
  let s := frun [TProducer; TCons1 2; TCons1 2; TCons2 5; TProducer; TCons1 1; TCons2 1; TProducer; TCons1 4; TCons2 4; TProducer; TCons2 1; TCons1 1; TGroup]
                (init_fanout [[1;2;3]; []]%N) in
  fmarker s = true /\ fp1 s = [[1;2]; [3]; []; []]%N /\ fp2 s = [[1;2;3]; []; []]%N.
Proof. vm_compute. repeat split; reflexivity. Qed.

(** the same bytes from a source that hands out its last chunk together with io.EOF: no
    zero-length Write at the end, one piece less for each consumer *)
Example fanout_example_eofdata :
  let s := frun [TProducer; TCons1 2; TCons1 2; TCons2 5; TProducer; TCons1 1; TCons2 1; TGroup]
                (init_fanout_eof [[1;2;3]]%N true) in
  fmarker s = true /\ fp1 s = [[1;2]; [3]]%N /\ fp2 s = [[1;2;3]]%N.
Proof. vm_compute. repeat split; reflexivity. Qed.
