(** C15 — proofs about the bsdiff scan pipeline of Conc/Collector.v: under every schedule
    the collector forwards the matches of block 0, then those of block 1, ... (each in the
    order its worker produced them), nothing lost, nothing twice.  The model updates its list of
    workers with [set_nth] of Arch/Zip.v: its lemmas and [sumw] are those of Arch/ZipFsLemmas.v;
    [b2n] is that of Conc/Fanout.v. *)
From Wharf Require Import Base.Prelude Arch.Zip Arch.ZipFsLemmas Base.StepSystem Conc.Fanout Conc.Collector.

Lemma mod_range_unique n a b b' :
  0 < n -> a <= b < a + n -> a <= b' < a + n -> b mod n = b' mod n -> b = b'.
Proof.
  intros Hn Hb Hb' E.
  pose proof (Nat.div_mod_eq b n) as D. pose proof (Nat.div_mod_eq b' n) as D'.
  rewrite E in D. set (r := b' mod n) in *. set (q := b / n) in *. set (q' := b' / n) in *. clearbody r q q'.
  destruct (Nat.lt_trichotomy q q') as [H|[H|H]]; [exfalso; nia|subst; lia|exfalso; nia].
Qed.

Section CollectorProofs.
  Variable A : Type.
  Variable ms : nat -> list A.
  Variable nb nw cap : nat.
  Hypothesis Hnw : 0 < nw.

  Local Notation cstate := (cstate A).
  Local Notation cworker := (cworker A).
  Local Notation cstep := (cstep A ms nb nw cap).
  Local Notation items_of := (items_of A ms).
  Local Notation IMatch := (IMatch A).
  Local Notation IEoc := (IEoc A).

  Definition done_upto (b : nat) : list A := flat_map ms (seq 0 b).

  Lemma done_S b : done_upto (S b) = done_upto b ++ ms b.
  Proof. unfold done_upto. rewrite seq_S, flat_map_app. cbn [flat_map]. rewrite app_nil_r. reflexivity. Qed.

  (** what has not been forwarded of a block's items: the rest of its matches, then the marker *)
  Lemma items_rest pre p l :
    map IMatch pre ++ p = map IMatch l ++ [IEoc] -> exists post, l = pre ++ post /\ p = map IMatch post ++ [IEoc].
  Proof.
    revert l. induction pre as [|a pre IH]; intros l H; [exists l; auto|].
    destruct l as [|b l]; [discriminate H|]. injection H as -> H.
    destruct (IH l H) as (post & -> & ->). exists post. auto.
  Qed.

  Definition free_range (cb dn k : nat) : Prop := forall b, cb <= b < dn -> b mod nw <> k.

  (** what is on its way through worker [w], in the order the collector will see it *)
  Definition pipe (w : cworker) : list (item A) :=
    cchan _ w ++ cemit _ w ++ match cwork _ w with Some b => items_of b | None => [] end.

  Lemma pipe_nil w : pipe w = [] -> cchan _ w = [] /\ cemit _ w = [] /\ cwork _ w = None.
  Proof.
    unfold pipe, Collector.items_of. intro H. apply app_eq_nil in H as [H1 H]. apply app_eq_nil in H as [H2 H].
    destruct (cwork _ w); [destruct (app_cons_not_nil _ _ _ (eq_sym H))|auto].
  Qed.

  (** worker k has nothing in flight / holds block b of [cb, dn), [pre] of its matches forwarded *)
  Inductive wstatus (cb dn : nat) (dh : bool) (out : list A) (k : nat) (w : cworker) : Prop :=
  | WFree : free_range cb dn k -> pipe w = [] ->
            ctoken _ w = negb (dh && Nat.eqb (dn mod nw) k) -> wstatus cb dn dh out k w
  | WHeld b pre : cb <= b < dn -> b mod nw = k -> ctoken _ w = false ->
            (b = cb -> out = done_upto b ++ pre) -> (b <> cb -> pre = []) ->
            map IMatch pre ++ pipe w = items_of b -> wstatus cb dn dh out k w.

  Definition wlive (dc : bool) (w : cworker) : Prop :=
    (cexit _ w = true -> dc = true /\ cwork _ w = None /\ cbusy _ w = false) /\
    (cbusy _ w = false -> cemit _ w = []).

  Record KInv (s : cstate) : Prop := mkKInv {
    ki_len : length (cws _ s) = nw;
    ki_le1 : cblock _ s <= dnext _ s;
    ki_le2 : dnext _ s <= nb;
    ki_le3 : dnext _ s <= cblock _ s + nw;
    ki_hold : dhold _ s = true -> dnext _ s < nb /\ free_range (cblock _ s) (dnext _ s) (dnext _ s mod nw);
    ki_dclosed : dclosed _ s = true -> dnext _ s = nb;
    ki_cclosed : cclosed _ s = true -> cblock _ s = nb;
    ki_idle : cblock _ s = dnext _ s -> cout _ s = done_upto (cblock _ s);
    ki_w : forall k w, nth_error (cws _ s) k = Some w ->
             wstatus (cblock _ s) (dnext _ s) (dhold _ s) (cout _ s) k w /\ wlive (dclosed _ s) w }.

  Lemma kinv_init : KInv (init_collector A nw).
  Proof.
    split; cbn; try (discriminate || lia || reflexivity); [apply repeat_length|].
    intros k w H. apply nth_error_In, repeat_spec in H. subst w.
    split; [apply WFree; try reflexivity; intros b Hb; lia|split; [discriminate|reflexivity]].
  Qed.

  Lemma wstatus_same cb dn dh out k w w' :
    pipe w' = pipe w -> ctoken _ w' = ctoken _ w -> wstatus cb dn dh out k w -> wstatus cb dn dh out k w'.
  Proof.
    intros E1 E2 [|b pre]; [apply WFree|apply (WHeld _ _ _ _ _ _ b pre)]; rewrite ?E1, ?E2; assumption.
  Qed.

  (** what a move of the dispatcher or the collector leaves of the status of the other workers *)
  Lemma wstatus_take cb dn out k w : k <> dn mod nw -> wstatus cb dn false out k w -> wstatus cb dn true out k w.
  Proof.
    intros Hne [F1 F2 F5|b pre]; [apply WFree|apply (WHeld _ _ _ _ _ _ b pre)]; auto.
    rewrite (proj2 (Nat.eqb_neq _ _) (not_eq_sym Hne)). exact F5.
  Qed.

  Lemma wstatus_send cb dn out k w : k <> dn mod nw -> wstatus cb dn true out k w -> wstatus cb (S dn) false out k w.
  Proof.
    intros Hne [F1 F2 F5|b pre]; [apply WFree|apply (WHeld _ _ _ _ _ _ b pre)]; auto; try lia.
    - intros b Hb. destruct (Nat.eq_dec b dn) as [->|Hnb]; [apply not_eq_sym, Hne|apply F1; lia].
    - rewrite F5, (proj2 (Nat.eqb_neq _ _) (not_eq_sym Hne)). reflexivity.
  Qed.

  Lemma wstatus_fwd cb dn dh out out' k w : k <> cb mod nw -> wstatus cb dn dh out k w -> wstatus cb dn dh out' k w.
  Proof.
    intros Hne [|b pre Hb Hm]; [apply WFree|apply (WHeld _ _ _ _ _ _ b pre)]; auto.
    intros ->. destruct (Hne (eq_sym Hm)).
  Qed.

  Lemma wstatus_eoc cb dn dh out k w :
    k <> cb mod nw -> wstatus cb dn dh out k w -> wstatus (S cb) dn dh (done_upto (S cb)) k w.
  Proof.
    intros Hne [G1|b pre Hb Hm ? Q2 Q3 Q4].
    - apply WFree; auto. intros b Hb. apply G1. lia.
    - assert (Hnb : b <> cb) by (intros ->; exact (Hne (eq_sym Hm))). rewrite (Q3 Hnb) in *.
      apply (WHeld _ _ _ _ _ _ b []); auto; try lia. intros ->. rewrite app_nil_r. reflexivity.
  Qed.

  Lemma current_worker s w :
    KInv s -> cblock _ s < dnext _ s -> nth_error (cws _ s) (cblock _ s mod nw) = Some w ->
    ctoken _ w = false /\
    exists pre, cout _ s = done_upto (cblock _ s) ++ pre /\ map IMatch pre ++ pipe w = items_of (cblock _ s).
  Proof.
    intros HK Hlt Hn. pose proof (ki_le3 s HK).
    destruct (ki_w s HK _ w Hn) as [[Hfree|b pre Hr Hm Ht Q1 _ Q3] _].
    - destruct (Hfree (cblock _ s)); [lia|reflexivity].
    - assert (b = cblock _ s) as -> by (apply (mod_range_unique nw (cblock _ s)); (assumption || lia)). eauto.
  Qed.

  Lemma kinv_dispatch s : KInv s -> KInv (cstep s CDispatch).
  Proof.
    intro HK. pose proof HK as [Hlen H1 H2 H3 Hhold Hdc Hcc Hidle Hw]. unfold Collector.cstep.
    destruct (dclosed _ s) eqn:Ed; [exact HK|].
    destruct (Nat.ltb (dnext _ s) nb) eqn:Elt.
    - apply Nat.ltb_lt in Elt. set (k := dnext _ s mod nw).
      destruct (nth_error (cws _ s) k) as [w|] eqn:Hn; [|exact HK].
      destruct (Hw k w Hn) as [Hst [L1 L2]].
      assert (Hex : cexit _ w = true -> False) by (intro X; destruct (L1 X); congruence).
      destruct (dhold _ s) eqn:Eh.
      + (* send the block *)
        destruct (cwork _ w) as [x|] eqn:Ew; [exact HK|].
        destruct (Hhold eq_refl) as [_ Hfree].
        destruct Hst as [_ Ep E3|b pre Hb Hm]; [|destruct (Hfree b Hb Hm)].
        fold k in E3. rewrite Nat.eqb_refl in E3.
        destruct (pipe_nil w Ep) as (E1 & E2 & _).
        assert (Hlt3 : dnext _ s < cblock _ s + nw).
        { destruct (Nat.eq_dec (dnext _ s) (cblock _ s + nw)) as [E|E]; [|lia].
          destruct (Hfree (cblock _ s)); [lia|]. unfold k. rewrite E.
          rewrite <- (Nat.mul_1_l nw) at 2. rewrite Nat.mod_add by lia. reflexivity. }
        split; cbn [cws dnext dhold dclosed cblock cout cclosed]; try (assumption || lia || discriminate).
        * rewrite length_set_nth. assumption.
        * intros k' w' Hn'. apply nth_error_set_nth in Hn'. destruct Hn' as [[<- ->]|[Hne Hn']].
           -- split; [|split; [intro X; destruct (Hex X)|assumption]].
              apply (WHeld _ _ _ _ _ _ (dnext _ s) []); auto; try lia.
              ++ intro E. rewrite app_nil_r, E. auto.
              ++ unfold pipe. cbn. rewrite E1, E2. reflexivity.
           -- destruct (Hw k' w' Hn') as [Hst' Hl]. split; [apply wstatus_send; auto|exact Hl].
      + (* take the token *)
        destruct (ctoken _ w) eqn:Et; [|exact HK].
        destruct Hst as [F1 F2 _|b pre _ _ Ht]; [|congruence].
        split; cbn [cws dnext dhold dclosed cblock cout cclosed]; try (assumption || discriminate); [|auto|].
        * rewrite length_set_nth. assumption.
        * intros k' w' Hn'. apply nth_error_set_nth in Hn'. destruct Hn' as [[<- ->]|[Hne Hn']].
           -- split; [|split; assumption]. apply WFree; auto. cbn. fold k. rewrite Nat.eqb_refl. reflexivity.
           -- destruct (Hw k' w' Hn') as [Hst' Hl]. split; [apply wstatus_take; auto|exact Hl].
    - (* close the work channels *)
      apply Nat.ltb_ge in Elt.
      split; cbn [cws dnext dhold dclosed cblock cout cclosed]; try (assumption || lia).
      intros k w Hn. destruct (Hw k w Hn) as [Hst [L1 L2]]. split; [exact Hst|split; [|exact L2]].
      intro X. destruct (L1 X) as [_ Y]. auto.
  Qed.

  (** none of a worker's steps changes its pipeline *)
  Lemma kinv_worker s k : KInv s -> KInv (cstep s (CWorker k)).
  Proof.
    intro HK. pose proof HK as [Hlen H1 H2 H3 Hhold Hdc Hcc Hidle Hw]. unfold Collector.cstep.
    destruct (nth_error (cws _ s) k) as [w|] eqn:Hn; [|exact HK].
    destruct (Hw k w Hn) as [Hst [L1 L2]].
    destruct (cexit _ w) eqn:Ee; [exact HK|].
    assert (Hgen : forall w', pipe w' = pipe w -> ctoken _ w' = ctoken _ w -> wlive (dclosed _ s) w' -> KInv (set_w A s k w')).
    { intros w' Ep Et Hl'. unfold set_w. split; cbn [cws dnext dhold dclosed cblock cout cclosed]; try assumption.
      - rewrite length_set_nth. assumption.
      - intros k' w2 Hn2. apply nth_error_set_nth in Hn2. destruct Hn2 as [[<- ->]|[Hne Hn2]]; auto.
        split; [apply (wstatus_same _ _ _ _ _ w)|]; assumption. }
    destruct (cbusy _ w) eqn:Eb.
    - destruct (cemit _ w) as [|x r] eqn:Eem.
      + apply Hgen; [unfold pipe; cbn; rewrite Eem; reflexivity|reflexivity|split; [cbn; congruence|reflexivity]].
      + destruct (Nat.ltb (length (cchan _ w)) cap); [|exact HK].
        apply Hgen; [unfold pipe; cbn; rewrite Eem, <- app_assoc; reflexivity|reflexivity|split; cbn; congruence].
    - destruct (cwork _ w) as [b0|] eqn:Ew.
      + apply Hgen; [unfold pipe; cbn; rewrite Ew, (L2 eq_refl), app_nil_r; reflexivity|reflexivity|split; cbn; congruence].
      + destruct (dclosed _ s) eqn:Ed; [|exact HK].
        apply Hgen; [unfold pipe; cbn; rewrite Ew; reflexivity|reflexivity|split; cbn; auto].
  Qed.

  Lemma kinv_collect s : KInv s -> KInv (cstep s CCollect).
  Proof.
    intro HK. pose proof HK as [Hlen H1 H2 H3 Hhold Hdc Hcc Hidle Hw]. unfold Collector.cstep.
    destruct (cclosed _ s) eqn:Ecc; [exact HK|].
    destruct (Nat.ltb (cblock _ s) nb) eqn:Elt.
    - apply Nat.ltb_lt in Elt. set (k := cblock _ s mod nw).
      destruct (nth_error (cws _ s) k) as [w|] eqn:Hn; [|exact HK].
      destruct (cchan _ w) as [|it r] eqn:Ech; [exact HK|].
      (* the channel is not empty: its worker holds the current block *)
      assert (Hcur : cblock _ s < dnext _ s).
      { destruct (Nat.eq_dec (cblock _ s) (dnext _ s)) as [E|E]; [|lia].
        destruct (Hw k w Hn) as [[_ F2|b pre Hb] _]; [|lia]. unfold pipe in F2. rewrite Ech in F2. discriminate F2. }
      destruct (current_worker s w HK Hcur Hn) as (Ht & pre & R2 & R4).
      unfold pipe in R4. rewrite Ech in R4. destruct (Hw k w Hn) as [_ Hl].
      destruct it as [a|].
      + (* a match is forwarded *)
        split; cbn [cws dnext dhold dclosed cblock cout cclosed]; try (assumption || lia).
        * rewrite length_set_nth. assumption.
        * intros k' w' Hn'. apply nth_error_set_nth in Hn'. destruct Hn' as [[<- ->]|[Hne Hn']].
           -- split; [|exact Hl]. apply (WHeld _ _ _ _ _ _ (cblock _ s) (pre ++ [a])); auto; try congruence.
              ++ intros _. rewrite R2, app_assoc. reflexivity.
              ++ unfold pipe. cbn. rewrite map_app, <- R4, <- !app_assoc. reflexivity.
           -- destruct (Hw k' w' Hn') as [Hst' Hl']. split; [apply (wstatus_fwd _ _ _ (cout _ s)); auto|exact Hl'].
      + (* end of chunk: the token goes back *)
        destruct (items_rest _ _ _ R4) as ([|x post] & Ems & Hnil); [|discriminate Hnil]. injection Hnil as Hnil.
        rewrite app_nil_r in Ems. subst pre.
        rewrite Ht. rewrite <- done_S in R2.
        split; cbn [cws dnext dhold dclosed cblock cout cclosed]; try (assumption || lia || congruence).
        * rewrite length_set_nth. assumption.
        * intro Hh. destruct (Hhold Hh) as [X1 X2]. split; [assumption|]. intros b Hb. apply X2. lia.
        * intros k' w' Hn'. apply nth_error_set_nth in Hn'. destruct Hn' as [[<- ->]|[Hne Hn']].
           -- split; [|exact Hl]. apply WFree; auto.
              ++ intros b Hb Hm.
                 assert (b = cblock _ s) by (apply (mod_range_unique nw (cblock _ s)); (assumption || lia)). lia.
              ++ cbn. destruct (dhold _ s) eqn:Eh; [|reflexivity]. destruct (Hhold eq_refl) as [_ X2].
                 destruct (Nat.eqb_spec (dnext _ s mod nw) k) as [Eq|]; [|reflexivity].
                 destruct (X2 (cblock _ s)); [lia|]. symmetry. exact Eq.
           -- destruct (Hw k' w' Hn') as [Hst' Hl']. rewrite R2. split; [apply (wstatus_eoc _ _ _ (cout _ s)); auto|exact Hl'].
    - apply Nat.ltb_ge in Elt. split; cbn [cws dnext dhold dclosed cblock cout cclosed]; try assumption. intros _. lia.
  Qed.

  Lemma kinv_step s th : KInv s -> KInv (cstep s th).
  Proof. destruct th; [apply kinv_dispatch|apply kinv_worker|apply kinv_collect]. Qed.

  Lemma kinv_run sched : forall s, KInv s -> KInv (crun A ms nb nw cap sched s).
  Proof. apply run_keeps. intros s th. apply kinv_step. Qed.

  Hypothesis Hcap : 0 < cap.

  (** steps still to be taken.  A block of [isz b] items (its matches and the end marker) costs
      [4 + 2 * isz b] before it is sent: taking the token, the send (which also gives the [dhold]
      unit back), and what it costs once in the [work] channel, [2 + 2 * isz b]: the worker's receive,
      the return of analyzeBlock ([cbusy]) and two steps per item, its push ([cemit] counts 2, of which
      1 moves to [cchan]) and the collector's receive.  The flags pay for the closing steps. *)
  Definition isz (b : nat) : nat := S (length (ms b)).
  Fixpoint future_blocks (b n : nat) : nat :=
    match n with O => 0 | S n' => 4 + 2 * isz b + future_blocks (S b) n' end.
  Definition wpot (w : cworker) : nat :=
    match cwork _ w with Some b => 2 + 2 * isz b | None => 0 end +
    b2n (cbusy _ w) + 2 * length (cemit _ w) + length (cchan _ w) + b2n (negb (cexit _ w)).
  Definition gpot (dn : nat) (dh dc cc : bool) : nat :=
    future_blocks dn (nb - dn) + b2n (negb dh) + b2n (negb dc) + b2n (negb cc).
  Definition cpot (s : cstate) : nat := gpot (dnext _ s) (dhold _ s) (dclosed _ s) (cclosed _ s) + sumw wpot (cws _ s).

  Lemma cpot_lt s k w w' dn dh dc cb out cc :
    nth_error (cws _ s) k = Some w ->
    gpot dn dh dc cc + wpot w' < gpot (dnext _ s) (dhold _ s) (dclosed _ s) (cclosed _ s) + wpot w ->
    cpot (mkCS A (set_nth (cws _ s) k w') dn dh dc cb out cc) < cpot s.
  Proof. intros Hn H. pose proof (sumw_set_nth wpot _ k w w' Hn). unfold cpot. cbn [cws dnext dhold dclosed cclosed]. lia. Qed.

  Lemma length_items b : length (items_of b) = isz b.
  Proof. unfold Collector.items_of, isz. rewrite app_length, map_length. cbn. lia. Qed.

  Lemma worker_lowers s k w :
    nth_error (cws _ s) k = Some w -> wlive (dclosed _ s) w -> cchan _ w = [] -> pipe w <> [] ->
    cpot (cstep s (CWorker k)) < cpot s.
  Proof.
    intros Hn [L1 L2] Ech Hp. unfold Collector.cstep, set_w. rewrite Hn.
    destruct w as [wk em bs ch tk ex]. unfold pipe in Hp. cbn [cwork cemit cbusy cchan ctoken cexit] in *. subst ch.
    destruct ex. { destruct (L1 eq_refl) as (_ & -> & Eb). rewrite (L2 Eb) in Hp. destruct Hp. reflexivity. }
    destruct bs.
    - (* inside analyzeBlock: it pushes (there is room), or returns *)
      destruct em as [|x r]; [|cbn [length]; rewrite (proj2 (Nat.ltb_lt 0 cap) Hcap)];
        apply (cpot_lt s k _ _ _ _ _ _ _ _ Hn); unfold gpot, wpot; cbn; lia.
    - (* a block is queued *)
      rewrite (L2 eq_refl) in *. destruct wk as [b|]; [|destruct Hp; reflexivity].
      apply (cpot_lt s k _ _ _ _ _ _ _ _ Hn). unfold gpot, wpot. cbn [cwork cemit cbusy cchan ctoken cexit]. rewrite length_items. cbn. lia.
  Qed.

  Theorem collector_progress s :
    KInv s -> cclosed _ s = false -> exists th, cpot (cstep s th) < cpot s.
  Proof.
    intros HK Hcc. pose proof HK as [Hlen H1 H2 H3 Hhold Hdc _ Hidle Hw].
    destruct (Nat.ltb (cblock _ s) nb) eqn:Elt.
    2:{ exists CCollect. unfold Collector.cstep, cpot, gpot. rewrite Hcc, Elt. cbn [cws dnext dhold dclosed cclosed b2n negb]. lia. }
    apply Nat.ltb_lt in Elt.
    assert (Hk : forall b, nth_error (cws _ s) (b mod nw) <> None)
      by (intro b; apply nth_error_Some; rewrite Hlen; apply Nat.mod_upper_bound; lia).
    destruct (Nat.eq_dec (cblock _ s) (dnext _ s)) as [E|E].
    - (* nothing in flight: the dispatcher can move *)
      exists CDispatch. unfold Collector.cstep.
      destruct (dclosed _ s) eqn:Ed; [specialize (Hdc eq_refl); lia|].
      rewrite (proj2 (Nat.ltb_lt _ _)) by lia.
      destruct (nth_error (cws _ s) (dnext _ s mod nw)) as [w|] eqn:Hn; [|destruct (Hk _ Hn)].
      destruct (Hw _ w Hn) as [[_ Fp F5|b pre Hb] _]; [|lia]. destruct (pipe_nil w Fp) as (_ & _ & F2).
      rewrite Nat.eqb_refl, andb_true_r in F5. rewrite F2, F5.
      destruct (dhold _ s) eqn:Eh; cbn [negb]; (apply (cpot_lt s _ w); [exact Hn|]); unfold gpot, wpot; rewrite Ed, Eh, F2;
        replace (nb - dnext _ s) with (S (nb - S (dnext _ s))) by lia; cbn; lia.
    - (* the worker of the current block holds it: it moves, or the collector receives from it *)
      set (k := cblock _ s mod nw).
      destruct (nth_error (cws _ s) k) as [w|] eqn:Hn; [|destruct (Hk _ Hn)].
      destruct (current_worker s w HK ltac:(lia) Hn) as (Ht & pre & _ & R4).
      destruct (cchan _ w) as [|it r] eqn:Ech.
      + exists (CWorker k). apply (worker_lowers s k w Hn (proj2 (Hw k w Hn)) Ech).
        intros Ep. destruct (items_rest _ _ _ R4) as (post & _ & Er). rewrite Ep in Er. destruct post; discriminate Er.
      + exists CCollect. unfold Collector.cstep. rewrite Hcc, (proj2 (Nat.ltb_lt _ _) Elt). fold k. rewrite Hn, Ech, Ht.
        destruct it as [a|]; (apply (cpot_lt s k w _ _ _ _ _ _ _ Hn)); unfold gpot, wpot; rewrite Hcc, Ech; cbn; lia.
  Qed.

  Lemma kinv_results s :
    KInv s ->
    (cclosed _ s = true -> cout _ s = all_matches A ms nb) /\
    (exists more, cclosed _ (crun A ms nb nw cap more s) = true).
  Proof.
    intro HK. split; [|exact (progress_terminates cstep KInv (cclosed _) cpot kinv_step collector_progress s HK)].
    intro Hc. pose proof (ki_cclosed s HK Hc) as E. pose proof (ki_le1 s HK). pose proof (ki_le2 s HK).
    unfold all_matches. rewrite <- E. apply (ki_idle s HK). lia.
  Qed.
End CollectorProofs.

Example collector_example :
  let ms := fun b => match b with 0 => [10; 11; 12] | 1 => [] | 2 => [20] | _ => [30; 31] end in
  let s := crun nat ms 4 2 2 (concat (repeat [CWorker 1; CDispatch; CWorker 0; CCollect] 40)) (init_collector nat 2) in
  cclosed nat s = true /\ cout nat s = [10; 11; 12; 20; 30; 31].
Proof. vm_compute. split; reflexivity. Qed.
