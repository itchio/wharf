(** Lemmas about [FS/Tree.v]: path equality, prefixes and [lookup] after [set] / [del] /
    [del_tree] ([node_at] after them is in [FS/OpsProofs.v]). *)
From Wharf Require Import FS.Light FS.Tree.
From Wharf Require Base.ListLemmas.

(** [path_eqb], [is_prefix] and [lookup] are, up to conversion, [list_eqb], [prefixb] and [assoc]
    of Base/ListLemmas.v at [N.eqb]; their basic facts are instances of the lemmas there. *)
Lemma path_eqb_eq : forall p q, path_eqb p q = true <-> p = q.
Proof. exact (ListLemmas.list_eqb_eq N.eqb N.eqb_eq). Qed.

Lemma dest_eqb_iff : forall a c, dest_eqb a c = true <-> a = c.
Proof.
  apply ListLemmas.list_eqb_eq. intros [|x] [|y]; cbn; try (split; congruence).
  rewrite N.eqb_eq. split; congruence.
Qed.

Lemma path_eqb_refl : forall p, path_eqb p p = true.
Proof. exact (ListLemmas.list_eqb_refl N.eqb N.eqb_eq). Qed.

Lemma path_eqb_neq : forall p q, path_eqb p q = false <-> p <> q.
Proof. exact (ListLemmas.list_eqb_neq N.eqb N.eqb_eq). Qed.

Lemma path_eqb_sym : forall p q, path_eqb p q = path_eqb q p.
Proof. exact (ListLemmas.list_eqb_sym N.eqb N.eqb_eq). Qed.

Lemma path_eq_dec : forall p q : path, {p = q} + {p <> q}.
Proof. exact (ListLemmas.list_eqb_dec N.eqb N.eqb_eq). Qed.

Lemma is_prefix_spec : forall p q, is_prefix p q = true <-> exists r, q = p ++ r.
Proof. exact (ListLemmas.prefixb_spec N.eqb N.eqb_eq). Qed.

Lemma is_prefix_app : forall p r, is_prefix p (p ++ r) = true.
Proof. exact (ListLemmas.prefixb_app N.eqb N.eqb_eq). Qed.

Lemma is_prefix_refl : forall p, is_prefix p p = true.
Proof. exact (ListLemmas.prefixb_refl N.eqb N.eqb_eq). Qed.

Lemma is_prefix_false : forall p q, is_prefix p q = false <-> ~ exists r, q = p ++ r.
Proof. intros p q. rewrite <- not_true_iff_false, is_prefix_spec. reflexivity. Qed.

Lemma prefixes_spec : forall p a, In a (prefixes p) <-> exists r, r <> [] /\ p = a ++ r.
Proof.
  induction p as [|x p IH]; intros a; cbn.
  - split; [contradiction | intros [r [Hr H]]]. destruct a; destruct r; cbn in H; congruence.
  - split.
    + intros [H | H].
      * subst. exists (x :: p). split; [discriminate | reflexivity].
      * apply in_map_iff in H as [a' [Ha Hin]]. apply IH in Hin as [r [Hr Hp]]. subst.
        exists r. split; [exact Hr | reflexivity].
    + intros [r [Hr H]]. destruct a as [|y a].
      * left. reflexivity.
      * right. cbn in H. inversion H; subst. apply in_map_iff. exists a. split; [reflexivity|].
        apply IH. exists r. split; [exact Hr | reflexivity].
Qed.

Lemma prefixes_app : forall p q a, In a (prefixes (p ++ q)) <->
  In a (prefixes p) \/ exists a', a = p ++ a' /\ In a' (prefixes q).
Proof.
  intros p q a. rewrite prefixes_spec. split.
  - intros [r [Hr H]]. destruct (ListLemmas.app_cut _ _ _ _ H) as [[l [E1 E2]] | [x [l [E1 E2]]]].
    + right. exists l. split; [exact E1 | apply prefixes_spec; exists r; split; assumption].
    + left. apply prefixes_spec. exists (x :: l). split; [discriminate | exact E1].
  - intros [H | [a' [Ha H]]].
    + apply prefixes_spec in H as [r [Hr H]]. subst. exists (r ++ q). split.
      * destruct r; [congruence | discriminate].
      * rewrite app_assoc. reflexivity.
    + apply prefixes_spec in H as [r [Hr H]]. subst. exists r. split; [exact Hr | rewrite app_assoc; reflexivity].
Qed.

Lemma lookup_set : forall t p n q, lookup (set t p n) q = if path_eqb p q then Some n else lookup t q.
Proof. reflexivity. Qed.

Lemma lookup_del : forall t p q, lookup (del t p) q = if path_eqb p q then None else lookup t q.
Proof.
  intros t p q. rewrite (path_eqb_sym p q).
  exact (ListLemmas.assoc_filter_negb N.eqb N.eqb_eq (fun k => path_eqb k p) t q).
Qed.

Lemma lookup_del_tree : forall t p q, lookup (del_tree t p) q = if is_prefix p q then None else lookup t q.
Proof. intros t p. exact (ListLemmas.assoc_filter_negb N.eqb N.eqb_eq (is_prefix p) t). Qed.

Lemma node_at_nonempty : forall t p, p <> [] -> node_at t p = lookup t p.
Proof. intros t [|x p] H; [congruence | reflexivity]. Qed.

Lemma app_nonempty : forall (T p : path), p <> [] -> T ++ p <> [].
Proof. intros T p H E. apply app_eq_nil in E as [_ E]. contradiction. Qed.
