(** Lemmas about [FS/Ops.v]: a path all of whose proper prefixes are real directories resolves
    to itself ("literally", [lit]: defined here, used in the FSAgree and Heal statements), what
    every operation does on such a path, and [node_at] after [set] / [del] / [del_tree]. *)
From Wharf Require Import FS.Light FS.Tree FS.TreeProofs FS.Ops.

Definition lit (t : tree) (p : path) : Prop :=
  forall a, In a (prefixes p) -> node_at t a = Some Dir.

Lemma lit_nil : forall t, lit t [].
Proof. intros t a H. destruct H. Qed.

Lemma lit_prefix : forall t p r, lit t (p ++ r) -> lit t p.
Proof.
  intros t p r H a Ha. apply H. apply prefixes_app. left. exact Ha.
Qed.

Lemma lit_parent_dir : forall t p r, r <> [] -> lit t (p ++ r) -> node_at t p = Some Dir.
Proof.
  intros t p r Hr H. apply H. apply prefixes_spec. exists r. split; [exact Hr | reflexivity].
Qed.

Lemma lit_app : forall t p q, lit t p -> node_at t p = Some Dir ->
  (forall a, In a (prefixes q) -> a <> [] -> node_at t (p ++ a) = Some Dir) -> lit t (p ++ q).
Proof.
  intros t p q Hp Hd Hq a Ha. apply prefixes_app in Ha as [Ha | [a' [E Ha]]].
  - apply Hp. exact Ha.
  - subst. destruct a' as [|x a'].
    + rewrite app_nil_r. exact Hd.
    + apply Hq; [exact Ha | discriminate].
Qed.

Lemma walk_go_cons2 : forall k t fl cur n c rest,
  walk_go k t fl cur (Nm n :: c :: rest) =
  match lookup t (cur ++ [n]) with
  | None => Err ENOENT
  | Some Dir => walk_go k t fl (cur ++ [n]) (c :: rest)
  | Some (File _) => Err ENOTDIR
  | Some (Link d) => k cur (d ++ c :: rest)
  end.
Proof. reflexivity. Qed.

Lemma walk_go_lit : forall k t fl ns cur,
  (forall a, In a (prefixes ns) -> a <> [] -> lookup t (cur ++ a) = Some Dir) ->
  ns <> [] ->
  (fl = true -> forall d, lookup t (cur ++ ns) <> Some (Link d)) ->
  walk_go k t fl cur (map Nm ns) = Ok (cur ++ ns).
Proof.
  intros k t fl ns. induction ns as [|n ns IH]; intros cur Hd Hne Hl; [congruence|].
  destruct ns as [|m ns'].
  - cbn. destruct fl; [|reflexivity].
    pose proof (Hl eq_refl) as Hl'.
    destruct (lookup t (cur ++ [n])) as [[| |d]|]; try reflexivity.
    exfalso. apply (Hl' d). reflexivity.
  - cbn [map]. rewrite walk_go_cons2.
    assert (E : lookup t (cur ++ [n]) = Some Dir).
    { apply Hd; [|discriminate]. right. left. reflexivity. }
    rewrite E.
    change (Nm m :: map Nm ns') with (map Nm (m :: ns')).
    rewrite IH.
    + rewrite <- app_assoc. reflexivity.
    + intros a Ha Hn. rewrite <- app_assoc. apply Hd; [|discriminate]. right. apply in_map, Ha.
    + discriminate.
    + intros Hf d. rewrite <- app_assoc. apply Hl. exact Hf.
Qed.

Lemma walk_unfold : forall lf t fl cur cs, exists k, walk lf t fl cur cs = walk_go k t fl cur cs.
Proof. intros [|lf] t fl cur cs; cbn [walk]; eexists; reflexivity. Qed.

Lemma resolve_lit : forall t fl p,
  lit t p -> (fl = true -> forall d, node_at t p <> Some (Link d)) -> resolve t fl p = Ok p.
Proof.
  intros t fl p Hl Hf. unfold resolve. destruct (walk_unfold link_fuel t fl [] (map Nm p)) as [k ->].
  destruct p as [|x p]; [reflexivity|].
  apply (walk_go_lit k t fl (x :: p) []).
  - intros a Ha Hn. cbn [app]. rewrite <- (node_at_nonempty t a Hn). apply Hl. exact Ha.
  - discriminate.
  - intros E d. cbn [app]. apply (Hf E d).
Qed.

Lemma lstat_lit : forall t p, lit t p ->
  lstat t p = match node_at t p with Some n => Ok n | None => Err ENOENT end.
Proof.
  intros t p H. unfold lstat. rewrite resolve_lit; [reflexivity | exact H | discriminate].
Qed.

Lemma stat_lit : forall t p, lit t p -> (forall d, node_at t p <> Some (Link d)) ->
  stat t p = match node_at t p with Some n => Ok n | None => Err ENOENT end.
Proof.
  intros t p H Hn. unfold stat. rewrite resolve_lit; [reflexivity | exact H | intros _; exact Hn].
Qed.

Lemma readlink_lit : forall t p, lit t p ->
  readlink t p = match node_at t p with Some (Link d) => Ok d | Some _ => Err EINVAL | None => Err ENOENT end.
Proof.
  intros t p H. unfold readlink. rewrite lstat_lit by exact H.
  destruct (node_at t p) as [[| |]|]; reflexivity.
Qed.

Lemma read_file_lit : forall t p, lit t p -> (forall d, node_at t p <> Some (Link d)) ->
  read_file t p = match node_at t p with Some (File d) => Ok d | Some Dir => Err EISDIR | Some (Link _) => Err ELOOP | None => Err ENOENT end.
Proof.
  intros t p H Hn. unfold read_file. rewrite stat_lit by assumption.
  destruct (node_at t p) as [[| |]|]; reflexivity.
Qed.

Lemma mkdir_all_rev_unfold : forall t rp,
  mkdir_all_rev t rp =
  match stat t (rev rp) with
  | Ok Dir => Ok t
  | Ok _ => Err ENOTDIR
  | Err _ =>
      match rp with
      | [] => Err ENOENT
      | _ :: rp' =>
          match mkdir_all_rev t rp' with
          | Err e => Err e
          | Ok t1 =>
              match mkdir t1 (rev rp) with
              | Ok t2 => Ok t2
              | Err e => match lstat t1 (rev rp) with Ok Dir => Ok t1 | _ => Err e end
              end
          end
      end
  end.
Proof. intros t [|x rp]; reflexivity. Qed.

Lemma mkdir_all_dir : forall t p, lit t p -> node_at t p = Some Dir -> mkdir_all t p = Ok t.
Proof.
  intros t p Hl Hd. unfold mkdir_all. rewrite mkdir_all_rev_unfold, rev_involutive.
  rewrite stat_lit; [rewrite Hd; reflexivity | exact Hl | intros d; congruence].
Qed.

Lemma mkdir_lit : forall t p, lit t p -> node_at t p = None -> mkdir t p = Ok (set t p Dir).
Proof.
  intros t p Hl Hn. unfold mkdir. rewrite resolve_lit; [rewrite Hn; reflexivity | exact Hl | discriminate].
Qed.

Lemma mkdir_all_new : forall t p, lit t p -> node_at t p = None -> mkdir_all t p = Ok (set t p Dir).
Proof.
  intros t p Hl Hn.
  destruct p as [|x p'] using rev_ind; [cbn in Hn; discriminate|]. clear IHp'.
  unfold mkdir_all. rewrite mkdir_all_rev_unfold, rev_involutive.
  rewrite stat_lit; [| exact Hl | intros d; congruence]. rewrite Hn.
  rewrite rev_app_distr. cbn [rev app].
  change (mkdir_all_rev t (rev p')) with (mkdir_all t p').
  rewrite mkdir_all_dir.
  - rewrite mkdir_lit by assumption. reflexivity.
  - eapply lit_prefix. exact Hl.
  - eapply lit_parent_dir; [|exact Hl]. discriminate.
Qed.

Lemma remove_lit : forall t p, lit t p -> p <> [] ->
  (exists n, lookup t p = Some n /\ n <> Dir) -> remove t p = Ok (del t p).
Proof.
  intros t p Hl Hne [n [Hn Hd]]. unfold remove. rewrite resolve_lit; [| exact Hl | discriminate].
  destruct p as [|x p]; [congruence|]. rewrite Hn. destruct n; [reflexivity | congruence | reflexivity].
Qed.

Lemma not_dir : forall t p n, p <> [] -> node_at t p = Some n -> n <> Dir ->
  exists n, lookup t p = Some n /\ n <> Dir.
Proof. intros t p n Hp E Hn. exists n. rewrite <- node_at_nonempty by exact Hp. split; assumption. Qed.

Lemma remove_node : forall t p n, lit t p -> p <> [] -> node_at t p = Some n -> n <> Dir ->
  remove t p = Ok (del t p).
Proof. intros t p n Hl Hp E Hn. apply remove_lit; [exact Hl | exact Hp | eapply not_dir; eassumption]. Qed.

Lemma remove_all_lit : forall t p, lit t p -> p <> [] -> remove_all t p = Ok (del_tree t p).
Proof.
  intros t p Hl Hne. unfold remove_all. rewrite resolve_lit; [| exact Hl | discriminate].
  destruct p; [congruence | reflexivity].
Qed.

Lemma symlink_lit : forall t d p, lit t p -> node_at t p = None -> symlink t d p = Ok (set t p (Link d)).
Proof.
  intros t d p Hl Hn. unfold symlink. rewrite resolve_lit; [rewrite Hn; reflexivity | exact Hl | discriminate].
Qed.

Lemma open_trunc_lit : forall t p, lit t p ->
  (node_at t p = None \/ exists d, node_at t p = Some (File d)) ->
  open_trunc t p = Ok (set t p (File []), p).
Proof.
  intros t p Hl H. unfold open_trunc. rewrite resolve_lit; [| exact Hl |].
  - destruct H as [H | [d H]]; rewrite H; reflexivity.
  - intros _ d E. destruct H as [H | [d' H]]; congruence.
Qed.

(** [node_at] after the tree updates, on non-empty keys: as [lookup], the root is never hit *)
Lemma node_at_of_lookup : forall t t' (hit : path -> bool) x, hit [] = false ->
  (forall q, lookup t' q = if hit q then x else lookup t q) ->
  forall q, node_at t' q = if hit q then x else node_at t q.
Proof. intros t t' hit x H0 H [|y q]; cbn [node_at]; [rewrite H0; reflexivity | apply H]. Qed.

Lemma node_at_set : forall t p n q, p <> [] ->
  node_at (set t p n) q = if path_eqb p q then Some n else node_at t q.
Proof.
  intros t p n q Hp. apply node_at_of_lookup; [apply path_eqb_neq, Hp | intro; apply lookup_set].
Qed.

Lemma node_at_set_same : forall t p n, p <> [] -> node_at (set t p n) p = Some n.
Proof. intros t p n Hp. rewrite node_at_set, path_eqb_refl by exact Hp. reflexivity. Qed.

Lemma node_at_del : forall t p q, p <> [] ->
  node_at (del t p) q = if path_eqb p q then None else node_at t q.
Proof.
  intros t p q Hp. apply node_at_of_lookup; [apply path_eqb_neq, Hp | intro; apply lookup_del].
Qed.

Lemma node_at_del_same : forall t p, p <> [] -> node_at (del t p) p = None.
Proof. intros t p Hp. rewrite node_at_del, path_eqb_refl by exact Hp. reflexivity. Qed.

Lemma node_at_del_tree : forall t p q, p <> [] ->
  node_at (del_tree t p) q = if is_prefix p q then None else node_at t q.
Proof.
  intros t p q Hp. apply node_at_of_lookup; [destruct p; [congruence | reflexivity] | intro; apply lookup_del_tree].
Qed.

Lemma node_at_del_tree_same : forall t p, p <> [] -> node_at (del_tree t p) p = None.
Proof. intros t p Hp. rewrite node_at_del_tree, is_prefix_refl by exact Hp. reflexivity. Qed.
