(** Filesystem model, part 2: the operations used by the validator, the healer and the bowls,
    with Linux errno classes (DESIGN section 5, "Filesystem").  Every operation takes a clean
    path of names (Go callers pass [filepath.Join]ed paths); intermediate components that are
    symlinks are followed, the last one only by the operations that follow it on Linux ([stat],
    [read_file], [open_trunc], [open_nocreate]), at most [link_fuel] = 40 links per resolution
    (ELOOP beyond).

    [os.MkdirAll], [os.Remove] and [os.RemoveAll] are modelled after Go's implementation on
    Linux (what they stat, in which order, which error they return).
    Definitions only; lemmas are in [FS/OpsProofs.v].  Validated against the kernel by the
    "fsmodel" correspondence group of C06. *)
From Wharf Require Import FS.Light FS.Tree.

Inductive errno := ENOENT | ENOTDIR | EISDIR | ENOTEMPTY | EEXIST | EINVAL | ELOOP | EBUSY.

Definition errno_eqb (a b : errno) : bool :=
  match a, b with
  | ENOENT, ENOENT | ENOTDIR, ENOTDIR | EISDIR, EISDIR | ENOTEMPTY, ENOTEMPTY
  | EEXIST, EEXIST | EINVAL, EINVAL | ELOOP, ELOOP | EBUSY, EBUSY => true
  | _, _ => false
  end.

Inductive res (A : Type) := Ok (a : A) | Err (e : errno).
Arguments Ok {A} a.
Arguments Err {A} e.

(** ---- path resolution ----

    [walk_go k t fl cur cs]: [cur] is an already resolved directory, [cs] the components
    still to be walked.  The result is the resolved location of the last component (whose
    parent is a real directory; the location itself may be absent).  [fl]: follow a symlink in
    last position.  [k] continues after a symlink has been expanded (one unit of link fuel). *)
Fixpoint walk_go (k : path -> list comp -> res path) (t : tree) (fl : bool)
         (cur : path) (cs : list comp) {struct cs} : res path :=
  match cs with
  | [] => Ok cur
  | Up :: rest => walk_go k t fl (removelast cur) rest
  | Nm n :: rest =>
      let p := cur ++ [n] in
      match rest with
      | [] =>
          if fl then
            match lookup t p with
            | Some (Link d) => k cur d
            | _ => Ok p
            end
          else Ok p
      | _ :: _ =>
          match lookup t p with
          | None => Err ENOENT
          | Some Dir => walk_go k t fl p rest
          | Some (File _) => Err ENOTDIR
          | Some (Link d) => k cur (d ++ rest)
          end
      end
  end.

Fixpoint walk (lf : nat) (t : tree) (fl : bool) (cur : path) (cs : list comp) : res path :=
  match lf with
  | O => walk_go (fun _ _ => Err ELOOP) t fl cur cs
  | S lf' => walk_go (walk lf' t fl) t fl cur cs
  end.

Definition link_fuel : nat := 40.

Definition resolve (t : tree) (fl : bool) (p : path) : res path :=
  walk link_fuel t fl [] (map Nm p).

(** ---- reading operations ---- *)

Definition lstat (t : tree) (p : path) : res node :=
  match resolve t false p with
  | Err e => Err e
  | Ok q => match node_at t q with Some n => Ok n | None => Err ENOENT end
  end.

Definition stat (t : tree) (p : path) : res node :=
  match resolve t true p with
  | Err e => Err e
  | Ok q => match node_at t q with Some n => Ok n | None => Err ENOENT end
  end.

Definition readlink (t : tree) (p : path) : res (list comp) :=
  match lstat t p with
  | Err e => Err e
  | Ok (Link d) => Ok d
  | Ok _ => Err EINVAL
  end.

(** open for reading + read everything *)
Definition read_file (t : tree) (p : path) : res (list N) :=
  match stat t p with
  | Err e => Err e
  | Ok (File d) => Ok d
  | Ok Dir => Err EISDIR
  | Ok (Link _) => Err ELOOP
  end.

(** ---- writing operations ---- *)

Definition mkdir (t : tree) (p : path) : res tree :=
  match resolve t false p with
  | Err e => Err e
  | Ok q => match node_at t q with
            | Some _ => Err EEXIST
            | None => Ok (set t q Dir)
            end
  end.

(** [os.MkdirAll]: Stat (following); a directory: done; something else: ENOTDIR; any error:
    MkdirAll(parent), then Mkdir, and if that fails Lstat once more (someone else may have made
    it).  [rp] is the path reversed. *)
Fixpoint mkdir_all_rev (t : tree) (rp : list name) : res tree :=
  match stat t (rev rp) with
  | Ok Dir => Ok t
  | Ok _ => Err ENOTDIR
  | Err _ =>
      match rp with
      | [] => Err ENOENT
      | _ :: rp' =>
          match mkdir_all_rev t rp' with
          | Err e => Err e
          | Ok t1 =>
              match mkdir t1 (rev rp) with
              | Ok t2 => Ok t2
              | Err e => match lstat t1 (rev rp) with Ok Dir => Ok t1 | _ => Err e end
              end
          end
      end
  end.

Definition mkdir_all (t : tree) (p : path) : res tree := mkdir_all_rev t (rev p).

(** [os.Remove]: unlink, else rmdir *)
Definition remove (t : tree) (p : path) : res tree :=
  match resolve t false p with
  | Err e => Err e
  | Ok [] => Err EBUSY
  | Ok q => match lookup t q with
            | None => Err ENOENT
            | Some Dir => if has_child t q then Err ENOTEMPTY else Ok (del t q)
            | Some _ => Ok (del t q)
            end
  end.

(** [os.RemoveAll]: nothing there (ENOENT anywhere on the way) is fine; a non-directory on the
    way is an error; symlinks below are not followed *)
Definition remove_all (t : tree) (p : path) : res tree :=
  match resolve t false p with
  | Err ENOENT => Ok t
  | Err e => Err e
  | Ok [] => Err EINVAL
  | Ok q => Ok (del_tree t q)
  end.

Definition symlink (t : tree) (dest : list comp) (p : path) : res tree :=
  match resolve t false p with
  | Err e => Err e
  | Ok q => match node_at t q with
            | Some _ => Err EEXIST
            | None => Ok (set t q (Link dest))
            end
  end.

(** open(O_WRONLY|O_CREAT|O_TRUNC): follows a symlink in last position (a dangling one: the
    file is created where it points); returns the tree and the resolved location, which
    stands for the file descriptor *)
Definition open_trunc (t : tree) (p : path) : res (tree * path) :=
  match resolve t true p with
  | Err e => Err e
  | Ok q => match node_at t q with
            | Some Dir => Err EISDIR
            | Some (Link _) => Err ELOOP
            | Some (File _) | None => Ok (set t q (File []), q)
            end
  end.

(** open(O_WRONLY) without O_CREAT, no truncation *)
Definition open_nocreate (t : tree) (p : path) : res path :=
  match resolve t true p with
  | Err e => Err e
  | Ok q => match node_at t q with
            | Some Dir => Err EISDIR
            | Some (Link _) => Err ELOOP
            | Some (File _) => Ok q
            | None => Err ENOENT
            end
  end.

(** write the whole content through a descriptor obtained at location [q]: when the file has
    been unlinked or replaced meanwhile the data goes to the orphaned inode, i.e. nowhere *)
Definition write_fd (t : tree) (q : path) (data : list N) : tree :=
  match node_at t q with
  | Some (File _) => set t q (File data)
  | _ => t
  end.

(* pwrite: a hole before [off] reads as zeros; writing nothing changes nothing *)
Definition write_at_data (old : list N) (off : nat) (data : list N) : list N :=
  match data with
  | [] => old
  | _ => firstn off old ++ repeat 0%N (off - length old) ++ data ++ skipn (off + length data) old
  end.

Definition write_at_fd (t : tree) (q : path) (off : nat) (data : list N) : tree :=
  match node_at t q with
  | Some (File old) => set t q (File (write_at_data old off data))
  | _ => t
  end.

Definition truncate_fd (t : tree) (q : path) (len : nat) : tree :=
  match node_at t q with
  | Some (File old) => set t q (File (firstn len old ++ repeat 0%N (len - length old)))
  | _ => t
  end.

(** rename(2) *)
Definition rename2 (t : tree) (src dst : path) : res tree :=
  match resolve t false src, resolve t false dst with
  | Err e, _ => Err e
  | _, Err e => Err e
  | Ok qs, Ok qd =>
      match node_at t qs with
      | None => Err ENOENT
      | Some ns =>
          match qs, qd with
          | [], _ | _, [] => Err EBUSY
          | _, _ =>
              if path_eqb qs qd then Ok t else
              if is_prefix qs qd then Err EINVAL else          (* into its own subtree *)
              if is_prefix qd qs then Err ENOTEMPTY else       (* onto one of its ancestors *)
              match ns with
              | Dir =>
                  match node_at t qd with
                  | None => Ok (move_tree t qs qd)
                  | Some Dir => if has_child t qd then Err ENOTEMPTY else Ok (move_tree (del t qd) qs qd)
                  | Some _ => Err ENOTDIR
                  end
              | _ =>
                  match node_at t qd with
                  | Some Dir => Err EISDIR
                  | _ => Ok (move_tree (del t qd) qs qd)
                  end
              end
          end
      end
  end.

(** [os.Rename]: refuses an existing directory as destination (EEXIST) unless source and
    destination are the same file under two different names; an error about the source comes first *)
Definition rename (t : tree) (src dst : path) : res tree :=
  match lstat t dst with
  | Ok Dir =>
      match lstat t src with
      | Err e => Err e
      | Ok _ =>
          match resolve t false src, resolve t false dst with
          | Ok qs, Ok qd => if path_eqb qs qd && negb (path_eqb src dst) then rename2 t src dst else Err EEXIST
          | _, _ => Err EEXIST
          end
      end
  | _ => rename2 t src dst
  end.
