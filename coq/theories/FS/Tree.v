(** Filesystem model, part 1: trees (DESIGN section 5, "Filesystem").

    A tree is a finite map from paths to nodes, represented as an association list in which
    the first binding of a key is the live one ([set] shadows, [del]/[del_tree] remove every
    binding).  The root [[]] always exists and is a directory.  A path component is a number
    (the harness maps names to numbers); a symlink destination is a list of components that may
    contain [Up] ("..").  Definitions only; lemmas are in [FS/TreeProofs.v]. *)
From Wharf Require Import FS.Light.

Definition name := N.
Definition path := list name.

Inductive comp := Up | Nm (n : name).

Inductive node :=
| File (data : list N)
| Dir
| Link (dest : list comp).

Definition tree := list (path * node).

Definition path_eqb (p q : path) : bool := list_eqb N.eqb p q.

Definition comp_eqb (a b : comp) : bool :=
  match a, b with
  | Up, Up => true
  | Nm x, Nm y => N.eqb x y
  | _, _ => false
  end.

Definition dest_eqb (a b : list comp) : bool := list_eqb comp_eqb a b.

Definition node_eqb (a b : node) : bool :=
  match a, b with
  | File x, File y => nlist_eqb x y
  | Dir, Dir => true
  | Link x, Link y => dest_eqb x y
  | _, _ => false
  end.

(** [is_prefix p q]: [p] is a (not necessarily proper) prefix of [q] *)
Fixpoint is_prefix (p q : path) : bool :=
  match p, q with
  | [], _ => true
  | x :: p', y :: q' => N.eqb x y && is_prefix p' q'
  | _ :: _, [] => false
  end.

Fixpoint lookup (t : tree) (p : path) : option node :=
  match t with
  | [] => None
  | (q, n) :: r => if path_eqb q p then Some n else lookup r p
  end.

(** what is at a resolved path: the root is always a directory *)
Definition node_at (t : tree) (p : path) : option node :=
  match p with
  | [] => Some Dir
  | _ => lookup t p
  end.

Definition set (t : tree) (p : path) (n : node) : tree := (p, n) :: t.

Definition del (t : tree) (p : path) : tree :=
  filter (fun e => negb (path_eqb (fst e) p)) t.

(** remove [p] and everything below it *)
Definition del_tree (t : tree) (p : path) : tree :=
  filter (fun e => negb (is_prefix p (fst e))) t.

(** is there a binding strictly below [p]? *)
Definition has_child (t : tree) (p : path) : bool :=
  existsb (fun e => is_prefix p (fst e) && negb (path_eqb p (fst e))) t.

(** re-root the bindings at or below [src] to [dst] *)
Definition move_tree (t : tree) (src dst : path) : tree :=
  map (fun e => if is_prefix src (fst e) then (dst ++ skipn (length src) (fst e), snd e) else e) t.

(** the live bindings, each key once (first binding wins), for comparisons *)
Fixpoint canon_aux (seen : list path) (t : tree) : tree :=
  match t with
  | [] => []
  | (p, n) :: r => if existsb (path_eqb p) seen then canon_aux seen r else (p, n) :: canon_aux (p :: seen) r
  end.
Definition canon (t : tree) : tree := canon_aux [] t.

(** [tree_sub a b]: every live binding of [a] is a live binding of [b] *)
Definition tree_sub (a b : tree) : bool :=
  forallb (fun e => match lookup b (fst e) with Some n => node_eqb n (snd e) | None => false end) (canon a).

Definition tree_eqb (a b : tree) : bool := tree_sub a b && tree_sub b a.

(** [prefixes p] = all proper prefixes of [p], the empty one included *)
Fixpoint prefixes (p : path) : list path :=
  match p with
  | [] => []
  | x :: r => [] :: map (cons x) (prefixes r)
  end.

(** well-formed: every binding's proper non-empty prefixes are directories (not needed by the
    operations; the harness' trees have it and [Exec] checks it on the trees it is given) *)
Definition wf_tree (t : tree) : bool :=
  forallb (fun e => forallb (fun a => match node_at t a with Some Dir => true | _ => false end) (prefixes (fst e))
                    && negb (path_eqb (fst e) [])) (canon t).
