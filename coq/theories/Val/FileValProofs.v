(** Proofs about the validator model: aggregation keeps every wounded offset wounded, every
    deviation of a regular file below the signed length lies in a reported wound, length
    mismatches are wounded, wounds are well-formed, no wound => the entry matches.
    Defines [in_wound] (an offset of a file lies in a FILE wound) and [wellformed], in which the
    C05 statements are written. *)
From Wharf Require Import Base.Prelude Base.BlocksLemmas Val.VPool Val.VPoolProofs Val.FileVal.
From Coq Require Import ZifyBool ZifyNat.
Local Open Scope Z_scope.

Definition in_wound (i o : Z) (w : wound) : Prop :=
  wk w = WFile /\ widx w = i /\ wstart w <= o < wend w.

Definition wellformed (w : wound) : Prop := 0 <= wstart w <= wend w.

(** the wound AggregateWounds holds back *)
Definition flush (last : option wound) : list wound := match last with Some l => [l] | None => [] end.

Lemma aggregate_nonfile maxSize last w r :
  wk w <> WFile -> aggregate maxSize last (w :: r) = flush last ++ w :: aggregate maxSize None r.
Proof. intros Hk. cbn [aggregate]. destruct (wk w), last; (congruence || reflexivity). Qed.

(** what merging keeps and every marker received has, every marker sent has *)
Lemma aggregate_closed (P : wound -> Prop) maxSize :
  (forall l w, P l -> P w -> wend l <= wstart w -> wstart l <= wstart w ->
               P (mkwound (wk l) (widx l) (wstart l) (wend w))) ->
  forall ws last, Forall P ws -> Forall P (flush last) -> Forall P (aggregate maxSize last ws).
Proof.
  intros Hmerge. induction ws as [|w r IH]; intros last Hws Hlast; [exact Hlast|].
  apply Forall_cons_iff in Hws. destruct Hws as [Hw Hr].
  assert (HN : Forall P (aggregate maxSize None r)) by (apply IH; [assumption|constructor]).
  assert (HS : forall l, P l -> Forall P (aggregate maxSize (Some l) r)).
  { intros l Hl. apply IH; [assumption|]. repeat constructor. assumption. }
  destruct (wk w) eqn:Ek.
  2-4: rewrite aggregate_nonfile by congruence; apply Forall_app; split; [assumption|constructor; assumption].
  cbn [aggregate]. rewrite Ek. destruct last as [l|]; [|auto].
  apply Forall_cons_iff in Hlast. destruct Hlast as [Hl _].
  destruct ((wend l <=? wstart w) && (wstart w >=? wstart l)) eqn:Em; [|constructor; auto].
  assert (Hm : P (mkwound (wk l) (widx l) (wstart l) (wend w))) by (apply Hmerge; (assumption || lia)).
  destruct (_ - _ >=? maxSize); [constructor|]; auto.
Qed.

Lemma aggregate_covers maxSize i o ws : forall last,
  (forall w, In w ws -> widx w = i) ->
  (forall w, In w ws -> wk w = WFile -> wstart w <= wend w) ->
  (forall l, last = Some l -> wk l = WFile /\ widx l = i) ->
  Exists (in_wound i o) (flush last ++ ws) -> Exists (in_wound i o) (aggregate maxSize last ws).
Proof.
  set (P := in_wound i o).
  induction ws as [|w r IH]; intros last Hidx Hwf Hlast Hcov.
  - rewrite app_nil_r in Hcov. exact Hcov.
  - assert (Hidx' : forall x, In x r -> widx x = i) by (intros; apply Hidx; right; assumption).
    assert (Hwf' : forall x, In x r -> wk x = WFile -> wstart x <= wend x) by (intros; apply Hwf; [right|]; assumption).
    assert (HN : Exists P r -> Exists P (aggregate maxSize None r)) by (apply (IH None); [assumption|assumption|discriminate]).
    assert (HS : forall l, wk l = WFile -> widx l = i -> Exists P (l :: r) -> Exists P (aggregate maxSize (Some l) r)).
    { intros l Hk Hi. apply (IH (Some l)); [assumption|assumption|]. intros ? [= <-]. split; assumption. }
    apply Exists_app in Hcov. rewrite Exists_cons in Hcov.
    destruct (wk w) eqn:Ek.
    2-4: assert (~ P w) by (intros [Hk _]; congruence); rewrite aggregate_nonfile by congruence;
      apply Exists_app; rewrite Exists_cons; tauto.
    pose proof (Hwf w (or_introl eq_refl) Ek) as Hw. pose proof (Hidx w (or_introl eq_refl)) as Hwi.
    specialize (HS w Ek Hwi) as HSw. rewrite Exists_cons in HSw.
    cbn [aggregate]. rewrite Ek. destruct last as [l|]; cbn [flush] in Hcov.
    2:{ rewrite Exists_nil in Hcov. tauto. }
    destruct (Hlast l eq_refl) as [Hlk Hli]. rewrite Exists_cons, Exists_nil in Hcov.
    destruct ((wend l <=? wstart w) && (wstart w >=? wstart l)) eqn:Em; [|rewrite Exists_cons; tauto].
    set (l' := mkwound (wk l) (widx l) (wstart l) (wend w)).
    assert (Hl' : P l \/ P w -> P l').
    { unfold P, in_wound, l'. cbn [wk widx wstart wend]. intros [(_ & _ & Ho)|(_ & _ & Ho)]; repeat split; (assumption || lia). }
    destruct (_ - _ >=? maxSize); [rewrite Exists_cons; tauto|].
    apply (HS l' Hlk Hli). rewrite Exists_cons. tauto.
Qed.

(** the directory pass and the symlink pass are one loop *)
Inductive verdict := Fine | Wounded | Abort.

Fixpoint pass {X} (judge : X -> verdict) (k : wkind) (i : Z) (xs : list X) : option (list wound) :=
  match xs with
  | [] => Some []
  | x :: r =>
    match judge x with
    | Abort => None
    | Fine => pass judge k (i + 1) r
    | Wounded => option_map (cons (mkwound k i 0 0)) (pass judge k (i + 1) r)
    end
  end.

Section Pass.
  Context {X : Type}.
  Variable judge : X -> verdict.
  Variable k : wkind.

  Lemma pass_wounded xs : forall i ws n x,
    pass judge k i xs = Some ws -> nth_error xs n = Some x -> judge x <> Fine ->
    In (mkwound k (i + Z.of_nat n) 0 0) ws.
  Proof.
    induction xs as [|y r IH]; intros i ws [|n] x Hp Hn Hj; try discriminate; cbn [pass nth_error] in *.
    - injection Hn as ->. destruct (judge x); [contradiction| |discriminate].
      destruct (pass judge k (i + 1) r); [|discriminate]. injection Hp as <-. left. f_equal. lia.
    - replace (i + Z.of_nat (S n)) with (i + 1 + Z.of_nat n) by lia.
      destruct (judge y); [eauto| |discriminate].
      destruct (pass judge k (i + 1) r) eqn:Er; [|discriminate]. injection Hp as <-. right. eauto.
  Qed.

  Lemma pass_wf xs : forall i ws w,
    pass judge k i xs = Some ws -> In w ws ->
    wk w = k /\ i <= widx w < i + Z.of_nat (length xs) /\ wellformed w.
  Proof.
    induction xs as [|y r IH]; intros i ws w Hp Hin; cbn [pass length] in *.
    - injection Hp as <-. destruct Hin.
    - assert (Hr : forall ws', pass judge k (i + 1) r = Some ws' -> In w ws' ->
                               wk w = k /\ i <= widx w < i + Z.of_nat (S (length r)) /\ wellformed w).
      { intros ws' Hp' Hin'. destruct (IH _ _ _ Hp' Hin') as (Hk & Hi & Hw). split; [assumption|]. split; [lia|assumption]. }
      destruct (judge y); [eauto| |discriminate].
      destruct (pass judge k (i + 1) r) eqn:Er; [|discriminate]. injection Hp as <-.
      destruct Hin as [<-|Hin]; [|eauto]. unfold wellformed. cbn [wk widx wstart wend]. split; [reflexivity|lia].
  Qed.

  Lemma pass_clean xs : forall i ws,
    k <> WClosed -> pass judge k i xs = Some ws -> filter (fun w => negb (healthy w)) ws = [] ->
    Forall (fun x => judge x = Fine) xs.
  Proof.
    intros i ws Hk. revert i ws. induction xs as [|y r IH]; intros i ws Hp Hr; [constructor|]. cbn [pass] in Hp.
    destruct (judge y) eqn:Ej; [constructor; eauto| |discriminate].
    destruct (pass judge k (i + 1) r); [|discriminate]. injection Hp as <-.
    cbn in Hr. destruct k; (congruence || discriminate).
  Qed.
End Pass.

Definition judge_dir (o : obs) : verdict :=
  match o with OErr => Abort | ODir => Fine | _ => Wounded end.
Definition judge_link (p : N * obs) : verdict :=
  match snd p with
  | OErr => Abort
  | OLink d => if N.eqb d (fst p) then Fine else Wounded
  | _ => Wounded
  end.

Lemma judge_dir_fine o : judge_dir o = Fine <-> o = ODir.
Proof. destruct o; split; (reflexivity || discriminate). Qed.

Lemma judge_link_fine want o : judge_link (want, o) = Fine <-> o = OLink want.
Proof.
  unfold judge_link. cbn [fst snd]. destruct o; try (split; discriminate).
  destruct (N.eqb_spec dest want) as [->|Hne]; split; (reflexivity || discriminate || congruence).
Qed.

Lemma dirs_pass_pass ds : forall i, dirs_pass i ds = pass judge_dir WDir i ds.
Proof. induction ds as [|o r IH]; intros i; [reflexivity|]. cbn [dirs_pass pass]. rewrite IH. destruct o; reflexivity. Qed.

Lemma links_pass_pass ls : forall i, links_pass i ls = pass judge_link WSymlink i ls.
Proof.
  induction ls as [|[want o] r IH]; intros i; [reflexivity|]. cbn [links_pass pass]. rewrite IH.
  unfold judge_link. cbn [fst snd]. destruct o; try reflexivity. destruct (N.eqb dest want); reflexivity.
Qed.

Lemma in_reported w ws : In w (reported ws) <-> In w ws /\ healthy w = false.
Proof. unfold reported. rewrite filter_In. destruct (healthy w); cbn; intuition congruence. Qed.

Lemma reported_app a b : reported (a ++ b) = reported a ++ reported b.
Proof. unfold reported. apply filter_app. Qed.

Lemma dirs_pass_clean ds : forall i ws,
  dirs_pass i ds = Some ws -> reported ws = [] -> Forall (fun o => o = ODir) ds.
Proof.
  intros i ws Hp Hr. rewrite dirs_pass_pass in Hp.
  eapply Forall_impl; [|eapply pass_clean; [|exact Hp|exact Hr]; discriminate]. apply judge_dir_fine.
Qed.

Lemma links_pass_clean ls : forall i ws,
  links_pass i ls = Some ws -> reported ws = [] -> Forall (fun p => snd p = OLink (fst p)) ls.
Proof.
  intros i ws Hp Hr. rewrite links_pass_pass in Hp.
  eapply Forall_impl; [|eapply pass_clean; [|exact Hp|exact Hr]; discriminate].
  intros [want o]. apply judge_link_fine.
Qed.

Section Run.
  Context {H : Type}.
  Variables bs maxWound : Z.
  Variable hash : list N -> H.
  Variable heqb : H -> H -> bool.

  Lemma validate_core_inv ds ls fs ws :
    validate_core bs maxWound hash heqb ds ls fs = Some ws ->
    exists wd wl, pass judge_dir WDir 0 ds = Some wd /\ pass judge_link WSymlink 0 ls = Some wl /\
                  ws = wd ++ wl ++ files_pass bs maxWound hash heqb 0 fs.
  Proof.
    unfold validate_core. rewrite dirs_pass_pass, links_pass_pass. intros Hv.
    destruct (pass judge_dir WDir 0 ds) as [wd|]; [|discriminate].
    destruct (pass judge_link WSymlink 0 ls) as [wl|]; [|discriminate].
    injection Hv as <-. eauto.
  Qed.

  Lemma files_pass_In fs : forall i w,
    In w (files_pass bs maxWound hash heqb i fs) <->
    exists k signed o, nth_error fs k = Some (signed, o) /\
                       In w (file_wounds bs maxWound hash heqb (i + Z.of_nat k) signed o).
  Proof.
    induction fs as [|[s0 o0] r IH]; intros i w; cbn [files_pass].
    - split; [intros []|intros ([|k] & ? & ? & Hn & _); discriminate].
    - rewrite in_app_iff, IH. split.
      + intros [Hin|(k & s & o & Hn & Hin)]; [exists O, s0, o0|exists (S k), s, o]; (split; [assumption || reflexivity|]).
        * rewrite Z.add_0_r. assumption.
        * replace (i + Z.of_nat (S k)) with (i + 1 + Z.of_nat k) by lia. assumption.
      + intros ([|k] & s & o & Hn & Hin); cbn [nth_error] in Hn.
        * injection Hn as <- <-. rewrite Z.add_0_r in Hin. left. assumption.
        * right. exists k, s, o. split; [assumption|].
          replace (i + 1 + Z.of_nat k) with (i + Z.of_nat (S k)) by lia. assumption.
  Qed.

  Lemma reported_file_wound ds ls fs ws k signed o w :
    validate_core bs maxWound hash heqb ds ls fs = Some ws -> nth_error fs k = Some (signed, o) ->
    In w (reported (file_wounds bs maxWound hash heqb (Z.of_nat k) signed o)) -> In w (reported ws).
  Proof.
    intros Hv Hn Hin. apply validate_core_inv in Hv. destruct Hv as (wd & wl & _ & _ & ->).
    apply in_reported in Hin. destruct Hin as [Hin Hh]. apply in_reported. split; [|assumption].
    apply in_or_app. right. apply in_or_app. right. apply files_pass_In. eauto.
  Qed.

  Theorem length_mismatch_wounded (i : Z) (signed content : list N) :
    length content <> length signed ->
    exists w, In w (reported (file_wounds bs maxWound hash heqb i signed (OFile content))) /\
              wk w = WFile /\ widx w = i.
  Proof.
    intros Hne. cbn [file_wounds].
    replace (Z.of_nat (length content) =? Z.of_nat (length signed)) with false by lia.
    eexists. split; [apply in_reported; split; [apply in_or_app; right; left; reflexivity|reflexivity]|].
    split; reflexivity.
  Qed.

  (** a file that is shorter or longer than signed, missing, or of another kind gets a wound *)
  Theorem file_mismatch_wounded_lemma ds ls fs ws k signed o :
    validate_core bs maxWound hash heqb ds ls fs = Some ws ->
    nth_error fs k = Some (signed, o) ->
    (forall c, o = OFile c -> length c <> length signed) ->
    exists w, In w (reported ws) /\ wk w = WFile /\ widx w = Z.of_nat k.
  Proof.
    intros Hv Hn Ho.
    assert (Hex : exists w, In w (reported (file_wounds bs maxWound hash heqb (Z.of_nat k) signed o)) /\ wk w = WFile /\ widx w = Z.of_nat k).
    { destruct o; try (eexists; split; [left; reflexivity|split; reflexivity]).
      apply length_mismatch_wounded. apply Ho. reflexivity. }
    destruct Hex as [w [Hin Hw]]. exists w. split; [|assumption]. eapply reported_file_wound; eassumption.
  Qed.

  Theorem dir_mismatch_wounded_lemma ds ls fs ws k o :
    validate_core bs maxWound hash heqb ds ls fs = Some ws ->
    nth_error ds k = Some o -> o <> ODir ->
    In (mkwound WDir (Z.of_nat k) 0 0) (reported ws).
  Proof.
    intros Hv Hn Ho. apply validate_core_inv in Hv. destruct Hv as (wd & wl & Hd & _ & ->).
    apply in_reported. split; [|reflexivity]. apply in_or_app. left.
    apply (pass_wounded _ _ _ _ _ _ _ Hd Hn). rewrite judge_dir_fine. assumption.
  Qed.

  Theorem link_mismatch_wounded_lemma ds ls fs ws k want o :
    validate_core bs maxWound hash heqb ds ls fs = Some ws ->
    nth_error ls k = Some (want, o) -> o <> OLink want ->
    In (mkwound WSymlink (Z.of_nat k) 0 0) (reported ws).
  Proof.
    intros Hv Hn Ho. apply validate_core_inv in Hv. destruct Hv as (wd & wl & _ & Hl & ->).
    apply in_reported. split; [|reflexivity]. apply in_or_app. right. apply in_or_app. left.
    apply (pass_wounded _ _ _ _ _ _ _ Hl Hn). rewrite judge_link_fine. assumption.
  Qed.

  Lemma eff_seen u o o' : eff u o = o' -> o' <> OMissing -> o = o'.
  Proof. destruct u; cbn [eff]; congruence. Qed.

  Lemma eff_dirs_spec ds : forall flags es fl,
    eff_dirs flags ds = (es, fl) ->
    length es = length ds /\
    (forall k anc o, nth_error ds k = Some (anc, o) -> exists u, nth_error es k = Some (eff u o)).
  Proof.
    induction ds as [|[anc0 o0] r IH]; intros flags es fl He; cbn [eff_dirs] in He.
    - injection He as <- <-. split; [reflexivity|]. intros k anc o Hn. destruct k; discriminate.
    - destruct (eff_dirs (flags ++ [negb (is_dir (eff (under flags anc0) o0))]) r) as [es' fl'] eqn:Er.
      injection He as <- <-. destruct (IH _ _ _ Er) as [Hl Hn]. split; [cbn; lia|].
      intros [|k] anc o Hk; cbn [nth_error] in *; [|eauto].
      injection Hk as <- <-. eexists. reflexivity.
  Qed.

  Lemma validate_unfold ds ls fs :
    validate bs maxWound hash heqb ds ls fs =
    validate_core bs maxWound hash heqb (fst (eff_dirs [] ds))
      (map (fun x => let '(anc, want, o) := x in (want, eff (under (snd (eff_dirs [] ds)) anc) o)) ls)
      (map (fun x => let '(anc, signed, o) := x in (signed, eff (under (snd (eff_dirs [] ds)) anc) o)) fs).
  Proof. unfold validate. destruct (eff_dirs [] ds). reflexivity. Qed.
End Run.

Section FileProofs.
  Context {H : Type}.
  Variable bs : Z.
  Hypothesis bs_pos : 0 < bs.
  Variable maxWound : Z.
  Variable hash : list N -> H.
  Variable heqb : H -> H -> bool.

  Notation bsn := (Z.to_nat bs).
  Notation grp := (group_of bs hash).
  Notation validate' := (validate bs maxWound hash heqb).

  Lemma bsn_pos : (0 < bsn)%nat.
  Proof. lia. Qed.

  Lemma group_of_blocks (signed : list N) : grp signed = map hash (blocks bsn signed).
  Proof. destruct signed; reflexivity. Qed.

  Lemma group_consistent (signed : list N) :
    (Z.of_nat (length signed) = 0 /\ grp signed = []) \/
    (0 < Z.of_nat (length signed) /\
     (Z.of_nat (length (grp signed)) - 1) * bs < Z.of_nat (length signed) <= Z.of_nat (length (grp signed)) * bs).
  Proof.
    destruct signed as [|x s']; [left; split; reflexivity|right].
    remember (x :: s') as signed eqn:E.
    assert (Hne : signed <> []) by (subst; congruence).
    rewrite group_of_blocks, map_length.
    pose proof (blocks_length_bounds bsn bsn_pos signed Hne) as [Hlo Hhi].
    assert (0 < length signed)%nat by (subst; cbn; lia).
    split; [lia|]. split; nia.
  Qed.

  Lemma group_nth (signed : list N) j b :
    nth_error (blocks bsn signed) j = Some b -> nth_error (grp signed) j = Some (hash b).
  Proof.
    intros Hn. rewrite group_of_blocks. apply map_nth_error, Hn.
  Qed.

  Definition raw (i : Z) (signed content : list N) : list wound :=
    vpool_wounds bs hash heqb i (Z.of_nat (length signed)) (grp signed) [content].

  Lemma raw_eq i signed content :
    raw i signed content =
    wounds_from bs hash heqb i (Z.of_nat (length signed)) (grp signed) 0 (blocks bsn content).
  Proof. unfold raw. rewrite wound_mode_list by assumption. cbn [concat]. rewrite app_nil_r. reflexivity. Qed.

  Lemma raw_in i signed content w :
    In w (raw i signed content) ->
    exists j b, nth_error (blocks bsn content) j = Some b /\
                w = validate_as_wound bs hash heqb i (Z.of_nat (length signed)) (grp signed) j b.
  Proof.
    rewrite raw_eq. apply (wounds_from_In bs hash heqb i _ _ _ 0).
  Qed.

  Definition file_marker (i : Z) (w : wound) : Prop :=
    widx w = i /\ wellformed w /\ (wk w = WFile \/ wk w = WClosed).

  Lemma raw_marker i signed content : Forall (file_marker i) (raw i signed content).
  Proof.
    apply Forall_forall. intros w Hin. destruct (raw_in _ _ _ _ Hin) as (j & b & _ & ->).
    exact (vwnd_marker bs bs_pos hash heqb i _ (grp signed) j b).
  Qed.

  Theorem file_wounds_wellformed (i : Z) (signed : list N) (o : obs) :
    Forall (file_marker i) (file_wounds bs maxWound hash heqb i signed o).
  Proof.
    assert (Hsize : forall a b, 0 <= a <= b -> file_marker i (mkwound WFile i a b))
      by (intros a b Hab; split; [reflexivity|split; [exact Hab|left; reflexivity]]).
    destruct o; cbn [file_wounds]; try (constructor; [apply Hsize; lia|constructor]).
    fold (raw i signed content).
    assert (Hagg : Forall (file_marker i) (aggregate maxWound None (raw i signed content))).
    { apply aggregate_closed; [|apply raw_marker|constructor].
      intros l w (Hi & Hl & Hk) (_ & Hw & _) H1 H2. unfold file_marker, wellformed in *. cbn [wk widx wstart wend].
      split; [assumption|]. split; [lia|assumption]. }
    destruct (Z.of_nat (length content) =? Z.of_nat (length signed)); [assumption|].
    apply Forall_app. split; [assumption|]. constructor; [apply Hsize; lia|constructor].
  Qed.

  Theorem wounds_wellformed_lemma ds ls fs ws w :
    validate_core bs maxWound hash heqb ds ls fs = Some ws -> In w ws ->
    wellformed w /\
    match wk w with
    | WDir => 0 <= widx w < Z.of_nat (length ds)
    | WSymlink => 0 <= widx w < Z.of_nat (length ls)
    | WFile | WClosed => 0 <= widx w < Z.of_nat (length fs)
    end.
  Proof.
    intros Hv Hin. apply validate_core_inv in Hv. destruct Hv as (wd & wl & Hd & Hl & ->).
    rewrite !in_app_iff in Hin. destruct Hin as [Hin|[Hin|Hin]].
    - destruct (pass_wf _ _ _ _ _ _ Hd Hin) as (-> & Hi & Hw). split; [assumption|lia].
    - destruct (pass_wf _ _ _ _ _ _ Hl Hin) as (-> & Hi & Hw). split; [assumption|lia].
    - apply files_pass_In in Hin. destruct Hin as (k & signed & o & Hn & Hin).
      pose proof (file_wounds_wellformed (0 + Z.of_nat k) signed o) as Hm. rewrite Forall_forall in Hm.
      destruct (Hm w Hin) as (Hi & Hw & Hk). split; [assumption|].
      assert (k < length fs)%nat by (apply nth_error_Some; congruence).
      destruct Hk as [->| ->]; lia.
  Qed.
  Theorem nonregular_wounded (i : Z) (signed : list N) (o : obs) :
    (forall c, o <> OFile c) ->
    reported (file_wounds bs maxWound hash heqb i signed o) = [mkwound WFile i 0 (Z.of_nat (length signed))].
  Proof. intros Hn. destruct o; try reflexivity. exfalso. apply (Hn content). reflexivity. Qed.

  Lemma eff_cases u o : eff u o = o \/ eff u o = OMissing.
  Proof. destruct u; [right|left]; reflexivity. Qed.

  (** the strong hash is treated as injective on the blocks compared *)
  Hypothesis hash_inj : forall a b, heqb (hash a) (hash b) = true -> a = b.

  Lemma raw_wounds_block i signed content j :
    (j * bsn < length content)%nat -> (j * bsn < length signed)%nat ->
    firstn bsn (skipn (j * bsn) content) <> firstn bsn (skipn (j * bsn) signed) ->
    exists w, In w (raw i signed content) /\ wk w = WFile /\ widx w = i /\
              wstart w = Z.of_nat j * bs /\ wend w = Z.min ((Z.of_nat j + 1) * bs) (Z.of_nat (length signed)).
  Proof.
    intros Hc Hs Hne. set (cb := firstn bsn (skipn (j * bsn) content)) in *.
    apply (BlocksLemmas.blocks_nth bsn bsn_pos) in Hc, Hs. fold cb in Hc. apply group_nth in Hs.
    pose proof (vwnd_shape bs bs_pos hash heqb i (Z.of_nat (length signed)) (grp signed) (group_consistent signed) j cb) as S.
    cbn zeta in S. destruct S as (Si & Ss & Se & Sk & Sor).
    exists (validate_as_wound bs hash heqb i (Z.of_nat (length signed)) (grp signed) j cb).
    split; [|split; [|split; [assumption|split; [assumption|]]]].
    - rewrite raw_eq. apply nth_error_In with (n := j). apply (wounds_from_nth bs hash heqb i _ _ _ 0 j cb Hc).
    - destruct Sor as [|Hk]; [assumption|]. exfalso. apply Sk in Hk. destruct Hk as (h & Hh & Hq).
      rewrite Hs in Hh. injection Hh as <-. apply Hne. symmetry. apply hash_inj. assumption.
    - apply Se, nth_error_Some. congruence.
  Qed.

  (** every offset below the signed length at which the actual content deviates (differs,
      or lies beyond its end) is inside a reported FILE wound of that file *)
  Theorem file_wounds_cover (i : Z) (signed content : list N) (o : nat) :
    (o < length signed)%nat ->
    nth_error content o <> nth_error signed o ->
    exists w, In w (reported (file_wounds bs maxWound hash heqb i signed (OFile content))) /\
              in_wound i (Z.of_nat o) w.
  Proof.
    intros Ho Hdiff.
    assert (Hrep : forall w ws, In w ws -> in_wound i (Z.of_nat o) w -> In w (reported ws)).
    { intros w ws Hin [Hk _]. apply in_reported. split; [assumption|]. unfold healthy. rewrite Hk. reflexivity. }
    set (j := (o / bsn)%nat).
    assert (Hj : (j * bsn <= o < (j + 1) * bsn)%nat).
    { unfold j. pose proof (Nat.div_mod o bsn). pose proof (Nat.mod_upper_bound o bsn). nia. }
    cbn [file_wounds]. fold (raw i signed content).
    destruct (Nat.lt_ge_cases (j * bsn) (length content)) as [Hin|Hout].
    - (* block j was written and differs from the signed block j at offset o - j * bs *)
      destruct (raw_wounds_block i signed content j Hin) as (w & Hraw & Hk & Hi & Hs & He); [lia| |].
      { intros E. apply Hdiff.
        assert (Hnth : forall l : list N, nth_error l o = nth_error (firstn bsn (skipn (j * bsn) l)) (o - j * bsn)).
        { intros l. rewrite nth_error_firstn_lt by lia. rewrite nth_error_skipn_add. f_equal. lia. }
        rewrite (Hnth content), (Hnth signed), E. reflexivity. }
      pose proof (raw_marker i signed content) as Hm. rewrite Forall_forall in Hm.
      assert (Hc : Exists (in_wound i (Z.of_nat o)) (aggregate maxWound None (raw i signed content))).
      { apply aggregate_covers; [intros x Hx; apply (Hm x Hx)|intros x Hx _; apply (Hm x Hx)|discriminate|].
        apply Exists_exists. exists w. split; [assumption|]. unfold in_wound. rewrite Hs, He. repeat split; try assumption; nia. }
      apply Exists_exists in Hc. destruct Hc as [w' [Hin' Hw']].
      exists w'. split; [|assumption]. apply Hrep; [|assumption].
      destruct (Z.of_nat (length content) =? Z.of_nat (length signed)); [assumption|].
      apply in_or_app. left. assumption.
    - (* nothing was written at block j: the explicit size wound [written, signed size) covers o *)
      replace (Z.of_nat (length content) =? Z.of_nat (length signed)) with false by lia.
      eexists. split; [apply Hrep; [apply in_or_app; right; left; reflexivity|]|];
        unfold in_wound; cbn [wk widx wstart wend]; repeat split; lia.
  Qed.

  Theorem file_no_wound_matches (i : Z) (signed : list N) (o : obs) :
    reported (file_wounds bs maxWound hash heqb i signed o) = [] -> o = OFile signed.
  Proof.
    intros Hnil. destruct o; try (cbn in Hnil; discriminate).
    f_equal.
    destruct (Nat.eq_dec (length content) (length signed)) as [Hl|Hl].
    - apply nth_error_ext_eq. intros n.
      destruct (Nat.lt_ge_cases n (length signed)) as [Hn|Hn].
      + assert (Hdec : forall x y : option N, {x = y} + {x <> y}) by (repeat decide equality).
        destruct (Hdec (nth_error content n) (nth_error signed n)) as [E|E]; [exact E|].
        exfalso. destruct (file_wounds_cover i signed content n Hn E) as [w [Hin _]].
        rewrite Hnil in Hin. destruct Hin.
      + transitivity (@None N); [apply nth_error_None; lia|symmetry; apply nth_error_None; lia].
    - exfalso. destruct (length_mismatch_wounded bs maxWound hash heqb i signed content Hl) as [w [Hin _]]. rewrite Hnil in Hin. destruct Hin.
  Qed.

  Lemma files_pass_clean fs : forall i,
    reported (files_pass bs maxWound hash heqb i fs) = [] -> Forall (fun p => snd p = OFile (fst p)) fs.
  Proof.
    induction fs as [|[signed o] r IH]; intros i Hr; [constructor|].
    cbn [files_pass] in Hr. rewrite reported_app in Hr. apply app_eq_nil in Hr. destruct Hr as [H1 H2].
    constructor; [apply (file_no_wound_matches i); assumption|apply (IH (i + 1)); assumption].
  Qed.

  Theorem never_false_valid_lemma ds ls fs ws :
    validate_core bs maxWound hash heqb ds ls fs = Some ws -> reported ws = [] ->
    Forall (fun o => o = ODir) ds /\
    Forall (fun p => snd p = OLink (fst p)) ls /\
    Forall (fun p => snd p = OFile (fst p)) fs.
  Proof.
    unfold validate_core. intros Hv Hr.
    destruct (dirs_pass 0 ds) as [wd|] eqn:Ed; [|discriminate].
    destruct (links_pass 0 ls) as [wl|] eqn:El; [|discriminate].
    injection Hv as <-. rewrite !reported_app in Hr.
    apply app_eq_nil in Hr. destruct Hr as [H1 Hr]. apply app_eq_nil in Hr. destruct Hr as [H2 H3].
    split; [apply (dirs_pass_clean ds 0 wd); assumption|].
    split; [apply (links_pass_clean ls 0 wl); assumption|apply (files_pass_clean fs 0); assumption].
  Qed.

  Theorem failfast_ok_matches ds ls fs :
    failfast_core bs maxWound hash heqb ds ls fs = ROk ->
    Forall (fun o => o = ODir) ds /\
    Forall (fun p => snd p = OLink (fst p)) ls /\
    Forall (fun p => snd p = OFile (fst p)) fs.
  Proof.
    unfold failfast_core. destruct (validate_core bs maxWound hash heqb ds ls fs) as [ws|] eqn:Ev; [|discriminate].
    destruct (reported ws) eqn:Er; [|discriminate]. intros _. apply (never_false_valid_lemma ds ls fs ws); assumption.
  Qed.

  (** the property's central clause: every offset below the signed length of a file at which
      the entry deviates - it is not a regular file, or the content differs or ends there - lies
      inside a reported FILE wound naming that file *)
  Theorem deviation_located_lemma ds ls fs ws k signed e (o : nat) :
    validate_core bs maxWound hash heqb ds ls fs = Some ws ->
    nth_error fs k = Some (signed, e) ->
    (o < length signed)%nat -> (forall content, e = OFile content -> nth_error content o <> nth_error signed o) ->
    exists w, In w (reported ws) /\ in_wound (Z.of_nat k) (Z.of_nat o) w.
  Proof.
    intros Hv Hn Ho Hd.
    assert (Hex : exists w, In w (reported (file_wounds bs maxWound hash heqb (Z.of_nat k) signed e)) /\
                            in_wound (Z.of_nat k) (Z.of_nat o) w).
    { destruct e; try (eexists; split; [left; reflexivity|]; unfold in_wound; cbn [wk widx wstart wend]; repeat split; lia).
      apply file_wounds_cover; [assumption|]. apply Hd. reflexivity. }
    destruct Hex as [w [Hin Hw]]. exists w. split; [|assumption]. eapply reported_file_wound; eassumption.
  Qed.

  Theorem never_false_valid_full ds ls fs ws :
    validate' ds ls fs = Some ws -> reported ws = [] ->
    Forall (fun p => snd p = ODir) ds /\
    Forall (fun x => let '(_, want, o) := x in o = OLink want) ls /\
    Forall (fun x => let '(_, signed, o) := x in o = OFile signed) fs.
  Proof.
    rewrite validate_unfold. intros Hv Hr.
    destruct (never_false_valid_lemma _ _ _ _ Hv Hr) as (Hd & Hl & Hf). rewrite Forall_map in Hl, Hf.
    split; [|split; [revert Hl|revert Hf]; apply Forall_impl; intros [[anc x] o] Ho; cbn [fst snd] in Ho;
              (eapply eff_seen; [exact Ho|discriminate])].
    destruct (eff_dirs_spec ds [] _ _ (surjective_pairing _)) as [_ Hnth]. rewrite Forall_forall in *.
    intros [anc o] Hin. apply In_nth_error in Hin. destruct Hin as [k Hk]. destruct (Hnth k anc o Hk) as [u Hu].
    apply (eff_seen u); [|discriminate]. apply Hd. eapply nth_error_In. exact Hu.
  Qed.
End FileProofs.
