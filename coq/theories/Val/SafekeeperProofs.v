(** Proofs about the safekeeper model (Val/Safekeeper.v): every byte a consumer is served
    comes from a block that was compared, in full, with the signed block; a consumer that
    completes has seen exactly what it would have seen on the signed file; the pristine file is
    never rejected (the theorems for a run from the empty pool: Properties/C09.v).  The file
    also defines the vocabulary of those statements ([ideal_pieces], [step_sound], [steps_ok],
    [files_of], [ideal_bytes], [cache_ok]).  Every loop lemma is parametric in [J], an invariant
    of the verdict cache, and [E], "a Read may fail" ([reads_keep]): [J] trivial and [E] = True
    for any damage, [J] = no cached verdict is an error and [E] = False for the pristine file.
    Section [Refuted]: runs of [Unfixed] on which the same statements fail. *)
From Wharf Require Import Base.Prelude Base.BlocksLemmas Base.Seg Val.VPool Val.VPoolProofs Val.Safekeeper.
From Coq Require Import ZifyBool ZifyNat ZifyN.
Local Open Scope N_scope.

Section Lists.
  Context {A : Type}.
  Implicit Types l : list A.

  Lemma nlen_zero l : nlen l = 0 <-> l = [].
  Proof. unfold nlen. rewrite <- length_zero_iff_nil. lia. Qed.

  Lemma slice_seg l off len : slice l off len = seg l (N.to_nat off) (N.to_nat len).
  Proof. reflexivity. Qed.

  Lemma slice_length l off len : nlen (slice l off len) = N.min len (nlen l - off).
  Proof. unfold nlen. rewrite slice_seg, seg_length. lia. Qed.

  Lemma slice_nil l off len : nlen l <= off -> slice l off len = [].
  Proof. unfold nlen. intros Hl. apply seg_beyond. lia. Qed.

  Lemma slice_all l len : nlen l <= len -> slice l 0 len = l.
  Proof. unfold nlen. intros Hl. apply seg_all. lia. Qed.

  Lemma slice_is_nil l off len : slice l off len = [] -> len = 0 \/ nlen l <= off.
  Proof. intros E. apply nlen_zero in E. rewrite slice_length in E. lia. Qed.

  Lemma slice_slice l a n r m : r + m <= n -> slice (slice l a n) r m = slice l (a + r) m.
  Proof. intros Hr. rewrite !slice_seg, seg_seg, N2Nat.inj_add by lia. reflexivity. Qed.

  Lemma slice_skipn l off len : slice l off len = firstn (N.to_nat len) (skipn (N.to_nat off) l).
  Proof. reflexivity. Qed.

  Lemma slice_split l a k n :
    k <= n -> slice l a n = slice l a k ++ slice l (a + nlen (slice l a k)) (n - nlen (slice l a k)).
  Proof.
    intros Hk. unfold nlen. rewrite !slice_seg, seg_length, (seg_min l _ (N.to_nat k)). set (j := Nat.min _ _).
    replace (N.to_nat n) with (j + (N.to_nat n - j))%nat at 1 by lia.
    rewrite seg_app. f_equal. f_equal; lia.
  Qed.

  Lemma blocks_nth (n : nat) : (0 < n)%nat -> forall (k : nat) l,
    nth_error (blocks n l) k =
    if (k * n <? length l)%nat then Some (firstn n (skipn (k * n) l)) else None.
  Proof.
    intros Hn k l. destruct (Nat.ltb_spec (k * n) (length l)).
    - apply BlocksLemmas.blocks_nth; assumption.
    - apply blocks_nth_none; assumption.
  Qed.

  Lemma blocks_slice_cons (c : N) l off rem d : 0 < c -> d = slice l off (N.min c rem) -> d <> [] ->
    blocks (N.to_nat c) (slice l off rem) = d :: blocks (N.to_nat c) (slice l (off + nlen d) (rem - nlen d)).
  Proof.
    intros Hc -> Hne. rewrite (slice_split l off (N.min c rem) rem) at 1 by apply N.le_min_r.
    apply blocks_app_first; [lia|assumption|].
    (* a short first block: the limit or the end of [l] is reached, nothing lies behind it *)
    rewrite <- nlen_zero in Hne |- *. rewrite slice_length. pose proof (slice_length l off (N.min c rem)).
    unfold nlen in *. lia.
  Qed.

  Lemma blocks_nth_slice (bs k : N) l : 0 < bs ->
    nth_error (blocks (N.to_nat bs) l) (N.to_nat k) = if k * bs <? nlen l then Some (slice l (k * bs) bs) else None.
  Proof.
    intros Hb. rewrite blocks_nth by lia. unfold slice, nlen. rewrite N2Nat.inj_mul.
    destruct (N.ltb_spec (k * bs) (N.of_nat (length l))), (Nat.ltb_spec (N.to_nat k * N.to_nat bs) (length l));
      reflexivity || lia.
  Qed.

End Lists.

(** what each consumer is served on the signed file itself *)
Definition ideal_pieces {A} (bs c : N) (signed : list A) (pat : pattern) : list (list A) :=
  match pat with
  | PCopy => blocks (N.to_nat c) signed
  | PRange bi span => blocks (N.to_nat c) (slice signed (bs * bi) (range_size bs (nlen signed) bi span))
  | PChunks cis => map (fun ci => slice signed (ci * c) c) cis
  end.

(** a block-range op of a valid patch lies inside the signed file (a hypothesis of the C09
    statements through [steps_ok]; no proof uses it) *)
Definition pattern_ok {A} (bs : N) (signed : list A) (pat : pattern) : Prop :=
  match pat with
  | PRange bi span => 1 <= span /\ (bi + span) * bs < nlen signed + bs
  | _ => True
  end.

(** a step (file index, pattern) and its result (pieces served, outcome) on a pool whose
    files are [sa] = (signed, actual) pairs *)
Definition step_sound {A} (bs c : N) (sa : list (list A * list A)) (step : N * pattern) (res : list (list A) * outcome) : Prop :=
  snd res <> OutOfFuel /\
  match nth_error sa (N.to_nat (fst step)) with
  | None => res = ([], Failed)
  | Some (s, _) =>
    (exists k, fst res = firstn k (ideal_pieces bs c s (snd step))) /\
    (snd res = Done -> fst res = ideal_pieces bs c s (snd step))
  end.

Definition steps_ok {A} (bs : N) (sa : list (list A * list A)) (steps : list (N * pattern)) : Prop :=
  forall fi pat s a, In (fi, pat) steps -> nth_error sa (N.to_nat fi) = Some (s, a) -> pattern_ok bs s pat.

Definition files_of {A H} (bs : N) (hash : list A -> H) (sa : list (list A * list A)) : list (skfile A H) :=
  map (fun x => skfile_of bs hash (fst x) (snd x)) sa.

(** [step_sound] is, besides the fuel, [served] of the result, written out *)
Definition served {A} (ps : list (list A)) (o : outcome) (ideal : list (list A)) : Prop :=
  (exists k, ps = firstn k ideal) /\ (o = Done -> ps = ideal).

Lemma served_stopped {A} o (ideal : list (list A)) : o <> Done -> served [] o ideal.
Proof. intros Ho. split; [exists O; reflexivity|contradiction]. Qed.

Lemma served_nothing {A} o : @served A [] o [].
Proof. split; [exists O|]; reflexivity. Qed.

Lemma served_cons {A} (d : list A) ps o ideal : served ps o ideal -> served (d :: ps) o (d :: ideal).
Proof. intros [[k Hk] Hd]. split; [exists (S k); cbn [firstn]|intros Ho; rewrite Hd by assumption]; congruence. Qed.

Section Loops.
  Context {A H : Type}.
  Variables bs c : N.
  Hypothesis c_pos : 0 < c.
  Variable hash : list A -> H.
  Variable heqb : H -> H -> bool.
  Variable v : version.
  Variable g : skfile A H.

  Lemma sk_read_data_len s len s' d : sk_read bs hash heqb v g s len = (s', RData d) -> nlen d <= len.
  Proof.
    unfold sk_read. destruct (validate_block bs hash heqb v g (rcache s) (roff s)) as [[ca r] mv].
    destruct r; try discriminate. destruct (len =? 0); [intros [= _ <-]; apply N.le_0_l|].
    destruct (is_nil _); [discriminate|]. intros [= _ <-]. rewrite slice_length. lia.
  Qed.

  (** io.CopyBuffer is io.CopyBuffer from a LimitReader whose limit is never reached *)
  Lemma copy_loop_as_range : forall fuel s rem,
    c * N.of_nat fuel <= rem ->
    copy_loop bs c hash heqb v fuel g s = range_loop bs c hash heqb v fuel g s rem.
  Proof.
    induction fuel as [|fuel IH]; intros s rem Hrem; [reflexivity|]. cbn [copy_loop range_loop].
    destruct (N.eqb_spec rem 0); [lia|]. rewrite N.min_l by lia.
    destruct (sk_read bs hash heqb v g s c) as [s1 [d| |]] eqn:R; try reflexivity.
    apply sk_read_data_len in R. rewrite (IH s1 (rem - nlen d)) by lia. reflexivity.
  Qed.
End Loops.

(** validateBlock on the fixed code keeps every property [R] of the cached verdicts that the
    verdict computed for a block not yet in the cache has *)
Lemma validate_block_inv {A H} (bs : N) (hash : list A -> H) (heqb : H -> H -> bool) (f : skfile A H)
    (R : N -> bool -> Prop) ca off ca' r mv :
  (forall k ok, ca k = Some ok -> R k ok) ->
  (let k := off / bs in let data := slice (factual f) (k * bs) bs in
   R k (if is_nil data && (fsize f <=? k * bs) then true
        else validate_as_error hash heqb (fgroup f) (N.to_nat k) data)) ->
  validate_block bs hash heqb Fixed f ca off = (ca', r, mv) ->
  (forall k ok, ca' k = Some ok -> R k ok) /\ exists ok, r = vres_of ok /\ R (off / bs) ok.
Proof.
  intros Hca Hnew. unfold validate_block. destruct (ca (off / bs)) as [ok|] eqn:E; intros [= <- <- <-]; [eauto|].
  split; [|eauto]. intros k ok. unfold cache_set.
  destruct (N.eqb_spec k (off / bs)) as [->|_]; [intros [= <-]; exact Hnew|apply Hca].
Qed.

(** what lrufile keeps of a Read: the data, nothing at io.EOF *)
Definition rbytes {A} (r : rres A) : list A := match r with RData d => d | _ => [] end.

(** every Read of [f] on the fixed code keeps [J], and fails only if [E] *)
Definition reads_keep {A H} (bs : N) (hash : list A -> H) (heqb : H -> H -> bool) (f : skfile A H)
    (J : cache -> Prop) (E : Prop) : Prop :=
  forall r len r' x, J (rcache r) -> sk_read bs hash heqb Fixed f r len = (r', x) -> J (rcache r') /\ (x = RErr -> E).

Lemma reads_keep_any {A H} (bs : N) (hash : list A -> H) heqb f : reads_keep bs hash heqb f (fun _ => True) True.
Proof. intros r len r' x _ _. auto. Qed.

Lemma block_size_pos (bs c m : N) : 0 < c -> 0 < m -> bs = c * m -> 0 < bs.
Proof. intros Hc Hm ->. lia. Qed.

Lemma block_aligned (bs c m i : N) : 0 < c -> bs = c * m -> (bs * i) mod c = 0.
Proof. intros Hc ->. replace (c * m * i) with (m * i * c) by lia. apply N.mod_mul. lia. Qed.

Section OneFile.
  Context {A H : Type}.
  Variables bs c m : N.
  Hypothesis c_pos : 0 < c.
  Hypothesis m_pos : 0 < m.
  Hypothesis bs_c : bs = c * m.                 (* Go: 64 KiB = 32 KiB * 2 *)
  Variable hash : list A -> H.
  Variable heqb : H -> H -> bool.
  Hypothesis hash_inj : forall a b, heqb (hash a) (hash b) = true -> a = b.
  Variables signed actual : list A.

  Let f := skfile_of bs hash signed actual.
  Let cn := N.to_nat c.

  Lemma bs_pos : 0 < bs.
  Proof. exact (block_size_pos bs c m c_pos m_pos bs_c). Qed.

  Lemma cn_pos : (0 < cn)%nat.
  Proof. unfold cn. lia. Qed.

  (** block [k] of the actual file is, in full (up to the next boundary or the end of the
      file), block [k] of the signed file *)
  Definition block_eq (k : N) : Prop := slice actual (k * bs) bs = slice signed (k * bs) bs.
  Definition cache_ok (ca : cache) : Prop := forall k, ca k = Some true -> block_eq k.
  Definition rd_ok (s : rd) : Prop := roff s = rpos s /\ cache_ok (rcache s).

  Lemma cache_ok_empty : cache_ok cache_empty.
  Proof. intros k E. discriminate. Qed.

  Lemma block_offset k off : off / bs = k -> off = k * bs + off mod bs /\ off mod bs < bs.
  Proof.
    pose proof bs_pos as Hb. intros <-.
    split; [rewrite N.mul_comm; apply N.div_mod|apply N.mod_lt]; lia.
  Qed.

  Lemma block_eq_slice k off len :
    block_eq k -> off / bs = k -> off mod bs + len <= bs -> slice actual off len = slice signed off len.
  Proof.
    intros E Hk Hfit. apply block_offset in Hk. destruct Hk as [Hoff _].
    remember (off mod bs) as r eqn:Hr. rewrite Hoff.
    rewrite <- !(slice_slice _ (k * bs) bs) by lia. unfold block_eq in E. rewrite E. reflexivity.
  Qed.

  Lemma block_eq_end k off :
    block_eq k -> off / bs = k -> nlen signed <= off -> nlen actual <= off.
  Proof.
    intros E Hk Hend. apply block_offset in Hk.
    unfold block_eq in E. apply (f_equal nlen) in E. rewrite !slice_length in E. lia.
  Qed.

  Lemma vae_true k data :
    validate_as_error hash heqb (sign bs hash signed) (N.to_nat k) data = true ->
    data = slice signed (k * bs) bs.
  Proof.
    unfold sign. rewrite vae_map, blocks_nth_slice by apply bs_pos.
    destruct (k * bs <? nlen signed); [|discriminate]. intros E. symmetry. apply hash_inj, E.
  Qed.

  Lemma validate_fixed ca off ca' r mv :
    cache_ok ca -> validate_block bs hash heqb Fixed f ca off = (ca', r, mv) ->
    cache_ok ca' /\ r <> REof /\ (r = RValid -> block_eq (off / bs)).
  Proof.
    intros Hca V. apply (validate_block_inv bs hash heqb f (fun k ok => ok = true -> block_eq k)) in V.
    - destruct V as (Hca' & ok & -> & Hok). split; [intros k E; exact (Hca' k true E eq_refl)|].
      destruct ok; split; (discriminate || auto).
    - intros k ok E ->. apply Hca, E.
    - cbn [factual fsize fgroup f skfile_of]. unfold block_eq. set (data := slice actual (off / bs * bs) bs).
      destruct (is_nil data && (nlen signed <=? off / bs * bs)) eqn:E1; [|apply vae_true].
      intros _. apply andb_prop in E1. destruct E1 as [E1 E2]. apply N.leb_le in E2.
      rewrite (slice_nil signed) by assumption. destruct data; [reflexivity|discriminate].
  Qed.

  Lemma aligned_fits off len : off mod c = 0 -> len <= c -> off mod bs + len <= bs.
  Proof.
    intros Hal Hlen.
    assert (Hoff : off = c * (off / c)).
    { pose proof (N.div_mod off c) as D. lia. }
    rewrite Hoff, bs_c, N.mul_mod_distr_l by lia.
    assert (Hq : (off / c) mod m < m) by (apply N.mod_lt; lia).
    nia.
  Qed.

  Lemma sk_read_sound s len s' r :
    rd_ok s -> 0 < len -> (roff s mod bs + len <= bs \/ nlen signed <= roff s) ->
    sk_read bs hash heqb Fixed f s len = (s', r) ->
    rd_ok s' /\
    match r with
    | RData d => d = slice signed (roff s) len /\ d = slice actual (roff s) len /\ d <> [] /\ roff s' = roff s + nlen d
    | REOF => nlen signed <= roff s /\ nlen actual <= roff s /\ roff s' = roff s
    | RErr => roff s' = roff s
    end.
  Proof.
    intros [Hpos Hca] Hlen Hpre. unfold sk_read.
    destruct (validate_block bs hash heqb Fixed f (rcache s) (roff s)) as [[ca' r'] mv] eqn:V.
    apply validate_fixed in V; [|assumption]. destruct V as (Hca' & Hne & Hbe).
    replace (if mv then roff s else rpos s) with (roff s) by (destruct mv; congruence).
    destruct r'; [|intros [= <- <-]; split; [split|]; auto|congruence].
    specialize (Hbe eq_refl). cbn [factual f skfile_of].
    assert (E : slice actual (roff s) len = slice signed (roff s) len).
    { destruct Hpre as [Hfit|Hend].
      - eapply block_eq_slice; eauto.
      - rewrite (slice_nil signed) by assumption. apply slice_nil. eapply block_eq_end; eauto. }
    destruct (N.eqb_spec len 0); [lia|].
    destruct (slice actual (roff s) len) as [|x d] eqn:Ed; cbn [is_nil]; intros [= <- <-].
    - symmetry in E. apply slice_is_nil in E. apply slice_is_nil in Ed.
      split; [split; [reflexivity|assumption]|]. cbn [roff]. lia.
    - split; [split; [reflexivity|assumption]|]. cbn [roff]. repeat split; [assumption|discriminate].
  Qed.

  Lemma sk_read_fixed s len s' r :
    rd_ok s -> 0 < len -> (roff s mod bs + len <= bs \/ nlen signed <= roff s) ->
    sk_read bs hash heqb Fixed f s len = (s', r) ->
    rd_ok s' /\
    match r with
    | RData d => d = slice signed (roff s) len /\ d = slice actual (roff s) len /\ d <> [] /\ roff s' = roff s + nlen d
    | REOF => nlen signed <= roff s /\ roff s' = roff s
    | RErr => roff s' = roff s
    end.
  Proof.
    intros Hs Hlen Hpre R. destruct (sk_read_sound s len s' r Hs Hlen Hpre R) as [Hs' Hr].
    split; [assumption|]. destruct r; tauto.
  Qed.

  (** where a loop of [c]-byte reads may stand with [rem] bytes to go: on a multiple of [c] - so
      that the next read stays inside one block -, or past the end of the signed file, or done *)
  Definition on_grid (off rem : N) : Prop := off mod c = 0 \/ nlen signed <= off \/ rem = 0.

  (** a full piece leads to the next multiple; a short one means the signed file or the limit is reached *)
  Lemma on_grid_next off rem d : on_grid off rem -> d = slice signed off (N.min c rem) -> d <> [] ->
    on_grid (off + nlen d) (rem - nlen d).
  Proof.
    intros Hg Ed Hne. rewrite <- nlen_zero in Hne. apply (f_equal nlen) in Ed. rewrite slice_length in Ed.
    destruct (N.eq_dec (nlen d) c) as [Ec|Ec]; [|right; lia].
    destruct Hg as [Hal|[Hend| ->]]; [left|lia|lia].
    rewrite Ec, <- (N.mul_1_l c) at 1. rewrite N.mod_add by lia. assumption.
  Qed.

  (** ApplySingleFull: io.CopyBuffer(LimitReader(rem)) from an aligned offset, for any [rem] *)
  Lemma range_loop_sound J E : reads_keep bs hash heqb f J E -> forall fuel s rem s' ps o,
    rd_ok s -> J (rcache s) -> on_grid (roff s) rem ->
    N.min rem (nlen actual - roff s) < N.of_nat fuel ->
    range_loop bs c hash heqb Fixed fuel f s rem = (s', ps, o) ->
    o <> OutOfFuel /\ rd_ok s' /\ J (rcache s') /\ (o = Failed -> E) /\
    served ps o (blocks cn (slice signed (roff s) rem)).
  Proof.
    intros HJ. induction fuel as [|fuel IH]; intros s rem s' ps o Hok Hj Hg Hfuel; [lia|].
    cbn [range_loop]. destruct (N.eqb_spec rem 0) as [->|E0].
    - intros [= <- <- <-]. repeat (split; [assumption || discriminate|]). apply served_nothing.
    - destruct (sk_read bs hash heqb Fixed f s (N.min c rem)) as [s1 r] eqn:R.
      destruct (HJ _ _ _ _ Hj R) as [Hj1 Hx].
      apply sk_read_sound in R; [|assumption|lia|].
      2:{ destruct Hg as [Hal|[Hend|Hz]]; [left; apply aligned_fits; [assumption|lia]|right; assumption|contradiction]. }
      destruct R as [Hok1 R]. destruct r as [d| |].
      + destruct R as (Ed & Ea & Hne & Hoff).
        destruct (range_loop bs c hash heqb Fixed fuel f s1 (rem - nlen d)) as [[s2 ps2] o2] eqn:L.
        intros [= <- <- <-]. unfold cn. rewrite (blocks_slice_cons c signed _ _ d c_pos Ed Hne), <- Hoff. fold cn.
        apply IH in L; [|assumption|assumption|rewrite Hoff; apply on_grid_next; assumption|].
        * destruct L as (Ho & Hok2 & Hj2 & Hf & Hs). repeat (split; [assumption|]). apply served_cons, Hs.
        * (* the piece is not empty, and the disk holds it *)
          apply (f_equal nlen) in Ea. rewrite slice_length in Ea. rewrite <- nlen_zero in Hne. lia.
      + destruct R as (Hend & _). intros [= <- <- <-]. rewrite slice_nil by assumption.
        repeat (split; [assumption || discriminate|]). apply served_nothing.
      + intros [= <- <- <-]. repeat (split; [assumption || discriminate|]).
        split; [intros _; apply Hx; reflexivity|apply served_stopped; discriminate].
  Qed.

  (** lrufile: Seek(ci*c), one Read of [c] bytes *)
  Lemma chunk_read_sound s ci s' r :
    cache_ok (rcache s) -> sk_read bs hash heqb Fixed f (sk_seek s (ci * c)) c = (s', r) ->
    cache_ok (rcache s') /\
    (r <> RErr -> rbytes r = slice signed (ci * c) c /\ rbytes r = slice actual (ci * c) c).
  Proof.
    intros Hca R. apply sk_read_sound in R; [|split; [reflexivity|assumption]|assumption|].
    2:{ left. apply aligned_fits; [|lia]. cbn [sk_seek roff]. apply N.mod_mul. lia. }
    cbn [sk_seek roff] in R. destruct R as [[_ Hca1] R]. split; [assumption|].
    destruct r as [d| |]; cbn [rbytes]; [tauto| |congruence].
    intros _. destruct R as (Hs & Ha & _). rewrite !slice_nil by assumption. split; reflexivity.
  Qed.

  (** lrufile.getChunk, chunk after chunk *)
  Lemma chunk_loop_fixed J E : reads_keep bs hash heqb f J E -> forall cis s s' ps o,
    cache_ok (rcache s) -> J (rcache s) ->
    chunk_loop bs c hash heqb Fixed f s cis = (s', ps, o) ->
    o <> OutOfFuel /\ cache_ok (rcache s') /\ J (rcache s') /\ (o = Failed -> E) /\
    served ps o (map (fun ci => slice signed (ci * c) c) cis).
  Proof.
    intros HJ. induction cis as [|ci cis IH]; intros s s' ps o Hca Hj; cbn [chunk_loop map].
    - intros [= <- <- <-]. repeat (split; [assumption || discriminate|]). apply served_nothing.
    - destruct (sk_read bs hash heqb Fixed f (sk_seek s (ci * c)) c) as [s1 r] eqn:R.
      destruct (HJ (sk_seek s (ci * c)) _ _ _ Hj R) as [Hj1 Hx].
      apply chunk_read_sound in R; [|assumption]. destruct R as [Hca1 R].
      destruct r as [d| |]; cbn [rbytes] in R.
      3:{ intros [= <- <- <-]. repeat (split; [assumption || discriminate|]).
          split; [intros _; apply Hx; reflexivity|apply served_stopped; discriminate]. }
      all: destruct (chunk_loop bs c hash heqb Fixed f s1 cis) as [[s2 ps2] o2] eqn:L; intros [= <- <- <-];
        apply IH in L; [|assumption..]; destruct L as (Ho & Hca2 & Hj2 & Hf & Hs);
        destruct R as [<- _]; [discriminate|]; auto 6 using served_cons.
  Qed.

  Lemma run_pattern_fixed J E p fi pat s' ps o :
    reads_keep bs hash heqb f J E -> cache_ok (pcache p fi) -> J (pcache p fi) ->
    run_pattern bs c hash heqb Fixed f p fi pat = (s', ps, o) ->
    o <> OutOfFuel /\ cache_ok (rcache s') /\ J (rcache s') /\ (o = Failed -> E) /\
    served ps o (ideal_pieces bs c signed pat).
  Proof.
    intros HJ Hca Hj. destruct pat as [|bi span|cis]; cbn [run_pattern ideal_pieces]; intros L.
    - rewrite (copy_loop_as_range bs c c_pos hash heqb Fixed f _ _ (c * N.of_nat (2 * length (factual f) + 2) + nlen signed))
        in L by lia.
      apply (range_loop_sound J E HJ) in L.
      + cbn [sk_get_reader sk_seek roff] in L. rewrite slice_all in L by lia.
        destruct L as (Ho & [_ Hca'] & L). auto.
      + split; [reflexivity|assumption].
      + exact Hj.
      + left. apply N.mod_0_l. lia.
      + cbn [sk_get_reader sk_seek roff factual f skfile_of]. unfold nlen. lia.
    - cbn [fsize f skfile_of] in L. apply (range_loop_sound J E HJ) in L.
      + destruct L as (Ho & [_ Hca'] & L). auto.
      + split; [reflexivity|assumption].
      + exact Hj.
      + left. apply (block_aligned bs c m); assumption.
      + lia.
    - apply (chunk_loop_fixed J E HJ) in L; assumption.
  Qed.
End OneFile.

(** A pool whose files are given by [file]: [file fi s a] = file [fi] was signed as [s] and holds
    [a] now.  Every cached "valid" verdict is about a block that equals the signed block; [J] is
    what the verdict caches satisfy besides. *)
Section PoolOk.
  Context {A : Type}.
  Variable bs : N.
  Variable file : N -> list A -> list A -> Prop.
  Variable J : cache -> Prop.

  Definition pool_ok (p : pool) : Prop :=
    forall fi, J (pcache p fi) /\ forall s a, file fi s a -> cache_ok bs s a (pcache p fi).

  Lemma pool_ok_empty : J cache_empty -> pool_ok pool_empty.
  Proof. intros Hj fi. split; [exact Hj|]. intros s a _. apply cache_ok_empty. Qed.

  Lemma pool_ok_after p fi s a r :
    (forall s' a', file fi s' a' -> s' = s /\ a' = a) ->
    pool_ok p -> cache_ok bs s a (rcache r) -> J (rcache r) -> pool_ok (pool_after p fi r).
  Proof.
    intros Hfi Hp Hr Hj fi'. unfold pool_after. cbn [pcache].
    destruct (N.eqb_spec fi' fi) as [->|_]; [|apply Hp].
    split; [assumption|]. intros s' a' Hf. destruct (Hfi s' a' Hf) as [-> ->]. assumption.
  Qed.
End PoolOk.

Section Pool.
  Context {A H : Type}.
  Variables bs c m : N.
  Hypothesis c_pos : 0 < c.
  Hypothesis m_pos : 0 < m.
  Hypothesis bs_c : bs = c * m.
  Variable hash : list A -> H.
  Variable heqb : H -> H -> bool.
  Hypothesis hash_inj : forall a b, heqb (hash a) (hash b) = true -> a = b.
  Variable sa : list (list A * list A).

  Variable J : cache -> Prop.
  Variable E : Prop.
  Hypothesis J_read : forall fi s a,
    nth_error sa (N.to_nat fi) = Some (s, a) -> reads_keep bs hash heqb (skfile_of bs hash s a) J E.

  Let file fi s a := nth_error sa (N.to_nat fi) = Some (s, a).

  Lemma run_steps_sound : forall steps p,
    pool_ok bs file J p ->
    Forall2 (fun st res => step_sound bs c sa st res /\
                           (nth_error sa (N.to_nat (fst st)) <> None -> snd res = Failed -> E))
            steps (run_steps bs c hash heqb Fixed (files_of bs hash sa) p steps).
  Proof.
    induction steps as [|[fi pat] steps IH]; intros p Hp; cbn [run_steps]; [constructor|].
    unfold files_of at 1. rewrite nth_error_map.
    destruct (nth_error sa (N.to_nat fi)) as [[s a]|] eqn:E0; cbn [option_map fst snd].
    - destruct (run_pattern bs c hash heqb Fixed (skfile_of bs hash s a) p fi pat) as [[s' ps] o] eqn:R.
      destruct (Hp fi) as [Hj Hca].
      apply (run_pattern_fixed bs c m c_pos m_pos bs_c hash heqb hash_inj _ _ J E) in R;
        [|apply (J_read fi), E0|apply Hca, E0|exact Hj].
      destruct R as (Ho & Hca' & Hj' & Hf & Hs). constructor.
      2:{ apply IH, (pool_ok_after bs file J p fi s a); try assumption.
          intros s1 a1 E1. unfold file in E1. rewrite E0 in E1. injection E1 as <- <-. auto. }
      unfold step_sound. cbn [fst snd]. rewrite E0. split; [split; [exact Ho|exact Hs]|intros _; exact Hf].
    - constructor; [|apply IH; assumption].
      unfold step_sound. cbn [fst snd]. rewrite E0. split; [split; [discriminate|reflexivity]|congruence].
  Qed.

  Lemma run_steps_fixed steps p :
    pool_ok bs file J p ->
    Forall2 (step_sound bs c sa) steps (run_steps bs c hash heqb Fixed (files_of bs hash sa) p steps).
  Proof. intros Hp. induction (run_steps_sound steps p Hp) as [|? ? ? ? [Hs _]]; constructor; assumption. Qed.

  Lemma run_steps_done steps p :
    ~ E -> pool_ok bs file J p -> (forall fi pat, In (fi, pat) steps -> (N.to_nat fi < length sa)%nat) ->
    Forall (fun res => snd res = Done) (run_steps bs c hash heqb Fixed (files_of bs hash sa) p steps).
  Proof.
    intros HE Hp. induction (run_steps_sound steps p Hp) as [|[fi pat] res sts rs [[Ho _] Hf] _ IH]; intros Hin; constructor.
    - cbn [fst] in Hf. specialize (Hin fi pat (or_introl eq_refl)). apply nth_error_Some in Hin.
      destruct (snd res); [reflexivity|tauto|congruence].
    - apply IH. intros fi' pat' Hin'. eapply Hin. right. eassumption.
  Qed.
End Pool.

Section Pristine.
  Context {A H : Type}.
  Variables bs c : N.
  Hypothesis bs_pos' : 0 < bs.
  Variable hash : list A -> H.
  Variable heqb : H -> H -> bool.
  Hypothesis heqb_refl : forall a, heqb (hash a) (hash a) = true.
  Variable signed : list A.

  Let f := skfile_of bs hash signed signed.

  Definition cache_true (ca : cache) : Prop := forall k v, ca k = Some v -> v = true.

  Lemma vae_pristine k :
    k * bs < nlen signed ->
    validate_as_error hash heqb (sign bs hash signed) (N.to_nat k) (slice signed (k * bs) bs) = true.
  Proof.
    intros Hk. apply N.ltb_lt in Hk. unfold sign. rewrite vae_map, blocks_nth_slice, Hk by assumption. apply heqb_refl.
  Qed.

  Lemma validate_pristine ca off ca' r mv :
    cache_true ca -> validate_block bs hash heqb Fixed f ca off = (ca', r, mv) ->
    cache_true ca' /\ r = RValid.
  Proof.
    intros Hca V. apply (validate_block_inv bs hash heqb f (fun _ ok => ok = true)) in V.
    - destruct V as (Hca' & ok & -> & ->). split; [exact Hca'|reflexivity].
    - exact Hca.
    - cbn [factual fsize fgroup f skfile_of]. set (data := slice signed (off / bs * bs) bs).
      destruct (is_nil data && (nlen signed <=? off / bs * bs)) eqn:E1; [reflexivity|].
      apply vae_pristine. apply andb_false_iff in E1. destruct E1 as [E1|E1]; [|apply N.leb_gt in E1; assumption].
      destruct (N.le_gt_cases (nlen signed) (off / bs * bs)) as [Hle|Hgt]; [|assumption].
      unfold data in E1. rewrite slice_nil in E1 by assumption. discriminate.
  Qed.

  Lemma sk_read_pristine : reads_keep bs hash heqb f cache_true False.
  Proof.
    intros s len s' r Hca. unfold sk_read.
    destruct (validate_block bs hash heqb Fixed f (rcache s) (roff s)) as [[ca' r'] mv] eqn:V.
    apply validate_pristine in V; [|assumption]. destruct V as [Hca' ->].
    destruct (len =? 0); [intros R; inversion R; subst; split; [assumption|discriminate]|].
    destruct (is_nil _); intros R; inversion R; subst; split; try assumption; discriminate.
  Qed.

  Lemma cache_true_empty : cache_true cache_empty.
  Proof. intros k v E. discriminate. Qed.
End Pristine.


Definition ideal_bytes {A} (bs c : N) (signed : list A) (pat : pattern) : list A :=
  match pat with
  | PCopy => signed
  | PRange bi span => slice signed (bs * bi) (range_size bs (nlen signed) bi span)
  | PChunks cis => concat (map (fun ci => slice signed (ci * c) c) cis)
  end.

Lemma concat_ideal_pieces {A} (bs c : N) (signed : list A) pat :
  0 < c -> concat (ideal_pieces bs c signed pat) = ideal_bytes bs c signed pat.
Proof.
  intros Hc. destruct pat; cbn [ideal_pieces ideal_bytes]; try reflexivity; apply concat_blocks; lia.
Qed.

(** the bytes served are a prefix of the signed bytes asked for; all of them on completion *)
Definition step_sound_bytes {A} (bs c : N) (sa : list (list A * list A)) (step : N * pattern) (res : list (list A) * outcome) : Prop :=
  match nth_error sa (N.to_nat (fst step)) with
  | None => res = ([], Failed)
  | Some (s, _) =>
    (exists rest, ideal_bytes bs c s (snd step) = concat (fst res) ++ rest) /\
    (snd res = Done -> concat (fst res) = ideal_bytes bs c s (snd step))
  end.

Lemma served_bytes {A} (ps : list (list A)) o ideal :
  served ps o ideal ->
  (exists rest, concat ideal = concat ps ++ rest) /\ (o = Done -> concat ps = concat ideal).
Proof.
  intros [[k ->] Hd]. split; [|intros Ho; rewrite (Hd Ho); reflexivity].
  exists (concat (skipn k ideal)). rewrite <- concat_app, firstn_skipn. reflexivity.
Qed.

Lemma step_sound_to_bytes {A} (bs c : N) (sa : list (list A * list A)) step res :
  0 < c -> step_sound bs c sa step res -> step_sound_bytes bs c sa step res.
Proof.
  intros Hc [_ Hs]. unfold step_sound_bytes. destruct (nth_error sa (N.to_nat (fst step))) as [[s a]|]; [|assumption].
  rewrite <- (concat_ideal_pieces bs c s (snd step) Hc). apply served_bytes, Hs.
Qed.

(** what step [st] reads on the signed build *)
Definition ideal_of {A} (bs c : N) (sa : list (list A * list A)) (st : N * pattern) : list A :=
  match nth_error sa (N.to_nat (fst st)) with
  | Some (s, _) => ideal_bytes bs c s (snd st)
  | None => []
  end.

(** [Unfixed] at bs = 4, c = 2, hash = identity *)
Section Refuted.
  Let idh := fun b : list N => b.
  Let run (sa : list (list N * list N)) steps :=
    run_steps 4 2 idh nlist_eqb Unfixed (files_of 4 idh sa) pool_empty steps.

  (** DESIGN section 7 row 5: an undamaged file of exactly one block, copied whole: the read at the end of the file
      validates block 1 with an empty buffer and fails "too large" *)
  Example unfixed_rejects_pristine_block_multiple :
    run [([1;2;3;4], [1;2;3;4])] [(0, PCopy)] = [([[1;2];[3;4]], Failed)].
  Proof. vm_compute. reflexivity. Qed.

  (** row 6: one byte appended inside the last, short block is served to a whole-file copy *)
  Example unfixed_serves_appended_bytes :
    run [([1;2;3;4;5], [1;2;3;4;5;9])] [(0, PCopy)] = [([[1;2];[3;4];[5;9]], Done)].
  Proof. vm_compute. reflexivity. Qed.

  (** row 7: a file emptied, or cut at a block boundary: io.EOF is taken for a clean end by the
      whole-file copy, by a block-range op and by the chunk reader *)
  Example unfixed_truncated_is_a_clean_end :
    run [([1;2;3;4;5], [1;2;3;4]); ([7;8], [])] [(0, PCopy); (0, PRange 0 2); (0, PChunks [2]); (1, PCopy); (1, PRange 0 1)]
    = [([[1;2];[3;4]], Done); ([[1;2];[3;4]], Done); ([[]], Done); ([], Done); ([], Done)].
  Proof. vm_compute. reflexivity. Qed.

  (** row 8 (fix 00d2edf): the inner pool hands the same reader out again, positioned at
      the end of the file after the first copy, and block 0 is already validated: the second
      whole-file copy of an undamaged file is empty *)
  Example unfixed_second_copy_is_empty :
    run [([1;2;3;4;5], [1;2;3;4;5])] [(0, PCopy); (0, PCopy)]
    = [([[1;2];[3;4];[5]], Done); ([], Done)].
  Proof. vm_compute. reflexivity. Qed.

  (** the same files and consumers on [Fixed] (restated as [safekeeper_example] in Properties/C09.v) *)
  Example fixed_on_the_same_inputs :
    run_steps 4 2 idh nlist_eqb Fixed
      (files_of 4 idh [([1;2;3;4], [1;2;3;4]); ([1;2;3;4;5], [1;2;3;4;5;9]); ([1;2;3;4;5], [1;2;3;4]); ([7;8], []); ([1;2;3;4;5], [1;2;3;4;5])])
      pool_empty [(0, PCopy); (1, PCopy); (2, PCopy); (2, PRange 0 2); (2, PChunks [2]); (3, PCopy); (4, PCopy); (4, PCopy)]
    = [([[1;2];[3;4]], Done); ([[1;2];[3;4]], Failed); ([[1;2];[3;4]], Failed); ([[1;2];[3;4]], Failed); ([], Failed);
       ([], Failed); ([[1;2];[3;4];[5]], Done); ([[1;2];[3;4];[5]], Done)].
  Proof. vm_compute. reflexivity. Qed.
End Refuted.
