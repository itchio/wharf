(** Validating pool.  Defines [first_bad] (index of the first written block rejected at its
    position) and [wounds_from] (the markers of a list of blocks), in which C18 and C05 are stated.
    Error mode stops at [first_bad] with exactly the blocks before it relayed ([error_mode_lemma]);
    wound mode emits [wounds_from 0] of the blocks written ([wound_mode_list]); marker j is
    [j*bs, min((j+1)*bs, size)) and healthy iff the hashes agree ([vwnd_shape], under
    [group_consistent]), i.e. iff error mode accepts the block ([vwnd_healthy]). *)
From Wharf Require Import Base.Prelude Base.BlocksLemmas Base.BlockArith Val.Drip Val.DripProofs Val.VPool.
From Coq Require Import ZifyBool ZifyNat.

Lemma vae_map {A H} (hash : list A -> H) (heqb : H -> H -> bool) (bl : list (list A)) k d :
  validate_as_error hash heqb (map hash bl) k d =
  match nth_error bl k with Some b => heqb (hash b) (hash d) | None => false end.
Proof. unfold validate_as_error. rewrite nth_error_map. destruct (nth_error bl k); reflexivity. Qed.

Section VPoolProofs.
  Context {A H : Type}.
  Variable bs : Z.
  Hypothesis bs_pos : (0 < bs)%Z.
  Variable hash : list A -> H.
  Variable heqb : H -> H -> bool.
  Variable fileIndex fileSize : Z.
  Variable group : list H.

  Notation verr := (validate_as_error hash heqb group).
  Notation vwnd := (validate_as_wound bs hash heqb fileIndex fileSize group).

  (** the marker of a block is healthy exactly when error mode accepts the block *)
  Lemma vwnd_healthy j b : wkind_eqb (wk (vwnd j b)) WClosed = verr j b.
  Proof.
    unfold validate_as_wound, validate_as_error.
    destruct (nth_error group j) as [h|]; [destruct (heqb h (hash b))|]; reflexivity.
  Qed.

  (** index of the first written block that is rejected in error mode *)
  Fixpoint first_bad (i : nat) (bl : list (list A)) : option nat :=
    match bl with
    | [] => None
    | b :: r => if verr i b then first_bad (S i) r else Some i
    end.

  Lemma first_bad_spec bl : forall i j,
    first_bad i bl = Some j ->
    i <= j < i + length bl /\
    (forall k b, nth_error bl k = Some b -> i + k < j -> verr (i + k) b = true) /\
    (exists b, nth_error bl (j - i) = Some b /\ verr j b = false).
  Proof.
    induction bl as [|x r IH]; intros i j; cbn [first_bad length]; [discriminate|].
    destruct (verr i x) eqn:E.
    - intros Hj. destruct (IH _ _ Hj) as (Hge & Hall & b & Hb & Hv). split; [lia|]. split.
      + intros [|k] b' Hk Hlt; cbn [nth_error] in Hk.
        * injection Hk as <-. rewrite Nat.add_0_r. assumption.
        * replace (i + S k) with (S i + k) by lia. apply Hall; [assumption|lia].
      + exists b. replace (j - i) with (S (j - S i)) by lia. split; assumption.
    - intros [= <-]. split; [lia|]. split; [intros k b Hk Hlt; lia|].
      exists x. rewrite Nat.sub_diag. split; [reflexivity|assumption].
  Qed.

  Lemma first_bad_none bl i :
    (forall k b, nth_error bl k = Some b -> verr (i + k) b = true) -> first_bad i bl = None.
  Proof.
    intros Hall. destruct (first_bad i bl) as [j|] eqn:Ej; [|reflexivity].
    destruct (first_bad_spec _ _ _ Ej) as (Hge & _ & b & Hb & Hv).
    specialize (Hall _ _ Hb). replace (i + (j - i)) with j in Hall by lia. congruence.
  Qed.

  Lemma feed_err bl : forall i wl sink,
    feed (validate_err hash heqb group) (i, wl) sink bl =
    match first_bad i bl with
    | None => ((i + length bl, wl), sink ++ bl, None)
    | Some j => ((S j, wl), sink ++ firstn (j - i) bl, Some (nth (j - i) bl []))
    end.
  Proof.
    induction bl as [|b r IH]; intros i wl sink; cbn [feed first_bad length].
    - rewrite app_nil_r. do 3 f_equal. lia.
    - unfold validate_err at 1. cbn [fst snd].
      destruct (verr i b) eqn:E.
      + rewrite IH. destruct (first_bad (S i) r) as [j|] eqn:Ej.
        * destruct (first_bad_spec _ _ _ Ej) as [Hge _]. replace (j - i) with (S (j - S i)) by lia.
          cbn [firstn nth]. rewrite <- app_assoc. reflexivity.
        * rewrite <- app_assoc. do 3 f_equal. lia.
      + replace (i - i) with 0 by lia. cbn [firstn nth]. rewrite app_nil_r. reflexivity.
  Qed.

  (** error mode, any slicing: rejected exactly at the first bad block, and exactly the
      blocks before it reached the inner pool *)
  Theorem error_mode_lemma ws :
    let wb := blocks (Z.to_nat bs) (concat ws) in
    match first_bad 0 wb with
    | None => vpool_error bs hash heqb group ws = (Done, length ws, wb)
    | Some j => exists k, vpool_error bs hash heqb group ws = (Failed, k, firstn j wb) /\ k <= length ws
    end.
  Proof.
    cbn zeta. unfold vpool_error.
    assert (Hb : 0 < Z.to_nat bs) by lia.
    pose proof (session_spec (Z.to_nat bs) Hb (validate_err hash heqb group) vinit ws) as Hs.
    unfold vinit in *. rewrite feed_err in Hs. cbn [app] in Hs.
    destruct (first_bad 0 (blocks (Z.to_nat bs) (concat ws))) as [j|] eqn:Ej.
    - destruct Hs as [k [Hk Hle]]. rewrite Hk. exists k. rewrite Nat.sub_0_r. split; [reflexivity|assumption].
    - rewrite Hs. reflexivity.
  Qed.

  Lemma equal_passes_lemma ws :
    (forall k b, nth_error (blocks (Z.to_nat bs) (concat ws)) k = Some b -> verr k b = true) ->
    vpool_error bs hash heqb group ws = (Done, length ws, blocks (Z.to_nat bs) (concat ws)).
  Proof.
    intros Hall. pose proof (error_mode_lemma ws) as E. cbn zeta in E.
    rewrite (first_bad_none _ 0 Hall) in E. exact E.
  Qed.

  Fixpoint wounds_from (i : nat) (bl : list (list A)) : list wound :=
    match bl with
    | [] => []
    | b :: r => vwnd i b :: wounds_from (S i) r
    end.

  Lemma feed_wound bl : forall i wl sink,
    feed (validate_wound bs hash heqb fileIndex fileSize group) (i, wl) sink bl =
    ((i + length bl, wl ++ wounds_from i bl), sink ++ bl, None).
  Proof.
    induction bl as [|b r IH]; intros i wl sink; cbn [feed wounds_from length].
    - rewrite !app_nil_r. do 3 f_equal. lia.
    - unfold validate_wound at 1. cbn [fst snd]. rewrite IH, <- !app_assoc. cbn [app]. do 3 f_equal. lia.
  Qed.

  Theorem wound_mode_list ws :
    vpool_wounds bs hash heqb fileIndex fileSize group ws = wounds_from 0 (blocks (Z.to_nat bs) (concat ws)).
  Proof.
    unfold vpool_wounds.
    assert (Hb : 0 < Z.to_nat bs) by lia.
    pose proof (session_spec (Z.to_nat bs) Hb (validate_wound bs hash heqb fileIndex fileSize group) vinit ws) as Hs.
    unfold vinit in *. rewrite feed_wound in Hs. rewrite Hs. reflexivity.
  Qed.

  Lemma wounds_from_nth bl : forall i j b,
    nth_error bl j = Some b -> nth_error (wounds_from i bl) j = Some (vwnd (i + j) b).
  Proof.
    induction bl as [|x r IH]; intros i j b Hn; [destruct j; discriminate|].
    destruct j as [|j]; cbn [nth_error wounds_from] in *.
    - inversion Hn. rewrite Nat.add_0_r. reflexivity.
    - rewrite (IH (S i) j b Hn). do 2 f_equal. lia.
  Qed.

  Lemma wounds_from_In bl : forall i w,
    In w (wounds_from i bl) -> exists j b, nth_error bl j = Some b /\ w = vwnd (i + j) b.
  Proof.
    induction bl as [|x r IH]; intros i w; cbn [wounds_from]; [intros []|].
    intros [<-|Hin]; [exists 0, x; rewrite Nat.add_0_r; auto|].
    destruct (IH _ _ Hin) as (j & b & Hj & ->). exists (S j), b. rewrite Nat.add_succ_r. auto.
  Qed.

  Lemma wounds_from_length bl i : length (wounds_from i bl) = length bl.
  Proof. revert i. induction bl as [|x r IH]; intros i; cbn; [reflexivity|]. rewrite IH. reflexivity. Qed.

  Lemma wounds_from_healthy bl i :
    (forall j b, nth_error bl j = Some b -> verr (i + j) b = true) ->
    Forall (fun w => wkind_eqb (wk w) WClosed = true) (wounds_from i bl).
  Proof.
    intros Hv. apply Forall_forall. intros w Hin. destruct (wounds_from_In _ _ _ Hin) as (j & b & Hj & ->).
    rewrite vwnd_healthy. exact (Hv j b Hj).
  Qed.

  (** what every marker has, whatever the hash group: its file, a range from the start of the
      block that does not end before it, kind FILE or CLOSED_FILE *)
  Lemma vwnd_marker j b :
    let w := vwnd j b in
    widx w = fileIndex /\ (0 <= wstart w <= wend w)%Z /\ (wk w = WFile \/ wk w = WClosed).
  Proof.
    cbn zeta. unfold validate_as_wound.
    assert (Hsz : (0 <= compute_block_size bs fileSize (Z.of_nat j))%Z)
      by (unfold compute_block_size; destruct (_ >? _)%Z; [apply Z.mod_pos_bound; assumption|lia]).
    destruct (nth_error group j); [destruct (heqb _ _)|]; cbn [widx wstart wend wk];
      (split; [reflexivity|split; [nia|auto]]).
  Qed.

  (** shape of the marker of block [j] when the signed size and the hash group agree
      ([length group] = number of blocks of a file of [fileSize] bytes) *)
  Hypothesis group_consistent :
    (fileSize = 0%Z /\ group = []) \/
    (0 < fileSize /\ (Z.of_nat (length group) - 1) * bs < fileSize <= Z.of_nat (length group) * bs)%Z.

  Lemma vwnd_shape j b :
    let w := vwnd j b in
    widx w = fileIndex /\ wstart w = (Z.of_nat j * bs)%Z /\
    (j < length group -> wend w = Z.min ((Z.of_nat j + 1) * bs) fileSize) /\
    (wk w = WClosed <-> exists h, nth_error group j = Some h /\ heqb h (hash b) = true) /\
    (wk w = WFile \/ wk w = WClosed).
  Proof.
    cbn zeta. unfold validate_as_wound.
    destruct (nth_error group j) as [h|] eqn:En.
    - assert (Hj : j < length group) by (apply nth_error_Some; congruence).
      assert (Hend : (Z.of_nat j * bs + compute_block_size bs fileSize (Z.of_nat j) = Z.min ((Z.of_nat j + 1) * bs) fileSize)%Z).
      { destruct group_consistent as [[Hz Hg]|[Hp Hr]]; [subst group; cbn in Hj; lia|].
        unfold compute_block_size. rewrite block_size by nia. lia. }
      destruct (heqb h (hash b)) eqn:Eh; cbn [widx wstart wend wk];
        (split; [reflexivity|]); (split; [reflexivity|]); (split; [intros _; exact Hend|]); split.
      + split; [intros _; exists h; split; [reflexivity|assumption]|reflexivity].
      + right. reflexivity.
      + split; [intros X; discriminate|].
        intros [h' [Hh' Hq]]. inversion Hh'; subst. congruence.
      + left. reflexivity.
    - cbn [widx wstart wend wk]. split; [reflexivity|]. split; [reflexivity|]. split; [|split].
      + intros Hj. apply nth_error_None in En. lia.
      + split; [intros X; discriminate|intros [h' [Hh' _]]; discriminate].
      + left. reflexivity.
  Qed.
End VPoolProofs.
