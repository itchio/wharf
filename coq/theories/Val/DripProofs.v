(** Proofs about the drip writer model: what reaches the validator / the inner writer depends
    only on the concatenation of the writes, and is exactly its block decomposition.  Defines
    [feed] (validate-then-relay block after block).  Section WhichCall: the failing call is the
    one completing the rejected block ([writes_failed_at], [writes_done_count]). *)
From Wharf Require Import Base.Prelude Base.BlocksLemmas Val.Drip.

Section DripProofs.
  Context {A St : Type}.
  Variable bs : nat.
  Hypothesis bs_pos : 0 < bs.
  Variable validate : St -> list A -> St * bool.

  (** reference semantics: validate-then-relay the blocks one by one, stop at the first rejection *)
  Fixpoint feed (s : St) (sink : list (list A)) (bl : list (list A)) : St * list (list A) * option (list A) :=
    match bl with
    | [] => (s, sink, None)
    | b :: r => let '(s', ok) := validate s b in
                if ok then feed s' (sink ++ [b]) r else (s', sink, Some b)
    end.

  Lemma feed_app s sink a b :
    feed s sink (a ++ b) =
    match feed s sink a with
    | (s', sink', None) => feed s' sink' b
    | r => r
    end.
  Proof.
    revert s sink. induction a as [|x a IH]; intros s sink; cbn [app feed]; [reflexivity|].
    destruct (validate s x) as [s' ok]. destruct ok; [apply IH|reflexivity].
  Qed.

  Definition after_feed (r : St * list (list A) * option (list A)) (rem : list A) : dw * outcome :=
    match r with
    | (s', sink', None) => (mkdw rem s' sink', Done)
    | (s', sink', Some b) => (mkdw b s' sink', Failed)
    end.

  Lemma write_loop_spec fuel : forall (w : @dw A St) data,
    length (dbuf w) < bs -> length data < fuel ->
    write_loop bs validate fuel w data =
    after_feed (feed (dval w) (dsink w) (fst (full bs (dbuf w ++ data)))) (snd (full bs (dbuf w ++ data))).
  Proof.
    induction fuel as [|f IH]; intros w data Hb Hf; [lia|].
    destruct data as [|x data'].
    - cbn [write_loop]. rewrite app_nil_r, full_short by assumption. destruct w; reflexivity.
    - cbn [write_loop]. set (data := x :: data') in *.
      assert (Hlen : 1 <= length data) by (cbn; lia).
      destruct (Nat.lt_ge_cases (length (dbuf w) + length data) bs) as [Hs|Hl].
      + (* everything fits in the buffer without filling it *)
        rewrite Nat.min_l, firstn_all, skipn_all by lia.
        assert (Hlb : length (dbuf w ++ data) < bs) by (rewrite app_length; lia).
        rewrite (proj2 (Nat.eqb_neq _ _)), full_short by lia.
        destruct f; [cbn in Hf; lia|reflexivity].
      + (* the buffer is topped up to a block *)
        rewrite Nat.min_r, (full_top_up bs bs_pos) by lia.
        rewrite (proj2 (Nat.eqb_eq _ _)) by (rewrite app_length, firstn_length; lia).
        cbn [fst snd feed].
        destruct (validate (dval w) _) as [s' [|]]; [|reflexivity].
        apply IH; cbn [dbuf length]; [lia|rewrite skipn_length; lia].
  Qed.

  Lemma write_spec (w : @dw A St) data :
    length (dbuf w) < bs ->
    write bs validate w data =
    after_feed (feed (dval w) (dsink w) (fst (full bs (dbuf w ++ data)))) (snd (full bs (dbuf w ++ data))).
  Proof. intros H. unfold write. apply write_loop_spec; [assumption|lia]. Qed.

  Lemma writes_spec ws : forall (w : @dw A St) k,
    length (dbuf w) < bs ->
    let all := dbuf w ++ concat ws in
    match feed (dval w) (dsink w) (fst (full bs all)) with
    | (s', sink', None) => writes bs validate w ws k = (mkdw (snd (full bs all)) s' sink', Done, k + length ws)
    | (s', sink', Some b) => exists k', writes bs validate w ws k = (mkdw b s' sink', Failed, k')
                                        /\ k <= k' < k + length ws
    end.
  Proof.
    induction ws as [|d ws IH]; intros w k Hb; cbn zeta.
    - cbn [concat writes]. rewrite app_nil_r, full_short by assumption. cbn. destruct w. f_equal. f_equal. lia.
    - cbn [concat writes]. rewrite write_spec by assumption.
      rewrite app_assoc. rewrite (full_app bs bs_pos (dbuf w ++ d) (concat ws)). cbn [fst snd].
      rewrite feed_app.
      destruct (feed (dval w) (dsink w) (fst (full bs (dbuf w ++ d)))) as [[s1 sink1] [b1|]] eqn:E1; cbn [after_feed].
      + exists k. split; [reflexivity|cbn [length]; lia].
      + specialize (IH (mkdw (snd (full bs (dbuf w ++ d))) s1 sink1) (S k)).
        cbn [dbuf dval dsink] in IH. specialize (IH (full_rem_short bs bs_pos _)). cbn zeta in IH.
        destruct (feed s1 sink1 (fst (full bs (snd (full bs (dbuf w ++ d)) ++ concat ws)))) as [[s2 sink2] [b2|]].
        * destruct IH as [k' [Hk Hr]]. exists k'. split; [assumption|cbn [length]; lia].
        * rewrite IH. f_equal. cbn [length]. lia.
  Qed.

  Theorem session_spec s0 ws :
    match feed s0 [] (blocks bs (concat ws)) with
    | (s', sink', None) => session bs validate s0 ws = (mkdw [] s' sink', Done, length ws)
    | (s', sink', Some b) => exists k, session bs validate s0 ws = (mkdw b s' sink', Failed, k) /\ k <= length ws
    end.
  Proof.
    unfold session.
    pose proof (writes_spec ws (mkdw [] s0 []) 0) as H. cbn [dbuf dval dsink app length] in H.
    specialize (H bs_pos). cbn zeta in H.
    rewrite (blocks_full bs bs_pos), feed_app.
    destruct (feed s0 [] (fst (full bs (concat ws)))) as [[s1 sink1] [b1|]].
    - destruct H as [k' [Hk Hr]]. rewrite Hk. exists k'. split; [reflexivity|lia].
    - rewrite H. unfold close. cbn [dbuf dval dsink].
      destruct (snd (full bs (concat ws))) as [|x r] eqn:Er; cbn [feed].
      + reflexivity.
      + destruct (validate s1 (x :: r)) as [s2 ok]. destruct ok; cbn [feed].
        * reflexivity.
        * exists (length ws). split; [reflexivity|lia].
  Qed.
End DripProofs.

Lemma feed_always_ok {A St} (validate : St -> list A -> St * bool) :
  (forall s b, snd (validate s b) = true) ->
  forall bl s sink, exists s', feed validate s sink bl = (s', sink ++ bl, None).
Proof.
  intros Hok. induction bl as [|b r IH]; intros s sink; cbn [feed].
  - exists s. rewrite app_nil_r. reflexivity.
  - specialize (Hok s b). destruct (validate s b) as [s1 ok]. cbn in Hok. subst ok.
    destruct (IH s1 (sink ++ [b])) as [s' E]. exists s'. rewrite E, <- app_assoc. reflexivity.
Qed.

Section WhichCall.
  Context {A St : Type}.
  Variable bs : nat.
  Variable validate : St -> list A -> St * bool.

  Lemma writes_failed_at ws : forall (w w' : @dw A St) k0 k,
    writes bs validate w ws k0 = (w', Failed, k) ->
    k0 <= k /\ exists w1 d,
      writes bs validate w (firstn (k - k0) ws) k0 = (w1, Done, k) /\
      nth_error ws (k - k0) = Some d /\ write bs validate w1 d = (w', Failed).
  Proof.
    induction ws as [|d r IH]; intros w w' k0 k Hw; cbn [writes] in Hw; [inversion Hw|].
    destruct (write bs validate w d) as [w2 o] eqn:Ew. destruct o.
    - destruct (IH w2 w' (S k0) k Hw) as [Hle [w1 [d1 [Hp [Hn Hf]]]]].
      split; [lia|]. exists w1, d1. replace (k - k0) with (S (k - S k0)) by lia.
      cbn [firstn writes nth_error]. rewrite Ew. repeat split; assumption.
    - inversion Hw; subst w2 k. split; [lia|]. exists w, d. rewrite Nat.sub_diag. cbn [firstn writes nth_error].
      repeat split; assumption.
    - inversion Hw.
  Qed.

  Lemma writes_done_count ws : forall (w w' : @dw A St) k0 k,
    writes bs validate w ws k0 = (w', Done, k) -> k = k0 + length ws.
  Proof.
    induction ws as [|d r IH]; intros w w' k0 k Hw; cbn [writes] in Hw.
    - inversion Hw. cbn. lia.
    - destruct (write bs validate w d) as [w2 o]. destruct o; [|inversion Hw|inversion Hw].
      apply IH in Hw. cbn [length]. lia.
  Qed.
End WhichCall.
