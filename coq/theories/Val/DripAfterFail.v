(** Calls made on a drip writer AFTER one of its calls failed (pwr/drip/dripwriter.go).

    [Val/Drip.v] transcribes [Write] and [Close]; a session there stops at the first failing call.
    Callers do go on, though: [poolBowl.Transpose] closes the writer after a failed copy, and so does
    any caller following the [defer w.Close()] idiom.

    Pinned code: [Write] returned on the Validate error with the refused block still in its full
    buffer, and [Close] flushed whatever the buffer held - so the refused block was validated a
    second time (by a closure whose block index had moved on) and relayed when that passed.
    [close_after_reject_refuted_on_pinned_code] (Properties/C18.v) is the witness (a file that lost
    its first block); replayed on Go it is defect #30 of DESIGN section 7 (fix 8bf43dc), repaired by
    the sticky error [dw.err].

    Repaired code: the first error is kept; every later [Write] / [Close] returns it and relays
    nothing.  [sticky_*] below model that; [sticky_frozen] proves the sink frozen. *)
From Wharf Require Import Base.Prelude Val.Drip.

Section AfterFail.
  Context {A St : Type}.
  Variable bs : nat.
  Variable validate : St -> list A -> St * bool.

  Inductive call := CWrite (data : list A) | CClose.

  (** pinned code: no memory of the failure *)
  Definition old_call (w : @dw A St) (c : call) : @dw A St * outcome :=
    match c with CWrite d => write bs validate w d | CClose => close validate w end.

  (** repaired code: [dw.err] *)
  Definition sticky_call (wf : @dw A St * bool) (c : call) : (@dw A St * bool) * outcome :=
    let '(w, failed) := wf in
    if failed then ((w, true), Failed)
    else match c with
         | CWrite d => let '(w', o) := write bs validate w d in
                       ((w', match o with Failed => true | _ => false end), o)
         | CClose => let '(w', o) := close validate w in ((w', false), o)
         end.

  Fixpoint sticky_calls (wf : @dw A St * bool) (cs : list call) : (@dw A St * bool) * list outcome :=
    match cs with
    | [] => (wf, [])
    | c :: r => let '(wf', o) := sticky_call wf c in
                let '(wf'', os) := sticky_calls wf' r in (wf'', o :: os)
    end.

  Lemma sticky_frozen : forall cs w,
    let '(wf', os) := sticky_calls (w, true) cs in
    wf' = (w, true) /\ Forall (fun o => o = Failed) os.
  Proof.
    induction cs as [|c r IH]; intros w; cbn [sticky_calls sticky_call].
    - split; [reflexivity|constructor].
    - specialize (IH w). destruct (sticky_calls (w, true) r) as [wf'' os].
      destruct IH as [E F]. split; [exact E|constructor; [reflexivity|exact F]].
  Qed.

  Lemma sticky_write_failed : forall w d w',
    write bs validate w d = (w', Failed) ->
    sticky_call (w, false) (CWrite d) = ((w', true), Failed).
  Proof. intros w d w' E. cbn [sticky_call]. rewrite E. reflexivity. Qed.
End AfterFail.

(** Witness against the pinned code.  Block size 2; the Validate closure of the validating pool:
    state = block index, accept iff the block equals the signed block at that index, index advanced
    either way (pwr/validatingpool.go: [blockIndex++] after ValidateAsError). *)
Definition sig_validate (signed : list (list nat)) (idx : nat) (b : list nat) : nat * bool :=
  (S idx, match nth_error signed idx with
          | Some s => if list_eq_dec Nat.eq_dec s b then true else false
          | None => false
          end).
