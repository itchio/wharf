(** C06: schedules for concrete executions of the granular system of [Heal/Granular.v]: the
    goroutines really are inside their calls at the same time, and the witnesses of
    [HealWitness.v] are healed under such schedules ([Properties/C06.v], [granular_witnesses]). *)
From Wharf Require Import FS.Light Heal.Healer.

(** the validator runs until it is between the Lstat and the Readlink of the symlink 4; then the
    healer receives the DIR wound of directory 1 (a symlink on disk) and does its Lstat *)
Definition gw_prefix : list tid := repeat TV 7 ++ [TH; TH].

Definition round_robin (n : nat) : list tid := concat (repeat [TW; TH; TV] n).
