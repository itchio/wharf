(** Proofs about Heal/Protocol.v: every step decreases [measure]; the invariant [Inv] of the
    reachable states; no state satisfying it is stuck before main has returned. *)
From Coq Require Import List Arith Bool Lia.
Import ListNotations.
From Wharf Require Import Heal.Protocol.

(** reduce record projections and setters, nothing else, in the goal and in every hypothesis (a
    fixed [cbn] list: conversion only) *)
Ltac sred := cbn [s_ctx s_canc s_wch s_wclosed s_werr s_cerr s_ficlosed s_main s_ret s_files s_wk s_cons s_pipe
                  set_ctx set_canc set_wch set_wclosed set_werr set_cerr set_ficlosed set_main set_ret set_files
                  set_wk set_cons set_pipe push a_last a_outs a_inclosed a_outclosed r_pc] in *.

(** How a property is shown to survive a step.  [break H] splits [H : step p a s = Some s'] on
    everything [step] inspects, so that [s'] is an explicit record.  A clause that reads only
    fields the step has not written is then a hypothesis.  The rest needs the clauses that hold
    of [s], at its program counters: [chase] closes the context under modus ponens (every rule
    only adds a consequence).  [break] destructs only what the [match]es and [if]s of [H]
    scrutinise, innermost first, drops the branches where [step] is [None], and then opens the
    [file], the [after_done] result and the pipe the goal mentions: a case analysis that is
    complete by construction and uses no lemma.  [chase] uses none either and never closes a
    goal: what is left goes to [congruence] / [auto] where it is called. *)
Ltac break H :=
  sred;
  repeat match type of H with
         | context [match ?x with _ => _ end] =>
             match x with
             | context [match _ with _ => _ end] => fail 1
             | _ => destruct x eqn:?; try discriminate H
             end
         | context [if ?x then _ else _] =>
             match x with
             | context [if _ then _ else _] => fail 1
             | _ => destruct x eqn:?; try discriminate H
             end
         end;
  first [discriminate H | injection H as <-]; subst;
  lazymatch goal with
  | |- context [start_wk ?f] => destruct f
  | |- context [after_done ?e] => destruct e
  | |- _ => idtac
  end;
  try match goal with q : pipe |- _ => destruct q as [al ao aic aoc ar]; sred; subst end.
Ltac chase :=
  repeat match goal with
         | H : ?x = ?x -> _ |- _ => specialize (H eq_refl)
         | H : Some _ <> None -> _ |- _ => specialize (H ltac:(discriminate))
         | H : ?P -> _, X : ?P |- _ => specialize (H X)
         | H : _ /\ _ |- _ => destruct H
         | H : _ \/ _ |- _ => destruct H
         end.

Lemma agg_in_weight : forall last m l o,
  agg_in last m = (l, o) ->
  (if l then 4 else 0) + 3 * length o < 5 + (if last then 4 else 0).
Proof.
  intros last m l o H. destruct m as [|c b]; destruct last; simpl in H;
    try (destruct c; try destruct b); injection H as <- <-; simpl; lia.
Qed.

(** the measures differ by a constant, except where the aggregator takes an input *)
Theorem step_decreases : forall p a s s', step p a s = Some s' -> measure s' < measure s.
Proof.
  intros p a s s' H. destruct s as [ctx canc wch wcl werr cerr ficl mn ret files wk cons pp].
  destruct a; unfold step in H; break H.
  all: try match goal with E : agg_in _ _ = _ |- _ => apply agg_in_weight in E end.
  all: unfold measure, w_files, w_file; sred;
       cbn [w_main w_wk w_mid w_pitem w_cons w_rpc w_pipe fold_right length
            start_wk start_pipe fresh_pipe after_done a_last a_outs a_outclosed r_pc];
       rewrite ?last_length; lia.
Qed.

(** the invariant of the reachable states, through these classifications of program counters
    ([Inv] uses the first six, [SafeA] of Heal/ProtocolSafety.v the last four).  Clauses of [Inv]:
    A = workerErrs and the worker's end, B = consumerErrs and the consumer's end, C = close(Wounds),
    D = the start of the worker and close(fileIndices), E = the per-file pipe *)
Definition in_pipe_phase (w : wpc) : bool :=
  match w with WCopy _ _ _ | WMid _ _ | WFlush _ _ | WCloseP _ | WWaitDone _ => true | _ => false end.
Definition is_waitdone (w : wpc) : bool := match w with WWaitDone _ => true | _ => false end.
Definition cons_sent (c : cpc) : bool := match c with CDrain | CDone => true | _ => false end.
Definition main_after_wtake (m : mpc) : bool := match m with MRearmW | MCloseW | MWaitC | MRet => true | _ => false end.
Definition main_after_ctake (m : mpc) : bool := match m with MRearmC | MRet => true | _ => false end.
Definition is_pre (m : mpc) : bool := match m with MPre _ => true | _ => false end.
Definition in_loop (m : mpc) : bool := match m with MPre _ | MLoop => true | _ => false end.
Definition rearm_phase (m : mpc) : bool := match m with MRearmW | MRearmC | MCancel => true | _ => false end.
Definition closing (m : mpc) : bool := match m with MCloseW | MWaitC => true | _ => false end.
Definition wk_res (w : wpc) : option res := match w with WSend r | WDefer r => Some r | _ => None end.

Record Inv (s : state) : Prop := mkInv {
  iA1 : s_werr s <> None -> s_wk s = WDone;
  iA2 : s_wk s = WDone -> s_werr s = None -> main_after_wtake (s_main s) = true;
  iA3 : s_main s = MRearmW -> s_werr s = None /\ s_wk s = WDone;
  iB1 : s_cerr s <> None -> cons_sent (s_cons s) = true;
  iB2 : cons_sent (s_cons s) = true -> s_cerr s = None -> main_after_ctake (s_main s) = true;
  iB3 : s_main s = MRearmC -> s_cerr s = None /\ cons_sent (s_cons s) = true;
  iC1 : s_wclosed s = true -> s_main s = MWaitC \/ s_main s = MRet;
  iC2 : s_cons s = CDone -> s_wclosed s = true;
  iC3 : s_main s = MWaitC -> s_wclosed s = true;
  iD0 : is_pre (s_main s) = true -> s_wk s = WNone;
  iD1 : s_wk s = WNone -> is_pre (s_main s) = true \/ s_main s = MRet;
  iD2 : s_main s = MWaitW -> s_ficlosed s = true;
  iE : match s_pipe s with
       | None => in_pipe_phase (s_wk s) = false
       | Some pp => in_pipe_phase (s_wk s) = true /\ a_inclosed pp = is_waitdone (s_wk s) /\
                    (a_outclosed pp = true -> a_inclosed pp = true /\ a_outs pp = [] /\ a_last pp = false) /\
                    (r_pc pp = RDoneSend -> a_outclosed pp = true)
       end }.

Lemma inv_init : forall p, Inv (init p).
Proof. intros p. constructor; cbn; intros; try congruence; auto. Qed.

(** compute the classifications of program counters and the guardian's verdicts (a fixed [cbn]
    list, like [sred]) *)
Ltac pcs := cbn [is_pre main_after_wtake main_after_ctake cons_sent in_pipe_phase is_waitdone
                 in_loop rearm_phase closing wk_res
                 start_wk start_pipe fresh_pipe after_done a_last a_outs a_inclosed a_outclosed r_pc
                 merge_ret c_start c_msg c_closed c_ctx guardian] in *.

Lemma inv_step : forall p a s s', p_closefail p = false -> Inv s -> step p a s = Some s' -> Inv s'.
Proof.
  intros p a s s' CF [A1 A2 A3 B1 B2 B3 C1 C2 C3 D0 D1 D2 E] H.
  destruct s as [ctx canc wch wcl werr cerr ficl mn ret files wk cons pp].
  (* clause by clause: the clauses of [s] that the clause of [s'] rests on *)
  destruct a; unfold step in H; rewrite ?CF in H; break H;
    (constructor;
       [ clear - A1 A3 D0 | clear - A1 A2 | clear - A1 A3 | clear - B1 B3 | clear - B1 B2 | clear - B1 B3
       | clear - C1 | clear - C2 | clear - C3 | clear - D0 | clear - D1 | clear - D2 | clear - D0 E ]).
  all: sred; try assumption.
  all: pcs; try solve [intros; chase; repeat split; congruence || auto].
  all: try (destruct pp as [[al ao aic aoc ar]|]); sred; pcs;
       repeat first [progress intros | progress chase | progress subst | split]; pcs; congruence || auto.
Qed.

Definition enabled (p : params) (s : state) : Prop := exists a s', a <> ACancel /\ step p a s = Some s'.

(** exhibit the step [a]: [step p a s] is computed on the explicit state; a guard that does not
    reduce is left to the caller *)
Ltac take a := exists a; eexists; split; [discriminate | unfold step; sred; try reflexivity].

Lemma room_empty : forall p s, 1 <= p_cap p -> s_wch s = [] -> room p s = true.
Proof. intros p s C E. unfold room. rewrite E. apply Nat.ltb_lt. simpl. lia. Qed.

(** the consumer goroutine can move unless it waits on an open, empty Wounds or has finished *)
Lemma cons_enabled : forall p s, Inv s ->
  enabled p s \/ (s_wch s = [] /\ s_wclosed s = false) \/ s_cons s = CDone.
Proof.
  intros p s [_ _ _ B1 _ _ _ _ _ _ _ _ _].
  destruct s as [ctx canc wch wcl werr cerr ficl mn ret files wk cons pp]. sred.
  destruct cons.
  - left. take ACons.
  - destruct wch; [destruct wcl; [left; take ACons | right; left; split; reflexivity] | left; take ACons].
  - left. destruct cerr; [exfalso; cbn in B1; discriminate B1; congruence | take ACons].
  - destruct wch; [destruct wcl; [left; take ACons | right; left; split; reflexivity] | left; take ACons].
  - right. right. reflexivity.
Qed.

(** with room in Wounds the worker side (worker, aggregator, relay) can move, unless the worker
    waits in its select *)
Lemma worker_enabled : forall p s, Inv s -> room p s = true -> s_werr s = None ->
  s_main s = MLoop \/ s_main s = MWaitW -> enabled p s \/ s_wk s = WSelect.
Proof.
  intros p s [_ A2 _ _ _ _ _ _ _ _ D1 _ E] R W M.
  destruct s as [ctx canc wch wcl werr cerr ficl mn ret files wk cons [[l o ic oc r]|]]; sred; subst werr.
  - (* inside a file *)
    left. destruct E as (P & -> & E2 & E3). destruct o as [|m' t'].
    + (* the aggregator holds nothing to send *)
      destruct wk; try discriminate P.
      * destruct ws1 as [|m t]; [take AWk|]. destruct (agg_in l m) eqn:AG. take AWA. rewrite AG. reflexivity.
      * destruct mid; take AWk. rewrite R. reflexivity.
      * destruct ws2 as [|m t]; [take AWk|]. destruct (agg_in l m) eqn:AG. take AWA. rewrite AG. reflexivity.
      * take AWk.
      * destruct l; [take AAgg|]. destruct oc; [|take AAgg].
        destruct r; [take ARel | take ARel; rewrite R; reflexivity | take ARW].
    + (* it does: the relay moves *)
      destruct r; [take AAR | take ARel; rewrite R; reflexivity|].
      destruct (E2 (E3 eq_refl)) as (_ & ? & _). discriminate.
  - destruct wk; try discriminate E.
    + destruct M as [-> | ->]; destruct (D1 eq_refl); discriminate.
    + left. take AWk.
    + right. reflexivity.
    + left. take AWk. rewrite R. reflexivity.
    + left. take AWk.
    + left. take AWk.
    + destruct M as [-> | ->]; discriminate (A2 eq_refl eq_refl).
Qed.

Theorem no_stuck : forall p s, 1 <= p_cap p -> Inv s -> s_main s <> MRet -> enabled p s.
Proof.
  intros p s C I M.
  destruct (cons_enabled p s I) as [En|[[Em WC]|CD]]; [exact En| |].
  - pose proof (room_empty p s C Em) as R.
    pose proof (worker_enabled p s I R) as WE.
    destruct I as [_ _ A3 _ _ B3 _ _ C3 _ _ D2 _].
    destruct s as [ctx canc wch wcl werr cerr ficl mn ret files wk cons pp]. sred. subst.
    destruct mn as [items| | | | | | | | |].
    + destruct items as [|[|] r]; take AMain. rewrite R. reflexivity.
    +
      destruct files as [|f fs]; [take AMain|].
      destruct werr; [take AMainW|]. destruct cerr; [take AMainC|].
      destruct (WE eq_refl (or_introl eq_refl)) as [En| ->]; [exact En|take AMainF].
    + destruct (A3 eq_refl) as [-> _]. take AMain.
    + destruct (B3 eq_refl) as [-> _]. take AMain.
    + take AMain.
    + take AMain.
    +
      destruct werr; [take AMain|].
      destruct (WE eq_refl (or_intror eq_refl)) as [En| ->]; [exact En|]. rewrite (D2 eq_refl). take AWk.
    + take AMain.
    + specialize (C3 eq_refl). discriminate.
    + contradiction.
  - (* the consumer has finished: Wounds is closed, main waits for the consumer's result, and it is there *)
    destruct I as [_ _ _ _ B2 _ C1 C2 _ _ _ _ _].
    destruct (C1 (C2 CD)) as [MW|MR]; [|contradiction].
    destruct s as [ctx canc wch wcl werr cerr ficl mn ret files wk cons pp]. sred. subst.
    destruct cerr; [take AMain | discriminate (B2 eq_refl eq_refl)].
Qed.

Lemma run_invariant : forall (P : state -> Prop) (Q : action -> Prop) p,
  (forall a s s', Q a -> P s -> step p a s = Some s' -> P s') ->
  forall acts s s', (forall a, In a acts -> Q a) -> P s -> run p acts s = Some s' -> P s'.
Proof.
  intros P Q p St. induction acts as [|a r IH]; intros s s' HQ Hs H; cbn in H.
  - injection H as <-. exact Hs.
  - destruct (step p a s) as [s1|] eqn:S; [|discriminate].
    apply (IH s1 s'); [intros b Hb; apply HQ; right; exact Hb | | exact H].
    apply (St a s s1); [apply HQ; left; reflexivity | exact Hs | exact S].
Qed.

Lemma inv_run : forall p acts s s', p_closefail p = false -> Inv s -> run p acts s = Some s' -> Inv s'.
Proof.
  intros p acts s s' CF. apply (run_invariant Inv (fun _ => True)); [|auto].
  intros a s0 s1 _. exact (inv_step p a s0 s1 CF).
Qed.

Lemma run_length : forall p acts s s', run p acts s = Some s' -> length acts + measure s' <= measure s.
Proof.
  induction acts as [|a r IH]; intros s s' H; cbn in H.
  - injection H as <-. cbn. lia.
  - destruct (step p a s) eqn:S; [|discriminate]. apply IH in H. apply step_decreases in S. cbn. lia.
Qed.

(** the guard [p_closefail p = false] is needed: when targetPool.Close() fails in the worker's
    deferred function, vctx.validate returns without sending on workerErrs and Validate blocks
    forever on <-workerErrs (a clean one-file directory, nothing cancelled) *)
Definition closefail_params : params :=
  mkparams 1 [] false [FData [FHealthy] FMNone []] (mkcons None (fun _ _ _ => None) (fun _ => RNil) (fun _ => Some RNil)) false true.
Definition closefail_sched : list action :=
  [ACons; AMain; AWk; AMainF; AWA; AAR; ARel; ACons; AWk; AWk; AWk; AWk; AAgg; ARel; ARW; AMain; AMain; AWk; AWk].
