(** C06, model part 2: the archive healer (pwr/archive_healer.go: [Do]/[processWound], the
    [heal] worker goroutine with lake's [fspool.GetWriter]) and the three-thread transition
    system validator / healer / heal worker with the wound channel of capacity [cap] between
    validator and healer and the (never full) file queue between healer and worker.

    The schedule is an explicit argument: [run] takes a list of thread ids; a step of a thread
    that is blocked or finished leaves the state unchanged. *)
From Wharf Require Import FS.Light FS.Tree FS.Ops Heal.Validator.

Inductive hphase :=
| HRun                       (* for wound := range wounds *)
| HWait                      (* close(fileIndices); <-errs *)
| HDone (r : res unit).

Inductive wphase :=
| WIdle                                      (* waiting on fileIndices *)
| WWriting (q : path) (data : list N)        (* GetWriter done, ctxcopy.Do pending *)
| WExit (r : res unit).

Record state := mkS {
  s_fs : tree;
  s_v : vstate;
  s_chan : list wound;               (* vctx.Wounds, FIFO, head = oldest *)
  s_closed : bool;
  s_h : hphase;
  s_queued : list path;              (* the healer's [files] set *)
  s_wq : list (path * list N);       (* fileIndices *)
  s_wq_closed : bool;
  s_w : wphase }.

Definition init (b : build) (t : tree) : state :=
  mkS t (mkV VInit [] []) [] false HRun [] [] false WIdle.

Definition parent (p : path) : path := removelast p.

Section Steps.
Variable fx : fixes.
Variable cap : nat.
Variable b : build.
Variable T : path.

Definition set_v (s : state) (v : vstate) : state :=
  mkS (s_fs s) v (s_chan s) (s_closed s) (s_h s) (s_queued s) (s_wq s) (s_wq_closed s) (s_w s).

(** the verdict of a check moves the validator on *)
Definition after_check (s : state) (next : vphase) (newwd : list path) (v : verdict) : state :=
  match v with
  | Wounds ws => set_v s (mkV next ws newwd)
  | Fail e => set_v s (mkV (VFail e) [] (v_wd (s_v s)))
  end.

Definition vstep (s : state) : option state :=
  let v := s_v s in
  match v_pend v with
  | w :: ws =>
      if Nat.ltb (length (s_chan s)) cap
      then Some (mkS (s_fs s) (mkV (v_phase v) ws (v_wd v)) (s_chan s ++ [w]) (s_closed s) (s_h s)
                     (s_queued s) (s_wq s) (s_wq_closed s) (s_w s))
      else None
  | [] =>
      match v_phase v with
      | VInit =>
          match mkdir_all (s_fs s) T with
          | Ok t' => Some (mkS t' (mkV (VDirs (b_dirs b)) [] []) (s_chan s) (s_closed s) (s_h s)
                               (s_queued s) (s_wq s) (s_wq_closed s) (s_w s))
          | Err e => Some (set_v s (mkV (VFail e) [] []))
          end
      | VDirs [] => Some (set_v s (mkV (VLinks (b_links b)) [] (v_wd v)))
      | VDirs (d :: rest) =>
          let r := check_dir fx (s_fs s) T (v_wd v) d in
          Some (after_check s (VDirs rest) (match r with Wounds (_ :: _) => d :: v_wd v | _ => v_wd v end) r)
      | VLinks [] => Some (set_v s (mkV (VFiles (b_files b)) [] (v_wd v)))
      | VLinks ((l, dest) :: rest) =>
          Some (after_check s (VLinks rest) (v_wd v) (check_link fx (s_fs s) T (v_wd v) l dest))
      | VFiles [] => Some (set_v s (mkV VClose [] (v_wd v)))
      | VFiles ((f, data) :: rest) =>
          Some (after_check s (VFiles rest) (v_wd v) (check_file fx (s_fs s) T (v_wd v) f data))
      | VClose => Some (mkS (s_fs s) (mkV VDone [] (v_wd v)) (s_chan s) true (s_h s)
                            (s_queued s) (s_wq s) (s_wq_closed s) (s_w s))
      | VDone | VFail _ => None
      end
  end.

(** [processWound] on the filesystem *)
Definition heal_dir (t : tree) (d : path) : res tree :=
  match lstat t (T ++ d) with
  | Ok Dir => Ok t
  | Ok _ =>
      match remove t (T ++ d) with
      | Err e => Err e
      | Ok t1 => mkdir_all t1 (T ++ d)
      end
  | Err _ => mkdir_all t (T ++ d)
  end.

Definition heal_link (t : tree) (l : path) (dest : list comp) : res tree :=
  match mkdir_all t (parent (T ++ l)) with
  | Err e => Err e
  | Ok t1 =>
      let r := match lstat t1 (T ++ l) with
               | Ok Dir => remove_all t1 (T ++ l)
               | Ok _ => remove t1 (T ++ l)
               | Err _ => Ok t1
               end in
      match r with
      | Err e => Err e
      | Ok t2 => symlink t2 dest (T ++ l)
      end
  end.

(** [fspool.GetWriter] *)
Definition get_writer (t : tree) (f : path) : res (tree * path) :=
  match mkdir_all t (parent (T ++ f)) with
  | Err e => Err e
  | Ok t1 =>
      let r := match lstat t1 (T ++ f) with
               | Ok Dir => remove_all t1 (T ++ f)
               | Ok (Link _) => remove t1 (T ++ f)
               | _ => Ok t1
               end in
      match r with
      | Err e => Err e
      | Ok t2 => open_trunc t2 (T ++ f)
      end
  end.

Definition set_fs_chan_h (s : state) (t : tree) (ch : list wound) (h : hphase) : state :=
  mkS t (s_v s) ch (s_closed s) h (s_queued s) (s_wq s) (s_wq_closed s) (s_w s).

Definition hstep (s : state) : option state :=
  match s_h s with
  | HRun =>
      match s_chan s with
      | w :: ch =>
          match w with
          | WDir d =>
              match heal_dir (s_fs s) d with
              | Ok t' => Some (set_fs_chan_h s t' ch HRun)
              | Err e => Some (set_fs_chan_h s (s_fs s) ch (HDone (Err e)))
              end
          | WLink l dest =>
              match heal_link (s_fs s) l dest with
              | Ok t' => Some (set_fs_chan_h s t' ch HRun)
              | Err e => Some (set_fs_chan_h s (s_fs s) ch (HDone (Err e)))
              end
          | WFile f data =>
              if existsb (path_eqb f) (s_queued s) then Some (set_fs_chan_h s (s_fs s) ch HRun)
              else
                match s_w s with
                | WExit (Err e) => Some (set_fs_chan_h s (s_fs s) ch (HDone (Err e)))
                | _ => Some (mkS (s_fs s) (s_v s) ch (s_closed s) HRun (f :: s_queued s)
                                 (s_wq s ++ [(f, data)]) (s_wq_closed s) (s_w s))
                end
          | WClosed _ => Some (set_fs_chan_h s (s_fs s) ch HRun)
          end
      | [] =>
          if s_closed s
          then Some (mkS (s_fs s) (s_v s) [] (s_closed s) HWait (s_queued s) (s_wq s) true (s_w s))
          else None
      end
  | HWait =>
      match s_w s with
      | WExit r => Some (set_fs_chan_h s (s_fs s) (s_chan s) (HDone r))
      | _ => None
      end
  | HDone _ => None
  end.

Definition set_fs_wq_w (s : state) (t : tree) (wq : list (path * list N)) (w : wphase) : state :=
  mkS t (s_v s) (s_chan s) (s_closed s) (s_h s) (s_queued s) wq (s_wq_closed s) w.

Definition wstep (s : state) : option state :=
  match s_w s with
  | WIdle =>
      match s_wq s with
      | (f, data) :: wq =>
          match get_writer (s_fs s) f with
          | Ok (t', q) => Some (set_fs_wq_w s t' wq (WWriting q data))
          | Err e => Some (set_fs_wq_w s (s_fs s) wq (WExit (Err e)))
          end
      | [] => if s_wq_closed s then Some (set_fs_wq_w s (s_fs s) [] (WExit (Ok tt))) else None
      end
  | WWriting q data => Some (set_fs_wq_w s (write_fd (s_fs s) q data) (s_wq s) WIdle)
  | WExit _ => None
  end.

Inductive tid := TV | TH | TW.

Definition step (s : state) (i : tid) : option state :=
  match i with TV => vstep s | TH => hstep s | TW => wstep s end.

Definition step_or_stay (s : state) (i : tid) : state :=
  match step s i with Some s' => s' | None => s end.

Definition run (sched : list tid) (s : state) : state := fold_left step_or_stay sched s.

(** [Validate] has returned: with an error of its own, or after the healer has *)
Definition terminal (s : state) : bool :=
  match v_phase (s_v s), s_h s with
  | VFail _, _ => true
  | VDone, HDone _ => true
  | _, _ => false
  end.

Definition result (s : state) : option (res unit) :=
  match v_phase (s_v s), s_h s with
  | VFail e, _ => Some (Err e)
  | VDone, HDone r => Some r
  | _, _ => None
  end.

(** a deterministic completion: at every step the first thread of [prio] that can move does;
    stops when nobody can (or the fuel is out) *)
Fixpoint first_step (s : state) (prio : list tid) : option state :=
  match prio with
  | [] => None
  | i :: r => match step s i with Some s' => Some s' | None => first_step s r end
  end.

Fixpoint finish (fuel : nat) (prio : list tid) (s : state) : state :=
  match fuel with
  | O => s
  | S f => match first_step s prio with Some s' => finish f prio s' | None => s end
  end.

End Steps.

(** the whole build is there, literally: every entry at its path with the signed content *)
Definition restored (b : build) (T : path) (t : tree) : Prop :=
  (forall d, In d (b_dirs b) -> lstat t (T ++ d) = Ok Dir) /\
  (forall l dest, In (l, dest) (b_links b) -> readlink t (T ++ l) = Ok dest) /\
  (forall f data, In (f, data) (b_files b) -> lstat t (T ++ f) = Ok (File data) /\ read_file t (T ++ f) = Ok data).

Definition restoredb (b : build) (T : path) (t : tree) : bool :=
  forallb (fun d => match lstat t (T ++ d) with Ok Dir => true | _ => false end) (b_dirs b)
  && forallb (fun l => match readlink t (T ++ fst l) with Ok d => dest_eqb d (snd l) | _ => false end) (b_links b)
  && forallb (fun f => match lstat t (T ++ fst f), read_file t (T ++ fst f) with
                       | Ok (File d), Ok d' => nlist_eqb d (snd f) && nlist_eqb d' (snd f)
                       | _, _ => false
                       end) (b_files b).

Definition all_paths (b : build) : list path := b_dirs b ++ map fst (b_links b) ++ map fst (b_files b).

Fixpoint nodupb (l : list path) : bool :=
  match l with
  | [] => true
  | p :: r => negb (existsb (path_eqb p) r) && nodupb r
  end.

Definition nonempty_prefixes (p : path) : list path := filter (fun a => negb (path_eqb a [])) (prefixes p).

Fixpoint parents_first (seen : list path) (ds : list path) : bool :=
  match ds with
  | [] => true
  | d :: r => forallb (fun a => existsb (path_eqb a) seen) (nonempty_prefixes d) && parents_first (d :: seen) r
  end.

(** the containers the validator is given ([tlc.WalkDir]): no empty path, all paths distinct,
    every proper prefix of an entry is a directory listed before it, and nothing is listed
    below a symlink or a file *)
Definition wf_build (b : build) : bool :=
  forallb (fun p => negb (path_eqb p [])) (all_paths b)
  && nodupb (all_paths b)
  && parents_first [] (b_dirs b)
  && forallb (fun p => forallb (fun a => existsb (path_eqb a) (b_dirs b)) (nonempty_prefixes p))
             (map fst (b_links b) ++ map fst (b_files b)).

(** the target is absent or a directory, below real directories *)
Definition init_ok (T : path) (t : tree) : bool :=
  forallb (fun a => match node_at t a with Some Dir => true | _ => false end) (prefixes T)
  && match node_at t T with None | Some Dir => true | _ => false end.
