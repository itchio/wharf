(** C06, model part 3: the GRANULAR transition system.

    In [Heal/Healer.v] one entry check of the validator (Lstat / Readlink / open+read and the
    decision which wound to send), one [processWound] of the healer and the [fspool.GetWriter] of
    the heal worker are single steps.  In Go each of them is a sequence of calls into the
    filesystem that interleaves with the calls of the other goroutines.  Here every step of every
    thread performs AT MOST ONE operation of [FS/Ops.v]; what a goroutine remembers between two of
    its operations (which call comes next, for which entry) is its program counter
    ([vpc] / [hpc] / [wpc]).  Same style as [Healer.v]: the schedule is a list of thread ids, a
    step of a blocked or finished thread leaves the state unchanged.

    pwr/validator.go
      directory pass    underWoundedDir ; os.Lstat                          (one step, as in [Healer.v])
      symlink pass      underWoundedDir ; os.Lstat ; os.Readlink            ([VP0] ; [VPmid])
      file pass         underWoundedDir ; os.Lstat ; GetReader + io.Copy    ([VP0] ; [VPmid])
      every wound       one send on vctx.Wounds                             (one step, as in [Healer.v])
    pwr/archive_healer.go [Do] / [processWound]
      receive           wound := <-wounds                                   ([HP0] -> ...)
      DIR wound         os.Lstat ; os.Remove ; os.MkdirAll
      SYMLINK wound     os.MkdirAll(dir) ; os.Lstat ; os.RemoveAll | os.Remove ; os.Symlink
      FILE / CLOSED     no filesystem call (set lookup, send on fileIndices): one step, as in [Healer.v]
    pwr/archive_healer.go [heal] / [healOne] with lake's [fspool.GetWriter]
      receive           fileIndex := <-fileIndices                          ([WP0] -> [WPMkdir])
      GetWriter         MkdirAll(dir) ; Lstat ; RemoveAll | Remove ; OpenFile(O_CREATE|O_TRUNC)
      ctxcopy.Do        the write of the content                            (one step, as in [Healer.v])

    An operation that fails ends the goroutine with that error at the point where Go returns it,
    with the filesystem as it is at that point (the atomic model leaves the tree untouched when
    [processWound] fails; the difference is unobservable, see [Heal/Repair.v]: under the
    hypotheses of [heal_restores] no operation of the healer or the worker fails).

    Not split further (the granularity of [FS/Ops.v]): [os.MkdirAll] and [os.RemoveAll] are
    library functions that make several system calls; opening a file and reading it to the end is
    the one operation [read_file].  Definitions only; proofs are in [Heal/Repair.v] (one call) and
    [Heal/GranularProofs.v] (the system). *)
From Wharf Require Import FS.Light FS.Tree FS.Ops Heal.Validator Heal.Healer.

(** where the validator is inside the check of the entry at the head of its list *)
Inductive vpc :=
| VP0          (* nothing done yet for this entry *)
| VPmid.       (* not under a wounded directory, os.Lstat done and passed on: Readlink / read pending *)

(** where the healer is inside [processWound] *)
Inductive hpc :=
| HP0                                              (* for wound := range wounds *)
| HPDirLstat (d : path)                            (* DIR wound received; os.Lstat pending *)
| HPDirRemove (d : path)                           (* os.Remove pending *)
| HPDirMkdir (d : path)                            (* os.MkdirAll pending *)
| HPLinkMkdir (l : path) (dest : list comp)        (* SYMLINK wound received; os.MkdirAll(dir) pending *)
| HPLinkLstat (l : path) (dest : list comp)        (* os.Lstat pending *)
| HPLinkRemoveAll (l : path) (dest : list comp)    (* os.RemoveAll pending *)
| HPLinkRemove (l : path) (dest : list comp)       (* os.Remove pending *)
| HPLinkSymlink (l : path) (dest : list comp).     (* os.Symlink pending *)

(** where the heal worker is inside [fspool.GetWriter] *)
Inductive wpc :=
| WP0                                              (* not inside GetWriter *)
| WPMkdir (f : path) (data : list N)               (* file index received; MkdirAll(dir) pending *)
| WPLstat (f : path) (data : list N)
| WPRemoveAll (f : path) (data : list N)
| WPRemove (f : path) (data : list N)
| WPOpen (f : path) (data : list N).               (* OpenFile(O_WRONLY|O_CREATE|O_TRUNC) pending *)

(** the shared state and the coarse program counters are those of the atomic system *)
Record gstate := mkG {
  g_s : state;
  g_v : vpc;
  g_h : hpc;
  g_w : wpc }.

Definition ginit (b : build) (t : tree) : gstate := mkG (init b t) VP0 HP0 WP0.

Definition set_fs (s : state) (t : tree) : state :=
  mkS t (s_v s) (s_chan s) (s_closed s) (s_h s) (s_queued s) (s_wq s) (s_wq_closed s) (s_w s).

Section GSteps.
Variable fx : fixes.
Variable cap : nat.
Variable b : build.
Variable T : path.

(** ---- validator ---- *)

Definition link_verdict (r : res (list comp)) (l : path) (dest : list comp) : verdict :=
  match r with
  | Err e => if is_missing fx e then Wounds [WLink l dest] else Fail e
  | Ok d => if dest_eqb d dest then Wounds [] else Wounds [WLink l dest]
  end.

Definition file_verdict (r : res (list N)) (f : path) (data : list N) : verdict :=
  match r with
  | Err _ => Wounds [WFile f data]
  | Ok d => if nlist_eqb d data then Wounds [WClosed f] else Wounds [WFile f data; WClosed f]
  end.

Definition gvstep (g : gstate) : option gstate :=
  let s := g_s g in
  let v := s_v s in
  let same := option_map (fun s' => mkG s' (g_v g) (g_h g) (g_w g)) (vstep fx cap b T s) in
  let decided next r := Some (mkG (after_check s next (v_wd v) r) VP0 (g_h g) (g_w g)) in
  match v_pend v with
  | _ :: _ => same                                        (* one send on vctx.Wounds *)
  | [] =>
      match v_phase v with
      | VLinks ((l, dest) :: rest) =>
          match g_v g with
          | VP0 =>
              if under_wd fx (v_wd v) l then decided (VLinks rest) (Wounds [WLink l dest]) else
              match lstat (s_fs s) (T ++ l) with                               (* os.Lstat *)
              | Ok Dir | Ok (File _) => decided (VLinks rest) (Wounds [WLink l dest])
              | _ => Some (mkG s VPmid (g_h g) (g_w g))
              end
          | VPmid =>                                                           (* os.Readlink *)
              decided (VLinks rest) (link_verdict (readlink (s_fs s) (T ++ l)) l dest)
          end
      | VFiles ((f, data) :: rest) =>
          match g_v g with
          | VP0 =>
              if under_wd fx (v_wd v) f then decided (VFiles rest) (Wounds [WFile f data]) else
              match lstat (s_fs s) (T ++ f) with                               (* os.Lstat *)
              | Ok Dir | Ok (Link _) => decided (VFiles rest) (Wounds [WFile f data])
              | _ => Some (mkG s VPmid (g_h g) (g_w g))
              end
          | VPmid =>                                                           (* open + read *)
              decided (VFiles rest) (file_verdict (read_file (s_fs s) (T ++ f)) f data)
          end
      | _ => same      (* MkdirAll(target); one directory check = one Lstat; pass changes; close *)
      end
  end.

(** ---- healer ---- *)

(** one filesystem operation of [processWound]: the new tree and what comes next *)
Definition hop (pc : hpc) (t : tree) : res (tree * hpc) :=
  match pc with
  | HP0 => Ok (t, HP0)
  | HPDirLstat d =>
      match lstat t (T ++ d) with
      | Ok Dir => Ok (t, HP0)
      | Ok _ => Ok (t, HPDirRemove d)
      | Err _ => Ok (t, HPDirMkdir d)
      end
  | HPDirRemove d =>
      match remove t (T ++ d) with Ok t1 => Ok (t1, HPDirMkdir d) | Err e => Err e end
  | HPDirMkdir d =>
      match mkdir_all t (T ++ d) with Ok t1 => Ok (t1, HP0) | Err e => Err e end
  | HPLinkMkdir l dest =>
      match mkdir_all t (parent (T ++ l)) with Ok t1 => Ok (t1, HPLinkLstat l dest) | Err e => Err e end
  | HPLinkLstat l dest =>
      match lstat t (T ++ l) with
      | Ok Dir => Ok (t, HPLinkRemoveAll l dest)
      | Ok _ => Ok (t, HPLinkRemove l dest)
      | Err _ => Ok (t, HPLinkSymlink l dest)
      end
  | HPLinkRemoveAll l dest =>
      match remove_all t (T ++ l) with Ok t1 => Ok (t1, HPLinkSymlink l dest) | Err e => Err e end
  | HPLinkRemove l dest =>
      match remove t (T ++ l) with Ok t1 => Ok (t1, HPLinkSymlink l dest) | Err e => Err e end
  | HPLinkSymlink l dest =>
      match symlink t dest (T ++ l) with Ok t1 => Ok (t1, HP0) | Err e => Err e end
  end.

Definition ghstep (g : gstate) : option gstate :=
  let s := g_s g in
  let same := option_map (fun s' => mkG s' (g_v g) (g_h g) (g_w g)) (hstep T s) in
  match g_h g with
  | HP0 =>
      match s_h s, s_chan s with
      | HRun, WDir d :: ch =>                                              (* <-wounds *)
          Some (mkG (set_fs_chan_h s (s_fs s) ch HRun) (g_v g) (HPDirLstat d) (g_w g))
      | HRun, WLink l dest :: ch =>
          Some (mkG (set_fs_chan_h s (s_fs s) ch HRun) (g_v g) (HPLinkMkdir l dest) (g_w g))
      | _, _ => same              (* FILE / CLOSED_FILE wounds, close(fileIndices), <-errs *)
      end
  | pc =>
      match hop pc (s_fs s) with
      | Ok (t', pc') => Some (mkG (set_fs s t') (g_v g) pc' (g_w g))
      | Err e => Some (mkG (set_fs_chan_h s (s_fs s) (s_chan s) (HDone (Err e))) (g_v g) HP0 (g_w g))
      end
  end.

(** ---- heal worker ---- *)

(** one filesystem operation of [GetWriter]; [inr q]: the file is open at location [q] *)
Definition wop (pc : wpc) (t : tree) : res (tree * (wpc + path)) :=
  match pc with
  | WP0 => Ok (t, inl WP0)
  | WPMkdir f data =>
      match mkdir_all t (parent (T ++ f)) with Ok t1 => Ok (t1, inl (WPLstat f data)) | Err e => Err e end
  | WPLstat f data =>
      match lstat t (T ++ f) with
      | Ok Dir => Ok (t, inl (WPRemoveAll f data))
      | Ok (Link _) => Ok (t, inl (WPRemove f data))
      | _ => Ok (t, inl (WPOpen f data))
      end
  | WPRemoveAll f data =>
      match remove_all t (T ++ f) with Ok t1 => Ok (t1, inl (WPOpen f data)) | Err e => Err e end
  | WPRemove f data =>
      match remove t (T ++ f) with Ok t1 => Ok (t1, inl (WPOpen f data)) | Err e => Err e end
  | WPOpen f data =>
      match open_trunc t (T ++ f) with Ok (t1, q) => Ok (t1, inr q) | Err e => Err e end
  end.

Definition wpc_data (pc : wpc) : list N :=
  match pc with
  | WP0 => []
  | WPMkdir _ d | WPLstat _ d | WPRemoveAll _ d | WPRemove _ d | WPOpen _ d => d
  end.

Definition gwstep (g : gstate) : option gstate :=
  let s := g_s g in
  let same := option_map (fun s' => mkG s' (g_v g) (g_h g) (g_w g)) (wstep T s) in
  match g_w g with
  | WP0 =>
      match s_w s, s_wq s with
      | WIdle, (f, data) :: wq =>                                          (* <-fileIndices *)
          Some (mkG (set_fs_wq_w s (s_fs s) wq WIdle) (g_v g) (g_h g) (WPMkdir f data))
      | _, _ => same              (* the write of the content; return when the queue is closed *)
      end
  | pc =>
      match wop pc (s_fs s) with
      | Ok (t', inl pc') => Some (mkG (set_fs s t') (g_v g) (g_h g) pc')
      | Ok (t', inr q) => Some (mkG (set_fs_wq_w s t' (s_wq s) (WWriting q (wpc_data pc))) (g_v g) (g_h g) WP0)
      | Err e => Some (mkG (set_fs_wq_w s (s_fs s) (s_wq s) (WExit (Err e))) (g_v g) (g_h g) WP0)
      end
  end.

Definition gstep (g : gstate) (i : tid) : option gstate :=
  match i with TV => gvstep g | TH => ghstep g | TW => gwstep g end.

Definition gstep_or_stay (g : gstate) (i : tid) : gstate :=
  match gstep g i with Some g' => g' | None => g end.

Definition grun (sched : list tid) (g : gstate) : gstate := fold_left gstep_or_stay sched g.

Fixpoint gfirst_step (g : gstate) (prio : list tid) : option gstate :=
  match prio with
  | [] => None
  | i :: r => match gstep g i with Some g' => Some g' | None => gfirst_step g r end
  end.

Fixpoint gfinish (fuel : nat) (prio : list tid) (g : gstate) : gstate :=
  match fuel with
  | O => g
  | S f => match gfirst_step g prio with Some g' => gfinish f prio g' | None => g end
  end.

(** ---- the abstraction: what is left of the calls in progress, done at once ---- *)

(** the remaining operations of the healer's [processWound] *)
Definition complete_h (pc : hpc) (t : tree) : res tree :=
  match pc with
  | HP0 => Ok t
  | HPDirLstat d => heal_dir T t d
  | HPDirRemove d =>
      match remove t (T ++ d) with Err e => Err e | Ok t1 => mkdir_all t1 (T ++ d) end
  | HPDirMkdir d => mkdir_all t (T ++ d)
  | HPLinkMkdir l dest => heal_link T t l dest
  | HPLinkLstat l dest =>
      match (match lstat t (T ++ l) with
             | Ok Dir => remove_all t (T ++ l)
             | Ok _ => remove t (T ++ l)
             | Err _ => Ok t
             end) with
      | Err e => Err e
      | Ok t2 => symlink t2 dest (T ++ l)
      end
  | HPLinkRemoveAll l dest =>
      match remove_all t (T ++ l) with Err e => Err e | Ok t2 => symlink t2 dest (T ++ l) end
  | HPLinkRemove l dest =>
      match remove t (T ++ l) with Err e => Err e | Ok t2 => symlink t2 dest (T ++ l) end
  | HPLinkSymlink l dest => symlink t dest (T ++ l)
  end.

(** the remaining operations of the worker's [GetWriter] *)
Definition complete_w (pc : wpc) (t : tree) : res (tree * path) :=
  match pc with
  | WP0 => Err EINVAL                                  (* not inside GetWriter; only that it is an [Err] matters *)
  | WPMkdir f data => get_writer T t f
  | WPLstat f data =>
      match (match lstat t (T ++ f) with
             | Ok Dir => remove_all t (T ++ f)
             | Ok (Link _) => remove t (T ++ f)
             | _ => Ok t
             end) with
      | Err e => Err e
      | Ok t2 => open_trunc t2 (T ++ f)
      end
  | WPRemoveAll f data =>
      match remove_all t (T ++ f) with Err e => Err e | Ok t2 => open_trunc t2 (T ++ f) end
  | WPRemove f data =>
      match remove t (T ++ f) with Err e => Err e | Ok t2 => open_trunc t2 (T ++ f) end
  | WPOpen f data => open_trunc t (T ++ f)
  end.

Definition abs_h (pc : hpc) (s : state) : state :=
  match pc with
  | HP0 => s
  | _ => match complete_h pc (s_fs s) with Ok t' => set_fs s t' | Err _ => s end
  end.

Definition abs_w (pc : wpc) (s : state) : state :=
  match pc with
  | WP0 => s
  | _ => match complete_w pc (s_fs s) with
         | Ok (t', q) => set_fs_wq_w s t' (s_wq s) (WWriting q (wpc_data pc))
         | Err _ => s
         end
  end.

(** the atomic state a granular state stands for: the validator's entry check in progress has
    not started, [processWound] / [GetWriter] in progress are finished *)
Definition abs (g : gstate) : state := abs_w (g_w g) (abs_h (g_h g) (g_s g)).

(** no goroutine is between two filesystem calls of one check / processWound / GetWriter *)
Definition quiescent (g : gstate) : bool :=
  match g_v g, g_h g, g_w g with VP0, HP0, WP0 => true | _, _, _ => false end.

(** [Validate] has returned / its result / the final tree: read off the shared part *)
Definition gterminal (g : gstate) : bool := terminal (g_s g).
Definition gresult (g : gstate) : option (res unit) := result (g_s g).
Definition g_fs (g : gstate) : tree := s_fs (g_s g).

(** [hrank] / [wrank]: the filesystem calls left inside the [processWound] / [GetWriter] in
    progress.  [vrank] is the other way round (1 before the first call of a check, 0 between the
    two): the step [VP0] -> [VPmid] leaves [abs] unchanged and has to lower [grank]; the step back
    to [VP0] is a step of the atomic system. *)
Definition vrank (pc : vpc) : nat := match pc with VP0 => 1 | VPmid => 0 end.
Definition hrank (pc : hpc) : nat :=
  match pc with
  | HP0 => 0
  | HPDirLstat _ => 3 | HPDirRemove _ => 2 | HPDirMkdir _ => 1
  | HPLinkMkdir _ _ => 4 | HPLinkLstat _ _ => 3 | HPLinkRemoveAll _ _ | HPLinkRemove _ _ => 2
  | HPLinkSymlink _ _ => 1
  end.
Definition wrank (pc : wpc) : nat :=
  match pc with
  | WP0 => 0
  | WPMkdir _ _ => 4 | WPLstat _ _ => 3 | WPRemoveAll _ _ | WPRemove _ _ => 2 | WPOpen _ _ => 1
  end.
Definition grank (g : gstate) : nat := vrank (g_v g) + hrank (g_h g) + wrank (g_w g).

End GSteps.
