(** Proofs about Heal/Protocol.v on the invariant [Inv] of Heal/ProtocolProofs.v: the invariants
    that make a nil result of fail-fast Validate (the guardian after the fix) imply a clean
    directory, for every schedule and cancellation instant; a witness against the unrepaired
    guardian. *)
From Coq Require Import List Arith Bool Lia.
Import ListNotations.
From Wharf Require Import Heal.Protocol Heal.ProtocolProofs.

Definition is_bad (m : msg) : bool := match m with Bad => true | Healthy => false end.
Definition fbad (m : fmsg) : bool := negb (fmsg_clean m).
Definition ws_dirty (ws : list fmsg) : bool := existsb fbad ws.
Definition mid_dirty (m : fmid) : bool := match m with FMNone => false | _ => true end.
Definition is_err (r : res) : bool := match r with RErr => true | RNil => false end.
(** the worker still has something to report for its current file (a wound or an error) *)
Definition wk_pending (w : wpc) : bool :=
  match w with
  | WWhole => true
  | WCopy ws1 mid ws2 => ws_dirty ws1 || mid_dirty mid || ws_dirty ws2
  | WMid mid ws2 => mid_dirty mid || ws_dirty ws2
  | WFlush ws2 e => ws_dirty ws2 || is_err e
  | WCloseP e | WWaitDone e | WDefer e | WSend e => is_err e
  | _ => false
  end.
Definition pipe_pending (o : option pipe) : bool :=
  match o with
  | None => false
  | Some pp => a_last pp || existsb is_bad (a_outs pp) || match r_pc pp with RSendW Bad => true | _ => false end
  end.
Definition pre_pending (m : mpc) : bool := match m with MPre (_ :: _) => true | _ => false end.
Definition files_pending (l : list file) : bool := existsb (fun f => negb (file_clean f)) l.
Definition pending (s : state) : bool :=
  pre_pending (s_main s) || files_pending (s_files s) || wk_pending (s_wk s)
  || pipe_pending (s_pipe s) || existsb is_bad (s_wch s).
Definition some_err (o : option res) : bool := match o with Some RErr => true | _ => false end.
Definition send_err (c : cpc) : bool := match c with CSend RErr => true | _ => false end.
(** an error is on its way into main's retErr *)
Definition owed (s : state) : bool :=
  is_err (s_ret s) || some_err (s_werr s) || some_err (s_cerr s) || send_err (s_cons s).
Definition cons_live (c : cpc) : bool := match c with CStart | CDo _ => true | _ => false end.

(** auxiliary invariant, by main's phase (needs the guardian for [aC1]): while main is in its loop
    retErr is nil and nothing is closed (G), and neither the worker (W) nor the consumer (C) holds
    a nil result; re-arming and cancelling happen with retErr set (K); in the closing phases the
    worker is done (F); files are left over only with retErr set (J) *)
Record SafeA (s : state) : Prop := mkSafeA {
  aG1 : in_loop (s_main s) = true -> s_ret s = RNil /\ s_ficlosed s = false /\ s_canc s = false;
  aW1 : in_loop (s_main s) = true -> s_werr s <> Some RNil /\ wk_res (s_wk s) <> Some RNil;
  aC1 : in_loop (s_main s) = true -> s_cerr s <> Some RNil /\ s_cons s <> CSend RNil;
  aK0 : rearm_phase (s_main s) = true -> s_ret s = RErr;
  aK : s_canc s = true -> s_ret s = RErr;
  aF1 : closing (s_main s) = true -> s_wk s = WDone /\ s_werr s = None;
  aF2 : s_main s = MRet -> s_ret s = RErr \/ (s_werr s = None /\ s_cerr s = None /\ cons_sent (s_cons s) = true /\ s_wk s = WDone);
  aF3 : s_wclosed s = true -> s_wk s = WDone;
  aJ3 : in_loop (s_main s) = false -> s_files s = [] \/ s_ret s = RErr }.

(** the safety invariant proper: either an error is on its way to main, or something is still to
    be reported and the guardian is still listening (it holds from the start exactly when the
    directory is not clean: [pending_init]) *)
Definition sgood (s : state) : bool := owed s || (pending s && cons_live (s_cons s)).

Lemma negb_forallb : forall {A} (f : A -> bool) l, negb (forallb f l) = existsb (fun x => negb (f x)) l.
Proof. induction l as [|x l IH]; cbn; [|rewrite negb_andb, IH]; reflexivity. Qed.

Lemma file_pending_start : forall f, negb (file_clean f) = wk_pending (start_wk f).
Proof.
  destruct f as [| |ws1 [] ws2]; cbn; rewrite ?orb_true_r; try reflexivity.
  rewrite orb_false_r, negb_andb, !negb_forallb. reflexivity.
Qed.

Lemma agg_in_pending : forall last m l o, agg_in last m = (l, o) -> l || existsb is_bad o = last || fbad m.
Proof.
  intros last m l o H. destruct m as [|c b]; destruct last; cbn in H; try (destruct c; try destruct b); injection H as <- <-; reflexivity.
Qed.

Lemma existsb_snoc : forall {A} (f : A -> bool) (l : list A) x, existsb f (l ++ [x]) = existsb f l || f x.
Proof. intros. rewrite existsb_app. cbn. rewrite orb_false_r. reflexivity. Qed.

Lemma pending_init : forall p, pending (init p) = negb (clean p).
Proof.
  intros p. unfold pending, clean, files_pending. cbn. destruct (p_pre p); cbn; [|reflexivity].
  rewrite !orb_false_r. symmetry. apply negb_forallb.
Qed.

Lemma sgood_init : forall p, clean p = false -> sgood (init p) = true.
Proof. intros p H. unfold sgood. rewrite pending_init, H. reflexivity. Qed.

Lemma no_pipe_outside : forall s, Inv s -> in_pipe_phase (s_wk s) = false -> s_pipe s = None.
Proof. intros s I W. pose proof (iE s I) as E. destruct (s_pipe s); [destruct E; congruence|reflexivity]. Qed.

Lemma relay_done_empty : forall s pp, Inv s -> s_pipe s = Some pp -> r_pc pp = RDoneSend ->
  a_last pp = false /\ a_outs pp = [].
Proof.
  intros s pp I P R. pose proof (iE s I) as E. rewrite P in E.
  destruct E as (_ & _ & E2 & E3). destruct (E2 (E3 R)) as (_ & O & L). split; assumption.
Qed.

Lemma drained_nothing_pending : forall s, Inv s -> SafeA s -> s_wclosed s = true -> s_wch s = [] ->
  pending s = false \/ s_ret s = RErr.
Proof.
  intros s I SA W C. unfold pending. rewrite C, (no_pipe_outside s I), (aF3 s SA W) by (rewrite (aF3 s SA W); reflexivity).
  destruct (iC1 s I W) as [M|M]; (destruct (aJ3 s SA) as [F|R]; [rewrite M; reflexivity | rewrite M, F; left; reflexivity | right; exact R]).
Qed.

Lemma safeA_init : forall p, SafeA (init p).
Proof. intros p. constructor; cbn; intros; repeat split; congruence || auto. Qed.

Lemma safeA_step : forall p a s s', p_cons p = guardian -> Inv s -> SafeA s -> step p a s = Some s' -> SafeA s'.
Proof.
  intros p a s s' G [A1 _ _ B1 _ _ C1 _ _ _ _ _ _] [G1 W1 Cn1 K0 K F1 F2 F3 J3] H.
  destruct s as [ctx canc wch wcl werr cerr ficl mn ret files wk cons pp].
  (* clause by clause: the clauses of [s] that the clause of [s'] rests on *)
  destruct a; unfold step in H; rewrite ?G in H; pcs; break H;
    (constructor;
       [ clear - G1 | clear - W1 G1 | clear - Cn1 C1 | clear - K0 W1 Cn1 | clear - K K0 G1
       | clear - F1 A1 | clear - F2 F1 B1 | clear - F3 F1 C1 | clear - J3 W1 Cn1 ]).
  all: sred; try assumption.
  all: pcs; try solve [intros; chase; repeat split; congruence || auto].
  all: repeat match goal with x : res |- _ => destruct x end;
       pcs; intros; chase; subst; pcs; repeat split; congruence || auto.
Qed.

Lemma imp_b : forall a b : bool, (if a then b else true) = true -> a = true -> b = true.
Proof. destruct a, b; cbn; congruence. Qed.

(** compute [sgood] and its parts on an explicit state: unfolding, two fixed [cbn] lists and the
    rewrites [file_pending_start], [existsb_snoc] *)
Ltac sgcbn HS :=
  unfold sgood, owed, pending, files_pending in HS |- *;
  cbn [s_ctx s_canc s_wch s_wclosed s_werr s_cerr s_ficlosed s_main s_ret s_files s_wk s_cons s_pipe push
       set_ctx set_canc set_wch set_wclosed set_werr set_cerr set_ficlosed set_main set_ret set_files set_wk set_cons set_pipe] in HS |- *;
  rewrite ?file_pending_start in HS; rewrite ?existsb_snoc, ?file_pending_start;
  cbn [existsb is_bad wk_pending pipe_pending pre_pending send_err some_err cons_live is_err mid_dirty ws_dirty
       a_last a_outs a_inclosed a_outclosed r_pc orb andb negb merge_ret start_wk start_pipe fresh_pipe after_done] in HS |- *.
(** the boolean implication [H : a = true |- b = true], by case analysis on the atoms of the two
    sides: a truth table, which proves only what is a propositional tautology in the atoms and
    fails otherwise *)
Ltac bt H :=
  let rec atom t :=
    match t with
    | orb ?a ?b => first [atom a | atom b]
    | andb ?a ?b => first [atom a | atom b]
    | negb ?a => atom a
    | true => fail
    | false => fail
    | _ => destruct t
    end in
  first [ reflexivity | discriminate |
  revert H;
  solve [repeat (cbn [orb andb negb];
          match goal with
          | |- true = true -> _ => intros _
          | |- _ -> true = true => intros _; reflexivity
          | |- false = true -> _ => discriminate
          | |- ?a = true -> ?b = true => first [atom a | atom b]
          | |- true = true => reflexivity
          | |- false = true => fail 2
          | |- ?b = true => atom b
          end)] ].

Lemma sgood_step : forall p a s s', p_cons p = guardian -> p_closefail p = false -> Inv s -> SafeA s -> sgood s = true ->
  step p a s = Some s' -> sgood s' = true.
Proof.
  intros p a s s' G CF I SA HS H.
  pose proof (iD0 s I) as D0. pose proof (no_pipe_outside s I) as NP.
  pose proof (fun pp => relay_done_empty s pp I) as RD. pose proof (drained_nothing_pending s I SA) as DR.
  pose proof (aG1 s SA) as G1. pose proof (aK s SA) as K. clear I SA. unfold pending, files_pending in DR.
  destruct s as [ctx canc wch wcl werr cerr ficl mn ret files wk cons pp].
  destruct a; unfold step in H; rewrite ?G, ?CF in H; pcs; break H.
  (* most steps leave what is owed or pending where it is, or move it one station on *)
  all: sgcbn HS; try exact HS; try bt HS.
  all: try match goal with HA : agg_in _ _ = _ |- _ =>
             apply agg_in_pending in HA; unfold ws_dirty in *; cbn [existsb] in HS; rewrite HA; bt HS end.
  (* the others drop something: *)
  all: try (rewrite (D0 eq_refl) in HS).               (* the worker is started: it held nothing *)
  all: try (destruct (G1 eq_refl) as (-> & _)).        (* main overwrites retErr in its loop: it was nil *)
  all: try (rewrite (K eq_refl)).                      (* a cancelled branch: retErr is set *)
  all: try (rewrite (NP eq_refl) in HS).               (* a pipe put in place: there was none *)
  all: try (destruct (RD _ eq_refl eq_refl) as (L & O); sred; subst).   (* the pipe discarded: it was empty *)
  (* Wounds closed and empty: nothing is pending, unless retErr is set *)
  all: try (destruct (DR eq_refl eq_refl) as [E | ->]; [cbn [existsb] in E; rewrite E in HS|]).
  all: repeat match goal with x : res |- _ => destruct x | x : msg |- _ => destruct x end.
  all: sgcbn HS; bt HS.
Qed.

Lemma safe_run : forall p acts s s', p_cons p = guardian -> p_closefail p = false -> Inv s -> SafeA s -> sgood s = true ->
  run p acts s = Some s' -> Inv s' /\ SafeA s' /\ sgood s' = true.
Proof.
  intros p acts s s' G CF I SA HS.
  apply (run_invariant (fun s => Inv s /\ SafeA s /\ sgood s = true) (fun _ => True)); [|auto|auto].
  intros a s0 s1 _ (I0 & SA0 & HS0) ST.
  exact (conj (inv_step _ _ _ _ CF I0 ST) (conj (safeA_step _ _ _ _ G I0 SA0 ST) (sgood_step _ _ _ _ G CF I0 SA0 HS0 ST))).
Qed.

(** what [sgood] is for: it cannot hold once main has returned nil *)
Lemma returned_nil_not_sgood : forall s, SafeA s -> s_main s = MRet -> s_ret s = RNil -> sgood s = false.
Proof.
  intros s SA M R. destruct (aF2 s SA M) as [E|(W & C & CS & _)]; [congruence|].
  unfold sgood, owed. rewrite R, W, C. destruct (s_cons s); try discriminate CS; cbn; apply andb_false_r.
Qed.

(** the unrepaired guardian (ctx.Done() => nil) with the context cancelled in the middle of the
    run: two files, damage in the second, ctx cancelled while the first is being validated (after
    the first of two damaged files was reported it would be too late: the guardian has failed) *)
Definition witness_mid : params :=
  mkparams 2 [] false [FData [FHealthy] FMNone []; FWhole] guardian_unfixed false false.
Definition witness_mid_sched : list action :=
  [ACons; AMain; AWk; AMainF; ACancel; AConsCtx; ACons; AMainC; AMain; AMain; AMain;
   AWA; AAR; ARel; ACons; AWk; AWk; AWk; AWk; AAgg; ARel; ARW; AWk; AWk; AWk; AMain; AMain; AMain].
