(** C06 proofs, part 6: a second invariant of the ATOMIC transition system of [Heal/Healer.v]
    (any variant of the code), needed by the reduction of the granular system
    ([Heal/GranularProofs.v]).  It is about the order of events only, not about the filesystem:

    - [i2_wd]: a DIR wound on its way to the healer names a directory in [woundedDirs];
    - [i2_todo], [i2_qtodo]: an entry that has a wound on its way, or is in the healer's set, is
      not among the entries the validator has yet to finish ([todo]), and [i2_nodup]: these
      are pairwise distinct;
    - [i2_early]: while the validator is in the first two passes every wound on its way is a
      DIR / SYMLINK wound; [i2_sorted]: in the channel the DIR / SYMLINK wounds all come before
      the FILE / CLOSED_FILE wounds;
    - [i2_idle]: as long as the validator is in the first two passes or a DIR / SYMLINK wound is
      on its way, no file has been queued and the heal worker is idle. *)
From Wharf Require Import Base.ListLemmas FS.Light FS.Tree FS.Ops
     Heal.Validator Heal.Healer Heal.HealLemmas Heal.Granular Heal.Repair Heal.HealProofs.

Definition is_dl (w : wound) : bool := match w with WDir _ | WLink _ _ => true | _ => false end.

Definition early (ph : vphase) : bool :=
  match ph with VInit | VDirs _ | VLinks _ => true | _ => false end.

Section Inv2.
Variable fx : fixes.
Variable cap : nat.
Variable b : build.
Variable T : path.

(** the entries the validator has not finished checking, the current one first *)
Definition todo (ph : vphase) : list path :=
  match ph with
  | VInit => all_paths b
  | VDirs r => r ++ map fst (b_links b) ++ map fst (b_files b)
  | VLinks r => map fst r ++ map fst (b_files b)
  | VFiles r => map fst r
  | _ => []
  end.

Definition busy (s : state) : Prop :=
  early (v_phase (s_v s)) = true \/ exists w, In w (pend s) /\ is_dl w = true.

Record Inv2 (s : state) : Prop := mkInv2 {
  i2_wd : forall d, In (WDir d) (pend s) -> In d (v_wd (s_v s));
  i2_todo : forall w p, In w (pend s) -> wpath w = Some p -> ~ In p (todo (v_phase (s_v s)));
  i2_qtodo : forall f, In f (s_queued s) -> ~ In f (todo (v_phase (s_v s)));
  i2_nodup : NoDup (todo (v_phase (s_v s)));
  i2_early : early (v_phase (s_v s)) = true -> forall w, In w (pend s) -> is_dl w = true;
  i2_sorted : forall P1 w P2, pend s = P1 ++ w :: P2 -> is_dl w = true ->
              forall w', In w' P1 -> is_dl w' = true;
  i2_idle : busy s -> s_queued s = [] /\ s_wq s = [] /\ s_w s = WIdle }.

Lemma inv2_same : forall s s',
  Inv2 s -> pend s' = pend s ->
  v_phase (s_v s') = v_phase (s_v s) -> v_wd (s_v s') = v_wd (s_v s) ->
  s_queued s' = s_queued s ->
  (s_wq s' = s_wq s /\ s_w s' = s_w s) \/ ~ busy s ->
  Inv2 s'.
Proof.
  intros s s' [A1 A2 A3 A4 A5 A6 A7] Ep Eph Ewd Eq Hw.
  constructor; unfold busy in *; rewrite ?Ep, ?Eph, ?Ewd, ?Eq; try assumption.
  intro Hb. destruct Hw as [[-> ->] | Hn]; [apply A7; exact Hb | contradiction].
Qed.

Lemma inv2_pop : forall s w ch t h q wq,
  Inv2 s -> s_chan s = w :: ch ->
  (q = s_queued s /\ wq = s_wq s) \/ (exists f data, w = WFile f data /\ q = f :: s_queued s) ->
  Inv2 (mkS t (s_v s) ch (s_closed s) h q wq (s_wq_closed s) (s_w s)).
Proof.
  intros s w ch t h q wq [A1 A2 A3 A4 A5 A6 A7] Hch Hq.
  set (s' := mkS t (s_v s) ch (s_closed s) h q wq (s_wq_closed s) (s_w s)).
  assert (Ep : pend s = w :: pend s') by (unfold pend; rewrite Hch; reflexivity).
  assert (Hsub : forall x, In x (pend s') -> In x (pend s)) by (intros x Hx; rewrite Ep; right; exact Hx).
  assert (Hbusy : busy s' -> busy s).
  { intros [Hb | [x [Hx Hd]]]; [left; exact Hb | right; exists x; split; [apply Hsub; exact Hx | exact Hd]]. }
  constructor; cbn [s' s_v s_queued s_wq s_w].
  - intros d Hd. apply A1, Hsub, Hd.
  - intros x p Hx. apply A2, Hsub, Hx.
  - destruct Hq as [[-> _] | [f [data [Ew ->]]]]; [exact A3|].
    intros f' [<- | Hin]; [|apply A3; exact Hin].
    apply (A2 w f); [rewrite Ep; left; reflexivity | subst w; reflexivity].
  - exact A4.
  - intros He x Hx. apply A5; [exact He | apply Hsub; exact Hx].
  - intros P1 x P2 E Hd x' Hx'. apply (A6 (w :: P1) x P2); [rewrite Ep, E; reflexivity | exact Hd | right; exact Hx'].
  - intro Hb. destruct Hq as [[-> ->] | [f [data [Ew _]]]]; [apply A7, Hbusy, Hb | exfalso].
    (* a FILE wound at the head: nothing before or behind it is a DIR / SYMLINK wound *)
    subst w. destruct Hb as [He | [x [Hx Hd]]].
    + specialize (A5 He (WFile f data)). rewrite Ep in A5. discriminate A5. left. reflexivity.
    + apply in_split in Hx as [P1 [P2 E]].
      specialize (A6 (WFile f data :: P1) x P2). rewrite Ep, E in A6.
      discriminate (A6 eq_refl Hd (WFile f data) (or_introl eq_refl)).
Qed.

(** the validator finishes the entries [l] and appends the wounds [ws] *)
Lemma inv2_check : forall s ph' ws wd' l,
  Inv2 s -> v_pend (s_v s) = [] ->
  (early ph' = true -> early (v_phase (s_v s)) = true) ->
  todo (v_phase (s_v s)) = l ++ todo ph' ->
  (forall w, In w ws -> is_dl w = early (v_phase (s_v s)) /\ forall p, wpath w = Some p -> In p l) ->
  incl (v_wd (s_v s)) wd' -> (forall d, In (WDir d) ws -> In d wd') ->
  Inv2 (set_v s (mkV ph' ws wd')).
Proof.
  intros s ph' ws wd' l [A1 A2 A3 A4 A5 A6 A7] Hp E1 Hl Hws W1 W2.
  rewrite Hl in A4. apply NoDup_app_iff in A4 as (_ & ND & Hd).
  assert (T1 : forall p, In p (todo ph') -> In p (todo (v_phase (s_v s))))
    by (intros p Hin; rewrite Hl; apply in_or_app; right; exact Hin).
  assert (EP : pend s = s_chan s) by (unfold pend; rewrite Hp, app_nil_r; reflexivity).
  assert (EP' : pend (set_v s (mkV ph' ws wd')) = pend s ++ ws) by (rewrite EP; reflexivity).
  constructor; rewrite ?EP'; cbn [set_v s_v v_phase v_wd s_queued s_wq s_w].
  - intros d Hd'. apply in_app_or in Hd' as [Hd' | Hd']; [apply W1, A1, Hd' | apply W2, Hd'].
  - intros w p Hw Hwp Hin. apply in_app_or in Hw as [Hw | Hw].
    + apply (A2 w p Hw Hwp), T1, Hin.
    + apply (Hd p); [apply (Hws w Hw), Hwp | exact Hin].
  - intros f Hf Hin. apply (A3 f Hf), T1, Hin.
  - exact ND.
  - intros He w Hw. apply E1 in He. apply in_app_or in Hw as [Hw | Hw]; [apply A5; assumption|].
    rewrite <- He. apply (Hws w Hw).
  - intros P1 w P2 E Hdl w' Hw'.
    destruct (split_app _ _ _ _ _ _ (eq_sym E)) as [[P2' E2'] | [W1' [W2' [E1' E2']]]].
    + eapply A6; eassumption.
    + assert (He : early (v_phase (s_v s)) = true).
      { rewrite <- Hdl. symmetry. apply (Hws w). rewrite E2'. apply in_or_app; right; left; reflexivity. }
      rewrite E1' in Hw'. apply in_app_or in Hw' as [Hw' | Hw'].
      * apply A5; assumption.
      * rewrite <- He. apply (Hws w'). rewrite E2'. apply in_or_app; left; exact Hw'.
  - intro Hb. apply A7. unfold busy in *. cbn [set_v s_v v_phase] in Hb. rewrite EP' in Hb.
    destruct Hb as [He | [w [Hw Hdl]]]; [left; apply E1, He|].
    apply in_app_or in Hw as [Hw | Hw]; [right; exists w; split; assumption|].
    left. rewrite <- Hdl. symmetry. apply (Hws w Hw).
Qed.

Lemma inv2_move : forall s ph' l, Inv2 s -> v_pend (s_v s) = [] ->
  (early ph' = true -> early (v_phase (s_v s)) = true) -> todo (v_phase (s_v s)) = l ++ todo ph' ->
  Inv2 (set_v s (mkV ph' [] (v_wd (s_v s)))).
Proof.
  intros s ph' l H2 Hp He Ht.
  apply inv2_check with (l := l); try assumption; [intros w [] | apply incl_refl | intros d []].
Qed.

Lemma inv2_fail : forall s e,
  Inv2 s -> v_pend (s_v s) = [] -> Inv2 (set_v s (mkV (VFail e) [] (v_wd (s_v s)))).
Proof.
  intros s e H2 Hp. apply inv2_move with (l := todo (v_phase (s_v s))); try assumption; [discriminate|].
  symmetry. apply app_nil_r.
Qed.

Lemma inv2_after_check : forall s next wd' v ws0,
  v_pend (s_v s) = [] ->
  (forall ws, v = Wounds ws -> ws = ws0 -> Inv2 (set_v s (mkV next ws wd'))) ->
  Inv2 s -> (exists e, v = Fail e) \/ v = Wounds ws0 -> Inv2 (after_check s next wd' v).
Proof.
  intros s next wd' v ws0 Hp Hw H2 [[e ->] | ->]; cbn [after_check].
  - apply inv2_fail; assumption.
  - apply Hw; reflexivity.
Qed.

(** the check of the entry [e] at the head of the list is decided *)
Lemma inv2_entry : forall s e next wd' v,
  Inv2 s -> v_pend (s_v s) = [] ->
  early next = early (v_phase (s_v s)) -> todo (v_phase (s_v s)) = e :: todo next ->
  (forall ws w, v = Wounds ws -> In w ws ->
     is_dl w = early next /\ (forall p, wpath w = Some p -> p = e) /\ (w = WDir e -> In e wd')) ->
  incl (v_wd (s_v s)) wd' ->
  Inv2 (after_check s next wd' v).
Proof.
  intros s e next wd' [ws | x] H2 Hp He Ht Hws Hwd; cbn [after_check]; [|apply inv2_fail; assumption].
  apply inv2_check with (l := [e]); try assumption.
  - rewrite He. auto.
  - intros w Hw. destruct (Hws ws w eq_refl Hw) as [Hd [Hp' _]]. rewrite <- He.
    split; [exact Hd | intros p X; left; symmetry; apply Hp', X].
  - intros d Hd. destruct (Hws ws _ eq_refl Hd) as [_ [Hp' Hin]].
    rewrite (Hp' d eq_refl) in *. apply Hin. reflexivity.
Qed.

Lemma check_entry_wounds : forall t wd w ws w', check_entry fx t T wd w = Wounds ws -> In w' ws ->
  w' = w \/ exists f data, w = WFile f data /\ w' = WClosed f.
Proof.
  intros t wd [d | l dest | f data | f] ws w' H Hw; cbn [check_entry] in H;
    [unfold check_dir in H | unfold check_link in H | unfold check_file in H | inversion H; subst ws; destruct Hw].
  - destruct (under_wd fx wd d); [|destruct (lstat t (T ++ d)) as [[| |]|e]; [| | |destruct (is_missing fx e)]];
      try discriminate; inversion H; subst ws; cbn in Hw; intuition congruence.
  - destruct (under_wd fx wd l);
      [|destruct (readlink t (T ++ l)) as [d|e]; [destruct (dest_eqb d dest) | destruct (is_missing fx e)];
        destruct (lstat t (T ++ l)) as [[| |]|]];
      try discriminate; inversion H; subst ws; cbn in Hw; intuition congruence.
  - destruct (under_wd fx wd f);
      [|destruct (read_file t (T ++ f)) as [d|e]; [destruct (nlist_eqb d data)|];
        destruct (lstat t (T ++ f)) as [[| |]|]];
      inversion H; subst ws; cbn in Hw; intuition (subst; eauto).
Qed.

Lemma next_entry_todo : forall ph w ph', next_entry ph = Some (w, ph') ->
  exists e, wpath w = Some e /\ todo ph = e :: todo ph' /\ early ph = is_dl w /\ early ph' = is_dl w /\ ph' <> VInit.
Proof.
  intros [|[|d r]|[|[l dest] r]|[|[f data] r]| | |x] w ph' H; inversion H; eexists; repeat split; discriminate.
Qed.

Lemma next_pass_todo : forall ph ph', next_pass b ph = Some ph' ->
  todo ph = todo ph' /\ (early ph' = true -> early ph = true) /\ ph' <> VInit.
Proof.
  intros [|[|]|[|[]]|[|[]]| | |] ph' H; inversion H; repeat split; auto; discriminate.
Qed.

Lemma vstep_inv2 : forall s s', INV b T s -> Inv2 s -> vstep fx cap b T s = Some s' -> Inv2 s'.
Proof.
  intros s s' HI H2 Hs.
  destruct (vstep_cases _ _ _ _ _ _ Hs) as [w ws Hp | w ph' Hp Hn | ph' Hp Hn | Hp E | Hp E].
  - apply (inv2_same s); try reflexivity; [exact H2 | | left; split; reflexivity].
    unfold pend. cbn. rewrite Hp, <- app_assoc. reflexivity.
  - destruct (next_entry_todo _ _ _ Hn) as (e & Hw & Ht & He & He' & _).
    apply inv2_entry with (e := e); try assumption; [congruence | | apply taint_incl].
    intros ws w' E Hw'. rewrite He'.
    destruct (check_entry_wounds _ _ _ _ _ E Hw') as [-> | (f & data & -> & ->)];
      (split; [reflexivity | split; [intros p X; cbn in X; congruence|]]); [|discriminate].
    intros ->. rewrite E. apply taint_hit. intros ->. destruct Hw'.
  - destruct (next_pass_todo _ _ Hn) as (Ht & He & _). apply inv2_move with (l := []); assumption.
  - (* MkdirAll(target) *)
    assert (Hwd : v_wd (s_v s) = []).
    { destruct HI as [H0 | HI]; [destruct H0 as [_ [-> _]]; reflexivity | destruct (inv_phase b T s HI E)]. }
    destruct (mkdir_all (s_fs s) T).
    + apply (inv2_same (set_v s (mkV (VDirs (b_dirs b)) [] []))); try reflexivity; [|left; split; reflexivity].
      rewrite <- Hwd. apply inv2_move with (l := []); try assumption; rewrite E; reflexivity.
    + rewrite <- Hwd. apply inv2_fail; assumption.
  - (* close(vctx.Wounds) *)
    apply (inv2_same (set_v s (mkV VDone [] (v_wd (s_v s))))); try reflexivity; [|left; split; reflexivity].
    apply inv2_move with (l := []); try assumption; [discriminate | rewrite E; reflexivity].
Qed.

Lemma hstep_inv2 : forall s s', Inv2 s -> hstep T s = Some s' -> Inv2 s'.
Proof.
  intros s s' H2 Hs.
  destruct (hstep_cases T s s' Hs) as [w ch Hh Hch Hw | w ch Hh Hch Hw | f data ch Hh Hch Hw | f data ch e Hh Hch Hw | Hh Hch Hcl | r Hh Hw].
  - destruct (complete_h T (hstart w) (s_fs s)); apply (inv2_pop s w ch); auto.
  - apply (inv2_pop s w ch); auto.
  - apply (inv2_pop s (WFile f data) ch); eauto.
  - apply (inv2_pop s (WFile f data) ch); auto.
  - apply (inv2_same s); try reflexivity; [exact H2 | | left; split; reflexivity].
    unfold pend. cbn. rewrite Hch. reflexivity.
  - apply (inv2_same s); try reflexivity; [exact H2 | left; split; reflexivity].
Qed.

Lemma wstep_inv2 : forall s s', INV b T s -> Inv2 s -> wstep T s = Some s' -> Inv2 s'.
Proof.
  intros s s' HI H2 Hs. unfold wstep in Hs.
  assert (Hnb : ~ busy s).
  { intro Hb. destruct (i2_idle s H2 Hb) as [_ [Hwq Hw]]. rewrite Hw, Hwq in Hs.
    destruct (s_wq_closed s) eqn:Hwc; [|discriminate].
    (* the queue is closed: the validator is done and nothing is on its way *)
    destruct HI as [H0 | HI]; [destruct H0 as [_ [_ [_ [_ [_ [_ [_ [X _]]]]]]]]; congruence|].
    destruct (i_ctl _ _ _ HI) as [[C1 _] [C3 [C4 _]]].
    assert (Hcl : s_closed s = true /\ s_chan s = []).
    { destruct (s_h s); [congruence | destruct C4 as [X [Y _]]; auto | destruct C4 as [_ [X [Y _]]]; auto]. }
    destruct Hcl as [Hcl Hch]. pose proof (C1 Hcl) as Hph. pose proof (C3 Hph) as Hp.
    destruct Hb as [Hb | [w [Hin _]]]; [rewrite Hph in Hb; discriminate|].
    unfold pend in Hin. rewrite Hch, Hp in Hin. destruct Hin. }
  destruct (s_w s);
    [destruct (s_wq s) as [|[f data] wq]; [destruct (s_wq_closed s) | destruct (get_writer T (s_fs s) f) as [[t' q]|e]] | |];
    inversion Hs; subst s'; (apply (inv2_same s); try reflexivity; [exact H2 | right; exact Hnb]).
Qed.

Lemma step_inv2 : forall s i s', INV b T s -> Inv2 s -> step fx cap b T s i = Some s' -> Inv2 s'.
Proof.
  intros s [] s' HI H2 Hs; cbn in Hs; [eapply vstep_inv2 | eapply hstep_inv2 | eapply wstep_inv2]; eassumption.
Qed.

Hypothesis wf : wf_build b = true.

Lemma init_inv2 : forall t0, Inv2 (init b t0).
Proof.
  intro t0. constructor; unfold pend, busy; cbn; try (intros; contradiction); auto.
  - apply (wf_nodup b wf).
  - intros P1 w P2 E. destruct P1; discriminate.
Qed.

End Inv2.
