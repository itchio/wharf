(** Proofs about Heal/Protocol.v on [owed] / [pending] of Heal/ProtocolSafety.v: no false alarm
    without interruption.  On a clean directory validated fail-fast, with a context that is never
    cancelled and a worker whose pool opens and closes, no error and no wound ever comes into
    being, whatever the schedule. *)
From Coq Require Import List Arith Bool Lia.
Import ListNotations.
From Wharf Require Import Heal.Protocol Heal.ProtocolProofs Heal.ProtocolSafety.

(** nothing bad anywhere: ctx not cancelled, no error recorded or in flight, nothing left to report *)
Definition calm (s : state) : bool := negb (s_ctx s || owed s || pending s).

(** without a cancellation or a failing pool nothing creates an error or a wound out of nothing:
    every step only moves what [owed] and [pending] count *)
Lemma calm_step : forall p a s s', p_cons p = guardian -> p_startfail p = false -> a <> ACancel ->
  calm s = true -> step p a s = Some s' -> calm s' = true.
Proof.
  intros p a s s' G SF NA HS H.
  destruct s as [ctx canc wch wcl werr cerr ficl mn ret files wk cons pp].
  destruct a; try congruence; unfold step in H; rewrite ?G, ?SF in H; pcs; break H.
  all: unfold calm in HS |- *; sgcbn HS; try exact HS; try bt HS.
  all: try match goal with HA : agg_in _ _ = _ |- _ =>
             apply agg_in_pending in HA; unfold ws_dirty in *; cbn [existsb] in HS; rewrite HA; bt HS end.
  all: repeat match goal with x : res |- _ => destruct x | x : msg |- _ => destruct x end.
  all: pcs; sgcbn HS; bt HS || congruence.
Qed.

Lemma calm_init : forall p, p_ctx0 p = false -> clean p = true -> calm (init p) = true.
Proof. intros p C0 CL. unfold calm. rewrite pending_init, CL. cbn. rewrite C0. reflexivity. Qed.

Lemma calm_run : forall p, p_cons p = guardian -> p_startfail p = false ->
  forall acts s0 s1, ~ In ACancel acts -> calm s0 = true -> run p acts s0 = Some s1 -> calm s1 = true.
Proof.
  intros p G SF acts s0 s1 NC. apply (run_invariant (fun s => calm s = true) (fun a => a <> ACancel)).
  - intros a s s' NA. exact (calm_step p a s s' G SF NA).
  - intros a Hin ->. exact (NC Hin).
Qed.
