(** C06: concrete witnesses (evaluated by vm_compute).  The two defects of the code before
    the repairs, as executions of the model with the corresponding [fixes] switched off, and
    the same inputs healed by the repaired code. *)
From Wharf Require Import FS.Light FS.Tree FS.Ops Heal.Validator Heal.Healer.

Local Open Scope N_scope.

(** signed build: directory 1 with the nested directory 1/2 and the file 1/2/3, and the symlink
    4 -> 1 (the entry the validator is inside of in [gw_prefix], Heal/GranularWitness.v) *)
Definition w_build : build := mkBuild [[1]; [1; 2]] [([4], [Nm 1])] [([1; 2; 3], [7; 7])].
Definition w_target : path := [9].

(** damage (i): directory 1 replaced by a regular file *)
Definition w_tree_file : tree := [([9], Dir); ([9; 1], File [0])].

(** damage (ii): directory 1 replaced by a symlink to a directory with equal children *)
Definition w_tree_link : tree :=
  [([9], Dir); ([9; 1], Link [Nm 5]); ([9; 5], Dir); ([9; 5; 2], Dir); ([9; 5; 2; 3], File [7; 7]); ([9; 4], Link [Nm 1])].

Definition lazy_healer : list tid := [TV; TH; TW].   (* the healer runs when the validator cannot *)

Definition w_run (fx : fixes) (t0 : tree) : state :=
  finish fx 1024 w_build w_target 100 lazy_healer (init w_build t0).

Lemma enotdir_before_fix :
  wf_build w_build = true /\ init_ok w_target w_tree_file = true /\
  terminal (w_run unfixed w_tree_file) = true /\
  result (w_run unfixed w_tree_file) = Some (Err ENOTDIR).
Proof. vm_compute. repeat split; reflexivity. Qed.

Lemma hidden_subtree_before_fix :
  wf_build w_build = true /\ init_ok w_target w_tree_link = true /\
  let s := w_run (mkFixes true false) w_tree_link in
  terminal s = true /\ result s = Some (Ok tt) /\
  restoredb w_build w_target (s_fs s) = false /\
  lstat (s_fs s) (w_target ++ [1; 2]) = Err ENOENT /\
  lstat (s_fs s) (w_target ++ [1; 2; 3]) = Err ENOENT.
Proof. vm_compute. repeat split; reflexivity. Qed.

Lemma witnesses_healed_after_fix :
  (let s := w_run fixed w_tree_file in
   terminal s = true /\ result s = Some (Ok tt) /\ restoredb w_build w_target (s_fs s) = true) /\
  (let s := w_run fixed w_tree_link in
   terminal s = true /\ result s = Some (Ok tt) /\ restoredb w_build w_target (s_fs s) = true) /\
  (let s := w_run fixed [] in     (* target missing *)
   terminal s = true /\ result s = Some (Ok tt) /\ restoredb w_build w_target (s_fs s) = true).
Proof. vm_compute. repeat split; reflexivity. Qed.
