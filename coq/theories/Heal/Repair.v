(** C06 proofs, part 2: the repair of one entry.  [processWound] for a DIR / SYMLINK wound and
    [GetWriter] for a file are sequences of filesystem operations ([Granular.hop], [wop]); run to
    the end they are [heal_dir] / [heal_link] / [get_writer] ([complete_h], [complete_w] at the
    first operation, by computation).  On an entry whose ancestors are real directories every
    operation succeeds, changes the tree only where the entry's repair may ([touch]) and the
    last one leaves the entry as signed: said once per operation ([hop_spec], [wop_spec]), and
    by induction on the operations left for the rest of a call from any point
    ([complete_h_spec], [complete_w_spec]).  The atomic system uses these at the first
    operation, the granular system at every one.

    [hstep_case]: what a step of the healer is. *)
From Coq Require Import Arith Lia.
From Wharf Require Import FS.Light FS.Tree FS.TreeProofs FS.Ops FS.OpsProofs
     Heal.Validator Heal.Healer Heal.HealLemmas Heal.Granular.

Section Repair.
Variable T : path.

Lemma complete_h_hop : forall pc t,
  complete_h T pc t = match hop T pc t with Ok (t', pc') => complete_h T pc' t' | Err e => Err e end.
Proof.
  intros pc t. destruct pc as [|d|d|d|l dest|l dest|l dest|l dest|l dest]; cbn [hop complete_h]; unfold heal_dir, heal_link;
    [ reflexivity
    | destruct (lstat t (T ++ d)) as [[| |]|]
    | destruct (remove t (T ++ d))
    | destruct (mkdir_all t (T ++ d))
    | destruct (mkdir_all t (parent (T ++ l)))
    | destruct (lstat t (T ++ l)) as [[| |]|]
    | destruct (remove_all t (T ++ l))
    | destruct (remove t (T ++ l))
    | destruct (symlink t dest (T ++ l)) ]; reflexivity.
Qed.

Lemma complete_w_wop : forall pc t,
  complete_w T pc t = match wop T pc t with
                      | Ok (t', inl pc') => complete_w T pc' t'
                      | Ok (t', inr q) => Ok (t', q)
                      | Err e => Err e
                      end.
Proof.
  intros pc t. destruct pc as [|f data|f data|f data|f data|f data]; cbn [wop complete_w]; unfold get_writer;
    [ reflexivity
    | destruct (mkdir_all t (parent (T ++ f)))
    | destruct (lstat t (T ++ f)) as [[| |]|]
    | destruct (remove_all t (T ++ f))
    | destruct (remove t (T ++ f))
    | destruct (open_trunc t (T ++ f)) as [[? ?]|] ]; reflexivity.
Qed.

Definition hstart (w : wound) : hpc :=
  match w with WDir d => HPDirLstat d | WLink l dest => HPLinkMkdir l dest | _ => HP0 end.

(** the wound being processed, and what the healer knows about the entry from its previous
    operation ([GranularProofs.hwound], [hfact] are these) *)
Definition hcall (pc : hpc) : option wound :=
  match pc with
  | HP0 => None
  | HPDirLstat d | HPDirRemove d | HPDirMkdir d => Some (WDir d)
  | HPLinkMkdir l dest | HPLinkLstat l dest | HPLinkRemoveAll l dest | HPLinkRemove l dest
  | HPLinkSymlink l dest => Some (WLink l dest)
  end.

Definition hknows (pc : hpc) (t : tree) : Prop :=
  match pc with
  | HPDirRemove d | HPLinkRemove d _ => exists n, lookup t (T ++ d) = Some n /\ n <> Dir
  | HPDirMkdir d | HPLinkSymlink d _ => node_at t (T ++ d) = None
  | _ => True
  end.

Lemma mkdir_all_parent : forall t p, lit t p -> p <> [] -> mkdir_all t (parent p) = Ok t.
Proof.
  intros t p Hl Hp. destruct p as [|x p'] using rev_ind; [congruence|]. clear IHp'.
  unfold parent. rewrite removelast_last. apply mkdir_all_dir.
  - eapply lit_prefix. exact Hl.
  - eapply lit_parent_dir; [|exact Hl]. discriminate.
Qed.

Lemma hop_spec : forall pc t w,
  hcall pc = Some w -> wp w <> [] -> lit t (T ++ wp w) -> hknows pc t ->
  match hop T pc t with
  | Ok (t', pc') => framed (touch T w) t t' /\ hrank pc' < hrank pc /\
                    ((pc' = HP0 /\ good T t' w) \/ (hcall pc' = Some w /\ hknows pc' t'))
  | Err _ => False
  end.
Proof.
  intros pc t w Hw Hne Hl Hf.
  assert (Hq : T ++ wp w <> []) by (apply app_nonempty; exact Hne).
  pose proof (lstat_lit t _ Hl) as Hlstat.
  destruct pc as [|d|d|d|l dest|l dest|l dest|l dest|l dest]; cbn in Hw; inversion Hw; subst w;
    cbn [wp] in *; cbn [hop hknows touch good] in *.
  - rewrite Hlstat. destruct (node_at t (T ++ d)) as [[data| |dest]|] eqn:E;
      (split; [apply framed_refl | split; [cbn; lia|]]).
    + right. split; [reflexivity | eapply not_dir; [exact Hq | exact E | discriminate]].
    + left. split; [reflexivity | exact E].
    + right. split; [reflexivity | eapply not_dir; [exact Hq | exact E | discriminate]].
    + right. split; [reflexivity | exact E].
  - rewrite remove_lit by assumption.
    split; [apply frame1_del, Hq | split; [cbn; lia | right; split; [reflexivity | apply node_at_del_same, Hq]]].
  - rewrite mkdir_all_new by assumption.
    split; [apply frame1_set, Hq | split; [cbn; lia | left; split; [reflexivity | apply node_at_set_same, Hq]]].
  - rewrite mkdir_all_parent by assumption. split; [apply framed_refl | split; [cbn; lia | right; split; [reflexivity | exact I]]].
  - rewrite Hlstat. destruct (node_at t (T ++ l)) as [[data| |dest']|] eqn:E;
      (split; [apply framed_refl | split; [cbn; lia | right; split; [reflexivity|]]]).
    + eapply not_dir; [exact Hq | exact E | discriminate].
    + exact I.
    + eapply not_dir; [exact Hq | exact E | discriminate].
    + exact E.
  - rewrite remove_all_lit by assumption.
    split; [apply frame_del_tree, Hq | split; [cbn; lia | right; split; [reflexivity | apply node_at_del_tree_same, Hq]]].
  - rewrite remove_lit by assumption.
    split; [apply frame_del, Hq | split; [cbn; lia | right; split; [reflexivity | apply node_at_del_same, Hq]]].
  - rewrite symlink_lit by assumption.
    split; [apply frame_set, Hq | split; [cbn; lia | left; split; [reflexivity | apply node_at_set_same, Hq]]].
Qed.

Lemma complete_h_spec : forall pc t w,
  hcall pc = Some w -> wp w <> [] -> lit t (T ++ wp w) -> hknows pc t ->
  exists A, complete_h T pc t = Ok A /\ framed (touch T w) t A /\ good T A w.
Proof.
  intros pc t w Hw Hne. remember (hrank pc) as n eqn:En. revert pc t En Hw.
  induction n as [n IH] using lt_wf_ind; intros pc t -> Hw Hl Hf.
  pose proof (hop_spec pc t w Hw Hne Hl Hf) as H. rewrite complete_h_hop.
  destruct (hop T pc t) as [[t' pc']|]; [|contradiction]. destruct H as [Hfr [Hr [[-> G] | [Hw' Hf']]]].
  - exists t'. split; [reflexivity | split; [exact Hfr | exact G]].
  - destruct (IH _ Hr pc' t' eq_refl Hw') as [A [HA [HfA G]]];
      [eapply lit_frame; [apply touch_frame|]; eassumption | exact Hf'|].
    exists A. split; [exact HA | split; [eapply framed_trans; eassumption | exact G]].
Qed.

(** the file being opened, and what the worker knows from its previous operation
    ([GranularProofs.wfile], [wfact] are these) *)
Definition wcall (pc : wpc) : option (path * list N) :=
  match pc with
  | WP0 => None
  | WPMkdir f d | WPLstat f d | WPRemoveAll f d | WPRemove f d | WPOpen f d => Some (f, d)
  end.

Definition wknows (pc : wpc) (t : tree) : Prop :=
  match pc with
  | WPRemove f _ => exists n, lookup t (T ++ f) = Some n /\ n <> Dir
  | WPOpen f _ => node_at t (T ++ f) = None \/ exists d, node_at t (T ++ f) = Some (File d)
  | _ => True
  end.

Lemma wop_spec : forall pc t f data,
  wcall pc = Some (f, data) -> f <> [] -> lit t (T ++ f) -> wknows pc t ->
  match wop T pc t with
  | Ok (t', inl pc') => frame (T ++ f) t t' /\ wrank pc' < wrank pc /\ wcall pc' = Some (f, data) /\ wknows pc' t'
  | Ok (t', inr q) => frame (T ++ f) t t' /\ q = T ++ f /\ node_at t' q = Some (File [])
  | Err _ => False
  end.
Proof.
  intros pc t f data Hw Hne Hl Hf.
  assert (Hq : T ++ f <> []) by (apply app_nonempty; exact Hne).
  destruct pc as [|f' d'|f' d'|f' d'|f' d'|f' d']; cbn in Hw; inversion Hw; subst f' d'; cbn [wop wknows] in *.
  - rewrite mkdir_all_parent by assumption. split; [apply framed_refl | split; [cbn; lia | split; [reflexivity | exact I]]].
  - rewrite (lstat_lit t _ Hl). destruct (node_at t (T ++ f)) as [[d0| |dest]|] eqn:E;
      (split; [apply framed_refl | split; [cbn; lia | split; [reflexivity|]]]).
    + right. exists d0. exact E.
    + exact I.
    + eapply not_dir; [exact Hq | exact E | discriminate].
    + left. exact E.
  - rewrite remove_all_lit by assumption.
    split; [apply frame_del_tree, Hq | split; [cbn; lia | split; [reflexivity | left; apply node_at_del_tree_same, Hq]]].
  - rewrite remove_lit by assumption.
    split; [apply frame_del, Hq | split; [cbn; lia | split; [reflexivity | left; apply node_at_del_same, Hq]]].
  - rewrite open_trunc_lit by assumption.
    split; [apply frame_set, Hq | split; [reflexivity | apply node_at_set_same, Hq]].
Qed.

Lemma complete_w_spec : forall pc t f data,
  wcall pc = Some (f, data) -> f <> [] -> lit t (T ++ f) -> wknows pc t ->
  exists A, complete_w T pc t = Ok (A, T ++ f) /\ frame (T ++ f) t A /\ node_at A (T ++ f) = Some (File []).
Proof.
  intros pc t f data Hw Hne. remember (wrank pc) as n eqn:En. revert pc t En Hw.
  induction n as [n IH] using lt_wf_ind; intros pc t -> Hw Hl Hf.
  pose proof (wop_spec pc t f data Hw Hne Hl Hf) as H. rewrite complete_w_wop.
  destruct (wop T pc t) as [[t' [pc'|q]]|]; [| |contradiction].
  - destruct H as [Hfr [Hr [Hw' Hf']]].
    destruct (IH _ Hr pc' t' eq_refl Hw') as [A [HA [HfA G]]]; [eapply lit_frame; eassumption | exact Hf'|].
    exists A. split; [exact HA | split; [eapply framed_trans; eassumption | exact G]].
  - destruct H as [Hfr [-> G]]. exists t'. split; [reflexivity | split; [exact Hfr | exact G]].
Qed.

(** at the first operation: what the three functions of [Heal/Healer.v] do *)
Lemma heal_dir_spec : forall t d, base_ok T t -> anc_ok T t d -> d <> [] ->
  exists t', heal_dir T t d = Ok t' /\ frame1 (T ++ d) t t' /\ gdir T t' d.
Proof. intros t d Hb Ha Hne. exact (complete_h_spec (HPDirLstat d) t (WDir d) eq_refl Hne (anc_lit T t d Hb Ha) I). Qed.

Lemma heal_link_spec : forall t l dest, base_ok T t -> anc_ok T t l -> l <> [] ->
  exists t', heal_link T t l dest = Ok t' /\ frame (T ++ l) t t' /\ glink T t' l dest.
Proof. intros t l dest Hb Ha Hne. exact (complete_h_spec (HPLinkMkdir l dest) t (WLink l dest) eq_refl Hne (anc_lit T t l Hb Ha) I). Qed.

Lemma get_writer_spec : forall t f, base_ok T t -> anc_ok T t f -> f <> [] ->
  exists t', get_writer T t f = Ok (t', T ++ f) /\ frame (T ++ f) t t' /\ node_at t' (T ++ f) = Some (File []).
Proof. intros t f Hb Ha Hne. exact (complete_w_spec (WPMkdir f []) t f [] eq_refl Hne (anc_lit T t f Hb Ha) I). Qed.

(** what a step of the healer is: the repair of a DIR / SYMLINK wound; a wound it only drops
    (CLOSED_FILE, or a file already in its set); a file sent to the worker, or the worker's
    error returned instead; close(fileIndices); <-errs *)
Inductive hstep_case (s : state) : state -> Prop :=
| HsRepair : forall w ch, s_h s = HRun -> s_chan s = w :: ch -> hcall (hstart w) = Some w ->
    hstep_case s match complete_h T (hstart w) (s_fs s) with
                 | Ok t' => set_fs_chan_h s t' ch HRun
                 | Err e => set_fs_chan_h s (s_fs s) ch (HDone (Err e))
                 end
| HsDrop : forall w ch, s_h s = HRun -> s_chan s = w :: ch ->
    match w with WFile f _ => In f (s_queued s) | WClosed _ => True | _ => False end ->
    hstep_case s (set_fs_chan_h s (s_fs s) ch HRun)
| HsEnq : forall f data ch, s_h s = HRun -> s_chan s = WFile f data :: ch ->
    (forall e, s_w s <> WExit (Err e)) ->
    hstep_case s (mkS (s_fs s) (s_v s) ch (s_closed s) HRun (f :: s_queued s)
                      (s_wq s ++ [(f, data)]) (s_wq_closed s) (s_w s))
| HsWorkerErr : forall f data ch e, s_h s = HRun -> s_chan s = WFile f data :: ch -> s_w s = WExit (Err e) ->
    hstep_case s (set_fs_chan_h s (s_fs s) ch (HDone (Err e)))
| HsCloseQ : s_h s = HRun -> s_chan s = [] -> s_closed s = true ->
    hstep_case s (mkS (s_fs s) (s_v s) [] (s_closed s) HWait (s_queued s) (s_wq s) true (s_w s))
| HsJoin : forall r, s_h s = HWait -> s_w s = WExit r ->
    hstep_case s (set_fs_chan_h s (s_fs s) (s_chan s) (HDone r)).

Lemma hstep_cases : forall s s', hstep T s = Some s' -> hstep_case s s'.
Proof.
  intros s s' Hs. unfold hstep in Hs. destruct (s_h s) eqn:Hh; [| |discriminate].
  - destruct (s_chan s) as [|w ch] eqn:Hch.
    + pose proof (HsCloseQ s Hh Hch) as H. destruct (s_closed s); inversion Hs. apply H. reflexivity.
    + destruct w as [d | l dest | f data | f].
      * pose proof (HsRepair s (WDir d) ch Hh Hch eq_refl) as H. cbn [hstart complete_h] in H.
        destruct (heal_dir T (s_fs s) d); inversion Hs; subst s'; exact H.
      * pose proof (HsRepair s (WLink l dest) ch Hh Hch eq_refl) as H. cbn [hstart complete_h] in H.
        destruct (heal_link T (s_fs s) l dest); inversion Hs; subst s'; exact H.
      * destruct (existsb (path_eqb f) (s_queued s)) eqn:Hq.
        { inversion Hs. apply (HsDrop s (WFile f data) ch Hh Hch). apply existsb_path_In, Hq. }
        pose proof (HsEnq s f data ch Hh Hch) as HE. pose proof (HsWorkerErr s f data ch) as HW.
        destruct (s_w s) as [| |[u|e]]; inversion Hs; [| | | exact (HW e Hh Hch eq_refl)];
          apply HE; discriminate.
      * inversion Hs. apply (HsDrop s (WClosed f) ch Hh Hch I).
  - destruct (s_w s) as [| |r] eqn:Ew; inversion Hs. apply HsJoin; assumption.
Qed.

End Repair.
