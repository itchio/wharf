(** C06 proofs, part 3: the invariant of the validator / healer / heal-worker transition
    system for the repaired code ([fixed]), its preservation by every step of every thread,
    what it gives in a terminal state, and progress (no deadlock).  What the healer's
    [processWound] and the worker's [GetWriter] do to the tree comes from [Heal/Repair.v], which
    states it per filesystem operation of [Heal/Granular.v]; hence the two imports. *)
From Coq Require Import Arith Lia.
From Wharf Require Import FS.Light FS.Tree FS.TreeProofs FS.Ops FS.OpsProofs
     Heal.Validator Heal.Healer Heal.HealLemmas Heal.Granular Heal.Repair.

Section Proofs.
Variable cap : nat.
Hypothesis cap_pos : 0 < cap.
Variable b : build.
Hypothesis wf : wf_build b = true.
Variable T : path.

Local Notation gdir := (gdir T).
Local Notation glink := (glink T).
Local Notation gfile := (gfile T).
Local Notation good := (good T).
Local Notation base_ok := (base_ok T).
Local Notation anc_ok := (anc_ok T).
Local Notation vstep := (vstep fixed cap b T).
Local Notation hstep := (hstep T).
Local Notation wstep := (wstep T).
Local Notation step := (step fixed cap b T).

Definition wpath (w : wound) : option path :=
  match w with WDir p => Some p | WLink p _ => Some p | WFile p _ => Some p | WClosed _ => None end.

Definition wound_ok (w : wound) : Prop :=
  match w with
  | WDir d => In d (b_dirs b)
  | WLink l dest => In (l, dest) (b_links b)
  | WFile f data => In (f, data) (b_files b)
  | WClosed _ => True
  end.

(** wounds not yet processed by the healer, oldest first *)
Definition pend (s : state) : list wound := s_chan s ++ v_pend (s_v s).

(** when the healer gets to a wound, the directories above its entry have been dealt with *)
Definition ordered (t : tree) (P : list wound) : Prop :=
  forall P1 w P2 p, P = P1 ++ w :: P2 -> wpath w = Some p ->
  forall a, In a (prefixes p) -> a <> [] -> gdir t a \/ In (WDir a) P1.

Definition progress (ph : vphase) (dd : list path) (dl : list (path * list comp)) (df : list (path * list N)) : Prop :=
  match ph with
  | VInit | VFail _ => False
  | VDirs rest => b_dirs b = dd ++ rest /\ dl = [] /\ df = []
  | VLinks rest => dd = b_dirs b /\ b_links b = dl ++ rest /\ df = []
  | VFiles rest => dd = b_dirs b /\ dl = b_links b /\ b_files b = df ++ rest
  | VClose | VDone => dd = b_dirs b /\ dl = b_links b /\ df = b_files b
  end.

Definition fstatus (s : state) (f : path) (data : list N) : Prop :=
  In (f, data) (s_wq s) \/
  (s_w s = WWriting (T ++ f) data /\ exists d0, node_at (s_fs s) (T ++ f) = Some (File d0)) \/
  gfile (s_fs s) f data.

Definition control (s : state) : Prop :=
  (s_closed s = true <-> v_phase (s_v s) = VDone) /\
  (v_phase (s_v s) = VDone -> v_pend (s_v s) = []) /\
  match s_h s with
  | HRun => s_wq_closed s = false
  | HWait => s_closed s = true /\ s_chan s = [] /\ s_wq_closed s = true
  | HDone r => r = Ok tt /\ s_closed s = true /\ s_chan s = [] /\ s_wq_closed s = true /\ s_w s = WExit (Ok tt)
  end /\
  match s_w s with
  | WExit r => r = Ok tt /\ s_wq s = [] /\ s_wq_closed s = true
  | _ => True
  end.

(** every entry already checked is as signed, or its wound is still on its way to the healer,
    or (files) it is in the healer's set *)
Definition claims (t : tree) (wd : list path) (P : list wound) (Q : list path)
           (dd : list path) (dl : list (path * list comp)) (df : list (path * list N)) : Prop :=
  (forall d, In d dd -> gdir t d \/ (In d wd /\ In (WDir d) P)) /\
  (forall l dest, In (l, dest) dl -> glink t l dest \/ In (WLink l dest) P) /\
  (forall f data, In (f, data) df -> gfile t f data \/ In (WFile f data) P \/ In f Q).

Record Inv (s : state) : Prop := mkInv {
  i_prog : exists dd dl df,
      progress (v_phase (s_v s)) dd dl df /\
      claims (s_fs s) (v_wd (s_v s)) (pend s) (s_queued s) dd dl df /\
      (forall d, In d (v_wd (s_v s)) -> In d dd);
  i_base : base_ok (s_fs s);
  i_wok : forall w, In w (pend s) -> wound_ok w;
  i_ord : ordered (s_fs s) (pend s);
  i_queued : forall f, In f (s_queued s) -> exists data, In (f, data) (b_files b) /\ fstatus s f data;
  i_wq : forall f data, In (f, data) (s_wq s) -> In (f, data) (b_files b) /\ anc_ok (s_fs s) f /\ In f (s_queued s);
  i_writing : forall q data, s_w s = WWriting q data ->
      exists f, q = T ++ f /\ In (f, data) (b_files b) /\ In f (s_queued s) /\
                exists d0, node_at (s_fs s) q = Some (File d0);
  i_ctl : control s }.

(** before [os.MkdirAll(target)] *)
Definition Inv0 (s : state) : Prop :=
  init_ok T (s_fs s) = true /\ s_v s = mkV VInit [] [] /\ s_chan s = [] /\ s_closed s = false /\
  s_h s = HRun /\ s_queued s = [] /\ s_wq s = [] /\ s_wq_closed s = false /\ s_w s = WIdle.

Definition INV (s : state) : Prop := Inv0 s \/ Inv s.

Lemma pend_nil : forall s, v_pend (s_v s) = [] -> pend s = s_chan s.
Proof. intros s H. unfold pend. rewrite H. apply app_nil_r. Qed.

Lemma wound_ok_path : forall w p, wound_ok w -> wpath w = Some p -> In p (all_paths b).
Proof.
  intros [d | l dest | f data | f] p Hok E; inversion E; subst;
    [apply in_all_dir | eapply in_all_link | eapply in_all_file]; exact Hok.
Qed.

Lemma wpath_wp : forall w p, wpath w = Some p -> wp w = p.
Proof. intros w p E. destruct w; inversion E; reflexivity. Qed.

Lemma dir_not_link : forall d dest, In d (b_dirs b) -> ~ In (d, dest) (b_links b).
Proof. intros d dest Hd Hl. eapply (wf_lf_not_dir b wf); [eapply in_lf_link; exact Hl | exact Hd]. Qed.

Lemma dir_not_file : forall d data, In d (b_dirs b) -> ~ In (d, data) (b_files b).
Proof. intros d data Hd Hl. eapply (wf_lf_not_dir b wf); [eapply in_lf_file; exact Hl | exact Hd]. Qed.

Lemma wound_ok_inj : forall w w' p, wound_ok w -> wound_ok w' -> wpath w = Some p -> wpath w' = Some p -> w = w'.
Proof.
  intros [d | l dest | f data | f] [d' | l' dest' | f' data' | f'] p H H' E E';
    inversion E; inversion E'; subst; cbn in H, H'.
  - reflexivity.
  - destruct (dir_not_link _ _ H H').
  - destruct (dir_not_file _ _ H H').
  - destruct (dir_not_link _ _ H' H).
  - f_equal. exact (links_functional b wf _ _ _ H H').
  - destruct (link_not_file b wf _ _ _ _ H H' eq_refl).
  - destruct (dir_not_file _ _ H' H).
  - destruct (link_not_file b wf _ _ _ _ H' H eq_refl).
  - f_equal. exact (files_functional b wf _ _ _ H H').
Qed.

Definition stable (e : path) (t t' : tree) : Prop :=
  (base_ok t -> base_ok t') /\
  (forall p, In p (all_paths b) -> p <> e -> node_at t' (T ++ p) = node_at t (T ++ p)).

Lemma is_prefix_T : forall p q, is_prefix (T ++ p) (T ++ q) = is_prefix p q.
Proof.
  induction T as [|x T' IH]; intros p q; [reflexivity|].
  cbn. rewrite N.eqb_refl. apply IH.
Qed.

Lemma base_frame : forall e t t', e <> [] -> frame (T ++ e) t t' -> base_ok t -> base_ok t'.
Proof.
  intros e t t' He Hf [Hl Hd]. split.
  - intros a Ha. rewrite Hf; [apply Hl, Ha|]. apply prefixes_spec in Ha as [r [_ ->]].
    rewrite <- app_assoc. apply not_below, app_nonempty, He.
  - rewrite Hf; [exact Hd | apply not_below, He].
Qed.

(** a directory entry: only its own node changes *)
Lemma stable_frame1 : forall e t t', e <> [] -> frame1 (T ++ e) t t' -> stable e t t'.
Proof.
  intros e t t' He Hf. split; [apply (base_frame e), frame1_frame; assumption|].
  intros p _ Hp. apply Hf, path_eqb_neq. intro E. apply app_inv_head in E. congruence.
Qed.

(** a symlink or file entry: nothing else listed is at or below it *)
Lemma stable_frame : forall e t t', In e (map fst (b_links b) ++ map fst (b_files b)) ->
  frame (T ++ e) t t' -> stable e t t'.
Proof.
  intros e t t' He Hf.
  assert (Hne : e <> []). { apply (wf_nonempty b wf). apply in_or_app. right. exact He. }
  split; [apply (base_frame e); assumption|].
  intros p Hp Hpe. apply Hf. rewrite is_prefix_T.
  destruct (is_prefix e p) eqn:E; [|reflexivity]. exfalso. apply Hpe. eapply wf_no_below; eassumption.
Qed.

Lemma stable_touch : forall w e t t', wound_ok w -> wpath w = Some e -> framed (touch T w) t t' -> stable e t t'.
Proof.
  intros [d | l dest | f data | f] e t t' Hok E Hf; inversion E; subst e.
  - apply stable_frame1; [eapply (wf_nonempty b wf), in_all_dir, Hok | exact Hf].
  - apply stable_frame; [eapply in_lf_link, Hok | exact Hf].
  - apply stable_frame; [eapply in_lf_file, Hok | exact Hf].
Qed.

Lemma ordered_mono : forall t t' P,
  (forall w, In w P -> wound_ok w) ->
  (forall a, In a (b_dirs b) -> gdir t a -> gdir t' a) ->
  ordered t P -> ordered t' P.
Proof.
  intros t t' P Hok Hm Ho P1 w P2 p E Hw a Ha Hn.
  destruct (Ho P1 w P2 p E Hw a Ha Hn) as [G | Hin]; [left | right; exact Hin].
  apply Hm; [|exact G]. apply (wf_anc b wf p); [|exact Ha | exact Hn].
  apply (wound_ok_path w); [|exact Hw]. apply Hok. rewrite E. apply in_elt.
Qed.

Lemma anc_ok_mono : forall t t' p, In p (all_paths b) ->
  (forall a, In a (b_dirs b) -> gdir t a -> gdir t' a) -> anc_ok t p -> anc_ok t' p.
Proof.
  intros t t' p Hp Hm Ha a Hin Hn. apply Hm; [|apply Ha; assumption]. eapply wf_anc; eassumption.
Qed.

Lemma progress_sub : forall ph dd dl df, progress ph dd dl df ->
  incl dd (b_dirs b) /\ incl dl (b_links b) /\ incl df (b_files b).
Proof.
  intros ph dd dl df H. destruct ph; cbn in H; try contradiction; destruct H as [H1 [H2 H3]]; subst;
    rewrite ?H1, ?H2, ?H3; repeat split; auto using incl_refl, incl_appl, incl_nil_l.
Qed.

(** What [claims] says of one entry: [claims t wd P Q dd dl df] is, by computation, [claim1] of
    every entry in [dd], [dl], [df]. *)
Definition claim1 (t : tree) (wd : list path) (P : list wound) (Q : list path) (w : wound) : Prop :=
  match w with
  | WDir d => gdir t d \/ (In d wd /\ In (WDir d) P)
  | WLink l dest => glink t l dest \/ In (WLink l dest) P
  | WFile f data => gfile t f data \/ In (WFile f data) P \/ In f Q
  | WClosed _ => True
  end.

Lemma claims_imp : forall ph t t' wd wd' P P' Q Q' dd dl df, progress ph dd dl df ->
  (forall w, wound_ok w -> claim1 t wd P Q w -> claim1 t' wd' P' Q' w) ->
  claims t wd P Q dd dl df -> claims t' wd' P' Q' dd dl df.
Proof.
  intros ph t t' wd wd' P P' Q Q' dd dl df Hpr H [H1 [H2 H3]].
  destruct (progress_sub _ _ _ _ Hpr) as [Sd [Sl Sf]]. repeat split.
  - intros d Hin. apply (H (WDir d) (Sd _ Hin)), H1, Hin.
  - intros l dest Hin. apply (H (WLink l dest) (Sl _ Hin)), H2, Hin.
  - intros f data Hin. apply (H (WFile f data) (Sf _ Hin)), H3, Hin.
Qed.

Definition queued (Q : list path) (w : wound) : Prop :=
  match w with WFile f _ => In f Q | _ => False end.

(** what the healer has to have done with a wound before dropping it *)
Definition handled (t : tree) (Q : list path) (w : wound) : Prop :=
  match w with WFile _ _ => queued Q w | _ => good t w end.

Lemma good_claim1 : forall t wd P Q w, good t w -> claim1 t wd P Q w.
Proof. intros t wd P Q w. destruct w; cbn; auto. Qed.

Lemma claim1_more : forall t wd wd' P P' Q Q' w, incl wd wd' -> incl P P' -> incl Q Q' ->
  claim1 t wd P Q w -> claim1 t wd' P' Q' w.
Proof. unfold incl. intros t wd wd' P P' Q Q' w Hw HP HQ. destruct w; cbn; intuition auto. Qed.

Lemma claim1_pop : forall t wd w0 P Q w, handled t Q w0 -> claim1 t wd (w0 :: P) Q w -> claim1 t wd P Q w.
Proof. intros t wd w0 P Q w Hh. destruct w; cbn; intuition (subst; cbn in Hh; auto). Qed.

Lemma claim1_tr : forall t t' wd P Q w, (good t w -> good t' w \/ queued Q w) ->
  claim1 t wd P Q w -> claim1 t' wd P Q w.
Proof. intros t t' wd P Q w. destruct w; cbn; tauto. Qed.

Lemma ordered_nil : forall t, ordered t [].
Proof. intros t P1 w P2 p E. destruct P1; discriminate. Qed.

Lemma ordered_pop : forall t w P, (forall d, w = WDir d -> gdir t d) -> ordered t (w :: P) -> ordered t P.
Proof.
  intros t w P Hh Ho P1 w' P2 p E Hw a Ha Hn.
  destruct (Ho (w :: P1) w' P2 p) with (a := a) as [G | [Hin | Hin]]; auto.
  rewrite E. reflexivity.
Qed.

Lemma ordered_app : forall t P ws,
  ordered t P ->
  (forall w p, In w ws -> wpath w = Some p -> forall a, In a (prefixes p) -> a <> [] -> gdir t a \/ In (WDir a) P) ->
  ordered t (P ++ ws).
Proof.
  intros t P ws Ho Hn P1 w P2 p E Hw a Ha Hne.
  destruct (split_app _ _ _ _ _ _ (eq_sym E)) as [[P2' E2] | [W1 [W2 [E1 E2]]]].
  - eapply Ho; eassumption.
  - destruct (Hn w p) with (a := a) as [G | Hin]; try assumption.
    + rewrite E2. apply in_elt.
    + left. exact G.
    + right. rewrite E1. apply in_or_app. left. exact Hin.
Qed.

Lemma under_wd_false : forall wd p, under_wd fixed wd p = false ->
  forall a, In a (prefixes p) -> a <> [] -> ~ In a wd.
Proof.
  intros wd p H a Ha Hn Hin. unfold under_wd in H. cbn in H.
  assert (E : existsb (fun a => negb (path_eqb a []) && existsb (path_eqb a) wd) (prefixes p) = true).
  { apply existsb_exists. exists a. split; [exact Ha|]. apply andb_true_iff. split.
    - apply negb_true_iff. apply path_eqb_neq. exact Hn.
    - apply existsb_path_In. exact Hin. }
  congruence.
Qed.

Lemma anc_from_claims : forall t wd P Q dd dl df p,
  claims t wd P Q dd dl df ->
  (forall a, In a (prefixes p) -> a <> [] -> In a dd) ->
  under_wd fixed wd p = false -> anc_ok t p.
Proof.
  intros t wd P Q dd dl df p [H1 _] Hp Hu a Ha Hn.
  destruct (H1 a (Hp a Ha Hn)) as [G | [A _]]; [exact G|].
  exfalso. eapply under_wd_false; eassumption.
Qed.

Definition verdict_ok (t : tree) (w : wound) (v : verdict) : Prop :=
  exists ws, v = Wounds ws /\ (forall w', In w' ws -> w' = w \/ healthy w' = true) /\ (good t w \/ In w ws).

Lemma verdict_bad : forall t w hs, forallb healthy hs = true -> verdict_ok t w (Wounds (w :: hs)).
Proof.
  intros t w hs H. rewrite forallb_forall in H. exists (w :: hs). split; [reflexivity|]. split.
  - intros w' [<- | Hin]; auto.
  - right. left. reflexivity.
Qed.

Lemma verdict_good : forall t w hs, good t w -> forallb healthy hs = true -> verdict_ok t w (Wounds hs).
Proof. intros t w hs G H. rewrite forallb_forall in H. exists hs. auto. Qed.

Lemma check_res : forall t wd w p, base_ok t -> wpath w = Some p -> p <> [] ->
  (under_wd fixed wd p = false -> anc_ok t p) ->
  verdict_ok t w (check_entry fixed t T wd w).
Proof.
  intros t wd w p Hb E Hp Ha.
  destruct w as [d | l dest | f data | f]; inversion E; subst p; cbn [check_entry];
    [unfold check_dir | unfold check_link | unfold check_file];
    (destruct (under_wd fixed wd _) eqn:U; [apply verdict_bad; reflexivity|]);
    pose proof (anc_lit T t _ Hb (Ha eq_refl)) as Hl; rewrite lstat_lit by exact Hl.
  - destruct (node_at t (T ++ d)) as [[| |]|] eqn:G; try (apply verdict_bad; reflexivity).
    apply verdict_good; [exact G | reflexivity].
  - rewrite readlink_lit by exact Hl.
    destruct (node_at t (T ++ l)) as [[| |d']|] eqn:G; try (apply verdict_bad; reflexivity).
    destruct (dest_eqb d' dest) eqn:D; [|apply verdict_bad; reflexivity].
    apply dest_eqb_iff in D. subst. apply verdict_good; [exact G | reflexivity].
  - destruct (node_at t (T ++ f)) as [[d'| |]|] eqn:G; try (apply verdict_bad; reflexivity);
      (rewrite read_file_lit, G; [| exact Hl | intros d0; congruence]); [|apply verdict_bad; reflexivity].
    destruct (nlist_eqb d' data) eqn:D; [|apply verdict_bad; reflexivity].
    apply ListLemmas.nlist_eqb_eq in D. subst. apply verdict_good; [exact G | reflexivity].
Qed.

(** the validator has finished a check and holds the wounds [ws] to send *)
Lemma inv_check : forall s ph' wd' ws dd' dl' df',
  Inv s -> v_pend (s_v s) = [] -> v_phase (s_v s) <> VDone ->
  progress ph' dd' dl' df' -> ph' <> VDone ->
  claims (s_fs s) wd' (s_chan s ++ ws) (s_queued s) dd' dl' df' ->
  (forall d, In d wd' -> In d dd') ->
  (forall w, In w ws -> wound_ok w) ->
  (forall w p, In w ws -> wpath w = Some p ->
     forall a, In a (prefixes p) -> a <> [] -> gdir (s_fs s) a \/ In (WDir a) (s_chan s)) ->
  Inv (set_v s (mkV ph' ws wd')).
Proof.
  intros s ph' wd' ws dd' dl' df' HI Hp Hph Hpr Hph' Hcl Hwd Hwok Hanc.
  destruct HI as [_ Hb Hok Hord Hq Hwq Hwr Hc].
  pose proof (pend_nil s Hp) as EP.
  rewrite EP in Hok, Hord.
  constructor; cbn; unfold pend; cbn; try assumption.
  - exists dd', dl', df'. auto.
  - intros w Hin. apply in_app_or in Hin as [Hin | Hin]; auto.
  - apply ordered_app; assumption.
  - destruct Hc as [[C1 C2] [C3 C4]]. unfold control. cbn. repeat split; try apply C4; intro E; try congruence.
    destruct (Hph (C1 E)).
Qed.

Lemma progress_pass : forall ph ph' dd dl df, progress ph dd dl df -> next_pass b ph = Some ph' ->
  progress ph' dd dl df /\ ph <> VDone /\ ph' <> VDone.
Proof.
  intros ph ph' dd dl df H E.
  destruct ph as [|[|]|[|[]]|[|[]]| | |]; inversion E; subst; cbn in H; destruct H as [H1 [H2 H3]];
    rewrite ?app_nil_r in *; subst; cbn; repeat split; reflexivity || discriminate.
Qed.

Definition checked_dirs (w : wound) (dd : list path) := match w with WDir d => dd ++ [d] | _ => dd end.
Definition checked_links (w : wound) (dl : list (path * list comp)) :=
  match w with WLink l dest => dl ++ [(l, dest)] | _ => dl end.
Definition checked_files (w : wound) (df : list (path * list N)) :=
  match w with WFile f data => df ++ [(f, data)] | _ => df end.

Lemma claims_checked : forall t wd P Q dd dl df w, claims t wd P Q dd dl df -> claim1 t wd P Q w ->
  claims t wd P Q (checked_dirs w dd) (checked_links w dl) (checked_files w df).
Proof.
  intros t wd P Q dd dl df w [C1 [C2 C3]] Hc. destruct w as [d0 | l0 dest0 | f0 data0 | f0]; cbn; repeat split; try assumption.
  - intros d Hin. apply in_app_or in Hin as [Hin | [<- | []]]; auto.
  - intros l dest Hin. apply in_app_or in Hin as [Hin | [[= <- <-] | []]]; auto.
  - intros f data Hin. apply in_app_or in Hin as [Hin | [[= <- <-] | []]]; auto.
Qed.

Lemma progress_entry : forall ph w ph' dd dl df, progress ph dd dl df -> next_entry ph = Some (w, ph') ->
  progress ph' (checked_dirs w dd) (checked_links w dl) (checked_files w df) /\
  exists p, wound_ok w /\ wpath w = Some p /\ forall a, In a (prefixes p) -> a <> [] -> In a dd.
Proof.
  intros ph w ph' dd dl df H E.
  destruct ph as [|[|d r]|[|[l dest] r]|[|[f data] r]| | |]; inversion E; subst; cbn in H; destruct H as [H1 [H2 H3]]; subst;
    cbn; rewrite <- ?app_assoc; (split; [auto|]).
  - exists d. rewrite H1. split; [apply in_elt|]. split; [reflexivity|]. eapply wf_dir_anc; eassumption.
  - exists l. rewrite H2. split; [apply in_elt|]. split; [reflexivity|].
    apply (wf_lf_anc b wf). rewrite H2, map_app. cbn. apply in_or_app. left. apply in_elt.
  - exists f. rewrite H3. split; [apply in_elt|]. split; [reflexivity|].
    apply (wf_lf_anc b wf). rewrite H3, map_app. cbn. apply in_or_app. right. apply in_elt.
Qed.

Lemma next_entry_not_done : forall ph w ph', next_entry ph = Some (w, ph') -> ph <> VDone /\ ph' <> VDone.
Proof. intros [|[|]|[|[]]|[|[]]| | |] w ph' E; inversion E; split; discriminate. Qed.

Lemma inv_pass : forall s ph', Inv s -> v_pend (s_v s) = [] -> next_pass b (v_phase (s_v s)) = Some ph' ->
  Inv (set_v s (mkV ph' [] (v_wd (s_v s)))).
Proof.
  intros s ph' HI Hp Hn. destruct (i_prog s HI) as [dd [dl [df [Hpr [Hcl Hwd]]]]].
  destruct (progress_pass _ _ _ _ _ Hpr Hn) as [Hpr' [Hd Hd']].
  apply (inv_check s ph' _ [] dd dl df HI Hp Hd Hpr' Hd'); [| exact Hwd | intros w [] | intros w p []].
  unfold pend in Hcl. rewrite Hp in Hcl. exact Hcl.
Qed.

Lemma inv_entry : forall s w ph', Inv s -> v_pend (s_v s) = [] -> next_entry (v_phase (s_v s)) = Some (w, ph') ->
  let v := check_entry fixed (s_fs s) T (v_wd (s_v s)) w in
  Inv (after_check s ph' (taint w v (v_wd (s_v s))) v).
Proof.
  intros s w ph' HI Hp Hn. destruct (i_prog s HI) as [dd [dl [df [Hpr [Hcl Hwd]]]]].
  destruct (progress_entry _ _ _ _ _ _ Hpr Hn) as [Hpr' [p [Hok [Ew Hanc]]]].
  destruct (next_entry_not_done _ _ _ Hn) as [Hd Hd'].
  pose proof (pend_nil s Hp) as EP.
  rewrite EP in Hcl.
  destruct (check_res (s_fs s) (v_wd (s_v s)) w p (i_base s HI) Ew) as [ws [E [Hws Hg]]].
  { eapply (wf_nonempty b wf), wound_ok_path; eassumption. }
  { intro U. eapply anc_from_claims; eassumption. }
  cbv zeta. rewrite E. cbn [after_check].
  apply (inv_check s ph' _ ws _ _ _ HI Hp Hd Hpr' Hd').
  - apply claims_checked.
    + eapply claims_imp; [exact Hpr | | exact Hcl]. intros w' _.
      apply claim1_more; [apply taint_incl | apply incl_appl, incl_refl | apply incl_refl].
    + destruct Hg as [G | Hin]; [apply good_claim1, G|].
      assert (Hin' : In w (s_chan s ++ ws)) by (apply in_or_app; right; exact Hin).
      destruct w; cbn; auto. right. split; [|exact Hin']. apply taint_hit. intros ->. destruct Hin.
  - intros d Hin. destruct (taint_sub _ _ _ _ Hin) as [Hd0 | ->]; [|apply in_elt].
    apply Hwd in Hd0. destruct w; cbn; auto using in_or_app.
  - intros w' Hin. destruct (Hws w' Hin) as [-> | Hh]; [exact Hok | destruct w'; try discriminate; exact I].
  - intros w' p' Hin Ew' a Ha Hne. destruct (Hws w' Hin) as [-> | Hh]; [| destruct w'; discriminate].
    rewrite Ew in Ew'. inversion Ew'; subst p'.
    destruct (proj1 Hcl a (Hanc a Ha Hne)) as [G | [_ Hin']]; auto.
Qed.

Lemma inv_emit : forall s w ws,
  Inv s -> v_pend (s_v s) = w :: ws ->
  Inv (mkS (s_fs s) (mkV (v_phase (s_v s)) ws (v_wd (s_v s))) (s_chan s ++ [w]) (s_closed s) (s_h s)
           (s_queued s) (s_wq s) (s_wq_closed s) (s_w s)).
Proof.
  intros s w ws HI Hp. destruct HI as [Hpr Hb Hok Hord Hq Hwq Hwr Hc].
  assert (EP : pend s = (s_chan s ++ [w]) ++ ws) by (unfold pend; rewrite Hp, <- app_assoc; reflexivity).
  constructor; cbn; unfold pend; cbn; try rewrite <- EP; try assumption.
  (* the channel is not closed: a wound is still pending *)
  destruct Hc as [[C1 C2] [C3 [C4 C5]]].
  assert (Hcl : s_closed s = true -> False) by (intro X; rewrite (C3 (C1 X)) in Hp; discriminate).
  unfold control. cbn. repeat split; try assumption.
  - intro E. rewrite (C3 E) in Hp. discriminate.
  - destruct (s_h s); [exact C4 | |]; destruct Hcl; apply C4.
Qed.

Lemma init_ok_base : forall t, init_ok T t = true ->
  exists t', mkdir_all t T = Ok t' /\ base_ok t'.
Proof.
  intros t H. unfold init_ok in H. apply andb_true_iff in H as [H1 H2].
  assert (Hl : lit t T).
  { intros a Ha. rewrite forallb_forall in H1. specialize (H1 a Ha). destruct (node_at t a) as [[| |]|]; congruence. }
  destruct (node_at t T) as [[| |]|] eqn:E; try discriminate.
  - exists t. split; [apply mkdir_all_dir; assumption | split; assumption].
  - assert (HT : T <> []) by (intro HT; rewrite HT in E; discriminate).
    exists (set t T Dir). split; [apply mkdir_all_new; assumption|]. split.
    + eapply lit_frame; [apply frame_set, HT | exact Hl].
    + apply node_at_set_same, HT.
Qed.

Lemma inv_phase : forall s, Inv s -> v_phase (s_v s) <> VInit.
Proof.
  intros s HI X. destruct (i_prog s HI) as [dd [dl [df [Hpr _]]]]. rewrite X in Hpr. exact Hpr.
Qed.

Lemma vstep_inv : forall s s', INV s -> vstep s = Some s' -> INV s'.
Proof.
  intros s s' [H0 | HI] Hs; right.
  - (* MkdirAll(target) *)
    destruct H0 as [Hi [Hv [Hch [Hcl [Hh [Hq [Hwq [Hwc Hw]]]]]]]].
    unfold Healer.vstep in Hs. rewrite Hv in Hs. cbn in Hs.
    destruct (init_ok_base _ Hi) as [t' [E Hb]]. rewrite E in Hs. inversion Hs; subst s'. clear Hs.
    constructor; cbn; unfold pend; cbn; rewrite ?Hch, ?Hq, ?Hwq, ?Hw, ?Hh, ?Hcl, ?Hwc;
      try (intros; contradiction); try (intros; discriminate).
    + exists [], [], []. cbn. repeat split; intros; contradiction.
    + exact Hb.
    + apply ordered_nil.
    + unfold control. cbn. repeat split; intros; congruence.
  - destruct (vstep_cases _ _ _ _ _ _ Hs) as [w ws Hp | w ph' Hp Hn | ph' Hp Hn | Hp E | Hp E].
    + apply inv_emit; assumption.
    + apply inv_entry; assumption.
    + apply inv_pass; assumption.
    + destruct (inv_phase s HI E).
    + (* close(vctx.Wounds) *)
      destruct HI as [[dd [dl [df [Hpr Hcl]]]] Hb Hok Hord Hq Hwq Hwr Hc]. rewrite E in *.
      pose proof (pend_nil s Hp) as EP.
      constructor; cbn; unfold pend; cbn; rewrite ?app_nil_r, <- ?EP; try assumption.
      * exists dd, dl, df. split; [exact Hpr | exact Hcl].
      * destruct Hc as [[C1 C2] [C3 [C4 C5]]]. unfold control. cbn. repeat split; auto.
        destruct (s_h s); [exact C4 | |]; [destruct C4 as [X _] | destruct C4 as [_ [X _]]]; specialize (C1 X); congruence.
Qed.

(** The filesystem changes at the listed entry [w] only.  The invariant survives if [w] is good
    afterwards; for a file it is enough that a regular file is there and the file is still in
    the worker's queue (GetWriter has just emptied it). *)
Lemma inv_fs : forall s t' w e, Inv s -> wound_ok w -> wpath w = Some e -> framed (touch T w) (s_fs s) t' ->
  match w with
  | WFile f data => (exists d, node_at t' (T ++ f) = Some (File d)) /\ (In (f, data) (s_wq s) \/ gfile t' f data)
  | _ => good t' w
  end ->
  Inv (set_fs s t').
Proof.
  intros s t' w e HI Hok Ew Hfr Hw. pose proof (stable_touch w e _ _ Hok Ew Hfr) as Hst.
  destruct HI as [[dd [dl [df [Hpr [Hcl Hwd]]]]] Hb Hwok Hord Hq Hwq Hwr Hc].
  (* a listed entry is the one repaired, or its node is where it was *)
  assert (Hcase : forall w' p, wound_ok w' -> wpath w' = Some p ->
            w' = w \/ node_at t' (T ++ p) = node_at (s_fs s) (T ++ p)).
  { intros w' p Hok' Ew'. destruct (path_eq_dec p e) as [-> | Hne]; [left; exact (wound_ok_inj w' w e Hok' Hok Ew' Ew)|].
    right. exact (proj2 Hst p (wound_ok_path w' p Hok' Ew') Hne). }
  assert (Hgood : forall w', wound_ok w' -> good (s_fs s) w' -> good t' w' \/ queued (s_queued s) w').
  { intros w' Hok' G. destruct (wpath w') as [p|] eqn:Ew'; [|destruct w'; try discriminate; left; exact I].
    destruct (Hcase w' p Hok' Ew') as [-> | R]; [|left].
    { destruct w as [d | l dest | f data | f]; auto. destruct Hw as [_ [Hin | G']]; [right; apply (Hwq f data Hin) | left; exact G']. }
    destruct w'; inversion Ew'; subst; unfold good, HealLemmas.gdir, HealLemmas.glink, HealLemmas.gfile in *; rewrite R; exact G. }
  assert (Hd : forall a, In a (b_dirs b) -> gdir (s_fs s) a -> gdir t' a).
  { intros a Ha G. destruct (Hgood (WDir a) Ha G) as [G' | []]. exact G'. }
  constructor; cbn; unfold pend; cbn; try assumption.
  - exists dd, dl, df. split; [exact Hpr|]. split; [|exact Hwd].
    eapply claims_imp; [exact Hpr | | exact Hcl]. intros w' Hok'. apply claim1_tr. exact (Hgood w' Hok').
  - apply Hst, Hb.
  - eapply ordered_mono; eassumption.
  - intros f Hin. destruct (Hq f Hin) as [data [Hfb Hs]]. exists data. split; [exact Hfb|].
    unfold fstatus in *. cbn. destruct (Hcase (WFile f data) f Hfb eq_refl) as [<- | R]; [tauto|].
    unfold HealLemmas.gfile. rewrite R. exact Hs.
  - intros f data Hin. destruct (Hwq f data Hin) as [Hfb [Ha Hfq]]. split; [exact Hfb|]. split; [|exact Hfq].
    eapply anc_ok_mono; [eapply in_all_file; exact Hfb | exact Hd | exact Ha].
  - intros q data E. destruct (Hwr q data E) as [f [-> [Hfb [Hfq Hn]]]]. exists f. repeat split; try assumption.
    destruct (Hcase (WFile f data) f Hfb eq_refl) as [<- | R]; [apply Hw | rewrite R; exact Hn].
Qed.

Lemma inv_pop : forall s w ch, Inv s -> s_h s = HRun -> s_chan s = w :: ch ->
  handled (s_fs s) (s_queued s) w -> Inv (set_fs_chan_h s (s_fs s) ch HRun).
Proof.
  intros s w ch HI Hh Hch Hhd.
  destruct HI as [[dd [dl [df [Hpr [Hcl Hwd]]]]] Hb Hok Hord Hq Hwq Hwr Hc].
  assert (EP : pend s = w :: (ch ++ v_pend (s_v s))) by (unfold pend; rewrite Hch; reflexivity).
  rewrite EP in *.
  constructor; cbn; unfold pend; cbn; try assumption.
  - exists dd, dl, df. split; [exact Hpr|]. split; [|exact Hwd].
    eapply claims_imp; [exact Hpr | | exact Hcl]. intros w' _. apply claim1_pop, Hhd.
  - intros w' Hin. apply Hok. right. exact Hin.
  - apply ordered_pop with (w := w); [|exact Hord]. intros d ->. exact Hhd.
  - destruct Hc as [[C1 C2] [C3 [C4 C5]]]. unfold control. cbn. rewrite Hh in C4. repeat split; assumption.
Qed.

Lemma inv_enq : forall s f data, Inv s -> s_h s = HRun -> In (f, data) (b_files b) -> anc_ok (s_fs s) f ->
  Inv (mkS (s_fs s) (s_v s) (s_chan s) (s_closed s) (s_h s) (f :: s_queued s)
           (s_wq s ++ [(f, data)]) (s_wq_closed s) (s_w s)).
Proof.
  intros s f data HI Hh Hf Ha.
  destruct HI as [[dd [dl [df [Hpr [Hcl Hwd]]]]] Hb Hok Hord Hq Hwq Hwr Hc].
  constructor; cbn; unfold pend; cbn; try assumption.
  - exists dd, dl, df. split; [exact Hpr|]. split; [|exact Hwd].
    eapply claims_imp; [exact Hpr | | exact Hcl]. intros w' _.
    apply claim1_more; [apply incl_refl | apply incl_refl | apply incl_tl, incl_refl].
  - intros f' [<- | Hin].
    + exists data. split; [exact Hf|]. left. apply in_elt.
    + destruct (Hq f' Hin) as [data' [Hfb [A | B]]]; exists data'; (split; [exact Hfb|]);
        [left; apply in_or_app; left; exact A | right; exact B].
  - intros f' data' Hin. apply in_app_or in Hin as [Hin | [X | []]].
    + destruct (Hwq f' data' Hin) as [A [B C]]. repeat split; try assumption. right. exact C.
    + inversion X; subst. repeat split; try assumption. left. reflexivity.
  - intros q data' E. destruct (Hwr q data' E) as [f' [Eq [Hfb [Hfq Hn]]]]. exists f'. repeat split; try assumption.
    right. exact Hfq.
  - (* the worker has not returned: fileIndices is still open *)
    destruct Hc as [[C1 C2] [C3 [C4 C5]]]. unfold control. cbn. rewrite Hh in *. repeat split; try assumption.
    destruct (s_w s); try exact I. destruct C5 as [_ [_ Z]]. congruence.
Qed.

Lemma head_anc : forall s w ch p, Inv s -> s_chan s = w :: ch -> wpath w = Some p -> anc_ok (s_fs s) p.
Proof.
  intros s w ch p HI Hch Hw a Ha Hn.
  destruct (i_ord s HI [] w (ch ++ v_pend (s_v s)) p) with (a := a) as [G | []]; try assumption.
  unfold pend. rewrite Hch. reflexivity.
Qed.

Lemma head_ok : forall s w ch, Inv s -> s_chan s = w :: ch -> wound_ok w.
Proof.
  intros s w ch HI Hch. apply (i_wok s HI). unfold pend. rewrite Hch. left. reflexivity.
Qed.

(** the DIR / SYMLINK wound at the head of the channel names a listed entry below real
    directories: its repair succeeds, inside the entry's place, and leaves it as signed *)
Lemma head_repair : forall s w ch, Inv s -> s_chan s = w :: ch -> hcall (hstart w) = Some w ->
  wound_ok w /\ wpath w = Some (wp w) /\ lit (s_fs s) (T ++ wp w) /\
  exists A, complete_h T (hstart w) (s_fs s) = Ok A /\ framed (touch T w) (s_fs s) A /\ good A w.
Proof.
  intros s w ch HI Hch Hw. pose proof (head_ok s w ch HI Hch) as Hok.
  assert (Ew : wpath w = Some (wp w)) by (destruct w; try discriminate Hw; reflexivity).
  assert (Hl : lit (s_fs s) (T ++ wp w)) by (apply anc_lit; [apply (i_base s HI) | eapply head_anc; eassumption]).
  repeat split; try assumption. apply (complete_h_spec T _ (s_fs s) w Hw); [|exact Hl | destruct w; exact I].
  eapply (wf_nonempty b wf), wound_ok_path; eassumption.
Qed.

Lemma hstep_inv : forall s s', INV s -> hstep s = Some s' -> INV s'.
Proof.
  intros s s' [H0 | HI] Hs.
  { unfold Healer.hstep in Hs. destruct H0 as [_ [_ [Hch [Hcl [Hh _]]]]]. rewrite Hh, Hch, Hcl in Hs. discriminate. }
  right.
  destruct (hstep_cases T s s' Hs) as [w ch Hh Hch Hw | w ch Hh Hch Hw | f data ch Hh Hch Hw | f data ch e Hh Hch Hw | Hh Hch Hcl | r Hh Hw].
  - (* processWound repairs the entry, then the wound is dropped *)
    destruct (head_repair s w ch HI Hch Hw) as (Hwok & Ew & _ & t' & E & Hf & G).
    rewrite E. apply (inv_pop (set_fs s t') w ch); [| exact Hh | exact Hch | destruct w; try discriminate Hw; exact G].
    apply (inv_fs s t' w _ HI Hwok Ew Hf). destruct w; try discriminate Hw; exact G.
  - apply (inv_pop s w ch HI Hh Hch). destruct w; try contradiction; exact Hw.
  - apply (inv_pop (mkS (s_fs s) (s_v s) (s_chan s) (s_closed s) (s_h s) (f :: s_queued s)
                        (s_wq s ++ [(f, data)]) (s_wq_closed s) (s_w s)) (WFile f data) ch);
      [| exact Hh | exact Hch | left; reflexivity].
    apply inv_enq; [exact HI | exact Hh | exact (head_ok s _ ch HI Hch) | exact (head_anc s _ ch f HI Hch eq_refl)].
  - (* the worker does not fail *)
    destruct (i_ctl s HI) as [_ [_ [_ C5]]]. rewrite Hw in C5. destruct C5 as [C5 _]. discriminate.
  - (* close(fileIndices) *)
    destruct HI as [Hpr Hb Hok Hord Hq Hwq Hwr Hc].
    assert (EP : pend s = v_pend (s_v s)) by (unfold pend; rewrite Hch; reflexivity).
    constructor; cbn; unfold pend; cbn; try rewrite <- EP; try assumption.
    destruct Hc as [[C1 C2] [C3 [C4 C5]]]. unfold control. cbn. rewrite Hcl in *.
    repeat split; try assumption; try reflexivity.
    destruct (s_w s); try exact I. destruct C5 as [X [Y Z]]. rewrite Hh in C4. congruence.
  - (* <-errs *)
    destruct HI as [Hpr Hb Hok Hord Hq Hwq Hwr Hc].
    constructor; cbn; unfold pend; cbn; try assumption.
    destruct Hc as [[C1 C2] [C3 [C4 C5]]]. unfold control. cbn. rewrite Hh in C4. rewrite Hw in *.
    destruct C4 as [X [Y Z]]. destruct C5 as [U [V W]]. subst r. repeat split; assumption.
Qed.

(** the worker takes a file from the queue once GetWriter has put an empty file in place *)
Lemma inv_deq : forall s f data wq, Inv s -> s_w s = WIdle -> s_wq s = (f, data) :: wq ->
  (exists d0, node_at (s_fs s) (T ++ f) = Some (File d0)) ->
  Inv (set_fs_wq_w s (s_fs s) wq (WWriting (T ++ f) data)).
Proof.
  intros s f data wq HI Hw Hwq Hn. destruct HI as [Hpr Hb Hok Hord Hq Hwqi Hwr Hc].
  destruct (Hwqi f data) as [Hfb [_ Hfq]]; [rewrite Hwq; left; reflexivity|].
  constructor; cbn; unfold pend; cbn; try assumption.
  - intros f' Hin. destruct (Hq f' Hin) as [data' [Hfb' Hs']]. exists data'. split; [exact Hfb'|].
    unfold fstatus in *. cbn. rewrite Hwq, Hw in Hs'.
    destruct Hs' as [[X | A] | [[X _] | C]]; [inversion X; subst; auto | auto | discriminate | auto].
  - intros f' data' Hin. apply Hwqi. rewrite Hwq. right. exact Hin.
  - intros q data' X. inversion X; subst. exists f. auto.
  - destruct Hc as [[C1 C2] [C3 [C4 C5]]]. unfold control. cbn. repeat split; try assumption.
    destruct (s_h s); try assumption. destruct C4 as [_ [_ [_ [_ X]]]]. congruence.
Qed.

(** ctxcopy.Do has written the content *)
Lemma inv_written : forall s f data, Inv s -> s_w s = WWriting (T ++ f) data -> gfile (s_fs s) f data ->
  Inv (set_fs_wq_w s (s_fs s) (s_wq s) WIdle).
Proof.
  intros s f data HI Hw G. destruct HI as [Hpr Hb Hok Hord Hq Hwqi Hwr Hc].
  constructor; cbn; unfold pend; cbn; try assumption.
  - intros f' Hin. destruct (Hq f' Hin) as [data' [Hfb' Hs']]. exists data'. split; [exact Hfb'|].
    unfold fstatus in *. cbn. rewrite Hw in Hs'.
    destruct Hs' as [A | [[X _] | C]]; auto.
    inversion X as [[X1 X2]]. apply app_inv_head in X1. subst. auto.
  - intros q data' X. discriminate.
  - destruct Hc as [[C1 C2] [C3 [C4 C5]]]. unfold control. cbn. repeat split; try assumption.
    destruct (s_h s); try assumption. destruct C4 as [_ [_ [_ [_ X]]]]. congruence.
Qed.

Lemma wstep_inv : forall s s', INV s -> wstep s = Some s' -> INV s'.
Proof.
  intros s s' [H0 | HI] Hs; unfold Healer.wstep in Hs.
  { destruct H0 as [_ [_ [_ [_ [_ [_ [Hwq [Hwc Hw]]]]]]]]. rewrite Hw, Hwq, Hwc in Hs. discriminate. }
  right. destruct (s_w s) as [|q data|r] eqn:Hw; [| |discriminate].
  - destruct (s_wq s) as [|[f data] wq'] eqn:Hwq.
    + (* fileIndices closed and empty: the worker returns *)
      destruct (s_wq_closed s) eqn:Hwc; [|discriminate]. inversion Hs; subst s'. clear Hs.
      destruct HI as [Hpr Hb Hok Hord Hq Hwqi Hwr Hc].
      constructor; cbn; unfold pend; cbn; try assumption; try (intros; discriminate).
      * intros f Hin. destruct (Hq f Hin) as [data [Hfb Hst]]. exists data. split; [exact Hfb|].
        unfold fstatus in *. cbn. rewrite Hwq, Hw in Hst.
        destruct Hst as [[] | [[X _] | C]]; [discriminate | auto].
      * intros f data [].
      * destruct Hc as [[C1 C2] [C3 [C4 C5]]]. unfold control. cbn. repeat split; try assumption.
        destruct (s_h s); [congruence | exact C4 |]. destruct C4 as [_ [_ [_ [_ X]]]]. congruence.
    + (* GetWriter *)
      destruct (i_wq s HI f data) as [Hfb [Hanc Hfq]]; [rewrite Hwq; left; reflexivity|].
      assert (Hne : f <> []) by (eapply (wf_nonempty b wf), in_all_file, Hfb).
      destruct (get_writer_spec T (s_fs s) f (i_base s HI) Hanc Hne) as [t' [E [Hf Hn]]].
      rewrite E in Hs. inversion Hs; subst s'.
      apply (inv_deq (set_fs s t') f data wq'); [| exact Hw | exact Hwq | exists []; exact Hn].
      apply (inv_fs s t' (WFile f data) f HI Hfb eq_refl Hf).
      split; [exists []; exact Hn | left; rewrite Hwq; left; reflexivity].
  - (* ctxcopy.Do *)
    destruct (i_writing s HI q data Hw) as [f [-> [Hfb [Hfq [d0 Hn]]]]].
    assert (Hne : f <> []) by (eapply (wf_nonempty b wf), in_all_file, Hfb).
    destruct (write_fd_spec (s_fs s) (T ++ f) data d0 (app_nonempty T f Hne) Hn) as [Hn' Hf].
    inversion Hs; subst s'.
    apply (inv_written (set_fs s (write_fd (s_fs s) (T ++ f) data)) f data); [| exact Hw | exact Hn'].
    apply (inv_fs s _ (WFile f data) f HI Hfb eq_refl Hf). split; [exists data | right]; exact Hn'.
Qed.

Lemma step_inv : forall s i s', INV s -> step s i = Some s' -> INV s'.
Proof.
  intros s [] s' HI Hs; cbn in Hs; [eapply vstep_inv | eapply hstep_inv | eapply wstep_inv]; eassumption.
Qed.

Lemma inv_not_fail : forall s, INV s -> forall e, v_phase (s_v s) <> VFail e.
Proof.
  intros s [H0 | HI] e X.
  - destruct H0 as [_ [Hv _]]. rewrite Hv in X. discriminate.
  - destruct (i_prog s HI) as [dd [dl [df [Hpr _]]]]. rewrite X in Hpr. exact Hpr.
Qed.

Lemma INV_Inv : forall s, INV s ->
  v_phase (s_v s) <> VInit \/ s_chan s <> [] \/ s_wq s <> [] \/ s_w s <> WIdle -> Inv s.
Proof.
  intros s [H0 | HI] H; [exfalso | exact HI].
  destruct H0 as (_ & Hv & Hc & _ & _ & _ & Hwq & _ & Hw). rewrite Hv, Hc, Hwq, Hw in H. cbn in H. intuition congruence.
Qed.

Lemma terminal_restored : forall s, INV s -> terminal s = true ->
  result s = Some (Ok tt) /\ restored b T (s_fs s).
Proof.
  intros s HI Ht. pose proof (inv_not_fail s HI) as Hnf. destruct HI as [H0 | HI].
  { destruct H0 as [_ [Hv _]]. unfold terminal in Ht. rewrite Hv in Ht. discriminate. }
  unfold terminal in Ht. unfold result.
  destruct (v_phase (s_v s)) eqn:Hph; try discriminate; [| destruct (Hnf _ eq_refl)].
  destruct (s_h s) as [| |r] eqn:Hh; try discriminate.
  destruct HI as [[dd [dl [df [Hpr [Hcl Hwd]]]]] Hb Hok Hord Hq Hwq Hwr Hc].
  destruct Hc as [[C1 C2] [C3 [C4 C5]]]. rewrite Hh in C4. destruct C4 as [-> [Hcld [Hch [Hwc Hw]]]].
  rewrite Hw in C5. destruct C5 as [_ [Hwqe _]].
  split; [reflexivity|].
  (* nothing is pending or queued any more: every entry is good *)
  assert (EP : pend s = []) by (unfold pend; rewrite Hch, (C3 Hph); reflexivity).
  rewrite EP in Hcl. rewrite Hph in Hpr. destruct Hpr as [-> [-> ->]]. destruct Hcl as [H1 [H2 H3]].
  assert (Gd : forall d, In d (b_dirs b) -> gdir (s_fs s) d).
  { intros d Hd. destruct (H1 d Hd) as [G | [_ []]]. exact G. }
  assert (Gf : forall f data, In (f, data) (b_files b) -> gfile (s_fs s) f data).
  { intros f data H. destruct (H3 f data H) as [G | [[] | Hfq]]; [exact G|].
    destruct (Hq f Hfq) as [data' [Hfb Hst]]. rewrite (files_functional b wf f data data' H Hfb).
    destruct Hst as [A | [[X _] | C]]; [rewrite Hwqe in A; destruct A | congruence | exact C]. }
  assert (Hlit : forall p, In p (all_paths b) -> lit (s_fs s) (T ++ p)).
  { intros p Hp. apply anc_lit; [exact Hb|]. intros a Ha Hn. apply Gd. eapply wf_anc; eassumption. }
  repeat split.
  - intros d Hd. rewrite lstat_lit by (apply Hlit, in_all_dir, Hd). rewrite (Gd d Hd). reflexivity.
  - intros l dest Hl. rewrite readlink_lit by (eapply Hlit, in_all_link, Hl).
    destruct (H2 l dest Hl) as [G | []]. rewrite G. reflexivity.
  - rewrite lstat_lit by (eapply Hlit, in_all_file, H). rewrite (Gf f data H). reflexivity.
  - pose proof (Gf f data H) as G.
    rewrite read_file_lit; [rewrite G; reflexivity | eapply Hlit, in_all_file, H | intros d0; rewrite G; discriminate].
Qed.

Lemma hstep_run_some : forall s w ch, s_h s = HRun -> s_chan s = w :: ch -> hstep s <> None.
Proof.
  intros s w ch Hh Hch. unfold Healer.hstep. rewrite Hh, Hch.
  destruct w as [d | l dest | f data | f].
  - destruct (heal_dir T (s_fs s) d); discriminate.
  - destruct (heal_link T (s_fs s) l dest); discriminate.
  - destruct (existsb (path_eqb f) (s_queued s)); [discriminate|].
    destruct (s_w s) as [| |[|]]; discriminate.
  - discriminate.
Qed.

Lemma no_deadlock : forall s, INV s -> (forall i, step s i = None) -> terminal s = true.
Proof.
  intros s HI Hn. pose proof (Hn TV) as Hv. pose proof (Hn TH) as Hh. pose proof (Hn TW) as Hw. cbn in Hv, Hh, Hw.
  destruct HI as [H0 | HI].
  { destruct H0 as [_ [Hvs _]]. unfold Healer.vstep in Hv. rewrite Hvs in Hv. cbn in Hv. destruct (mkdir_all (s_fs s) T); discriminate. }
  destruct (i_ctl s HI) as [[C1 C2] [C3 [C4 C5]]].
  destruct (v_pend (s_v s)) as [|w ws] eqn:Hp.
  - (* the validator can only be stuck when it is done *)
    assert (Hph : v_phase (s_v s) = VDone).
    { unfold Healer.vstep in Hv. rewrite Hp in Hv.
      destruct (v_phase (s_v s)) as [|[|]|[|[]]|[|[]]| | |e] eqn:E; try discriminate.
      - destruct (mkdir_all (s_fs s) T); discriminate.
      - reflexivity.
      - destruct (inv_not_fail s (or_intror HI) e E). }
    pose proof (C2 Hph) as Hcl.
    unfold terminal. rewrite Hph.
    destruct (s_h s) eqn:Ehh; [| | reflexivity]; exfalso.
    + destruct (s_chan s) as [|w ch] eqn:Hch; [|exact (hstep_run_some s w ch Ehh Hch Hh)].
      unfold Healer.hstep in Hh. rewrite Ehh, Hch, Hcl in Hh. discriminate.
    + unfold Healer.hstep in Hh. rewrite Ehh in Hh. destruct C4 as [_ [_ Hwc]].
      unfold Healer.wstep in Hw.
      destruct (s_w s) as [|q data|r] eqn:Ew; [| discriminate | discriminate].
      destruct (s_wq s) as [|[f data] wq']; [rewrite Hwc in Hw; discriminate|].
      destruct (get_writer T (s_fs s) f) as [[? ?]|]; discriminate.
  - (* a wound is waiting for room in the channel *)
    exfalso. unfold Healer.vstep in Hv. rewrite Hp in Hv.
    destruct (Nat.ltb (length (s_chan s)) cap) eqn:Hlt; [discriminate|].
    apply Nat.ltb_ge in Hlt.
    destruct (s_chan s) as [|w' ch] eqn:Hch; [cbn in Hlt; lia|].
    destruct (s_h s) eqn:Ehh.
    + eapply (hstep_run_some s w' ch); eassumption.
    + destruct C4 as [X _]. discriminate (C3 (C1 X)).
    + destruct C4 as [_ [X _]]. discriminate (C3 (C1 X)).
Qed.

End Proofs.
