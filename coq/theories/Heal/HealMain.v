(** C06 proofs, part 5: what the property theorems of Properties/C06.v are put together from:
    a restored tree passes fail-fast validation; runs keep the invariant and the measure; complete
    runs; healing a valid directory changes nothing. *)
From Coq Require Import Arith Lia.
From Wharf Require Import Base.StepSystem FS.Light FS.Tree FS.TreeProofs FS.Ops FS.OpsProofs
     Heal.Validator Heal.Healer Heal.HealLemmas Heal.HealProofs Heal.HealMeasure.

Lemma under_wd_nil : forall fx p, under_wd fx [] p = false.
Proof.
  intros fx p. unfold under_wd. destruct (fx_taint fx); [|reflexivity]. cbn.
  induction (prefixes p) as [|a l IH]; [reflexivity|]. cbn. rewrite IH. rewrite andb_false_r. reflexivity.
Qed.

Lemma restored_ff_valid : forall fx b T t, restored b T t -> ff_valid fx b T t = true.
Proof.
  intros fx b T t [Hd [Hl Hf]]. unfold ff_valid. apply andb_true_iff. split; [apply andb_true_iff; split|].
  - apply forallb_forall. intros d Hin. unfold check_dir. rewrite under_wd_nil, (Hd d Hin). reflexivity.
  - apply forallb_forall. intros [l dest] Hin. cbn [fst snd]. unfold check_link. rewrite under_wd_nil.
    pose proof (Hl l dest Hin) as R. pose proof R as R'. unfold readlink in R'.
    destruct (lstat t (T ++ l)) as [[| |d]|e] eqn:E; try discriminate.
    rewrite R, (proj2 (dest_eqb_iff dest dest) eq_refl). reflexivity.
  - apply forallb_forall. intros [f data] Hin. cbn [fst snd]. unfold check_file. rewrite under_wd_nil.
    destruct (Hf f data Hin) as [R1 R2]. rewrite R1, R2.
    rewrite ListLemmas.nlist_eqb_refl. reflexivity.
Qed.

Lemma restoredb_true : forall b T t, restoredb b T t = true -> restored b T t.
Proof.
  intros b T t H. unfold restoredb in H. apply andb_true_iff in H as [H12 H3]. apply andb_true_iff in H12 as [H1 H2].
  rewrite forallb_forall in H1, H2, H3. split; [|split].
  - intros d Hin. specialize (H1 d Hin). destruct (lstat t (T ++ d)) as [[| |]|]; congruence.
  - intros l dest Hin. specialize (H2 (l, dest) Hin). cbn in H2.
    destruct (readlink t (T ++ l)) as [d|]; [|discriminate]. apply dest_eqb_iff in H2. congruence.
  - intros f data Hin. specialize (H3 (f, data) Hin). cbn in H3.
    destruct (lstat t (T ++ f)) as [[d| |]|]; try discriminate.
    destruct (read_file t (T ++ f)) as [d'|]; try discriminate.
    apply andb_true_iff in H3 as [A B]. apply ListLemmas.nlist_eqb_eq in A, B. split; congruence.
Qed.

Lemma run_preserves : forall fx cap b T (P : state -> Prop),
  kept (step fx cap b T) P -> forall sched s, P s -> P (run fx cap b T sched s).
Proof. intros fx cap b T. exact (stay_run_keeps (step fx cap b T)). Qed.

Section Main.
Variable cap : nat.
Hypothesis cap_pos : 0 < cap.
Variable b : build.
Hypothesis wf : wf_build b = true.
Variable T : path.
Variable t0 : tree.
Hypothesis t0_ok : init_ok T t0 = true.

Local Notation step := (step fixed cap b T).
Local Notation run := (run fixed cap b T).
Local Notation finish := (finish fixed cap b T).

Lemma init_INV : INV b T (init b t0).
Proof. left. unfold Inv0, init. cbn. repeat split; try reflexivity. exact t0_ok. Qed.

Lemma run_INV : forall sched s, INV b T s -> INV b T (run sched s).
Proof. exact (run_preserves fixed cap b T _ (step_inv cap b wf T)). Qed.

Lemma run_mu : forall sched s, mu b (run sched s) <= mu b s.
Proof.
  intros sched s. apply (stay_run_lowers step (fun _ => True) (mu b)); [easy | | exact I].
  intros s1 i s2 _. apply step_mu.
Qed.

Lemma terminal_valid : forall s, INV b T s -> terminal s = true ->
  result s = Some (Ok tt) /\ restored b T (s_fs s) /\ ff_valid fixed b T (s_fs s) = true.
Proof.
  intros s HI Ht. destruct (terminal_restored b wf T s HI Ht) as [R1 R2].
  split; [exact R1 | split; [exact R2 | apply restored_ff_valid, R2]].
Qed.

Lemma finish_complete : forall prio, In TV prio -> In TH prio -> In TW prio ->
  forall fuel s, INV b T s -> mu b s <= fuel ->
  let s' := finish fuel prio s in
  terminal s' = true /\ result s' = Some (Ok tt) /\ restored b T (s_fs s') /\
  ff_valid fixed b T (s_fs s') = true.
Proof.
  intros prio Hv Hh Hw fuel s HI Hmu.
  destruct (finish_stuck step (INV b T) (mu b) (step_inv cap b wf T) (fun s i s' _ => step_mu b fixed cap T s i s')
              prio fuel s HI Hmu) as [HI' Hn].
  assert (Ht := no_deadlock cap cap_pos b T _ HI' (fun i => Hn i match i with TV => Hv | TH => Hh | TW => Hw end)).
  exact (conj Ht (terminal_valid _ HI' Ht)).
Qed.

End Main.

Section Idempotent.
Variable fx : fixes.
Variable cap : nat.
Variable b : build.
Variable T : path.
Variable t0 : tree.
Hypothesis t0_ok : init_ok T t0 = true.
Hypothesis t0_dir : node_at t0 T = Some Dir.
Hypothesis valid : ff_valid fx b T t0 = true.

Definition suffix_of {A} (r l : list A) : Prop := exists d, l = d ++ r.

Definition on_track (ph : vphase) : Prop :=
  match ph with
  | VDirs r => suffix_of r (b_dirs b)
  | VLinks r => suffix_of r (b_links b)
  | VFiles r => suffix_of r (b_files b)
  | _ => True
  end.

Definition Idem (s : state) : Prop :=
  s_fs s = t0 /\ v_wd (s_v s) = [] /\
  (forall w, In w (v_pend (s_v s) ++ s_chan s) -> healthy w = true) /\
  s_wq s = [] /\ (forall q d, s_w s <> WWriting q d) /\ on_track (v_phase (s_v s)).

Lemma suffix_tail : forall A (x : A) r l, suffix_of (x :: r) l -> suffix_of r l /\ In x l.
Proof.
  intros A x r l [d E]. split.
  - exists (d ++ [x]). rewrite <- app_assoc. exact E.
  - rewrite E. apply in_or_app. right. left. reflexivity.
Qed.

Lemma suffix_refl : forall A (l : list A), suffix_of l l.
Proof. intros. exists []. reflexivity. Qed.

Lemma ff_parts :
  (forall d, In d (b_dirs b) -> clean (check_dir fx t0 T [] d) = true) /\
  (forall l dest, In (l, dest) (b_links b) -> clean (check_link fx t0 T [] l dest) = true) /\
  (forall f data, In (f, data) (b_files b) -> clean (check_file fx t0 T [] f data) = true).
Proof.
  unfold ff_valid in valid. apply andb_true_iff in valid as [H12 H3]. apply andb_true_iff in H12 as [H1 H2].
  rewrite forallb_forall in H1, H2, H3. repeat split.
  - exact H1.
  - intros l dest Hin. apply (H2 (l, dest) Hin).
  - intros f data Hin. apply (H3 (f, data) Hin).
Qed.

Lemma clean_wounds : forall v, clean v = true -> exists ws, v = Wounds ws /\ (forall w, In w ws -> healthy w = true).
Proof.
  intros [ws|e] H; [|discriminate]. exists ws. cbn in H. rewrite forallb_forall in H. auto.
Qed.

Lemma check_dir_clean_nil : forall d, clean (check_dir fx t0 T [] d) = true -> check_dir fx t0 T [] d = Wounds [].
Proof.
  intros d H. unfold check_dir in *. rewrite under_wd_nil in *.
  destruct (lstat t0 (T ++ d)) as [[| |]|e]; cbn in H; try discriminate; try reflexivity.
  destruct (is_missing fx e); cbn in H; discriminate.
Qed.

Lemma mkdir_all_same : mkdir_all t0 T = Ok t0.
Proof.
  unfold init_ok in t0_ok. apply andb_true_iff in t0_ok as [H1 _].
  apply mkdir_all_dir; [|exact t0_dir].
  intros a Ha. rewrite forallb_forall in H1. specialize (H1 a Ha). destruct (node_at t0 a) as [[| |]|]; congruence.
Qed.

Lemma idem_entry : forall ph w ph', on_track ph -> next_entry ph = Some (w, ph') ->
  on_track ph' /\
  exists ws, check_entry fx t0 T [] w = Wounds ws /\ (forall w', In w' ws -> healthy w' = true) /\
             taint w (Wounds ws) [] = [].
Proof.
  intros ph w ph' Hph Hn. destruct ff_parts as [Fd [Fl Ff]].
  destruct ph as [|[|d r]|[|[l dest] r]|[|[f data] r]| | |e]; inversion Hn; subst;
    destruct (suffix_tail _ _ _ _ Hph) as [Hsuf Hin]; (split; [exact Hsuf|]); cbn [check_entry].
  - exists []. rewrite (check_dir_clean_nil d (Fd d Hin)). repeat split. intros w' [].
  - destruct (clean_wounds _ (Fl l dest Hin)) as [ws [E Hws]]. exists ws. auto.
  - destruct (clean_wounds _ (Ff f data Hin)) as [ws [E Hws]]. exists ws. auto.
Qed.

Lemma idem_pass : forall ph ph', next_pass b ph = Some ph' -> on_track ph'.
Proof.
  intros [|[|]|[|[]]|[|[]]| | |] ph' H; inversion H; subst; cbn; auto using suffix_refl.
Qed.

Lemma idem_step : forall s i s', Idem s -> step fx cap b T s i = Some s' -> Idem s'.
Proof.
  intros s i s' [Hfs [Hwd [Hh [Hwq [Hw Hph]]]]] Hs. destruct i; cbn in Hs.
  - destruct (vstep_cases _ _ _ _ _ _ Hs) as [w ws Hp | w ph' Hp Hn | ph' Hp Hn | Hp E | Hp E]; rewrite Hp in Hh.
    + unfold Idem; cbn; repeat split; try assumption.
      intros w' Hin. apply Hh. cbn. rewrite !in_app_iff in *. cbn in Hin. tauto.
    + rewrite Hfs, Hwd. destruct (idem_entry _ _ _ Hph Hn) as [Hph' [ws [E [Hws Ht]]]]. cbv zeta. rewrite E, Ht.
      unfold Idem; cbn; repeat split; try assumption.
      intros w' Hin. apply in_app_or in Hin as [Hin | Hin]; auto.
    + unfold Idem; cbn; repeat split; try assumption. exact (idem_pass _ _ Hn).
    + rewrite Hfs, mkdir_all_same. unfold Idem; cbn; repeat split; try assumption. apply suffix_refl.
    + unfold Idem; cbn; repeat split; assumption.
  - (* healer: only healthy markers arrive *)
    unfold hstep in Hs. destruct (s_h s).
    + destruct (s_chan s) as [|w ch] eqn:Hch.
      * destruct (s_closed s); [|discriminate]. inversion Hs; subst s'. unfold Idem; cbn; repeat split; assumption.
      * assert (Hw' : healthy w = true) by (apply Hh, in_elt).
        destruct w; try discriminate. inversion Hs; subst s'. unfold Idem; cbn; repeat split; try assumption.
        intros w Hin. apply Hh. rewrite in_app_iff in *. cbn. tauto.
    + destruct (s_w s) eqn:Ew; try discriminate. inversion Hs; subst s'.
      unfold Idem; cbn; repeat split; try assumption. rewrite Ew. discriminate.
    + discriminate.
  - (* heal worker: its queue stays empty *)
    unfold wstep in Hs. destruct (s_w s) as [|q d|r] eqn:Ew.
    + rewrite Hwq in Hs. destruct (s_wq_closed s); [|discriminate]. inversion Hs; subst s'.
      unfold Idem; cbn; repeat split; try assumption; discriminate.
    + destruct (Hw q d eq_refl).
    + discriminate.
Qed.

Lemma run_Idem : forall sched s, Idem s -> Idem (run fx cap b T sched s).
Proof. exact (run_preserves fx cap b T _ idem_step). Qed.

Lemma init_Idem : Idem (init b t0).
Proof. unfold Idem, init. cbn. repeat split; try reflexivity; [intros w [] | discriminate]. Qed.

End Idempotent.
