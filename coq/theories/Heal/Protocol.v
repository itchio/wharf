(** Heal/Protocol.v — MODEL (definitions only, executable) of the goroutine / channel protocol of
    pwr.ValidatorContext.Validate (pwr/validator.go), the per-file wound relay of
    pwr.ValidatingPool.GetWriter (pwr/validatingpool.go) with pwr.AggregateWounds
    (pwr/wounds.go), and the wounds consumers (pwr/wounds.go, pwr/archive_healer.go).

    Goroutines:
      main      Validate itself: dir + symlink pass (sends wounds directly), `go validate`,
                the loop with the 3-way select over workerErrs / consumerErrs / fileIndices,
                close(fileIndices), <-workerErrs, close(Wounds), <-consumerErrs
      worker    vctx.validate: pools.New, for-select over fileIndices / cancelled, doOne
      consumer  consumerErrs <- WoundsConsumer.Do(...); then the drain loop `for range Wounds`
      aggregator + relay   the two goroutines GetWriter starts per file
      (environment: the context may be cancelled at any moment)
    Channels: Wounds (capacity [p_cap], 1024 in Go), workerErrs / consumerErrs (capacity 1),
    fileIndices (unbuffered: a rendezvous of main and worker), cancelled (closed or not),
    per-file wounds / originalWounds / woundsDone (unbuffered: rendezvous steps).

    Inputs of a run: what the dir/symlink pass finds ([p_pre]), whether pools.New fails,
    whether targetPool.Close() fails in the worker's deferred function ([p_closefail]: the
    function then returns without sending on workerErrs - the theorems need it to be false),
    per file what doOne does ([file]: whole-file wound, or the block markers before and after
    the size check, a size wound, an I/O error), the consumer as an arbitrary automaton
    ([consumer]), whether ctx is already cancelled.  Scheduling and select choices are the
    [action] taken at each step; the environment action [ACancel] cancels ctx.

    The aggregator's merge decisions depend on wound offsets; they are abstracted to the two
    booleans carried by [FBad] (contiguous with the pending wound / reaches MaxWoundSize), so
    every behaviour of the real aggregator is a behaviour of the model. *)
From Coq Require Import List Arith Bool.
Import ListNotations.

Inductive res := RNil | RErr.                 (* returned error: nil / non-nil *)
Inductive msg := Healthy | Bad.               (* on Wounds: CLOSED_FILE marker / real wound *)
Inductive fmsg := FHealthy | FBad (contig big : bool).   (* block validator -> aggregator *)
Inductive fmid := FMNone | FMShort | FMErr.   (* after io.Copy: sizes agree / size wound / io.Copy error *)
Inductive file :=
| FWhole                                      (* doWholeFileWound: select { Wounds <- w | <-cancelled } *)
| FOpenErr                                    (* GetWriter error: doOne returns err *)
| FData (ws1 : list fmsg) (mid : fmid) (ws2 : list fmsg).
     (* markers of the full blocks during io.Copy; size check; marker of the short last block at Close *)
Inductive pitem := PWound | PErr.             (* dir/symlink pass: a wound sent / `return err` *)

Record consumer := mkcons {
  c_start : option res;                       (* Some r: Do returns r without receiving *)
  c_msg : nat -> bool -> msg -> option res;   (* received k before; ctx cancelled?; message: Some r = return r *)
  c_closed : nat -> res;                      (* Wounds closed and empty after k messages *)
  c_ctx : nat -> option res                   (* Some r: Do selects on ctx.Done() and returns r *)
}.

Record params := mkparams {
  p_cap : nat; p_pre : list pitem; p_startfail : bool; p_files : list file;
  p_cons : consumer; p_ctx0 : bool;
  p_closefail : bool   (* targetPool.Close() fails in the worker's deferred function *) }.

(** program counters *)
Inductive mpc := MPre (items : list pitem) | MLoop | MRearmW | MRearmC | MCancel | MCloseFI
               | MWaitW | MCloseW | MWaitC | MRet.
Inductive wpc := WNone | WStart | WSelect | WWhole
               | WCopy (ws1 : list fmsg) (mid : fmid) (ws2 : list fmsg)
               | WMid (mid : fmid) (ws2 : list fmsg)
               | WFlush (ws2 : list fmsg) (e : res)
               | WCloseP (e : res) | WWaitDone (e : res)
               | WDefer (r : res)     (* the deferred function of vctx.validate: targetPool.Close(), then errs <- retErr *)
               | WSend (r : res) | WDone.
Inductive cpc := CStart | CDo (k : nat) | CSend (r : res) | CDrain | CDone.
Inductive rpc := RRecv | RSendW (m : msg) | RDoneSend.
Record pipe := mkpipe { a_last : bool; a_outs : list msg; a_inclosed : bool; a_outclosed : bool; r_pc : rpc }.

Record state := mkst {
  s_ctx : bool;            (* ctx cancelled *)
  s_canc : bool;           (* `cancelled` closed *)
  s_wch : list msg;        (* Wounds buffer, head = oldest *)
  s_wclosed : bool;        (* Wounds closed *)
  s_werr : option res;     (* workerErrs buffer *)
  s_cerr : option res;     (* consumerErrs buffer *)
  s_ficlosed : bool;       (* fileIndices closed *)
  s_main : mpc;
  s_ret : res;             (* main's retErr *)
  s_files : list file;     (* files main has not handed out yet *)
  s_wk : wpc;
  s_cons : cpc;
  s_pipe : option pipe }.

Definition set_ctx v s := mkst v (s_canc s) (s_wch s) (s_wclosed s) (s_werr s) (s_cerr s) (s_ficlosed s) (s_main s) (s_ret s) (s_files s) (s_wk s) (s_cons s) (s_pipe s).
Definition set_canc v s := mkst (s_ctx s) v (s_wch s) (s_wclosed s) (s_werr s) (s_cerr s) (s_ficlosed s) (s_main s) (s_ret s) (s_files s) (s_wk s) (s_cons s) (s_pipe s).
Definition set_wch v s := mkst (s_ctx s) (s_canc s) v (s_wclosed s) (s_werr s) (s_cerr s) (s_ficlosed s) (s_main s) (s_ret s) (s_files s) (s_wk s) (s_cons s) (s_pipe s).
Definition set_wclosed v s := mkst (s_ctx s) (s_canc s) (s_wch s) v (s_werr s) (s_cerr s) (s_ficlosed s) (s_main s) (s_ret s) (s_files s) (s_wk s) (s_cons s) (s_pipe s).
Definition set_werr v s := mkst (s_ctx s) (s_canc s) (s_wch s) (s_wclosed s) v (s_cerr s) (s_ficlosed s) (s_main s) (s_ret s) (s_files s) (s_wk s) (s_cons s) (s_pipe s).
Definition set_cerr v s := mkst (s_ctx s) (s_canc s) (s_wch s) (s_wclosed s) (s_werr s) v (s_ficlosed s) (s_main s) (s_ret s) (s_files s) (s_wk s) (s_cons s) (s_pipe s).
Definition set_ficlosed v s := mkst (s_ctx s) (s_canc s) (s_wch s) (s_wclosed s) (s_werr s) (s_cerr s) v (s_main s) (s_ret s) (s_files s) (s_wk s) (s_cons s) (s_pipe s).
Definition set_main v s := mkst (s_ctx s) (s_canc s) (s_wch s) (s_wclosed s) (s_werr s) (s_cerr s) (s_ficlosed s) v (s_ret s) (s_files s) (s_wk s) (s_cons s) (s_pipe s).
Definition set_ret v s := mkst (s_ctx s) (s_canc s) (s_wch s) (s_wclosed s) (s_werr s) (s_cerr s) (s_ficlosed s) (s_main s) v (s_files s) (s_wk s) (s_cons s) (s_pipe s).
Definition set_files v s := mkst (s_ctx s) (s_canc s) (s_wch s) (s_wclosed s) (s_werr s) (s_cerr s) (s_ficlosed s) (s_main s) (s_ret s) v (s_wk s) (s_cons s) (s_pipe s).
Definition set_wk v s := mkst (s_ctx s) (s_canc s) (s_wch s) (s_wclosed s) (s_werr s) (s_cerr s) (s_ficlosed s) (s_main s) (s_ret s) (s_files s) v (s_cons s) (s_pipe s).
Definition set_cons v s := mkst (s_ctx s) (s_canc s) (s_wch s) (s_wclosed s) (s_werr s) (s_cerr s) (s_ficlosed s) (s_main s) (s_ret s) (s_files s) (s_wk s) v (s_pipe s).
Definition set_pipe v s := mkst (s_ctx s) (s_canc s) (s_wch s) (s_wclosed s) (s_werr s) (s_cerr s) (s_ficlosed s) (s_main s) (s_ret s) (s_files s) (s_wk s) (s_cons s) v.

Definition init (p : params) : state :=
  mkst (p_ctx0 p) false [] false None None false (MPre (p_pre p)) RNil (p_files p) WNone CStart None.


(** what is scheduled next: a goroutine (with the select branch it takes) or a rendezvous *)
Inductive action :=
| ACancel     (* environment: ctx is cancelled *)
| AMain       (* main: its next step when it is not in the select (or the loop is over) *)
| AMainW      (* main select: workerErr := <-workerErrs *)
| AMainC      (* main select: consumerErr := <-consumerErrs *)
| AMainF      (* main select: fileIndices <- i, received by the worker's select *)
| AWk         (* worker: next step / first branch of its select *)
| AWkCanc     (* worker: the <-cancelled branch of its select *)
| ACons       (* consumer goroutine: next step / receive from Wounds *)
| AConsCtx    (* consumer: the <-ctx.Done() branch of Do's select *)
| AWA         (* validate closure -> aggregator (wounds <- &wound) *)
| AAgg        (* aggregator after its input was closed: flush lastWound / close(outWounds) *)
| AAR         (* aggregator -> relay (outWounds <- w) *)
| ARel        (* relay: vp.Wounds <- wound / sees originalWounds closed *)
| ARW.        (* relay -> worker (woundsDone <- true) *)

Definition room (p : params) (s : state) : bool := length (s_wch s) <? p_cap p.
Definition push (m : msg) (s : state) : state := set_wch (s_wch s ++ [m]) s.

Definition merge_ret (old e : res) : res := match old with RNil => e | RErr => RErr end.

Definition fresh_pipe : pipe := mkpipe false [] false false RRecv.

(** worker state right after it received file [f] from fileIndices *)
Definition start_wk (f : file) : wpc :=
  match f with
  | FWhole => WWhole
  | FOpenErr => WDefer RErr
  | FData ws1 mid ws2 => WCopy ws1 mid ws2
  end.
Definition start_pipe (f : file) : option pipe :=
  match f with FData _ _ _ => Some fresh_pipe | _ => None end.

(** AggregateWounds on one input: new lastWound flag and the wounds it sends out *)
Definition agg_in (last : bool) (m : fmsg) : bool * list msg :=
  match m with
  | FHealthy => if last then (false, [Bad; Healthy]) else (false, [Healthy])
  | FBad contig big =>
      if last then
        if contig then (if big then (false, [Bad]) else (true, []))
        else (true, [Bad])
      else (true, [])
  end.

Definition after_done (e : res) : wpc := match e with RNil => WSelect | RErr => WDefer RErr end.

Definition step (p : params) (a : action) (s : state) : option state :=
  match a with
  | ACancel => if s_ctx s then None else Some (set_ctx true s)
  | AMain =>
      match s_main s with
      | MPre [] => Some (set_main MLoop (set_wk WStart s))                  (* go vctx.validate(...) *)
      | MPre (PWound :: r) => if room p s then Some (set_main (MPre r) (push Bad s)) else None
      | MPre (PErr :: r) => Some (set_main MRet (set_ret RErr s))           (* return err *)
      | MLoop => match s_files s with [] => Some (set_main MCloseFI s) | _ => None end
      | MRearmW => match s_werr s with None => Some (set_main MCancel (set_werr (Some RNil) s)) | _ => None end
      | MRearmC => match s_cerr s with None => Some (set_main MCancel (set_cerr (Some RNil) s)) | _ => None end
      | MCancel => Some (set_main MCloseFI (set_canc true s))
      | MCloseFI => Some (set_main MWaitW (set_ficlosed true s))
      | MWaitW => match s_werr s with
                  | Some e => Some (set_main MCloseW (set_ret (merge_ret (s_ret s) e) (set_werr None s)))
                  | None => None end
      | MCloseW => Some (set_main MWaitC (set_wclosed true s))
      | MWaitC => match s_cerr s with
                  | Some e => Some (set_main MRet (set_ret (merge_ret (s_ret s) e) (set_cerr None s)))
                  | None => None end
      | MRet => None
      end
  | AMainW =>
      match s_main s, s_files s, s_werr s with
      | MLoop, _ :: _, Some e => Some (set_main MRearmW (set_ret e (set_werr None s)))
      | _, _, _ => None
      end
  | AMainC =>
      match s_main s, s_files s, s_cerr s with
      | MLoop, _ :: _, Some e => Some (set_main MRearmC (set_ret e (set_cerr None s)))
      | _, _, _ => None
      end
  | AMainF =>
      match s_main s, s_files s, s_wk s with
      | MLoop, f :: r, WSelect => Some (set_pipe (start_pipe f) (set_wk (start_wk f) (set_files r s)))
      | _, _, _ => None
      end
  | AWk =>
      match s_wk s with
      | WStart => Some (set_wk (if p_startfail p then WSend RErr else WSelect) s)
      | WSelect => if s_ficlosed s then Some (set_wk (WDefer RNil) s) else None
      | WWhole => if room p s then Some (set_wk WSelect (push Bad s)) else None
      | WCopy [] mid ws2 => Some (set_wk (WMid mid ws2) s)
      | WMid FMNone ws2 => Some (set_wk (WFlush ws2 RNil) s)
      | WMid FMErr ws2 => Some (set_wk (WFlush ws2 RErr) s)
      | WMid FMShort ws2 => if room p s then Some (set_wk (WFlush ws2 RNil) (push Bad s)) else None
      | WFlush [] e => Some (set_wk (WCloseP e) s)
      | WCloseP e =>
          match s_pipe s with
          | Some pp => Some (set_wk (WWaitDone e)
                               (set_pipe (Some (mkpipe (a_last pp) (a_outs pp) true (a_outclosed pp) (r_pc pp))) s))
          | None => None
          end
      | WDefer r => Some (set_wk (if p_closefail p then WDone else WSend r) s)
            (* `if err := targetPool.Close(); err != nil { retErr = ...; return }`: returns WITHOUT sending *)
      | WSend r => match s_werr s with None => Some (set_wk WDone (set_werr (Some r) s)) | _ => None end
      | _ => None
      end
  | AWkCanc =>
      if s_canc s then
        match s_wk s with
        | WSelect => Some (set_wk (WDefer RNil) s)
        | WWhole => Some (set_wk WSelect s)
        | WMid FMShort ws2 => Some (set_wk (WFlush ws2 RNil) s)
        | _ => None
        end
      else None
  | ACons =>
      match s_cons s with
      | CStart => Some (set_cons (match c_start (p_cons p) with Some r => CSend r | None => CDo 0 end) s)
      | CDo k =>
          match s_wch s with
          | m :: t => Some (set_cons (match c_msg (p_cons p) k (s_ctx s) m with Some r => CSend r | None => CDo (S k) end)
                                     (set_wch t s))
          | [] => if s_wclosed s then Some (set_cons (CSend (c_closed (p_cons p) k)) s) else None
          end
      | CSend r => match s_cerr s with None => Some (set_cons CDrain (set_cerr (Some r) s)) | _ => None end
      | CDrain =>
          match s_wch s with
          | _ :: t => Some (set_wch t s)
          | [] => if s_wclosed s then Some (set_cons CDone s) else None
          end
      | CDone => None
      end
  | AConsCtx =>
      match s_cons s with
      | CDo k => if s_ctx s then
                   match c_ctx (p_cons p) k with Some r => Some (set_cons (CSend r) s) | None => None end
                 else None
      | _ => None
      end
  | AWA =>
      match s_pipe s with
      | Some pp =>
          match a_outs pp, a_inclosed pp with
          | [], false =>
              match s_wk s with
              | WCopy (m :: t) mid ws2 =>
                  let '(l, o) := agg_in (a_last pp) m in
                  Some (set_wk (WCopy t mid ws2) (set_pipe (Some (mkpipe l o false (a_outclosed pp) (r_pc pp))) s))
              | WFlush (m :: t) e =>
                  let '(l, o) := agg_in (a_last pp) m in
                  Some (set_wk (WFlush t e) (set_pipe (Some (mkpipe l o false (a_outclosed pp) (r_pc pp))) s))
              | _ => None
              end
          | _, _ => None
          end
      | None => None
      end
  | AAgg =>
      match s_pipe s with
      | Some pp =>
          match a_outs pp, a_inclosed pp with
          | [], true =>
              if a_last pp then Some (set_pipe (Some (mkpipe false [Bad] true (a_outclosed pp) (r_pc pp))) s)
              else if a_outclosed pp then None
              else Some (set_pipe (Some (mkpipe false [] true true (r_pc pp))) s)
          | _, _ => None
          end
      | None => None
      end
  | AAR =>
      match s_pipe s with
      | Some pp =>
          match a_outs pp, r_pc pp with
          | m :: t, RRecv => Some (set_pipe (Some (mkpipe (a_last pp) t (a_inclosed pp) (a_outclosed pp) (RSendW m))) s)
          | _, _ => None
          end
      | None => None
      end
  | ARel =>
      match s_pipe s with
      | Some pp =>
          match r_pc pp with
          | RSendW m => if room p s
                        then Some (set_pipe (Some (mkpipe (a_last pp) (a_outs pp) (a_inclosed pp) (a_outclosed pp) RRecv)) (push m s))
                        else None
          | RRecv => if a_outclosed pp
                     then Some (set_pipe (Some (mkpipe (a_last pp) (a_outs pp) (a_inclosed pp) (a_outclosed pp) RDoneSend)) s)
                     else None
          | RDoneSend => None
          end
      | None => None
      end
  | ARW =>
      match s_pipe s, s_wk s with
      | Some pp, WWaitDone e =>
          match r_pc pp with
          | RDoneSend => Some (set_wk (after_done e) (set_pipe None s))
          | _ => None
          end
      | _, _ => None
      end
  end.

Fixpoint run (p : params) (acts : list action) (s : state) : option state :=
  match acts with
  | [] => Some s
  | a :: r => match step p a s with Some s' => run p r s' | None => None end
  end.

Definition all_actions : list action :=
  [ACancel; AMain; AMainW; AMainC; AMainF; AWk; AWkCanc; ACons; AConsCtx; AWA; AAgg; AAR; ARel; ARW].
Definition goroutine_actions : list action := tl all_actions.

(** ---- the consumers of pwr/wounds.go and pwr/archive_healer.go as automata ---- *)

(** WoundsGuardian after the fix: first non-healthy wound => error; ctx.Done => ErrCancelled *)
Definition guardian : consumer :=
  mkcons None (fun _ _ m => match m with Bad => Some RErr | Healthy => None end) (fun _ => RNil) (fun _ => Some RErr).
(** WoundsGuardian of the unchanged tree: ctx.Done => nil *)
Definition guardian_unfixed : consumer :=
  mkcons None (fun _ _ m => match m with Bad => Some RErr | Healthy => None end) (fun _ => RNil) (fun _ => Some RNil).
(** WoundsWriter (file can be written) / WoundsPrinter: never fail; ctx.Done => nil *)
Definition quiet : consumer := mkcons None (fun _ _ _ => None) (fun _ => RNil) (fun _ => Some RNil).
(** a consumer that returns [r] once it has received [n] messages (n = 0: at once), ignoring ctx *)
Definition returns_after (n : nat) (r : res) : consumer :=
  mkcons (match n with O => Some r | _ => None end) (fun k _ _ => if n <=? S k then Some r else None) (fun _ => RNil) (fun _ => None).
(** WoundsWriter whose file cannot be created: error at the first non-healthy wound, ctx.Done =>
    nil (the same automaton as [guardian_unfixed]; the count of non-healthy wounds is not part of
    [c_msg]'s view, so the n-th-wound variant is CKFailAtBad of Exec/C16.v, on message counts) *)
Definition fails_on_bad : consumer :=
  mkcons None (fun _ _ m => match m with Bad => Some RErr | Healthy => None end) (fun _ => RNil) (fun _ => Some RNil).
(** ArchiveHealer: checks ctx after each receive (ErrCancelled); [bad_archive]: healing fails, the
    error surfaces on a later wound or at the end (any message may be the one: nondeterminism
    is resolved by [fail_at]) *)
Definition healer (fail_at : option nat) : consumer :=
  mkcons None
         (fun k ctx m => if ctx then Some RErr else
                         match fail_at, m with
                         | Some n, Bad => if n <=? S k then Some RErr else None
                         | _, _ => None
                         end)
         (fun k => match fail_at with Some _ => RErr | None => RNil end)
         (fun _ => None).

(** the directory matches the signature: nothing for the dir/symlink pass to report, every file
    yields healthy markers only *)
Definition fmsg_clean (m : fmsg) : bool := match m with FHealthy => true | FBad _ _ => false end.
Definition file_clean (f : file) : bool :=
  match f with
  | FData ws1 FMNone ws2 => forallb fmsg_clean ws1 && forallb fmsg_clean ws2
  | _ => false
  end.
Definition clean (p : params) : bool :=
  match p_pre p with [] => forallb file_clean (p_files p) | _ => false end.

(** potential function: every step strictly decreases it (Heal/ProtocolProofs.v) *)
Definition w_mid (m : fmid) : nat := match m with FMShort => 2 | _ => 0 end.
Definition w_wk (w : wpc) : nat :=
  match w with
  | WDone => 0 | WSend _ => 1 | WDefer _ => 2 | WSelect => 3 | WWaitDone _ => 4 | WCloseP _ => 5
  | WFlush ws2 _ => 6 + 5 * length ws2
  | WMid mid ws2 => 7 + w_mid mid + 5 * length ws2
  | WCopy ws1 mid ws2 => 8 + 5 * length ws1 + w_mid mid + 5 * length ws2
  | WWhole => 5 | WStart => 4 | WNone => 4
  end.
Definition w_file (f : file) : nat := S (w_wk (start_wk f)).
Definition w_files (l : list file) : nat := fold_right (fun f n => w_file f + n) 0 l.
Definition w_pitem (i : pitem) : nat := match i with PWound => 2 | PErr => 1 end.
Definition w_main (m : mpc) : nat :=
  match m with
  | MRet => 0 | MWaitC => 1 | MCloseW => 2 | MWaitW => 3 | MCloseFI => 4 | MCancel => 5
  | MRearmW => 6 | MRearmC => 6 | MLoop => 7
  | MPre items => 12 + fold_right (fun i n => w_pitem i + n) 0 items
  end.
Definition w_cons (c : cpc) : nat :=
  match c with CStart => 4 | CDo _ => 3 | CSend _ => 2 | CDrain => 1 | CDone => 0 end.
Definition w_rpc (r : rpc) : nat := match r with RRecv => 1 | RSendW _ => 3 | RDoneSend => 0 end.
Definition w_pipe (o : option pipe) : nat :=
  match o with
  | None => 0
  | Some pp => (if a_last pp then 4 else 0) + 3 * length (a_outs pp) + (if a_outclosed pp then 0 else 1) + w_rpc (r_pc pp)
  end.
Definition measure (s : state) : nat :=
  (if s_ctx s then 0 else 1) + w_main (s_main s) + w_files (s_files s) + w_wk (s_wk s)
  + w_pipe (s_pipe s) + w_cons (s_cons s) + length (s_wch s).
