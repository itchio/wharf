(** C06 proofs, part 7: the granular system of [Heal/Granular.v] (one filesystem operation per
    step) REFINES the atomic system of [Heal/Healer.v] (one entry check / one [processWound] /
    one [GetWriter] per step), for the repaired code.

    The abstraction [abs] finishes the [processWound] / [GetWriter] in progress and forgets the
    validator's half-done entry check.  Every granular step is then either invisible
    ([abs g' = abs g], and the number of operations left inside the calls in progress goes
    down) or exactly one step of the atomic system from [abs g] to [abs g'].  The commutations
    that make this work:
    - the healer inside [processWound] for entry [e] and the worker inside [GetWriter] for a file
      [e] change the tree at and below [T ++ e] only ([frame]); they are never active at the same
      time, and the validator never writes after [MkdirAll(target)];
    - the entry [e'] the validator is checking has no wound yet, so [e' <> e]; if [e'] is below
      [e], then [e] is a wounded directory and the repaired validator does not look at the disk
      for [e'] ([apart]); otherwise Lstat / Readlink / read of [T ++ e'] give the same answers on
      the current tree and on the tree with the call in progress finished ([agree]);
    - between the validator's Lstat and its Readlink / read of the same entry nobody touches
      that entry.
    All invariants of the atomic system ([Inv], [Inv2]) hold of [abs g] for free, because
    [abs g] is reachable in the atomic system. *)
From Coq Require Import Arith Lia.
From Wharf Require Import Base.StepSystem FS.Light FS.Tree FS.TreeProofs FS.Ops FS.OpsProofs
     Heal.Validator Heal.Healer Heal.HealLemmas Heal.HealProofs Heal.HealMeasure Heal.HealMain
     Heal.HealInv2 Heal.Granular Heal.Repair.

Section Ops.
Variable T : path.

Lemma hop_err_complete : forall pc t e, hop T pc t = Err e -> complete_h T pc t = Err e.
Proof. intros pc t e H. rewrite complete_h_hop, H. reflexivity. Qed.

Lemma wop_err_complete : forall pc t e, pc <> WP0 -> wop T pc t = Err e -> complete_w T pc t = Err e.
Proof. intros pc t e _ H. rewrite complete_w_wop, H. reflexivity. Qed.

Definition hwound (pc : hpc) : option wound :=
  match pc with
  | HP0 => None
  | HPDirLstat d | HPDirRemove d | HPDirMkdir d => Some (WDir d)
  | HPLinkMkdir l dest | HPLinkLstat l dest | HPLinkRemoveAll l dest | HPLinkRemove l dest
  | HPLinkSymlink l dest => Some (WLink l dest)
  end.

(** what the healer knows about the entry from its previous operation *)
Definition hfact (pc : hpc) (t : tree) : Prop :=
  match pc with
  | HPDirRemove d | HPLinkRemove d _ => exists n, lookup t (T ++ d) = Some n /\ n <> Dir
  | HPDirMkdir d | HPLinkSymlink d _ => node_at t (T ++ d) = None
  | _ => True
  end.

Definition wfile (pc : wpc) : option (path * list N) :=
  match pc with
  | WP0 => None
  | WPMkdir f d | WPLstat f d | WPRemoveAll f d | WPRemove f d | WPOpen f d => Some (f, d)
  end.

Definition wfact (pc : wpc) (t : tree) : Prop :=
  match pc with
  | WPRemove f _ => exists n, lookup t (T ++ f) = Some n /\ n <> Dir
  | WPOpen f _ => node_at t (T ++ f) = None \/ exists d, node_at t (T ++ f) = Some (File d)
  | _ => True
  end.

Lemma wfile_data : forall pc f data, wfile pc = Some (f, data) -> wpc_data pc = data /\ pc <> WP0.
Proof. intros pc f data H. destruct pc; cbn in H; inversion H; (split; [reflexivity | discriminate]). Qed.

Definition same_reads (t A : tree) (q : path) : Prop :=
  lit A q /\ lstat t q = lstat A q /\ readlink t q = readlink A q /\
  ((forall d, node_at A q <> Some (Link d)) -> read_file t q = read_file A q).

Lemma same_reads_refl : forall t q, lit t q -> same_reads t t q.
Proof. intros t q H. repeat split. exact H. Qed.

Lemma reads_frame : forall p t t' q, frame p t t' -> is_prefix p q = false -> lit t' q -> same_reads t t' q.
Proof.
  intros p t t' q Hf Hq Hl.
  assert (E : node_at t q = node_at t' q) by (symmetry; apply Hf, Hq).
  assert (Hl0 : lit t q).
  { intros a Ha. rewrite <- (Hf a); [apply Hl; exact Ha|].
    apply is_prefix_false. intros [r Er]. apply prefixes_spec in Ha as [r' [_ E']].
    apply is_prefix_false in Hq. apply Hq. exists (r ++ r'). rewrite E', Er, app_assoc. reflexivity. }
  split; [exact Hl | split; [|split]].
  - rewrite !lstat_lit by assumption. rewrite E. reflexivity.
  - rewrite !readlink_lit by assumption. rewrite E. reflexivity.
  - intro Hn. rewrite !read_file_lit; try assumption; rewrite E; [reflexivity | exact Hn].
Qed.

End Ops.

Section Overlay.
Variable T : path.

Definition ov (A : tree) (W : wphase) (s : state) : state :=
  mkS A (s_v s) (s_chan s) (s_closed s) (s_h s) (s_queued s) (s_wq s) (s_wq_closed s) W.

(** tree / worker phase of [abs]: [abs T g = ov (afs g) (aws g) (g_s g)] ([abs_ov]), where
    [fh] / [fw] finish the healer's / the worker's call on the tree (the tree as it is if the
    call fails or nobody is inside one) and [ww] gives the worker's phase after its call *)
Definition fh (h : hpc) (t : tree) : tree :=
  match complete_h T h t with Ok t' => t' | Err _ => t end.

Definition fw (w : wpc) (t : tree) : tree :=
  match complete_w T w t with Ok (t', _) => t' | Err _ => t end.

Definition ww (w : wpc) (t : tree) (sw : wphase) : wphase :=
  match complete_w T w t with Ok (_, q) => WWriting q (wpc_data w) | Err _ => sw end.

Lemma ov_same : forall s, ov (s_fs s) (s_w s) s = s.
Proof. intros []. reflexivity. Qed.

Lemma abs_h_ov : forall h s, abs_h T h s = ov (fh h (s_fs s)) (s_w s) s.
Proof.
  intros h s. unfold fh. destruct h; cbn [abs_h]; try (symmetry; apply ov_same);
    (destruct (complete_h T _ (s_fs s)); [reflexivity | symmetry; apply ov_same]).
Qed.

Lemma abs_w_ov : forall w s, abs_w T w s = ov (fw w (s_fs s)) (ww w (s_fs s) (s_w s)) s.
Proof.
  intros w s. unfold fw, ww. destruct w; cbn [abs_w]; try (symmetry; apply ov_same);
    (destruct (complete_w T _ (s_fs s)) as [[? ?]|]; [reflexivity | symmetry; apply ov_same]).
Qed.

Definition afs (g : gstate) : tree := fw (g_w g) (fh (g_h g) (s_fs (g_s g))).
Definition aws (g : gstate) : wphase := ww (g_w g) (fh (g_h g) (s_fs (g_s g))) (s_w (g_s g)).

Lemma abs_ov : forall g, abs T g = ov (afs g) (aws g) (g_s g).
Proof.
  intros [s pv h w]. unfold abs, afs, aws. cbn [g_s g_h g_w]. rewrite abs_w_ov, abs_h_ov. reflexivity.
Qed.

Lemma abs_fs : forall g, s_fs (abs T g) = afs g.
Proof. intro g. rewrite abs_ov. reflexivity. Qed.

Lemma abs_quiet : forall s pv, abs T (mkG s pv HP0 WP0) = s.
Proof. reflexivity. Qed.

Lemma abs_heal : forall s pv h A, complete_h T h (s_fs s) = Ok A -> abs T (mkG s pv h WP0) = set_fs s A.
Proof.
  intros s pv h A H. rewrite abs_ov. unfold afs, aws, fw, ww, fh. cbn [g_s g_h g_w complete_w]. rewrite H. reflexivity.
Qed.

Lemma abs_write : forall s pv w A q, complete_w T w (s_fs s) = Ok (A, q) ->
  abs T (mkG s pv HP0 w) = set_fs_wq_w s A (s_wq s) (WWriting q (wpc_data w)).
Proof.
  intros s pv w A q H. rewrite abs_ov. unfold afs, aws, fw, ww, fh. cbn [g_s g_h g_w complete_h]. rewrite H. reflexivity.
Qed.

Lemma ov_fields : forall A W s,
  s_v (ov A W s) = s_v s /\ s_chan (ov A W s) = s_chan s /\ s_closed (ov A W s) = s_closed s /\
  s_h (ov A W s) = s_h s /\ s_queued (ov A W s) = s_queued s /\ s_wq (ov A W s) = s_wq s /\
  s_wq_closed (ov A W s) = s_wq_closed s /\ pend (ov A W s) = pend s.
Proof. intros. repeat split. Qed.

End Overlay.

(** what a validator step leaves alone *)
Section VMono.
Variable b : build.

Record vmono (s s' : state) : Prop := mkVmono {
  vm_fs : s_fs s' = s_fs s;
  vm_h : s_h s' = s_h s;
  vm_w : s_w s' = s_w s;
  vm_wq : s_wq s' = s_wq s;
  vm_q : s_queued s' = s_queued s;
  vm_ph : v_phase (s_v s') <> VInit;
  vm_todo : incl (todo b (v_phase (s_v s'))) (todo b (v_phase (s_v s)));
  vm_wd : incl (v_wd (s_v s)) (v_wd (s_v s')) }.

Lemma vmono_set_v : forall s ph ws wd,
  ph <> VInit -> incl (todo b ph) (todo b (v_phase (s_v s))) ->
  incl (v_wd (s_v s)) wd -> vmono s (set_v s (mkV ph ws wd)).
Proof. intros. constructor; cbn; auto. Qed.

Lemma vmono_after_check : forall s next wd v,
  next <> VInit -> incl (todo b next) (todo b (v_phase (s_v s))) ->
  incl (v_wd (s_v s)) wd -> vmono s (after_check s next wd v).
Proof.
  intros s next wd [ws|e] H1 H2 H3; cbn [after_check]; apply vmono_set_v; auto.
  - discriminate.
  - apply incl_nil_l.
  - apply incl_refl.
Qed.

Lemma vstep_vmono : forall fx cap T s s', vstep fx cap b T s = Some s' ->
  v_phase (s_v s) <> VInit -> vmono s s'.
Proof.
  intros fx cap T s s' Hs Hph.
  destruct (vstep_cases _ _ _ _ _ _ Hs) as [w ws Hp | w ph' Hp Hn | ph' Hp Hn | Hp E | Hp E].
  - constructor; cbn; auto using incl_refl.
  - destruct (next_entry_todo b _ _ _ Hn) as (e & _ & Ht & _ & _ & Hi).
    apply vmono_after_check; [exact Hi | rewrite Ht; apply incl_tl, incl_refl | apply taint_incl].
  - destruct (next_pass_todo b _ _ Hn) as (Ht & _ & Hi).
    apply vmono_set_v; [exact Hi | rewrite Ht; apply incl_refl | apply incl_refl].
  - contradiction.
  - constructor; cbn; auto using incl_refl, incl_nil_l. discriminate.
Qed.

End VMono.

Section StepOv.
Variable T : path.

Lemma after_check_ov : forall A W s next wd v,
  after_check (ov A W s) next wd v = ov A W (after_check s next wd v).
Proof. intros A W s next wd [ws|e]; reflexivity. Qed.

Lemma check_entry_reads : forall fx t A wd w,
  (under_wd fx wd (wp w) = false -> same_reads t A (T ++ wp w)) ->
  check_entry fx A T wd w = check_entry fx t T wd w.
Proof.
  intros fx t A wd [d | l dest | f data | f] H; cbn [check_entry wp] in *;
    [unfold check_dir | unfold check_link | unfold check_file | reflexivity];
    (destruct (under_wd fx wd _); [reflexivity|]); destruct (H eq_refl) as (Hl & El & Er & E); rewrite El.
  - reflexivity.
  - rewrite Er. reflexivity.
  - destruct (lstat A (T ++ f)) as [[| |]|] eqn:X; try reflexivity;
      rewrite E; try reflexivity; intros d Y; rewrite lstat_lit, Y in X by exact Hl; discriminate.
Qed.

(** the healer looks at the worker only to see whether it has returned *)
Definition exited (W : wphase) : option (res unit) := match W with WExit r => Some r | _ => None end.

Definition no_dl_head (s : state) : Prop :=
  forall w ch, s_h s = HRun -> s_chan s = w :: ch -> is_dl w = false.

(** a healer step that does not process a DIR / SYMLINK wound does not look at the tree *)
Lemma hstep_ov : forall A W s,
  exited W = exited (s_w s) ->
  no_dl_head s ->
  hstep T (ov A W s) = option_map (ov A W) (hstep T s).
Proof.
  intros A W s HW Hdl. unfold hstep. cbn [ov s_v s_chan s_fs s_closed s_h s_queued s_wq s_wq_closed s_w].
  destruct (s_h s) eqn:Hh.
  - destruct (s_chan s) as [|w ch] eqn:Hch; [destruct (s_closed s); reflexivity|].
    specialize (Hdl w ch Hh Hch). destruct w as [d | l dest | f data | f]; try discriminate; [|reflexivity].
    destruct (existsb (path_eqb f) (s_queued s)); [reflexivity|].
    destruct W as [| |r1], (s_w s) as [| |r2]; try discriminate; try reflexivity. inversion HW; subst. destruct r2; reflexivity.
  - destruct W as [| |r1], (s_w s) as [| |r2]; try discriminate; try reflexivity. inversion HW; subst. reflexivity.
  - reflexivity.
Qed.

Lemma hstep_quiet : forall s s',
  hstep T s = Some s' ->
  no_dl_head s ->
  s_fs s' = s_fs s /\ s_v s' = s_v s /\ s_w s' = s_w s /\ incl (s_queued s) (s_queued s').
Proof.
  intros s s' Hs Hdl.
  destruct (hstep_cases T s s' Hs) as [w ch Hh Hch Hc | w ch Hh Hch Hc | f data ch Hh Hch Hc | f data ch e Hh Hch Hc | Hh Hch Hcl | r Hh Hc];
    cbn; repeat split; auto using incl_refl, incl_tl.
  all: specialize (Hdl w ch Hh Hch); destruct w; discriminate.
Qed.

End StepOv.

Section Sim.
Variable cap : nat.
Hypothesis cap_pos : 0 < cap.
Variable b : build.
Hypothesis wf : wf_build b = true.
Variable T : path.

Local Notation abs := (abs T).
Local Notation step := (step fixed cap b T).
Local Notation gstep := (gstep fixed cap b T).
Local Notation gvstep := (gvstep fixed cap b T).
Local Notation ghstep := (ghstep T).
Local Notation gwstep := (gwstep T).
Local Notation INV := (INV b T).
Local Notation Inv := (Inv b T).
Local Notation Inv2 := (Inv2 b).
Local Notation todo := (todo b).

Definition cur (ph : vphase) : option path :=
  match ph with
  | VDirs (d :: _) => Some d
  | VLinks ((l, _) :: _) => Some l
  | VFiles ((f, _) :: _) => Some f
  | _ => None
  end.

(** the validator between the two calls of one check, for either variant of the code and on
    any tree; the second disjunct of [LvP] below is [vmid fixed v A] *)
Definition vmid (fx : fixes) (v : vstate) (t : tree) : Prop :=
  v_pend v = [] /\
  match v_phase v with
  | VLinks ((l, _) :: _) =>
      under_wd fx (v_wd v) l = false /\ (forall n, lstat t (T ++ l) = Ok n -> exists d, n = Link d)
  | VFiles ((f, _) :: _) =>
      under_wd fx (v_wd v) f = false /\ (forall n, lstat t (T ++ f) = Ok n -> exists d, n = File d)
  | _ => False
  end.

(** the validator between the two calls of one check: the Lstat result that let it go on still
    holds (on the abstract tree) *)
Definition LvP (pv : vpc) (v : vstate) (A : tree) : Prop :=
  pv = VP0 \/
  (v_pend v = [] /\
   match v_phase v with
   | VLinks ((l, _) :: _) =>
       under_wd fixed (v_wd v) l = false /\ (forall n, lstat A (T ++ l) = Ok n -> exists d, n = Link d)
   | VFiles ((f, _) :: _) =>
       under_wd fixed (v_wd v) f = false /\ (forall n, lstat A (T ++ f) = Ok n -> exists d, n = File d)
   | _ => False
   end).

(** the healer inside [processWound]: nobody else writes, the entry's ancestors are real
    directories, the validator is past the entry *)
Definition Lh (g : gstate) : Prop :=
  g_h g = HP0 \/
  exists w p, hwound (g_h g) = Some w /\ wpath w = Some p /\ wound_ok b w /\
    lit (g_fs g) (T ++ p) /\ hfact T (g_h g) (g_fs g) /\
    s_h (g_s g) = HRun /\ g_w g = WP0 /\ s_w (g_s g) = WIdle /\ s_wq (g_s g) = [] /\
    s_queued (g_s g) = [] /\ v_phase (s_v (g_s g)) <> VInit /\
    ~ In p (todo (v_phase (s_v (g_s g)))) /\
    (forall d, w = WDir d -> In d (v_wd (s_v (g_s g)))).

(** the worker inside [GetWriter] *)
Definition Lw (g : gstate) : Prop :=
  g_w g = WP0 \/
  exists f data, wfile (g_w g) = Some (f, data) /\ In (f, data) (b_files b) /\
    lit (g_fs g) (T ++ f) /\ wfact T (g_w g) (g_fs g) /\
    s_w (g_s g) = WIdle /\ In f (s_queued (g_s g)) /\ v_phase (s_v (g_s g)) <> VInit.

Record GI (g : gstate) : Prop := mkGI {
  gi_inv : INV (abs g);
  gi_inv2 : Inv2 (abs g);
  gi_v : LvP (g_v g) (s_v (g_s g)) (s_fs (abs g));
  gi_h : Lh g;
  gi_w : Lw g }.

Lemma wound_path_ne : forall w p, wound_ok b w -> wpath w = Some p -> p <> [] /\ In p (all_paths b).
Proof.
  intros w p Hok Hp. pose proof (wound_ok_path b w p Hok Hp) as Hin.
  split; [apply (wf_nonempty b wf); exact Hin | exact Hin].
Qed.

Lemma cur_next : forall ph e, cur ph = Some e ->
  exists w ph', next_entry ph = Some (w, ph') /\ wpath w = Some e /\ In e (todo ph).
Proof.
  intros [|[|d r]|[|[l dest] r]|[|[f data] r]| | |x] e H; inversion H; subst; eexists _, _;
    (split; [reflexivity | split; [reflexivity | left; reflexivity]]).
Qed.

Lemma cur_spec : forall s e, Inv s -> cur (v_phase (s_v s)) = Some e ->
  In e (all_paths b) /\ In e (todo (v_phase (s_v s))) /\
  (under_wd fixed (v_wd (s_v s)) e = false -> lit (s_fs s) (T ++ e)).
Proof.
  intros s e HI Hc. destruct (cur_next _ _ Hc) as (w & ph' & En & Hw & Htodo).
  destruct (i_prog _ _ _ HI) as [dd [dl [df [Hpr [Hcl Hwd]]]]].
  destruct (progress_entry b wf _ _ _ _ _ _ Hpr En) as [_ [p [Hok [Hp Hanc]]]].
  rewrite Hw in Hp. inversion Hp; subst p.
  split; [eapply wound_ok_path; eassumption | split; [exact Htodo|]].
  intro U. apply anc_lit; [apply (i_base _ _ _ HI) | eapply anc_from_claims; eassumption].
Qed.

(** an entry somebody is repairing: a symlink, a file or a wounded directory, already checked *)
Definition repaired (v : vstate) (p : path) : Prop :=
  ~ In p (todo (v_phase v)) /\
  (In p (map fst (b_links b) ++ map fst (b_files b)) \/ (p <> [] /\ In p (v_wd v))).

(** nothing is listed below a symlink or file, and below a wounded directory the repaired
    validator does not look at the disk *)
Lemma apart : forall v p e, repaired v p -> In e (all_paths b) -> In e (todo (v_phase v)) ->
  under_wd fixed (v_wd v) e = false -> is_prefix p e = false.
Proof.
  intros v p e [Hnt Hk] Hall Htodo U. destruct (is_prefix p e) eqn:E; [exfalso | reflexivity].
  destruct Hk as [Hlf | [Hne Hwd]].
  - rewrite (wf_no_below b wf p Hlf e Hall E) in Htodo. contradiction.
  - apply is_prefix_spec in E as [[|x r] E].
    + rewrite app_nil_r in E. subst e. contradiction.
    + eapply (under_wd_false _ _ U p); [apply prefixes_spec; exists (x :: r); split; [discriminate | exact E] | exact Hne | exact Hwd].
Qed.

Lemma wound_repaired : forall h w p v, hwound h = Some w -> wpath w = Some p -> wound_ok b w ->
  ~ In p (todo (v_phase v)) -> (forall d, w = WDir d -> In d (v_wd v)) -> repaired v p.
Proof.
  intros h w p v Hh Hp Hok Hnt Hwd. split; [exact Hnt|].
  destruct w as [d | l dest | f data | f]; inversion Hp; subst p.
  - right. split; [apply (wound_path_ne (WDir d) d Hok Hp) | apply Hwd; reflexivity].
  - left. eapply in_lf_link, Hok.
  - destruct h; discriminate.
Qed.

Lemma file_repaired : forall s f data, Inv2 s -> In f (s_queued s) -> In (f, data) (b_files b) -> repaired (s_v s) f.
Proof. intros s f data H2 Hq Hfb. split; [apply (i2_qtodo _ _ H2 f Hq) | left; eapply in_lf_file, Hfb]. Qed.

(** either nobody is inside a call ([abs g = g_s g]), or exactly one of healer / worker is, on
    a repaired entry [p], and [abs g] is [g_s g] with a tree [A] that differs from the current
    one at and below [T ++ p] only *)
Inductive shape (g : gstate) : Prop :=
| ShQuiet : g_h g = HP0 -> g_w g = WP0 -> abs g = g_s g -> shape g
| ShBusy : forall p A W, repaired (s_v (g_s g)) p -> frame (T ++ p) (g_fs g) A -> abs g = ov A W (g_s g) ->
    (g_w g = WP0 /\ W = s_w (g_s g) /\ s_h (g_s g) = HRun) \/ (g_h g = HP0 /\ exists q d, W = WWriting q d) ->
    shape g.

Lemma get_shape : forall g, GI g -> shape g.
Proof.
  intros [s pv h w] [_ H2 _ Hh Hw]. unfold Lh, Lw, g_fs in *. cbn [g_s g_h g_w] in *.
  destruct Hh as [-> | (wd & p & H1 & H3 & H4 & H5 & H6 & H7 & -> & _ & _ & _ & _ & H12 & H13)].
  - destruct Hw as [-> | (f & data & H1 & H3 & H4 & H5 & _ & H7 & _)]; [apply ShQuiet; reflexivity|].
    assert (Hne : f <> []) by (eapply (wf_nonempty b wf), in_all_file, H3).
    destruct (complete_w_spec T w (s_fs s) f data H1 Hne H4 H5) as [A [HA [HfA _]]].
    apply (ShBusy _ f A (WWriting (T ++ f) (wpc_data w))); [| exact HfA | apply abs_write, HA | right; eauto].
    pose proof (file_repaired _ f data H2) as X. rewrite abs_ov in X. exact (X H7 H3).
  - pose proof (proj1 (wound_path_ne wd p H4 H3)) as Hne. pose proof (wpath_wp _ _ H3) as Ep. subst p.
    destruct (complete_h_spec T h (s_fs s) wd H1 Hne H5 H6) as [A [HA [HfA _]]].
    apply (ShBusy _ (wp wd) A (s_w s)); [| exact (touch_frame T _ _ _ HfA) | apply abs_heal, HA | left; auto].
    eapply wound_repaired; eassumption.
Qed.

(** THE COMMUTATION: what the validator reads for the entry it is checking is the same on the
    current tree and on the tree with the call in progress finished *)
Lemma agree : forall g e, GI g -> v_phase (s_v (g_s g)) <> VInit ->
  cur (v_phase (s_v (g_s g))) = Some e -> under_wd fixed (v_wd (s_v (g_s g))) e = false ->
  lit (s_fs (abs g)) (T ++ e) /\
  lstat (g_fs g) (T ++ e) = lstat (s_fs (abs g)) (T ++ e) /\
  readlink (g_fs g) (T ++ e) = readlink (s_fs (abs g)) (T ++ e) /\
  ((forall d, node_at (s_fs (abs g)) (T ++ e) <> Some (Link d)) ->
   read_file (g_fs g) (T ++ e) = read_file (s_fs (abs g)) (T ++ e)).
Proof.
  intros g e HG Hph Hc U.
  assert (Ev : s_v (abs g) = s_v (g_s g)) by (rewrite abs_ov; reflexivity).
  assert (HI : Inv (abs g)) by (apply INV_Inv; [apply HG | left; rewrite Ev; exact Hph]).
  destruct (cur_spec (abs g) e HI) as [Hall [Htodo Hlit]]; [rewrite Ev; exact Hc|].
  rewrite Ev in Htodo, Hlit. specialize (Hlit U).
  destruct (get_shape g HG) as [_ _ Ea | p A W Hrep Hfr Ea _]; rewrite Ea in *.
  - apply same_reads_refl. exact Hlit.
  - apply (reads_frame (T ++ p)); [exact Hfr | rewrite is_prefix_T; eapply apart; eassumption | exact Hlit].
Qed.

Lemma Lh_vmono : forall s s' pv pv' h w, vmono b s s' -> Lh (mkG s pv h w) -> Lh (mkG s' pv' h w).
Proof.
  intros s s' pv pv' h w [V1 V2 V3 V4 V5 V6 V7 V8] [H | (wd & p & H1 & H2 & H3 & H4 & H5 & H6 & H7 & H8 & H9 & H10 & H11 & H12 & H13)];
    [left; exact H | right].
  unfold g_fs in *; cbn [g_s g_h g_w] in *.
  exists wd, p. rewrite V1, V2, V3, V4, V5. repeat split; try assumption.
  - intro X. apply H12, V7, X.
  - intros d E. apply V8, H13, E.
Qed.

Lemma Lw_vmono : forall s s' pv pv' h w, vmono b s s' -> Lw (mkG s pv h w) -> Lw (mkG s' pv' h w).
Proof.
  intros s s' pv pv' h w [V1 V2 V3 V4 V5 V6 V7 V8] [H | (f & data & H1 & H2 & H3 & H4 & H5 & H6 & H7)];
    [left; exact H | right].
  unfold g_fs in *; cbn [g_s g_h g_w] in *.
  exists f, data. rewrite V1, V3, V5. repeat split; assumption.
Qed.

Lemma abs_same_fw : forall s s' pv pv' h w, s_fs s' = s_fs s -> s_w s' = s_w s ->
  abs (mkG s' pv' h w) = ov (afs T (mkG s pv h w)) (aws T (mkG s pv h w)) s'.
Proof.
  intros s s' pv pv' h w E1 E2. rewrite abs_ov. unfold afs, aws. cbn [g_s g_h g_w]. rewrite E1, E2. reflexivity.
Qed.

(** a validator step that is not [MkdirAll(target)] reads the tree only in the entry checks *)
Lemma vstep_ov : forall A W s,
  v_phase (s_v s) <> VInit ->
  (forall e, cur (v_phase (s_v s)) = Some e -> under_wd fixed (v_wd (s_v s)) e = false ->
     same_reads (s_fs s) A (T ++ e)) ->
  vstep fixed cap b T (ov A W s) = option_map (ov A W) (vstep fixed cap b T s).
Proof.
  intros A W s Hph H. unfold vstep. cbn [ov s_v s_chan s_fs s_closed s_h s_queued s_wq s_wq_closed s_w].
  destruct (v_pend (s_v s)); [|destruct (Nat.ltb (length (s_chan s)) cap); reflexivity].
  destruct (v_phase (s_v s)) as [|[|d r]|[|[l dest] r]|[|[f data] r]| | |e]; try congruence; try reflexivity;
    specialize (H _ eq_refl); cbn [option_map]; rewrite <- after_check_ov.
  - rewrite (check_entry_reads T fixed (s_fs s) A _ (WDir d) H : check_dir _ _ _ _ _ = _). reflexivity.
  - rewrite (check_entry_reads T fixed (s_fs s) A _ (WLink l dest) H : check_link _ _ _ _ _ _ = _). reflexivity.
  - rewrite (check_entry_reads T fixed (s_fs s) A _ (WFile f data) H : check_file _ _ _ _ _ _ = _). reflexivity.
Qed.

Lemma vmid_transfer : forall fx v t t', vmid fx v t ->
  (forall e, cur (v_phase v) = Some e -> under_wd fx (v_wd v) e = false -> lstat t' (T ++ e) = lstat t (T ++ e)) ->
  vmid fx v t'.
Proof.
  intros fx v t t' [Hp Hm] Hst. split; [exact Hp|].
  destruct (v_phase v) as [|r|[|[x y] r]|[|[x y] r]| | |e]; try contradiction;
    destruct Hm as [U Hn]; (split; [exact U|]); rewrite (Hst x eq_refl U); exact Hn.
Qed.

(** one step of the granular validator: the first call of a two-call check lets the check go on
    ([VPmid], nothing else changes), or the step is the atomic validator's - at a two-call check
    because the call that decides, first or second, decides as the atomic check does (the second
    only if the first would still let the check go on when it is made) *)
Lemma gvstep_cases : forall fx s pv h w, (pv = VPmid -> vmid fx (s_v s) (s_fs s)) ->
  (pv = VP0 /\ vmid fx (s_v s) (s_fs s) /\ Granular.gvstep fx cap b T (mkG s pv h w) = Some (mkG s VPmid h w)) \/
  Granular.gvstep fx cap b T (mkG s pv h w) = option_map (fun s' => mkG s' VP0 h w) (vstep fx cap b T s).
Proof.
  intros fx s pv h w Hm. unfold Granular.gvstep, vstep, vmid in *. cbn [g_s g_v g_h g_w].
  destruct (v_pend (s_v s)).
  2:{ right. destruct pv; [reflexivity | destruct (Hm eq_refl); discriminate]. }
  destruct (v_phase (s_v s)) as [|r|[|[l dest] r]|[|[f data] r]| | |e];
    try (right; destruct pv; [reflexivity | destruct (Hm eq_refl) as [_ []]]).
  - unfold check_link, link_verdict. destruct pv.
    + destruct (under_wd fx (v_wd (s_v s)) l); [right; reflexivity|].
      destruct (lstat (s_fs s) (T ++ l)) as [[x| |x]|x]; try (right; reflexivity);
        left; repeat split; intros n X; inversion X; eauto.
    + right. destruct (Hm eq_refl) as [_ [-> Hn]].
      destruct (lstat (s_fs s) (T ++ l)) as [[x| |x]|x]; try reflexivity; destruct (Hn _ eq_refl); discriminate.
  - unfold check_file, file_verdict. destruct pv.
    + destruct (under_wd fx (v_wd (s_v s)) f); [right; reflexivity|].
      destruct (lstat (s_fs s) (T ++ f)) as [[x| |x]|x]; try (right; reflexivity);
        left; repeat split; intros n X; inversion X; eauto.
    + right. destruct (Hm eq_refl) as [_ [-> Hn]].
      destruct (lstat (s_fs s) (T ++ f)) as [[x| |x]|x]; try reflexivity; destruct (Hn _ eq_refl); discriminate.
Qed.

(** a granular step is invisible or one atomic step, and keeps the local invariants *)
Definition sim_ok (i : tid) (g g' : gstate) : Prop :=
  ((abs g' = abs g /\ grank g' < grank g) \/ step (abs g) i = Some (abs g')) /\
  Lh g' /\ Lw g' /\ (INV (abs g') -> LvP (g_v g') (s_v (g_s g')) (s_fs (abs g'))).

Lemma vinit_dec : forall ph : vphase, ph = VInit \/ ph <> VInit.
Proof. intros []; [left; reflexivity | right; discriminate ..]. Qed.

(** a whole step of the atomic validator, taken on the current tree *)
Lemma sim_v_step : forall s pv h w s', GI (mkG s pv h w) -> vstep fixed cap b T s = Some s' ->
  sim_ok TV (mkG s pv h w) (mkG s' VP0 h w).
Proof.
  intros s pv h w s' HG Hs. pose proof HG as [_ _ _ Hh Hw].
  destruct (vinit_dec (v_phase (s_v s))) as [Eph | Hph].
  - (* MkdirAll(target): nobody else is active *)
    assert (Hh0 : h = HP0).
    { destruct Hh as [X | (wd & p & H)]; [exact X | exfalso]. cbn [g_s] in H. decompose [and] H. congruence. }
    assert (Hw0 : w = WP0).
    { destruct Hw as [X | (f & data & H)]; [exact X | exfalso]. cbn [g_s] in H. decompose [and] H. congruence. }
    subst h w. split; [right; exact Hs | split; [left; reflexivity | split; [left; reflexivity | intros _; left; reflexivity]]].
  - pose proof (vstep_vmono b fixed cap T s s' Hs Hph) as Hm.
    split; [right | split; [eapply Lh_vmono; eassumption | split; [eapply Lw_vmono; eassumption | intros _; left; reflexivity]]].
    cbn [Healer.step]. rewrite (abs_same_fw s s' pv VP0 h w (vm_fs _ _ _ Hm) (vm_w _ _ _ Hm)), abs_ov, vstep_ov.
    + cbn [g_s]. rewrite Hs. reflexivity.
    + exact Hph.
    + intros e Hc U. rewrite <- abs_fs. exact (agree (mkG s pv h w) e HG Hph Hc U).
Qed.

Lemma sim_v : forall g g', GI g -> gvstep g = Some g' -> sim_ok TV g g'.
Proof.
  intros [s pv h w] g' HG Hs. pose proof HG as [_ _ Hv Hh Hw]. cbn [g_v g_s] in Hv.
  assert (El : forall e, cur (v_phase (s_v s)) = Some e -> under_wd fixed (v_wd (s_v s)) e = false ->
                 lstat (s_fs s) (T ++ e) = lstat (s_fs (abs (mkG s pv h w))) (T ++ e)).
  { intros e Hc U. apply (agree (mkG s pv h w) e HG); [intro X; cbn [g_s] in X; rewrite X in Hc; discriminate | exact Hc | exact U]. }
  destruct (gvstep_cases fixed s pv h w) as [(-> & Hm & E) | E]; [| rewrite E in Hs ..].
  { intros ->. destruct Hv as [X | Hm]; [discriminate | exact (vmid_transfer _ _ _ _ Hm El)]. }
  - inversion Hs; subst g'.
    split; [left; split; [reflexivity | unfold grank; cbn; lia] | split; [exact Hh | split; [exact Hw | intros _; right]]].
    apply (vmid_transfer _ _ _ _ Hm). intros e Hc U. symmetry. exact (El e Hc U).
  - destruct (vstep fixed cap b T s) as [s'|] eqn:Hvs; [|discriminate]. inversion Hs. apply sim_v_step; assumption.
Qed.

(** the validator's half-done check survives a change of the abstract tree at an entry under repair *)
Lemma lv_frame : forall pv sa sa' p, LvP pv (s_v sa) (s_fs sa) -> INV sa' -> s_v sa' = s_v sa ->
  frame (T ++ p) (s_fs sa) (s_fs sa') -> repaired (s_v sa) p -> LvP pv (s_v sa') (s_fs sa').
Proof.
  intros pv sa sa' p [X | Hm] HI Ev Hfr Hrep; [left; exact X | right]. rewrite Ev.
  apply (vmid_transfer _ _ _ _ Hm). intros e Hc U.
  assert (HI' : Inv sa') by (apply INV_Inv; [exact HI | left; rewrite Ev; intro X; rewrite X in Hc; discriminate]).
  destruct (cur_spec sa' e HI') as [Hall [Htodo Hlit]]; [rewrite Ev; exact Hc|]. rewrite Ev in Htodo, Hlit.
  destruct (reads_frame (T ++ p) _ _ (T ++ e) Hfr) as (_ & E & _);
    [rewrite is_prefix_T; eapply apart; eassumption | apply Hlit, U | symmetry; exact E].
Qed.

(** a DIR / SYMLINK wound on its way, or the validator in its first two passes: the worker is
    not inside GetWriter *)
Lemma busy_quiet : forall s pv w, GI (mkG s pv HP0 w) -> busy (abs (mkG s pv HP0 w)) -> w = WP0.
Proof.
  intros s pv w HG Hb. destruct (i2_idle _ _ (gi_inv2 _ HG) Hb) as [_ [_ Hidle]].
  destruct (get_shape _ HG) as [_ X _ | p A W _ _ Ea [[X _] | [_ (q & d & ->)]]]; try exact X.
  rewrite Ea in Hidle. discriminate.
Qed.

Lemma dl_head_dec : forall s,
  (exists w0 ch, s_h s = HRun /\ s_chan s = w0 :: ch /\ is_dl w0 = true) \/
  no_dl_head s.
Proof.
  intro s. destruct (s_h s) eqn:Hh; [|right; intros w ch X; congruence ..].
  destruct (s_chan s) as [|w0 ch] eqn:Hch; [right; intros w ch _ X; congruence|].
  destruct (is_dl w0) eqn:E; [left; eauto | right; intros w1 ch1 _ X; rewrite Hch in X; inversion X; subst; exact E].
Qed.

Lemma ghstep_lift : forall s pv w,
  no_dl_head s ->
  ghstep (mkG s pv HP0 w) = option_map (fun s' => mkG s' pv HP0 w) (hstep T s).
Proof.
  intros s pv w H. unfold Granular.ghstep. cbn [g_s g_v g_h g_w].
  destruct (s_h s) eqn:Hh; try reflexivity. destruct (s_chan s) as [|w0 ch] eqn:Hch; [reflexivity|].
  specialize (H w0 ch Hh Hch). destruct w0; try discriminate; reflexivity.
Qed.

Lemma ghstep_mid : forall s pv h w, h <> HP0 ->
  ghstep (mkG s pv h w) =
  match hop T h (s_fs s) with
  | Ok (t', pc') => Some (mkG (set_fs s t') pv pc' w)
  | Err e => Some (mkG (set_fs_chan_h s (s_fs s) (s_chan s) (HDone (Err e))) pv HP0 w)
  end.
Proof. intros s pv h w H. destruct h; try congruence; reflexivity. Qed.

Lemma hrecv : forall s pv w w0 ch, s_h s = HRun -> s_chan s = w0 :: ch -> is_dl w0 = true ->
  hwound (hstart w0) = Some w0 /\ hfact T (hstart w0) (s_fs s) /\
  ghstep (mkG s pv HP0 w) = Some (mkG (set_fs_chan_h s (s_fs s) ch HRun) pv (hstart w0) w) /\
  hstep T s = match complete_h T (hstart w0) (s_fs s) with
              | Ok t' => Some (set_fs_chan_h s t' ch HRun)
              | Err e => Some (set_fs_chan_h s (s_fs s) ch (HDone (Err e)))
              end.
Proof.
  intros s pv w w0 ch Hh Hch Hdl. unfold Granular.ghstep, hstep. cbn [g_s g_v g_h g_w]. rewrite Hh, Hch.
  destruct w0; try discriminate; repeat split.
Qed.

Lemma aws_ok : forall s pv w, Lw (mkG s pv HP0 w) -> exited (aws T (mkG s pv HP0 w)) = exited (s_w s).
Proof.
  intros s pv w [X | (f & data & _ & _ & _ & _ & H5 & _)]; unfold aws, ww; cbn [g_s g_h g_w fh complete_h] in *.
  - subst w. reflexivity.
  - rewrite H5. destruct (complete_w T w (s_fs s)) as [[? ?]|]; reflexivity.
Qed.

Lemma hpc_eq_HP0 : forall h : hpc, h = HP0 \/ h <> HP0.
Proof. intros []; [left; reflexivity | right; discriminate ..]. Qed.

Lemma wpc_eq_WP0 : forall w : wpc, w = WP0 \/ w <> WP0.
Proof. intros []; [left; reflexivity | right; discriminate ..]. Qed.

(** a healer step without filesystem calls: one step in both systems *)
Lemma sim_h_lift : forall s pv w g', GI (mkG s pv HP0 w) ->
  no_dl_head s ->
  option_map (fun s' => mkG s' pv HP0 w) (hstep T s) = Some g' -> sim_ok TH (mkG s pv HP0 w) g'.
Proof.
  intros s pv w g' HG Hdl Hs. pose proof HG as [_ _ Hv _ Hw].
  destruct (hstep T s) as [s'|] eqn:Hhs; [|discriminate]. inversion Hs; subst g'.
  destruct (hstep_quiet T s s' Hhs Hdl) as [E1 [E2 [E3 E4]]].
  pose proof (abs_same_fw s s' pv pv HP0 w E1 E3) as Ea'.
  split; [right | split; [left; reflexivity | split]].
  - rewrite Ea', abs_ov. cbn [Healer.step]. rewrite hstep_ov; [cbn [g_s]; rewrite Hhs; reflexivity | apply aws_ok; exact Hw | exact Hdl].
  - destruct Hw as [X | (f & data & H1 & H3 & H4 & H5 & H6 & H7 & H8)]; [left; exact X | right].
    unfold g_fs in *. cbn [g_s g_h g_w] in *. exists f, data. rewrite E1, E2, E3. repeat split; try assumption.
    apply E4, H7.
  - intros _. cbn [g_v g_s] in *. rewrite E2, Ea'. rewrite abs_ov in Hv. exact Hv.
Qed.

Lemma sim_h : forall g g', GI g -> ghstep g = Some g' -> sim_ok TH g g'.
Proof.
  intros [s pv h w] g' HG Hs. pose proof HG as [HI H2 Hv Hh Hw].
  destruct (hpc_eq_HP0 h) as [-> | Hne].
  - destruct (dl_head_dec s) as [(w0 & ch & Hh0 & Hch & Hdl) | Hdl];
      [|rewrite ghstep_lift in Hs by exact Hdl; apply sim_h_lift; assumption].
    (* a DIR / SYMLINK wound is received: the atomic healer processes it now *)
    assert (Hin : In w0 (pend s)) by (unfold pend; rewrite Hch; left; reflexivity).
    assert (Hb : busy (abs (mkG s pv HP0 w))) by (right; exists w0; split; [rewrite abs_ov; exact Hin | exact Hdl]).
    pose proof (busy_quiet s pv w HG Hb) as ->. rewrite abs_quiet in *.
    assert (HI' : Inv s) by (apply INV_Inv; [exact HI | right; left; rewrite Hch; discriminate]).
    destruct (i2_idle _ _ H2 Hb) as [Q1 [Q2 Q3]].
    destruct (hrecv s pv WP0 w0 ch Hh0 Hch Hdl) as (Hw0 & Hf0 & Eg & Ea).
    destruct (head_repair b wf T s w0 ch HI' Hch Hw0) as (Hok & Hp & Hlit & A & HA & HfA & _).
    apply touch_frame in HfA. set (p := wp w0) in *.
    rewrite HA in Ea. rewrite Eg in Hs. inversion Hs; subst g'.
    assert (Hrep : repaired (s_v s) p).
    { eapply wound_repaired; try eassumption; [apply (i2_todo _ _ H2 w0 p Hin Hp) | intros d ->; apply (i2_wd _ _ H2 d Hin)]. }
    unfold sim_ok. rewrite (abs_heal T (set_fs_chan_h s (s_fs s) ch HRun) pv _ A HA), abs_quiet.
    split; [right; exact Ea | split; [right | split; [left; reflexivity|]]].
    + exists w0, p. unfold g_fs. cbn [g_s g_h g_w set_fs_chan_h s_fs s_h s_w s_wq s_queued s_v].
      repeat split; try assumption; [apply (inv_phase b T), HI' | apply Hrep | intros d ->; apply (i2_wd _ _ H2 d Hin)].
    + intro HIa. apply (lv_frame pv s _ p Hv HIa eq_refl HfA Hrep).
  - (* inside processWound *)
    destruct Hh as [X | (wd & p & H1 & H3 & H4 & H5 & H6 & H7 & H8 & H9 & H10 & H11 & H12 & H13 & H14)]; [contradiction|].
    unfold g_fs in *. cbn [g_s g_h g_w] in *. subst w.
    pose proof (proj1 (wound_path_ne wd p H4 H3)) as Hpne. pose proof (wpath_wp _ _ H3) as Ep. subst p.
    pose proof (hop_spec T h (s_fs s) wd H1 Hpne H5 H6) as Hop.
    rewrite ghstep_mid in Hs by exact Hne.
    destruct (hop T h (s_fs s)) as [[t' pc']|] eqn:E; [|contradiction]. inversion Hs; subst g'.
    destruct Hop as [Hfr [Hr Hnext]].
    destruct (complete_h_spec T h (s_fs s) wd H1 Hpne H5 H6) as [A [HA _]].
    assert (Ea : abs (mkG (set_fs s t') pv pc' WP0) = abs (mkG s pv h WP0)).
    { rewrite (abs_heal T s pv h A HA). apply (abs_heal T (set_fs s t')). rewrite <- HA, (complete_h_hop T h), E. reflexivity. }
    split; [left; split; [exact Ea | unfold grank; cbn [g_v g_h g_w]; lia]
           | split; [|split; [left; reflexivity | intros _; rewrite Ea; exact Hv]]].
    destruct Hnext as [[-> _] | [Hw' Hf']]; [left; reflexivity | right].
    exists wd, (wp wd). unfold g_fs. cbn [g_s g_h g_w set_fs s_fs s_h s_w s_wq s_queued s_v].
    repeat split; try assumption. eapply lit_frame; [apply touch_frame|]; eassumption.
Qed.

Lemma gwstep_lift : forall s pv h, (s_w s <> WIdle \/ s_wq s = []) ->
  gwstep (mkG s pv h WP0) = option_map (fun s' => mkG s' pv h WP0) (wstep T s).
Proof.
  intros s pv h H. unfold Granular.gwstep. cbn [g_s g_v g_h g_w].
  destruct (s_w s); try reflexivity. destruct (s_wq s) as [|[f data] wq]; [reflexivity|].
  destruct H as [H | H]; [congruence | discriminate].
Qed.

Lemma gwstep_mid : forall s pv h w, w <> WP0 ->
  gwstep (mkG s pv h w) =
  match wop T w (s_fs s) with
  | Ok (t', inl pc') => Some (mkG (set_fs s t') pv h pc')
  | Ok (t', inr q) => Some (mkG (set_fs_wq_w s t' (s_wq s) (WWriting q (wpc_data w))) pv h WP0)
  | Err e => Some (mkG (set_fs_wq_w s (s_fs s) (s_wq s) (WExit (Err e))) pv h WP0)
  end.
Proof. intros s pv h w H. destruct w; try congruence; reflexivity. Qed.

Lemma wrecv_dec : forall s,
  (exists f data wq, s_w s = WIdle /\ s_wq s = (f, data) :: wq) \/ (s_w s <> WIdle \/ s_wq s = []).
Proof.
  intro s. destruct (s_w s); [|right; left; discriminate ..].
  destruct (s_wq s) as [|[f data] wq]; [right; right; reflexivity | left; eauto].
Qed.

Lemma heal_idle : forall s pv h w g', GI (mkG s pv h w) -> gwstep (mkG s pv h w) = Some g' -> h = HP0.
Proof.
  intros s pv h w g' HG Hs.
  destruct (gi_h _ HG) as [X | (wd & p & _ & _ & _ & _ & _ & H7 & H8 & H9 & H10 & _ & H12 & _)]; [exact X | exfalso].
  cbn [g_s g_w] in *. subst w.
  assert (HIa : Inv (abs (mkG s pv h WP0))) by (apply INV_Inv; [apply HG | left; rewrite abs_ov; exact H12]).
  destruct (i_ctl _ _ _ HIa) as [_ [_ [C4 _]]]. rewrite abs_ov in C4. cbn [ov s_h s_wq_closed g_s] in C4. rewrite H7 in C4.
  rewrite gwstep_lift in Hs by (right; exact H10). unfold wstep in Hs. rewrite H9, H10, C4 in Hs. discriminate.
Qed.

Lemma sim_w : forall g g', GI g -> gwstep g = Some g' -> sim_ok TW g g'.
Proof.
  intros [s pv h w] g' HG Hs. pose proof (heal_idle s pv h w g' HG Hs) as ->. pose proof HG as [HI H2 Hv _ Hw].
  destruct (wpc_eq_WP0 w) as [-> | Hne].
  - unfold sim_ok. rewrite abs_quiet in *. cbn [g_v g_s] in Hv.
    destruct (wrecv_dec s) as [(f & data & wq' & Ew & Ewq) | Hl].
    + (* a file index is received: the atomic worker does GetWriter now *)
      assert (HI' : Inv s) by (apply INV_Inv; [exact HI | right; right; left; rewrite Ewq; discriminate]).
      destruct (i_wq _ _ _ HI' f data) as [Hfb [Hanc Hfq]]; [rewrite Ewq; left; reflexivity|].
      assert (Hfne : f <> []) by (eapply (wf_nonempty b wf), in_all_file, Hfb).
      assert (Hlit : lit (s_fs s) (T ++ f)) by (apply anc_lit; [apply (i_base _ _ _ HI') | exact Hanc]).
      destruct (complete_w_spec T (WPMkdir f data) (s_fs s) f data eq_refl Hfne Hlit I) as [A [HA [HfA _]]].
      unfold Granular.gwstep in Hs. cbn [g_s g_v g_h g_w] in Hs. rewrite Ew, Ewq in Hs. inversion Hs; subst g'.
      rewrite (abs_write T (set_fs_wq_w s (s_fs s) wq' WIdle) pv _ A _ HA).
      split; [right | split; [left; reflexivity | split; [right|]]].
      * cbn [Healer.step]. unfold wstep. rewrite Ew, Ewq. cbn [complete_w] in HA. rewrite HA. reflexivity.
      * exists f, data. unfold g_fs. cbn [g_s g_h g_w set_fs_wq_w s_fs s_w s_queued s_v wfile wfact].
        repeat split; try assumption. apply (inv_phase b T), HI'.
      * intro HIa. apply (lv_frame pv s _ f Hv HIa eq_refl HfA). eapply file_repaired; eassumption.
    + (* the worker returns, or writes the content: one step in both systems *)
      rewrite gwstep_lift in Hs by exact Hl.
      destruct (wstep T s) as [s'|] eqn:Hws; [|discriminate]. inversion Hs; subst g'. rewrite abs_quiet.
      split; [right; exact Hws | split; [left; reflexivity | split; [left; reflexivity | intro HIa]]].
      unfold wstep in Hws. destruct (s_w s) as [|q data|r] eqn:Ew; [| |discriminate].
      * destruct Hl as [X | Ewq]; [congruence|]. rewrite Ewq in Hws. destruct (s_wq_closed s); inversion Hws. exact Hv.
      * inversion Hws; subst s'.
        assert (HI' : Inv s) by (apply INV_Inv; [exact HI | right; right; right; congruence]).
        destruct (i_writing _ _ _ HI' q data Ew) as [f [-> [Hfb [Hfq [d0 Hn]]]]].
        assert (Hfne : f <> []) by (eapply (wf_nonempty b wf), in_all_file, Hfb).
        apply (lv_frame pv s _ f Hv HIa eq_refl).
        -- apply (write_fd_spec _ _ data d0 (app_nonempty T f Hfne) Hn).
        -- eapply file_repaired; eassumption.
  - (* inside GetWriter *)
    destruct Hw as [X | (f & data & H1 & H3 & H4 & H5 & H6 & H7 & H8)]; [contradiction|].
    unfold g_fs in *. cbn [g_s g_h g_w] in *.
    assert (Hfne : f <> []) by (eapply (wf_nonempty b wf), in_all_file, H3).
    destruct (complete_w_spec T w (s_fs s) f data H1 Hfne H4 H5) as [A [HA _]].
    pose proof (wop_spec T w (s_fs s) f data H1 Hfne H4 H5) as Hop. rewrite gwstep_mid in Hs by exact Hne.
    rewrite (complete_w_wop T w) in HA.
    destruct (wop T w (s_fs s)) as [[t' [pc'|q]]|] eqn:E; [| |contradiction]; inversion Hs; subst g'.
    + destruct Hop as (Hfr & Hr & Hw' & Hf').
      assert (Ea : abs (mkG (set_fs s t') pv HP0 pc') = abs (mkG s pv HP0 w)).
      { rewrite (abs_write T s pv w A (T ++ f)) by (rewrite complete_w_wop, E; exact HA).
        rewrite (abs_write T (set_fs s t') pv pc' A (T ++ f) HA).
        rewrite (proj1 (wfile_data _ _ _ H1)), (proj1 (wfile_data _ _ _ Hw')). reflexivity. }
      split; [left; split; [exact Ea | unfold grank; cbn [g_v g_h g_w]; lia]
             | split; [left; reflexivity | split; [right | intros _; rewrite Ea; exact Hv]]].
      exists f, data. unfold g_fs. cbn [g_s g_h g_w set_fs s_fs s_w s_queued s_v].
      repeat split; try assumption. eapply lit_frame; eassumption.
    + destruct Hop as [_ [-> _]]. inversion HA; subst A.
      assert (Ea : abs (mkG (set_fs_wq_w s t' (s_wq s) (WWriting (T ++ f) (wpc_data w))) pv HP0 WP0) = abs (mkG s pv HP0 w)).
      { rewrite abs_quiet. symmetry. apply abs_write. rewrite complete_w_wop, E. reflexivity. }
      split; [left; split; [exact Ea | unfold grank; destruct w; cbn; congruence || lia]
             | split; [left; reflexivity | split; [left; reflexivity | intros _; rewrite Ea; exact Hv]]].
Qed.

Lemma sim_step : forall g i g', GI g -> gstep g i = Some g' ->
  GI g' /\ ((abs g' = abs g /\ grank g' < grank g) \/ step (abs g) i = Some (abs g')).
Proof.
  intros g i g' HG Hs. pose proof HG as [HI H2 _ _ _].
  assert (Hc : sim_ok i g g') by (destruct i; [apply sim_v | apply sim_h | apply sim_w]; assumption).
  destruct Hc as [Hd [Hh [Hw Hv]]].
  assert (Hinv : INV (abs g') /\ Inv2 (abs g')).
  { destruct Hd as [[E _] | E]; [rewrite E; split; assumption|].
    split; [eapply step_inv; eassumption | eapply step_inv2; eassumption]. }
  split; [constructor; try apply Hinv; auto | exact Hd]. apply Hv, Hinv.
Qed.

End Sim.

(** a measure for the granular system: ten times the atomic measure of the abstract state plus the
    number of operations left inside the calls in progress.  An invisible step leaves [abs g] and
    lowers [grank]; a step of the atomic system lowers [mu (abs g)] by at least one and can raise
    [grank], which is at most 9, hence the factor ten. *)
Definition gmu (b : build) (T : path) (g : gstate) : nat := 10 * mu b (abs T g) + grank g.

Lemma grank_bound : forall g, grank g <= 9.
Proof.
  intros [s pv h w]. unfold grank. cbn [g_v g_h g_w].
  assert (vrank pv <= 1) by (destruct pv; cbn; lia). assert (hrank h <= 4) by (destruct h; cbn; lia).
  assert (wrank w <= 4) by (destruct w; cbn; lia). lia.
Qed.

Lemma grun_preserves : forall fx cap b T (P : gstate -> Prop),
  kept (gstep fx cap b T) P -> forall sched g, P g -> P (grun fx cap b T sched g).
Proof. intros fx cap b T. exact (stay_run_keeps (gstep fx cap b T)). Qed.

Section Main.
Variable cap : nat.
Hypothesis cap_pos : 0 < cap.
Variable b : build.
Hypothesis wf : wf_build b = true.
Variable T : path.
Variable t0 : tree.
Hypothesis t0_ok : init_ok T t0 = true.

Local Notation abs := (abs T).
Local Notation step := (step fixed cap b T).
Local Notation run := (run fixed cap b T).
Local Notation gstep := (gstep fixed cap b T).
Local Notation grun := (grun fixed cap b T).
Local Notation gfinish := (gfinish fixed cap b T).
Local Notation GI := (GI b T).
Local Notation gmu := (gmu b T).

Lemma ginit_GI : GI (ginit b t0).
Proof.
  constructor.
  - apply init_INV. exact t0_ok.
  - apply init_inv2. exact wf.
  - left. reflexivity.
  - left. reflexivity.
  - left. reflexivity.
Qed.

Lemma grun_GI : forall sched g, GI g -> GI (grun sched g).
Proof. apply grun_preserves. intros g i g' HG E. apply (sim_step cap cap_pos b wf T g i g' HG E). Qed.

(** THE REDUCTION: the abstraction of a granular execution is an atomic execution, with at most
    as many steps *)
Lemma grun_refines : forall sched g, GI g ->
  exists asched, length asched <= length sched /\ abs (grun sched g) = run asched (abs g).
Proof.
  apply (stay_run_refines gstep step abs GI). intros g i g' HG E.
  destruct (sim_step cap cap_pos b wf T g i g' HG E) as [HG' [[Ea _] | Ea]]; auto.
Qed.

Lemma gstep_gmu : forall g i g', GI g -> gstep g i = Some g' -> gmu g' < gmu g.
Proof.
  intros g i g' HG E. destruct (sim_step cap cap_pos b wf T g i g' HG E) as [_ [[Ea Hr] | Ea]]; unfold GranularProofs.gmu.
  - rewrite Ea. lia.
  - pose proof (step_mu b fixed cap T _ _ _ Ea). pose proof (grank_bound g'). lia.
Qed.

Lemma grun_gmu : forall sched g, GI g -> gmu (grun sched g) <= gmu g.
Proof.
  intros sched g HG. apply (stay_run_lowers gstep GI gmu); [|exact gstep_gmu|exact HG].
  intros g1 i g2 HG1 E. apply (sim_step cap cap_pos b wf T g1 i g2 HG1 E).
Qed.

(** when [Validate] has returned nobody is inside a call: the state IS its abstraction *)
Lemma gterminal_quiet : forall g, GI g -> gterminal g = true -> abs g = g_s g.
Proof.
  intros g HG Ht. pose proof (gi_inv _ _ _ HG) as HI. unfold gterminal, terminal in Ht.
  assert (Ev : s_v (abs g) = s_v (g_s g)) by (rewrite abs_ov; reflexivity).
  destruct (v_phase (s_v (g_s g))) eqn:Hph; try discriminate.
  2:{ exfalso. eapply (inv_not_fail b T (abs g) HI). rewrite Ev. exact Hph. }
  destruct (s_h (g_s g)) eqn:Ehh; try discriminate.
  destruct (get_shape b wf T g HG) as [_ _ Ea | p A W _ _ Ea [(_ & _ & X) | (_ & q & d & ->)]]; [exact Ea | congruence | exfalso].
  assert (HI' : Inv b T (abs g)) by (apply (INV_Inv b T); [exact HI | left; rewrite Ev, Hph; discriminate]).
  destruct (i_ctl _ _ _ HI') as [_ [_ [C4 _]]]. rewrite Ea in C4. cbn [ov s_h s_w] in C4. rewrite Ehh in C4.
  destruct C4 as (_ & _ & _ & _ & X). discriminate.
Qed.

(** a goroutine inside a call can always make its next call *)
Lemma gno_deadlock : forall g, GI g -> (forall i, gstep g i = None) -> gterminal g = true.
Proof.
  intros [s pv h w] HG Hn. pose proof (Hn TV) as Hv. pose proof (Hn TH) as Hh. pose proof (Hn TW) as Hw.
  cbn [Granular.gstep] in Hv, Hh, Hw.
  destruct (hpc_eq_HP0 h) as [-> | Hne].
  2:{ rewrite ghstep_mid in Hh by exact Hne. destruct (hop T h (s_fs s)) as [[? ?]|]; discriminate. }
  destruct (wpc_eq_WP0 w) as [-> | Hne].
  2:{ rewrite gwstep_mid in Hw by exact Hne. destruct (wop T w (s_fs s)) as [[? [?|?]]|]; discriminate. }
  pose proof HG as [HI _ Hm _ _]. rewrite abs_quiet in HI, Hm.
  unfold gterminal. cbn [g_s]. apply (no_deadlock cap cap_pos b T s HI).
  intros []; cbn [Healer.step].
  - destruct (gvstep_cases cap b T fixed s pv HP0 WP0) as [(_ & _ & E) | E]; [| rewrite E in Hv ..].
    + intros ->. destruct Hm as [X | Hm]; [discriminate | exact Hm].
    + discriminate.
    + destruct (vstep fixed cap b T s); [discriminate | reflexivity].
  - unfold Granular.ghstep in Hh. cbn [g_s g_v g_h g_w] in Hh.
    destruct (hstep T s) eqn:E; [exfalso | reflexivity].
    destruct (s_h s); try discriminate. destruct (s_chan s) as [|[]]; discriminate.
  - unfold Granular.gwstep in Hw. cbn [g_s g_v g_h g_w] in Hw.
    destruct (wstep T s) eqn:E; [exfalso | reflexivity].
    destruct (s_w s); try discriminate. destruct (s_wq s) as [|[]]; discriminate.
Qed.

Lemma gterminal_restored : forall g, GI g -> gterminal g = true ->
  gresult g = Some (Ok tt) /\ restored b T (g_fs g) /\ ff_valid fixed b T (g_fs g) = true.
Proof.
  intros g HG Ht. pose proof (gi_inv _ _ _ HG) as HI. rewrite (gterminal_quiet g HG Ht) in HI.
  exact (terminal_valid b wf T (g_s g) HI Ht).
Qed.

Lemma gfinish_complete : forall prio, In TV prio -> In TH prio -> In TW prio ->
  forall fuel g, GI g -> gmu g <= fuel ->
  let g' := gfinish fuel prio g in
  gterminal g' = true /\ gresult g' = Some (Ok tt) /\ restored b T (g_fs g') /\ ff_valid fixed b T (g_fs g') = true.
Proof.
  intros prio Hv Hh Hw fuel g HG Hmu.
  destruct (finish_stuck gstep GI gmu (fun g i g' HG E => proj1 (sim_step cap cap_pos b wf T g i g' HG E)) gstep_gmu
              prio fuel g HG Hmu) as [HG' Hn].
  assert (Ht := gno_deadlock _ HG' (fun i => Hn i match i with TV => Hv | TH => Hh | TW => Hw end)).
  exact (conj Ht (gterminal_restored _ HG' Ht)).
Qed.

End Main.

Section GIdempotent.
Variable fx : fixes.
Variable cap : nat.
Variable b : build.
Variable T : path.
Variable t0 : tree.
Hypothesis t0_ok : init_ok T t0 = true.
Hypothesis t0_dir : node_at t0 T = Some Dir.
Hypothesis valid : ff_valid fx b T t0 = true.


Lemma wstep_v : forall s s', wstep T s = Some s' -> s_v s' = s_v s.
Proof.
  intros s s'. unfold wstep. destruct (s_w s); [| intros [= <-]; reflexivity | discriminate].
  destruct (s_wq s) as [|[f data] wq]; [destruct (s_wq_closed s); [|discriminate] | destruct (get_writer T (s_fs s) f) as [[? ?]|]];
    intros [= <-]; reflexivity.
Qed.

(** nobody is inside a call but, possibly, the validator between the two calls of a check that
    the first call has let go on *)
Definition GIdem (g : gstate) : Prop :=
  Idem b t0 (g_s g) /\ g_h g = HP0 /\ g_w g = WP0 /\ (g_v g = VPmid -> vmid T fx (s_v (g_s g)) t0).

Lemma gidem_step : forall g i g', GIdem g -> gstep fx cap b T g i = Some g' -> GIdem g'.
Proof.
  intros [s pv h w] i g' (HI & Eh & Ew & Hm) Hs. cbn [g_s g_v g_h g_w] in *. subst h w.
  pose proof HI as [Hfs _]. rewrite <- Hfs in Hm.
  assert (Hc : forall s' pv', step fx cap b T s i = Some s' -> (pv' = VPmid -> pv = VPmid /\ s_v s' = s_v s) ->
                 GIdem (mkG s' pv' HP0 WP0)).
  { intros s' pv' Hst Hpv. pose proof (idem_step fx cap b T t0 t0_ok t0_dir valid s i s' HI Hst) as HI'.
    split; [exact HI' | split; [reflexivity | split; [reflexivity|]]]. cbn [g_v g_s]. intros X.
    destruct (Hpv X) as [Y ->]. rewrite <- Hfs. exact (Hm Y). }
  destruct i; cbn [gstep step] in *.
  - destruct (gvstep_cases cap b T fx s pv HP0 WP0 Hm) as [(_ & Hmid & E) | E]; rewrite E in Hs.
    + inversion Hs. split; [exact HI | split; [reflexivity | split; [reflexivity | intros _; rewrite <- Hfs; exact Hmid]]].
    + destruct (vstep fx cap b T s) as [s'|] eqn:Hst; [|discriminate]. inversion Hs. apply Hc; [reflexivity | discriminate].
  - assert (Hdl : no_dl_head s).
    { intros w0 ch _ Hch. destruct HI as [_ [_ [Hh _]]].
      assert (X : healthy w0 = true) by (apply Hh; apply in_or_app; right; rewrite Hch; left; reflexivity).
      destruct w0; try discriminate. reflexivity. }
    rewrite ghstep_lift in Hs by exact Hdl.
    destruct (hstep T s) as [s'|] eqn:Hst; [|discriminate]. inversion Hs. apply Hc; [reflexivity|].
    intros X. split; [exact X | apply (hstep_quiet T s s' Hst Hdl)].
  - rewrite gwstep_lift in Hs by (right; apply HI).
    destruct (wstep T s) as [s'|] eqn:Hst; [|discriminate]. inversion Hs. apply Hc; [reflexivity|].
    intros X. split; [exact X | exact (wstep_v s s' Hst)].
Qed.

Lemma ginit_GIdem : GIdem (ginit b t0).
Proof. split; [apply init_Idem | split; [reflexivity | split; [reflexivity | discriminate]]]. Qed.

Lemma grun_GIdem : forall sched g, GIdem g -> GIdem (grun fx cap b T sched g).
Proof. exact (grun_preserves fx cap b T _ gidem_step). Qed.

End GIdempotent.
