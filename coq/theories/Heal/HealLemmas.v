(** C06 proofs, part 1: what [wf_build] gives, and the validator's three passes seen as one
    stream of entries.  Defines the notions the later parts are written in: the stream view
    ([next_entry], [next_pass], [check_entry], [taint], [vstep_case]); a good entry on disk
    ([gdir], [glink], [gfile], [good]), a target below real directories ([base_ok]), ancestors
    that are real directories ([anc_ok]); trees that differ only in one place ([framed],
    [frame], [frame1]) and the place the repair of an entry may change ([touch]).  What the
    healer's and the worker's filesystem actions do is in [Heal/Repair.v]. *)
From Wharf Require Import Base.ListLemmas FS.Light FS.Tree FS.TreeProofs FS.Ops FS.OpsProofs Heal.Validator Heal.Healer.

Lemma existsb_path_In : forall p l, existsb (path_eqb p) l = true <-> In p l.
Proof. exact (existsb_list_eqb N.eqb N.eqb_eq). Qed.

Lemma nodupb_NoDup : forall l, nodupb l = true -> NoDup l.
Proof. exact (ListLemmas.nodupb_NoDup N.eqb N.eqb_eq). Qed.

Lemma nonempty_prefixes_spec : forall p a, In a (nonempty_prefixes p) <-> In a (prefixes p) /\ a <> [].
Proof.
  intros p a. unfold nonempty_prefixes. rewrite filter_In, negb_true_iff, path_eqb_neq. reflexivity.
Qed.

Lemma parents_first_spec : forall ds seen, parents_first seen ds = true ->
  forall dd d rest, ds = dd ++ d :: rest ->
  forall a, In a (prefixes d) -> a <> [] -> In a seen \/ In a dd.
Proof.
  induction ds as [|x ds IH]; intros seen H dd d rest E a Ha Hn.
  - destruct dd; discriminate.
  - cbn in H. apply andb_true_iff in H as [H1 H2].
    destruct dd as [|y dd]; cbn in E; inversion E; subst.
    + left. rewrite forallb_forall in H1. apply existsb_path_In. apply H1.
      apply nonempty_prefixes_spec. split; assumption.
    + destruct (IH _ H2 dd d rest eq_refl a Ha Hn) as [[Hs | Hs] | Hd]; cbn; auto.
Qed.

Lemma split_app : forall (A : Type) (P ws P1 P2 : list A) (w : A),
  P1 ++ w :: P2 = P ++ ws ->
  (exists P2', P = P1 ++ w :: P2') \/ (exists W1 W2, P1 = P ++ W1 /\ ws = W1 ++ w :: W2).
Proof.
  intros A P ws P1 P2 w E. destruct (app_cut _ _ _ _ E) as [[[|a l] [E1 E2]] | [a [l [E1 E2]]]].
  - right. exists [], P2. rewrite app_nil_r in E1. split; [rewrite app_nil_r; symmetry; exact E1 | symmetry; exact E2].
  - left. exists l. inversion E2. exact E1.
  - right. exists (a :: l), P2. split; assumption.
Qed.

Section WF.
Variable b : build.
Hypothesis wf : wf_build b = true.

Lemma wf_parts :
  (forall p, In p (all_paths b) -> p <> []) /\
  NoDup (all_paths b) /\
  parents_first [] (b_dirs b) = true /\
  (forall p, In p (map fst (b_links b) ++ map fst (b_files b)) ->
     forall a, In a (prefixes p) -> a <> [] -> In a (b_dirs b)).
Proof.
  unfold wf_build in wf. apply andb_true_iff in wf as [H123 H4]. apply andb_true_iff in H123 as [H12 H3].
  apply andb_true_iff in H12 as [H1 H2]. repeat split.
  - intros p Hin E. rewrite forallb_forall in H1. specialize (H1 p Hin). subst. cbn in H1. discriminate.
  - apply nodupb_NoDup. exact H2.
  - exact H3.
  - intros p Hin a Ha Hn. rewrite forallb_forall in H4. specialize (H4 p Hin).
    rewrite forallb_forall in H4. apply existsb_path_In. apply H4. apply nonempty_prefixes_spec. split; assumption.
Qed.

Lemma wf_nonempty : forall p, In p (all_paths b) -> p <> [].
Proof. apply wf_parts. Qed.

Lemma wf_nodup : NoDup (all_paths b).
Proof. apply wf_parts. Qed.

Lemma in_lf_link : forall l dest, In (l, dest) (b_links b) -> In l (map fst (b_links b) ++ map fst (b_files b)).
Proof. intros l dest H. apply in_or_app. left. exact (in_map fst _ _ H). Qed.

Lemma in_lf_file : forall f data, In (f, data) (b_files b) -> In f (map fst (b_links b) ++ map fst (b_files b)).
Proof. intros f data H. apply in_or_app. right. exact (in_map fst _ _ H). Qed.

Lemma in_all_dir : forall d, In d (b_dirs b) -> In d (all_paths b).
Proof. intros. apply in_or_app. left. assumption. Qed.

Lemma in_all_link : forall l dest, In (l, dest) (b_links b) -> In l (all_paths b).
Proof. intros l dest H. apply in_or_app. right. exact (in_lf_link l dest H). Qed.

Lemma in_all_file : forall f data, In (f, data) (b_files b) -> In f (all_paths b).
Proof. intros f data H. apply in_or_app. right. exact (in_lf_file f data H). Qed.

Lemma wf_dir_anc : forall dd d rest, b_dirs b = dd ++ d :: rest ->
  forall a, In a (prefixes d) -> a <> [] -> In a dd.
Proof.
  intros dd d rest E a Ha Hn. destruct wf_parts as [_ [_ [H3 _]]].
  destruct (parents_first_spec _ _ H3 dd d rest E a Ha Hn) as [[] | H]. exact H.
Qed.

Lemma wf_lf_anc : forall p, In p (map fst (b_links b) ++ map fst (b_files b)) ->
  forall a, In a (prefixes p) -> a <> [] -> In a (b_dirs b).
Proof. apply wf_parts. Qed.

Lemma wf_anc : forall p, In p (all_paths b) -> forall a, In a (prefixes p) -> a <> [] -> In a (b_dirs b).
Proof.
  intros p Hp a Ha Hn. apply in_app_or in Hp as [Hp | Hp]; [|eapply wf_lf_anc; eassumption].
  apply in_split in Hp as [dd [rest E]]. rewrite E. apply in_or_app. left. eapply wf_dir_anc; eassumption.
Qed.

Lemma wf_lf_not_dir : forall p, In p (map fst (b_links b) ++ map fst (b_files b)) -> ~ In p (b_dirs b).
Proof. intros p Hp Hd. destruct (proj1 (NoDup_app_iff _ _) wf_nodup) as [_ [_ H]]. exact (H p Hd Hp). Qed.

Lemma wf_nodup_lf : NoDup (map fst (b_links b)) /\ NoDup (map fst (b_files b)) /\
  forall p, In p (map fst (b_links b)) -> ~ In p (map fst (b_files b)).
Proof. destruct (proj1 (NoDup_app_iff _ _) wf_nodup) as [_ [H _]]. exact (proj1 (NoDup_app_iff _ _) H). Qed.

Lemma links_functional : forall l d1 d2, In (l, d1) (b_links b) -> In (l, d2) (b_links b) -> d1 = d2.
Proof. intros l d1 d2. apply NoDup_fst_functional, wf_nodup_lf. Qed.

Lemma files_functional : forall f d1 d2, In (f, d1) (b_files b) -> In (f, d2) (b_files b) -> d1 = d2.
Proof. intros f d1 d2. apply NoDup_fst_functional, wf_nodup_lf. Qed.

Lemma link_not_file : forall l dest f data, In (l, dest) (b_links b) -> In (f, data) (b_files b) -> l <> f.
Proof.
  intros l dest f data Hl Hf ->. destruct wf_nodup_lf as [_ [_ H]].
  exact (H f (in_map fst _ _ Hl) (in_map fst _ _ Hf)).
Qed.

Lemma wf_no_below : forall e, In e (map fst (b_links b) ++ map fst (b_files b)) ->
  forall p, In p (all_paths b) -> is_prefix e p = true -> p = e.
Proof.
  intros e He p Hp Hpre. apply is_prefix_spec in Hpre as [r E]. destruct r as [|x r].
  - rewrite app_nil_r in E. exact E.
  - exfalso. apply (wf_lf_not_dir e He). apply (wf_anc p Hp).
    + apply prefixes_spec. exists (x :: r). split; [discriminate | exact E].
    + apply wf_nonempty. apply in_or_app. right. exact He.
Qed.

End WF.

(** The validator's three passes as one stream of entries.  An entry is named by the wound it
    would get.  [next_entry ph] is the entry at the head of the current pass, with the phase
    after it; [next_pass] is defined where a pass is exhausted.  On an entry the validator does
    the same thing whatever its kind ([VsEntry] of [vstep_case] below). *)
Definition next_entry (ph : vphase) : option (wound * vphase) :=
  match ph with
  | VDirs (d :: r) => Some (WDir d, VDirs r)
  | VLinks ((l, dest) :: r) => Some (WLink l dest, VLinks r)
  | VFiles ((f, data) :: r) => Some (WFile f data, VFiles r)
  | _ => None
  end.

Definition next_pass (b : build) (ph : vphase) : option vphase :=
  match ph with
  | VDirs [] => Some (VLinks (b_links b))
  | VLinks [] => Some (VFiles (b_files b))
  | VFiles [] => Some VClose
  | _ => None
  end.

Definition check_entry (fx : fixes) (t : tree) (T : path) (wd : list path) (w : wound) : verdict :=
  match w with
  | WDir d => check_dir fx t T wd d
  | WLink l dest => check_link fx t T wd l dest
  | WFile f data => check_file fx t T wd f data
  | WClosed _ => Wounds []
  end.

(** [woundedDirs] after the check of entry [w] *)
Definition taint (w : wound) (v : verdict) (wd : list path) : list path :=
  match w, v with
  | WDir d, Wounds (_ :: _) => d :: wd
  | _, _ => wd
  end.

Lemma taint_incl : forall w v wd, incl wd (taint w v wd).
Proof. intros [d| | |] [[|w' ws]|e] wd; cbn; auto using incl_refl, incl_tl. Qed.

Lemma taint_sub : forall w v wd d, In d (taint w v wd) -> In d wd \/ w = WDir d.
Proof. intros [d0| | |] [[|w' ws]|e] wd d; cbn; auto. intros [<- | H]; auto. Qed.

Lemma taint_hit : forall d ws wd, ws <> [] -> In d (taint (WDir d) (Wounds ws) wd).
Proof. intros d [|w ws] wd H; [congruence | left; reflexivity]. Qed.

(** what a step of the validator is: a send, the check of an entry, the end of a pass,
    [MkdirAll(target)] or the close of the channel *)
Inductive vstep_case (fx : fixes) (b : build) (T : path) (s : state) : state -> Prop :=
| VsEmit : forall w ws, v_pend (s_v s) = w :: ws ->
    vstep_case fx b T s (mkS (s_fs s) (mkV (v_phase (s_v s)) ws (v_wd (s_v s))) (s_chan s ++ [w]) (s_closed s) (s_h s)
                             (s_queued s) (s_wq s) (s_wq_closed s) (s_w s))
| VsEntry : forall w ph', v_pend (s_v s) = [] -> next_entry (v_phase (s_v s)) = Some (w, ph') ->
    vstep_case fx b T s (let v := check_entry fx (s_fs s) T (v_wd (s_v s)) w in
                         after_check s ph' (taint w v (v_wd (s_v s))) v)
| VsPass : forall ph', v_pend (s_v s) = [] -> next_pass b (v_phase (s_v s)) = Some ph' ->
    vstep_case fx b T s (set_v s (mkV ph' [] (v_wd (s_v s))))
| VsInit : v_pend (s_v s) = [] -> v_phase (s_v s) = VInit ->
    vstep_case fx b T s
      match mkdir_all (s_fs s) T with
      | Ok t' => mkS t' (mkV (VDirs (b_dirs b)) [] []) (s_chan s) (s_closed s) (s_h s)
                     (s_queued s) (s_wq s) (s_wq_closed s) (s_w s)
      | Err e => set_v s (mkV (VFail e) [] [])
      end
| VsClose : v_pend (s_v s) = [] -> v_phase (s_v s) = VClose ->
    vstep_case fx b T s (mkS (s_fs s) (mkV VDone [] (v_wd (s_v s))) (s_chan s) true (s_h s)
                             (s_queued s) (s_wq s) (s_wq_closed s) (s_w s)).

Lemma vstep_cases : forall fx cap b T s s', vstep fx cap b T s = Some s' -> vstep_case fx b T s s'.
Proof.
  intros fx cap b T s s' Hs. unfold vstep in Hs. destruct (v_pend (s_v s)) as [|w ws] eqn:Hp.
  2:{ destruct (Nat.ltb (length (s_chan s)) cap); inversion Hs. apply VsEmit, Hp. }
  destruct (v_phase (s_v s)) as [|[|d r]|[|[l dest] r]|[|[f data] r]| | |e] eqn:E; inversion Hs.
  - pose proof (VsInit fx b T s Hp E) as H. destruct (mkdir_all (s_fs s) T); inversion Hs; exact H.
  - apply (VsPass fx b T s _ Hp). rewrite E. reflexivity.
  - apply (VsEntry fx b T s (WDir d) _ Hp). rewrite E. reflexivity.
  - apply (VsPass fx b T s _ Hp). rewrite E. reflexivity.
  - apply (VsEntry fx b T s (WLink l dest) _ Hp). rewrite E. reflexivity.
  - apply (VsPass fx b T s _ Hp). rewrite E. reflexivity.
  - apply (VsEntry fx b T s (WFile f data) _ Hp). rewrite E. reflexivity.
  - apply VsClose; assumption.
Qed.

Section Actions.
Variable T : path.

Definition gdir (t : tree) (d : path) : Prop := node_at t (T ++ d) = Some Dir.
Definition glink (t : tree) (l : path) (dest : list comp) : Prop := node_at t (T ++ l) = Some (Link dest).
Definition gfile (t : tree) (f : path) (data : list N) : Prop := node_at t (T ++ f) = Some (File data).

Definition base_ok (t : tree) : Prop := lit t T /\ node_at t T = Some Dir.
Definition anc_ok (t : tree) (p : path) : Prop := forall a, In a (prefixes p) -> a <> [] -> gdir t a.

Lemma anc_lit : forall t p, base_ok t -> anc_ok t p -> lit t (T ++ p).
Proof.
  intros t p [Hl Hd] Ha. apply lit_app; [exact Hl | exact Hd |].
  intros a Hin Hn. apply Ha; assumption.
Qed.

Definition framed (hit : path -> bool) (t t' : tree) : Prop :=
  forall q, hit q = false -> node_at t' q = node_at t q.

Definition frame (p : path) : tree -> tree -> Prop := framed (is_prefix p).
Definition frame1 (p : path) : tree -> tree -> Prop := framed (path_eqb p).

Lemma framed_refl : forall hit t, framed hit t t.
Proof. intros hit t q _. reflexivity. Qed.

Lemma framed_trans : forall hit t1 t2 t3, framed hit t1 t2 -> framed hit t2 t3 -> framed hit t1 t3.
Proof. intros hit t1 t2 t3 H1 H2 q Hq. rewrite H2, H1 by exact Hq. reflexivity. Qed.

Lemma frame1_frame : forall p t t', frame1 p t t' -> frame p t t'.
Proof.
  intros p t t' H q Hq. apply H. apply path_eqb_neq. intros <-. rewrite is_prefix_refl in Hq. discriminate.
Qed.

Definition good (t : tree) (w : wound) : Prop :=
  match w with
  | WDir d => gdir t d
  | WLink l dest => glink t l dest
  | WFile f data => gfile t f data
  | WClosed _ => True
  end.

(** the entry a wound names, and where its repair may change the tree: a directory's own node,
    a symlink's or file's place and everything below *)
Definition wp (w : wound) : path := match w with WDir p | WLink p _ | WFile p _ | WClosed p => p end.

Definition touch (w : wound) : path -> bool :=
  match w with WDir d => path_eqb (T ++ d) | _ => is_prefix (T ++ wp w) end.

Lemma touch_frame : forall w t t', framed (touch w) t t' -> frame (T ++ wp w) t t'.
Proof. intros [d| | |] t t' H; [apply frame1_frame|..]; exact H. Qed.

Lemma frame1_set : forall p t n, p <> [] -> frame1 p t (set t p n).
Proof. intros p t n Hp q Hq. rewrite node_at_set, Hq by exact Hp. reflexivity. Qed.

Lemma frame1_del : forall p t, p <> [] -> frame1 p t (del t p).
Proof. intros p t Hp q Hq. rewrite node_at_del, Hq by exact Hp. reflexivity. Qed.

Lemma frame_set : forall p t n, p <> [] -> frame p t (set t p n).
Proof. intros p t n Hp. apply frame1_frame, frame1_set, Hp. Qed.

Lemma frame_del : forall p t, p <> [] -> frame p t (del t p).
Proof. intros p t Hp. apply frame1_frame, frame1_del, Hp. Qed.

Lemma frame_del_tree : forall p t, p <> [] -> frame p t (del_tree t p).
Proof. intros p t Hp q Hq. rewrite node_at_del_tree, Hq by exact Hp. reflexivity. Qed.

Lemma not_below : forall a r : path, r <> [] -> is_prefix (a ++ r) a = false.
Proof.
  induction a as [|x a IH]; intros r Hr; cbn.
  - destruct r; [congruence | reflexivity].
  - rewrite N.eqb_refl. apply IH, Hr.
Qed.

Lemma proper_prefix_not_below : forall p a, In a (prefixes p) -> is_prefix p a = false.
Proof. intros p a Ha. apply prefixes_spec in Ha as [r [Hr ->]]. apply not_below, Hr. Qed.

Lemma lit_frame : forall p t t', frame p t t' -> lit t p -> lit t' p.
Proof.
  intros p t t' Hf Hl a Ha. rewrite Hf; [apply Hl; exact Ha | apply proper_prefix_not_below; exact Ha].
Qed.

Lemma write_fd_spec : forall t q data d0, q <> [] -> node_at t q = Some (File d0) ->
  node_at (write_fd t q data) q = Some (File data) /\ frame q t (write_fd t q data).
Proof.
  intros t q data d0 Hq E. unfold write_fd. rewrite E.
  split; [apply node_at_set_same | apply frame_set]; exact Hq.
Qed.

End Actions.
