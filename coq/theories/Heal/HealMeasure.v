(** C06 proofs, part 4: a measure that every effective step of every thread decreases, for
    any state and any variant of the code: every execution has at most [mu (init)] effective
    steps. *)
From Coq Require Import Lia.
From Wharf Require Import FS.Light FS.Tree FS.Ops Heal.Validator Heal.Healer Heal.HealLemmas Heal.Granular Heal.Repair.

Definition wcost (w : wound) : nat := match w with WFile _ _ => 3 | _ => 1 end.

Fixpoint sum_map {A} (f : A -> nat) (l : list A) : nat :=
  match l with [] => 0 | x :: r => f x + sum_map f r end.

Lemma sum_map_app : forall A (f : A -> nat) l r, sum_map f (l ++ r) = sum_map f l + sum_map f r.
Proof. induction l as [|x l IH]; intros r; cbn; [reflexivity | rewrite IH; lia]. Qed.

Section Measure.
Variable b : build.

Definition vmu (ph : vphase) : nat :=
  let L := 3 * length (b_links b) + 1 in
  let F := 7 * length (b_files b) + 2 in
  match ph with
  | VInit => 1 + (3 * length (b_dirs b) + 1 + L + F)
  | VDirs r => 3 * length r + 1 + L + F
  | VLinks r => 3 * length r + 1 + F
  | VFiles r => 7 * length r + 2
  | VClose => 1
  | VDone | VFail _ => 0
  end.

Definition mu (s : state) : nat :=
  vmu (v_phase (s_v s))
  + sum_map (fun w => 1 + wcost w) (v_pend (s_v s))
  + sum_map wcost (s_chan s)
  + 2 * length (s_wq s)
  + match s_w s with WIdle => 1 | WWriting _ _ => 2 | WExit _ => 0 end
  + match s_h s with HRun => 2 | HWait => 1 | HDone _ => 0 end.

Variable fx : fixes.
Variable cap : nat.
Variable T : path.

(** a check emits at most the entry's wound and a healthy marker *)
Lemma check_cost : forall t wd w,
  match check_entry fx t T wd w with
  | Wounds ws => sum_map (fun w => 1 + wcost w) ws <= 2 * wcost w
  | Fail _ => True
  end.
Proof.
  intros t wd [d | l dest | f data | f]; cbn [check_entry]; [unfold check_dir | unfold check_link | unfold check_file | cbn; lia];
    (destruct (under_wd fx wd _); [cbn; lia|]); destruct (lstat t _) as [[| |]|e]; cbn; try lia.
  1: destruct (is_missing fx e); cbn; [lia | exact I].
  1,2: destruct (readlink t (T ++ l)) as [d|e']; [destruct (dest_eqb d dest); cbn; lia | destruct (is_missing fx e'); cbn; [lia | exact I]].
  all: destruct (read_file t (T ++ f)) as [d|e']; [destruct (nlist_eqb d data)|]; cbn; lia.
Qed.

(** [vmu] pays for the check of an entry and for sending what it may emit *)
Lemma vmu_entry : forall ph w ph', next_entry ph = Some (w, ph') -> vmu ph = 1 + 2 * wcost w + vmu ph'.
Proof.
  intros [|[|d r]|[|[l dest] r]|[|[f data] r]| | |e] w ph' H; inversion H; subst; cbn; lia.
Qed.

Lemma vmu_pass : forall ph ph', next_pass b ph = Some ph' -> vmu ph' < vmu ph.
Proof.
  intros [|[|d r]|[|[l dest] r]|[|[f data] r]| | |e] ph' H; inversion H; subst; cbn; lia.
Qed.

Lemma vstep_mu : forall s s', vstep fx cap b T s = Some s' -> mu s' < mu s.
Proof.
  intros s s' H. unfold mu.
  destruct (vstep_cases _ _ _ _ _ _ H) as [w ws Hp | w ph' Hp Hn | ph' Hp Hn | Hp E | Hp E]; rewrite Hp.
  - cbn. rewrite sum_map_app. cbn. lia.
  - pose proof (check_cost (s_fs s) (v_wd (s_v s)) w) as Hc. rewrite (vmu_entry _ _ _ Hn).
    cbv zeta. destruct (check_entry fx (s_fs s) T (v_wd (s_v s)) w) as [ws|e]; cbn in *; lia.
  - pose proof (vmu_pass _ _ Hn). cbn. lia.
  - rewrite E. destruct (mkdir_all (s_fs s) T); cbn; lia.
  - rewrite E. cbn. lia.
Qed.

Lemma hstep_mu : forall s s', hstep T s = Some s' -> mu s' < mu s.
Proof.
  intros s s' H. unfold mu.
  destruct (hstep_cases T s s' H) as [w ch Hh Hch Hw | w ch Hh Hch Hw | f data ch Hh Hch Hw | f data ch e Hh Hch Hw | Hh Hch Hcl | r Hh Hw];
    rewrite Hh; try rewrite Hch.
  - assert (0 < wcost w) by (destruct w; cbn; lia). destruct (complete_h T (hstart w) (s_fs s)); cbn; lia.
  - assert (0 < wcost w) by (destruct w; cbn; lia). cbn. lia.
  - cbn. rewrite app_length. cbn. lia.
  - cbn. lia.
  - cbn. lia.
  - cbn. rewrite Hw. lia.
Qed.

Lemma wstep_mu : forall s s', wstep T s = Some s' -> mu s' < mu s.
Proof.
  intros s s' H. unfold wstep in H. unfold mu.
  destruct (s_w s) as [|q data|r] eqn:Hw.
  - destruct (s_wq s) as [|[f data] wq'] eqn:Hwq.
    + destruct (s_wq_closed s); [|discriminate]. inversion H; subst s'. cbn. lia.
    + destruct (get_writer T (s_fs s) f) as [[t' q]|e]; inversion H; subst s'; cbn; lia.
  - inversion H; subst s'. cbn. lia.
  - discriminate.
Qed.

Lemma step_mu : forall s i s', step fx cap b T s i = Some s' -> mu s' < mu s.
Proof.
  intros s [] s' H; cbn in H; [eapply vstep_mu | eapply hstep_mu | eapply wstep_mu]; eassumption.
Qed.

End Measure.
