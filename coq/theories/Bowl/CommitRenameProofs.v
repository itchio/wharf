(** applyTranspositions, bookkeeping part: grouping by old path, temporary names, the clash
    detection loop ([rename_clashes]) for an arbitrary iteration order; what it computes is a
    [renaming] of the destinations ([rename_clashes_renaming]), and nothing else about it is
    used by the execution of the groups (Bowl/CommitTransProofs.v). *)
From Coq Require Import Permutation FinFun.
From Wharf Require Import Base.Prelude Base.ListLemmas Bowl.FSmini Bowl.FSminiProofs Bowl.OverlayCommit Bowl.CommitSpec Bowl.CommitBuildProofs.
Local Open Scope N_scope.

Lemma tmp_path_cons : forall x r n, r <> [] -> tmp_path (x :: r) n = x :: tmp_path r n.
Proof. intros x r n H. destruct r; [contradiction | reflexivity]. Qed.

Lemma tmp_path_snoc : forall q c n, tmp_path (q ++ [c]) n = q ++ [R c n].
Proof.
  induction q as [|x q IH]; intros c n; [reflexivity|].
  cbn [app]. rewrite tmp_path_cons; [now rewrite IH | destruct q; discriminate].
Qed.

Lemma tmp_path_inj : forall p p' n n', p <> [] -> p' <> [] -> tmp_path p n = tmp_path p' n' -> p = p' /\ n = n'.
Proof.
  intros p p' n n' Hp Hp' H.
  destruct (path_snoc p Hp) as [q [c ->]]. destruct (path_snoc p' Hp') as [q' [c' ->]].
  rewrite !tmp_path_snoc in H. apply app_inj_tail in H as [-> H]. injection H as -> ->. now split.
Qed.

Lemma tmp_path_nonempty : forall p n, p <> [] -> tmp_path p n <> [].
Proof. intros p n Hp. destruct (path_snoc p Hp) as [q [c ->]]. rewrite tmp_path_snoc. destruct q; discriminate. Qed.

Lemma above_snoc : forall a q (c : comp), above a (q ++ [c]) <-> a <> [] /\ is_prefix a q = true.
Proof.
  intros a q c. split.
  - intros [r [E [Ha Hr]]]. split; [assumption|].
    destruct (path_snoc r Hr) as [r' [x ->]]. rewrite app_assoc in E. apply app_inj_tail in E as [-> _]. apply is_prefix_app.
  - intros [Ha H]. apply is_prefix_spec in H as [r ->]. exists (r ++ [c]). split; [now rewrite app_assoc|].
    split; [assumption | destruct r; discriminate].
Qed.

Lemma above_tmp_path : forall a p n, p <> [] -> (above a (tmp_path p n) <-> above a p).
Proof.
  intros a p n Hp. destruct (path_snoc p Hp) as [q [c ->]]. rewrite tmp_path_snoc. now rewrite !above_snoc.
Qed.

Lemma pick_seed_cases : forall taken p fuel seed,
  mem (tmp_path p (pick_seed taken p seed fuel)) taken = false \/
  (forall i, (i < fuel)%nat -> mem (tmp_path p (seed + 1 + N.of_nat i)) taken = true).
Proof.
  intros taken p. induction fuel as [|f IH]; intros seed; cbn [pick_seed].
  - right. intros i Hi. inversion Hi.
  - destruct (mem (tmp_path p (seed + 1)) taken) eqn:E.
    + destruct (IH (seed + 1)) as [H|H]; [now left|]. right. intros i Hi. destruct i as [|i].
      * cbn. now rewrite N.add_0_r.
      * replace (seed + 1 + N.of_nat (S i)) with (seed + 1 + 1 + N.of_nat i) by lia. apply H. lia.
    + now left.
Qed.

Lemma pick_seed_fresh : forall taken p seed, p <> [] ->
  mem (tmp_path p (pick_seed taken p seed (S (length taken)))) taken = false.
Proof.
  intros taken p seed Hp. destruct (pick_seed_cases taken p (S (length taken)) seed) as [H|H]; [assumption|].
  exfalso.
  set (names := map (fun i => tmp_path p (seed + 1 + N.of_nat i)) (seq 0 (S (length taken)))).
  assert (Hnd : NoDup names).
  { unfold names. apply FinFun.Injective_map_NoDup; [|apply seq_NoDup].
    intros i j E. apply tmp_path_inj in E as [_ E]; [lia | assumption | assumption]. }
  assert (Hincl : incl names taken).
  { intros x Hx. unfold names in Hx. apply in_map_iff in Hx as [i [<- Hi]]. apply in_seq in Hi. apply mem_In. apply H. lia. }
  pose proof (NoDup_incl_length Hnd Hincl) as Hlen. unfold names in Hlen. rewrite map_length, seq_length in Hlen. lia.
Qed.

Definition dests_of (tr : list (path * path)) (k : path) : list path :=
  map fst (filter (fun e => path_eqb (snd e) k) tr).

Lemma dests_of_In : forall tr k p, In p (dests_of tr k) <-> In (p, k) tr.
Proof.
  intros tr k p. unfold dests_of. rewrite in_map_iff. split.
  - intros [[p' k'] [E H]]. cbn in E. subst p'. apply filter_In in H as [H E]. cbn in E. apply path_eqb_eq in E. now subst.
  - intros H. exists (p, k). split; [reflexivity|]. apply filter_In. split; [assumption | apply path_eqb_refl].
Qed.

Lemma dests_of_nodup : forall tr k, NoDup (map fst tr) -> NoDup (dests_of tr k).
Proof.
  induction tr as [|[p k'] tr IH]; intros k H; unfold dests_of; cbn [filter map snd]; [constructor|].
  cbn [map fst] in H. inversion H as [|? ? Hn Hd]; subst.
  destruct (path_eqb k' k); [|now apply IH]. cbn [map fst]. constructor; [|now apply IH].
  intros Hin. apply Hn. apply in_map_iff in Hin as [e [E Hf]]. apply filter_In in Hf as [Hf _].
  apply in_map_iff. now exists e.
Qed.

Lemma group_get_add : forall g k p k',
  group_get (group_add g k p) k' =
  if path_eqb k k' then Some (match group_get g k' with Some ps => ps ++ [p] | None => [p] end) else group_get g k'.
Proof.
  induction g as [|[k0 ps] g IH]; intros k p k'; cbn [group_add group_get].
  - destruct (path_eqb k k'); reflexivity.
  - destruct (path_eqb k0 k) eqn:E0; cbn [group_get].
    + apply path_eqb_eq in E0. subst k0. destruct (path_eqb k k'); reflexivity.
    + rewrite IH. destruct (path_eqb k0 k') eqn:E1; [|reflexivity].
      apply path_eqb_eq in E1. subst k0. rewrite (path_eqb_sym k k'), E0. reflexivity.
Qed.

Lemma keys_add : forall g k p, keys (group_add g k p) = if mem k (keys g) then keys g else keys g ++ [k].
Proof.
  induction g as [|[k0 ps] g IH]; intros k p; cbn [group_add keys map fst]; [reflexivity|].
  rewrite mem_cons, (path_eqb_sym k k0). destruct (path_eqb k0 k) eqn:E; cbn [keys map fst orb]; [reflexivity|].
  fold (keys (group_add g k p)) (keys g). rewrite IH. destruct (mem k (keys g)); reflexivity.
Qed.

Definition merge_group (o : option (list path)) (l : list path) : option (list path) :=
  match o, l with
  | None, [] => None
  | None, _ => Some l
  | Some ps, _ => Some (ps ++ l)
  end.

Lemma group_by_acc : forall tr g0 k,
  group_get (fold_left (fun g e => group_add g (snd e) (fst e)) tr g0) k = merge_group (group_get g0 k) (dests_of tr k).
Proof.
  induction tr as [|[p k'] tr IH]; intros g0 k; cbn [fold_left fst snd].
  - unfold dests_of. cbn [filter map]. destruct (group_get g0 k); cbn [merge_group]; [now rewrite app_nil_r | reflexivity].
  - rewrite IH, group_get_add. unfold dests_of. cbn [filter snd]. destruct (path_eqb k' k) eqn:E; cbn [map fst].
    + destruct (group_get g0 k); cbn [merge_group]; [now rewrite <- app_assoc | reflexivity].
    + reflexivity.
Qed.

Lemma group_by_get : forall tr k,
  group_get (group_by tr) k = match dests_of tr k with [] => None | l => Some l end.
Proof. intros tr k. unfold group_by. rewrite group_by_acc. cbn [group_get merge_group]. destruct (dests_of tr k); reflexivity. Qed.

Lemma keys_acc_nodup : forall tr g0, NoDup (keys g0) -> NoDup (keys (fold_left (fun g e => group_add g (snd e) (fst e)) tr g0)).
Proof.
  induction tr as [|[p k] tr IH]; intros g0 H; cbn [fold_left fst snd]; [assumption|].
  apply IH. rewrite keys_add. destruct (mem k (keys g0)) eqn:E; [assumption|].
  apply mem_false in E. now apply NoDup_snoc.
Qed.

Lemma group_by_keys_nodup : forall tr, NoDup (keys (group_by tr)).
Proof. intros tr. apply keys_acc_nodup. constructor. Qed.

Lemma group_get_keys : forall g k, (exists ps, group_get g k = Some ps) <-> In k (keys g).
Proof.
  intros g k. split.
  - intros [ps H]. apply (assoc_In comp_eqb comp_eqb_eq) in H. exact (in_map fst g (k, ps) H).
  - intros H. destruct (group_get g k) as [ps|] eqn:E; [now exists ps|]. now apply (assoc_None comp_eqb comp_eqb_eq) in E.
Qed.

Lemma group_by_keys : forall tr k, In k (keys (group_by tr)) <-> exists p, In (p, k) tr.
Proof.
  intros tr k. rewrite <- group_get_keys, group_by_get. split.
  - intros [ps H]. destruct (dests_of tr k) as [|p l] eqn:E; [discriminate|].
    exists p. apply dests_of_In. rewrite E. now left.
  - intros [p H]. apply dests_of_In in H. destruct (dests_of tr k) as [|p' l]; [destruct H | now exists (p' :: l)].
Qed.

Lemma group_by_get_key : forall tr k, In k (keys (group_by tr)) -> group_get (group_by tr) k = Some (dests_of tr k).
Proof.
  intros tr k H. apply group_get_keys in H as [ps H]. rewrite H. rewrite group_by_get in H.
  destruct (dests_of tr k); [discriminate | now symmetry].
Qed.

(** the temporary name under which [q] is parked, if any *)
Definition cl_dst (cd : list (path * path)) : path -> option path :=
  assoc comp_eqb (map (fun e => (snd e, fst e)) cd).

Lemma cl_dst_cons : forall T D cd q, cl_dst ((T, D) :: cd) q = if path_eqb D q then Some T else cl_dst cd q.
Proof. reflexivity. Qed.

Lemma cl_dst_some : forall cd q T, cl_dst cd q = Some T -> In (T, q) cd.
Proof.
  intros cd q T H. apply (assoc_In comp_eqb comp_eqb_eq), in_map_iff in H as [[T' q'] [E H]].
  now injection E as -> ->.
Qed.

Lemma cl_dst_none : forall cd q, cl_dst cd q = None <-> ~ In q (map snd cd).
Proof. intros cd q. unfold cl_dst. rewrite (assoc_None comp_eqb comp_eqb_eq), map_map. reflexivity. Qed.

Lemma cl_dst_in : forall cd q T, NoDup (map snd cd) -> In (T, q) cd -> cl_dst cd q = Some T.
Proof.
  intros cd q T Hnd H. apply (assoc_NoDup comp_eqb comp_eqb_eq); [now rewrite map_map|].
  apply in_map_iff. now exists (T, q).
Qed.

Lemma cl_dst_app : forall a b q, cl_dst (a ++ b) q = match cl_dst a q with Some T => Some T | None => cl_dst b q end.
Proof. intros a b q. unfold cl_dst. rewrite map_app. apply (assoc_app comp_eqb). Qed.

(** the name a destination goes by in the execution loop *)
Definition rn_of (cl : list (path * path)) (p : path) : path := match cl_dst cl p with Some T => T | None => p end.

Lemma rn_of_notin : forall cl p, ~ In p (map snd cl) -> rn_of cl p = p.
Proof. intros cl p H. unfold rn_of. now rewrite (proj2 (cl_dst_none cl p) H). Qed.

Lemma rn_of_app : forall a b p, ~ In p (map snd b) -> rn_of (a ++ b) p = rn_of a p.
Proof. intros a b p H. unfold rn_of. rewrite cl_dst_app, (proj2 (cl_dst_none b p) H). now destruct (cl_dst a p). Qed.

Lemma rn_of_here : forall a b T p, ~ In p (map snd a) -> rn_of (a ++ (T, p) :: b) p = T.
Proof. intros a b T p H. unfold rn_of. rewrite cl_dst_app, (proj2 (cl_dst_none a p) H), cl_dst_cons. now rewrite path_eqb_refl. Qed.

(** a destination [p] of group [k] is parked under a temporary name iff it is the key of another group *)
Definition clash (ks : list path) (k p : path) : bool := negb (path_eqb k p) && mem p ks.

Section Rename.
  Variables (taken : list path) (tr : list (path * path)).
  Hypothesis Htr : NoDup (map fst tr).
  Hypothesis Hne : forall p k, In (p, k) tr -> p <> [].

  Local Notation ks := (keys (group_by tr)).

  Lemma rename_group_cons : forall k p r seed cl,
    rename_group taken ks k (p :: r) seed cl =
    if clash ks k p
    then let n := pick_seed taken p seed (S (length taken)) in
         let '(r', s', cl') := rename_group taken ks k r n (cl ++ [(tmp_path p n, p)]) in (tmp_path p n :: r', s', cl')
    else let '(r', s', cl') := rename_group taken ks k r seed cl in (p :: r', s', cl').
  Proof. intros. cbn [rename_group]. unfold clash. destruct (path_eqb k p), (mem p ks); reflexivity. Qed.

  (** the new names are read off the cleanup list, which grows by the clashing destinations *)
  Lemma rename_group_spec : forall k ds seed cl ds' s' cl',
    rename_group taken ks k ds seed cl = (ds', s', cl') ->
    NoDup ds -> (forall p, In p ds -> p <> [] /\ ~ In p (map snd cl)) ->
    ds' = map (rn_of cl') ds /\
    exists added, cl' = cl ++ added /\ map snd added = filter (clash ks k) ds /\
      forall e, In e added -> (exists n, fst e = tmp_path (snd e) n) /\ ~ In (fst e) taken.
  Proof.
    intros k. induction ds as [|p ds IH]; intros seed cl ds' s' cl' H Hnd Hok.
    - injection H as <- <- <-. split; [reflexivity|]. exists []. rewrite app_nil_r. split; [reflexivity|]. split; [reflexivity|]. intros e [].
    - rewrite rename_group_cons in H. inversion Hnd as [|? ? Hp Hnd']; subst.
      destruct (Hok p (or_introl eq_refl)) as [Hpne Hpcl]. cbn [filter map].
      destruct (clash ks k p) eqn:Ec.
      + set (n := pick_seed taken p seed (S (length taken))) in *. cbv zeta in H.
        destruct (rename_group taken ks k ds n (cl ++ [(tmp_path p n, p)])) as [[r' s1] cl1] eqn:Er. injection H as <- <- <-.
        destruct (IH n _ r' s1 cl1 Er Hnd') as [Hds [added [-> [Hs Ha]]]].
        { intros q Hq. destruct (Hok q (or_intror Hq)) as [H1 H2]. split; [assumption|].
          rewrite map_app, in_app_iff. intros [H|[<-|[]]]; contradiction. }
        rewrite <- app_assoc in *. cbn [app] in *. split; [f_equal; [symmetry; now apply rn_of_here | assumption]|].
        exists ((tmp_path p n, p) :: added). split; [reflexivity|]. split; [cbn [map snd]; now f_equal|].
        intros e [<-|He]; [|now apply Ha]. cbn [fst snd]. split; [now exists n|].
        apply mem_false. now apply pick_seed_fresh.
      + destruct (rename_group taken ks k ds seed cl) as [[r' s1] cl1] eqn:Er. injection H as <- <- <-.
        destruct (IH seed cl r' s1 cl1 Er Hnd') as [Hds [added [-> [Hs Ha]]]]; [intros q Hq; apply Hok; now right|].
        split; [|now exists added]. f_equal; [|assumption]. symmetry. apply rn_of_notin.
        rewrite map_app, in_app_iff, Hs. intros [H|H]; [contradiction|]. apply filter_In in H as [H _]. contradiction.
  Qed.

  (** for any order of the keys: every destination goes by the name the final cleanup list gives it *)
  Lemma rename_clashes_spec : forall order1 seed cl g' clf,
    rename_clashes taken (group_by tr) order1 seed cl = (g', clf) ->
    NoDup order1 -> (forall k, In k order1 -> In k ks) ->
    (forall p k, In (p, k) tr -> In k order1 -> ~ In p (map snd cl)) ->
    g' = map (fun k => (k, map (rn_of clf) (dests_of tr k))) order1 /\
    exists added, clf = cl ++ added /\
      map snd added = flat_map (fun k => filter (clash ks k) (dests_of tr k)) order1 /\
      NoDup (map snd added) /\
      forall e, In e added -> (exists n, fst e = tmp_path (snd e) n) /\ ~ In (fst e) taken.
  Proof.
    induction order1 as [|k order1 IH]; intros seed cl g' clf H Hnd1 Hin Hcl; cbn [rename_clashes] in H.
    - injection H as <- <-. split; [reflexivity|]. exists []. rewrite app_nil_r. split; [reflexivity|]. split; [reflexivity|]. split; [constructor | intros e []].
    - inversion Hnd1 as [|? ? Hnk Hnd1']; subst.
      rewrite (group_by_get_key tr k (Hin k (or_introl eq_refl))) in H.
      destruct (rename_group taken ks k (dests_of tr k) seed cl) as [[ds' s1] cl1] eqn:Er.
      destruct (rename_clashes taken (group_by tr) order1 s1 cl1) as [gr clr] eqn:Ec. injection H as <- <-.
      destruct (rename_group_spec k _ seed cl ds' s1 cl1 Er (dests_of_nodup tr k Htr)) as [Hds [add1 [-> [Hs1 Ha1]]]].
      { intros p Hp. apply dests_of_In in Hp. split; [now apply (Hne p k) | apply (Hcl p k Hp); now left]. }
      assert (Hother : forall p k', In p (dests_of tr k) -> In k' order1 -> ~ In p (dests_of tr k')).
      { intros p k' Hp Hk' Hp'. apply dests_of_In in Hp, Hp'.
        rewrite (NoDup_fst_functional tr p k k' Htr Hp Hp') in Hnk. contradiction. }
      assert (Hlater : forall p, In p (dests_of tr k) ->
                ~ In p (flat_map (fun k => filter (clash ks k) (dests_of tr k)) order1)).
      { intros p Hp H. apply in_flat_map in H as [k' [Hk' H]]. apply filter_In in H as [H _]. now apply (Hother p k'). }
      destruct (IH s1 (cl ++ add1) gr clr Ec Hnd1' (fun k' Hk' => Hin k' (or_intror Hk'))) as [Hg [add2 [-> [Hs2 [Hn2 Ha2]]]]].
      { intros p k' Hp Hk'. rewrite map_app, in_app_iff, Hs1. intros [H|H]; [apply (Hcl p k' Hp); [now right | assumption]|].
        apply filter_In in H as [H _]. apply (Hother p k' H Hk'). now apply dests_of_In. }
      split.
      + cbn [map]. f_equal; [|assumption]. f_equal. rewrite Hds. apply map_ext_in. intros p Hp.
        symmetry. apply rn_of_app. rewrite Hs2. now apply Hlater.
      + exists (add1 ++ add2). split; [now rewrite app_assoc|]. rewrite map_app, Hs1, Hs2. split; [reflexivity|]. split.
        * apply NoDup_app_iff. split; [apply NoDup_filter, dests_of_nodup, Htr|]. split; [now rewrite <- Hs2|].
          intros p Hp. apply filter_In in Hp as [Hp _]. now apply Hlater.
        * intros e He. apply in_app_or in He as [He|He]; [now apply Ha1 | now apply Ha2].
  Qed.
End Rename.

(** All that the execution of the groups and the cleanup know of the clash loop: names in use are in
    [taken]; the groups [g'] hold the destinations under [rn_of clf], which is a destination's own
    name unless it is the key of another group, and then a temporary name outside [taken] that the
    cleanup list [clf] pairs with it. *)
Record renaming (taken : list path) (tr : list (path * path)) (g' : groups) (clf : list (path * path)) : Prop := {
  rn_tr : NoDup (map fst tr);
  rn_taken : forall p k, In (p, k) tr -> p <> [] /\ In p taken /\ In k taken;
  rn_groups : forall k, In k (keys (group_by tr)) -> group_get g' k = Some (map (rn_of clf) (dests_of tr k));
  rn_spec : forall p k, In (p, k) tr ->
    if clash (keys (group_by tr)) k p
    then (exists n, rn_of clf p = tmp_path p n) /\ ~ In (rn_of clf p) taken /\ In (rn_of clf p, p) clf
    else rn_of clf p = p;
  cl_entry : forall T P, In (T, P) clf ->
    T = rn_of clf P /\ (exists n, T = tmp_path P n) /\ ~ In T taken /\
    exists k, In (P, k) tr /\ P <> k /\ In P (keys (group_by tr));
  cl_parked : NoDup (map snd clf)
}.
Arguments rn_tr {taken tr g' clf}.
Arguments rn_taken {taken tr g' clf}.
Arguments rn_groups {taken tr g' clf}.
Arguments rn_spec {taken tr g' clf}.
Arguments cl_entry {taken tr g' clf}.
Arguments cl_parked {taken tr g' clf}.

Lemma NoDup_map_in : forall (A B : Type) (f : A -> B) (l : list A),
  (forall x y, In x l -> In y l -> f x = f y -> x = y) -> NoDup l -> NoDup (map f l).
Proof.
  intros A B f. induction l as [|a l IH]; intros Hinj Hnd; cbn [map]; [constructor|].
  inversion Hnd as [|? ? Ha Hl]; subst. constructor.
  - intros Hin. apply in_map_iff in Hin as [y [E Hy]]. apply Ha.
    now rewrite (Hinj a y (or_introl eq_refl) (or_intror Hy) (eq_sym E)).
  - apply IH; [|assumption]. intros x y Hx Hy. apply Hinj; now right.
Qed.

Section Renaming.
  Context {taken : list path} {tr : list (path * path)} {g' : groups} {clf : list (path * path)}.
  Hypothesis RN : renaming taken tr g' clf.

  Local Notation ks := (keys (group_by tr)).
  Local Notation rn := (rn_of clf).

  Lemma rn_key_taken : forall k, In k ks -> In k taken.
  Proof. intros k H. apply group_by_keys in H as [p Hp]. apply (rn_taken RN p k Hp). Qed.

  Lemma rn_inj : forall p1 k1 p2 k2, In (p1, k1) tr -> In (p2, k2) tr -> rn p1 = rn p2 -> p1 = p2.
  Proof.
    intros p1 k1 p2 k2 H1 H2 E. pose proof (rn_spec RN p1 k1 H1) as R1. pose proof (rn_spec RN p2 k2 H2) as R2.
    destruct (rn_taken RN p1 k1 H1) as [B1 [A1 _]]. destruct (rn_taken RN p2 k2 H2) as [B2 [A2 _]].
    destruct (clash ks k1 p1), (clash ks k2 p2).
    - destruct R1 as [[n1 E1] _]. destruct R2 as [[n2 E2] _]. rewrite E1, E2 in E. now apply tmp_path_inj in E.
    - destruct R1 as [_ [F _]]. rewrite E, R2 in F. contradiction.
    - destruct R2 as [_ [F _]]. rewrite <- E, R1 in F. contradiction.
    - congruence.
  Qed.

  (** a destination that is not the key of its group: under its own name and no key, or parked *)
  Lemma dest_cases : forall p k, In (p, k) tr -> rn p <> k ->
    p <> k /\ ((rn p = p /\ ~ In p ks) \/
               (exists n, rn p = tmp_path p n /\ ~ In (rn p) taken /\ In p ks /\ In (rn p, p) clf)).
  Proof.
    intros p k Hp Hne. pose proof (rn_spec RN p k Hp) as R. unfold clash in R.
    destruct (path_eqb k p) eqn:E; cbn [negb andb] in R.
    - apply path_eqb_eq in E. subst p. now rewrite R in Hne.
    - apply path_eqb_neq in E. split; [congruence|]. destruct (mem p ks) eqn:Em.
      + destruct R as [[n E1] [E2 E3]]. right. exists n. repeat split; try assumption. now apply mem_In.
      + left. split; [assumption | now apply mem_false].
  Qed.

  Lemma dest_not_key : forall p k, In (p, k) tr -> rn p <> k -> ~ In (rn p) ks.
  Proof.
    intros p k Hp Hne Hk. destruct (dest_cases p k Hp Hne) as [_ [[E H]|[n [_ [H _]]]]].
    - rewrite E in Hk. contradiction.
    - apply H. now apply rn_key_taken.
  Qed.

  Lemma g'_nodup : forall k, NoDup (map rn (dests_of tr k)).
  Proof.
    intros k. apply NoDup_map_in; [|apply dests_of_nodup, (rn_tr RN)].
    intros p1 p2 H1 H2. apply dests_of_In in H1, H2. now apply (rn_inj p1 k p2 k).
  Qed.

  Lemma g'_noop : forall k, In k ks -> mem k (map rn (dests_of tr k)) = mem k (dests_of tr k).
  Proof.
    intros k Hk. destruct (mem k (dests_of tr k)) eqn:E.
    - apply mem_In in E. apply mem_In, in_map_iff. exists k. split; [|assumption].
      apply dests_of_In in E. pose proof (rn_spec RN k k E) as R. unfold clash in R. now rewrite path_eqb_refl in R.
    - apply mem_false in E. apply mem_false. intros Hin. apply E. apply in_map_iff in Hin as [p [Ep Hp]].
      apply dests_of_In in Hp. pose proof (rn_spec RN p k Hp) as R. destruct (clash ks k p).
      + destruct R as [_ [F _]]. rewrite Ep in F. exfalso. apply F. now apply rn_key_taken.
      + rewrite R in Ep. subst p. now apply dests_of_In.
  Qed.

  Lemma clf_names_nodup : NoDup (map fst clf ++ map snd clf).
  Proof.
    pose proof (cl_parked RN) as Hn. apply NoDup_app_iff. split; [|split; [assumption|]].
    - replace (map fst clf) with (map rn (map snd clf)).
      + apply NoDup_map_in; [|assumption]. intros x y H1 H2.
        apply in_map_snd in H1 as [T1 H1], H2 as [T2 H2].
        destruct (cl_entry RN T1 x H1) as [_ [_ [_ [k1 [K1 _]]]]]. destruct (cl_entry RN T2 y H2) as [_ [_ [_ [k2 [K2 _]]]]].
        now apply (rn_inj x k1 y k2).
      + rewrite map_map. apply map_ext_in. intros [T P] H. symmetry. apply (cl_entry RN T P H).
    - intros x H1 H2. apply in_map_fst in H1 as [P H1]. apply in_map_snd in H2 as [T' H2].
      destruct (cl_entry RN x P H1) as [_ [_ [F _]]]. destruct (cl_entry RN T' x H2) as [_ [_ [_ [k [_ [_ Hk]]]]]].
      apply F. now apply rn_key_taken.
  Qed.

End Renaming.

Section Clashes.
  Variables (taken : list path) (tr : list (path * path)).
  Hypothesis Htr : NoDup (map fst tr).
  Hypothesis Htaken : forall p k, In (p, k) tr -> p <> [] /\ In p taken /\ In k taken.
  Variables (order1 : list path) (g' : groups) (clf : list (path * path)).
  Hypothesis P1 : Permutation order1 (keys (group_by tr)).
  Hypothesis RC : rename_clashes taken (group_by tr) order1 0 [] = (g', clf).

  Local Notation ks := (keys (group_by tr)).
  Local Notation rn := (rn_of clf).

  Lemma rc_facts :
    g' = map (fun k => (k, map rn (dests_of tr k))) order1 /\
    map snd clf = flat_map (fun k => filter (clash ks k) (dests_of tr k)) order1 /\
    NoDup (map snd clf) /\
    forall e, In e clf -> (exists n, fst e = tmp_path (snd e) n) /\ ~ In (fst e) taken.
  Proof.
    destruct (rename_clashes_spec taken tr Htr (fun p k H => proj1 (Htaken p k H))
                order1 0 [] g' clf RC) as [Hg [added [E H]]].
    - apply (Permutation_NoDup (Permutation_sym P1) (group_by_keys_nodup tr)).
    - intros k. apply (Permutation_in k P1).
    - intros p k _ _ [].
    - cbn [app] in E. now subst added.
  Qed.

  Lemma parked_iff : forall p, In p (map snd clf) <-> exists k, In (p, k) tr /\ clash ks k p = true.
  Proof.
    intros p. destruct rc_facts as [_ [-> _]]. rewrite in_flat_map. split.
    - intros [k [_ H]]. apply filter_In in H as [H1 H2]. exists k. split; [now apply dests_of_In | assumption].
    - intros [k [H1 H2]]. exists k. split; [|apply filter_In; split; [now apply dests_of_In | assumption]].
      apply (Permutation_in k (Permutation_sym P1)), group_by_keys. now exists p.
  Qed.

  Theorem rename_clashes_renaming : renaming taken tr g' clf.
  Proof.
    constructor; [exact Htr | exact Htaken | | | | apply rc_facts].
    - intros k Hk. destruct rc_facts as [-> _]. apply (assoc_NoDup comp_eqb comp_eqb_eq).
      + rewrite map_map. cbn [fst]. rewrite map_id. apply (Permutation_NoDup (Permutation_sym P1) (group_by_keys_nodup tr)).
      + apply (in_map (fun k => (k, map rn (dests_of tr k)))), (Permutation_in k (Permutation_sym P1) Hk).
    - intros p k H. destruct (clash ks k p) eqn:Ec.
      + assert (Hin : In p (map snd clf)) by (apply parked_iff; now exists k).
        unfold rn_of. destruct (cl_dst clf p) as [T|] eqn:Ed; [|now apply cl_dst_none in Ed].
        apply cl_dst_some in Ed. destruct rc_facts as [_ [_ [_ Hf]]]. destruct (Hf _ Ed) as [H1 H2]. now repeat split.
      + apply rn_of_notin. intros Hin. apply parked_iff in Hin as [k' [H1 H2]].
        rewrite (NoDup_fst_functional tr p k k' Htr H H1) in Ec. congruence.
    - intros T P H. destruct rc_facts as [_ [_ [Hnd Hf]]]. destruct (Hf _ H) as [H1 H2]. cbn [fst snd] in *.
      split; [unfold rn_of; now rewrite (cl_dst_in clf P T Hnd H)|]. split; [assumption|]. split; [assumption|].
      assert (Hin : In P (map snd clf)) by (apply in_map_snd; now exists T).
      apply parked_iff in Hin as [k [Hk Hc]]. exists k. split; [assumption|].
      unfold clash in Hc. apply andb_true_iff in Hc as [Hc1 Hc2]. apply negb_true_iff, path_eqb_neq in Hc1.
      split; [congruence | now apply mem_In].
  Qed.
End Clashes.
