(** [copy], [move], the execution of one transposition group and a list of cleanup renames, on a
    tree in which the sources are regular files and no destination is a directory.  First,
    [dirs_above_upd]: writing where no directory was keeps every [dirs_above] (phases 1 and 3-5
    use it as well).  Last, deleteGhosts on any tree ([delete_ghosts_spec]). *)
From Wharf Require Import Base.Prelude Bowl.FSmini Bowl.FSminiProofs Bowl.OverlayCommit Bowl.OverlayCommitProofs Bowl.CommitSpec
  Bowl.CommitBuildProofs.
Local Open Scope N_scope.

Lemma mkdir_parent_noop : forall t p, dirs_above t p -> mkdir_all t (parent p) = Ok t.
Proof.
  intros t p D. apply mkdir_all_noop; [now apply dirs_above_parent | intros H; now apply parent_is_dir].
Qed.

Definition not_dir (o : option node) : Prop := o <> Some Dir.

Lemma dirs_above_upd_all : forall t t' ds o p,
  (forall q, lookup t' q = if mem q ds then o else lookup t q) -> (forall d, In d ds -> lookup t d <> Some Dir) ->
  dirs_above t p -> dirs_above t' p.
Proof.
  intros t t' ds o p L N. apply dirs_above_ext. intros a Ha. rewrite L.
  destruct (mem a ds) eqn:E; [|assumption]. apply mem_In, N in E. contradiction.
Qed.

Lemma dirs_above_upd : forall t t' d o p,
  (forall q, lookup t' q = if path_eqb d q then o else lookup t q) -> lookup t d <> Some Dir ->
  dirs_above t p -> dirs_above t' p.
Proof.
  intros t t' d o p L N. apply dirs_above_ext. intros a Ha. rewrite L.
  destruct (path_eqb d a) eqn:E; [|assumption]. apply path_eqb_eq in E. subst a. contradiction.
Qed.

(** the first step of [move] and [move_from_stage] *)
Lemma remove_quiet : forall t p, dirs_above t p -> lookup t p <> Some Dir ->
  exists t1, match remove t p with Ok t1 => Ok t1 | Err ENOENT => Ok t | Err e => Err e | Unmodelled => Unmodelled end = Ok t1 /\
             forall q, lookup t1 q = if path_eqb p q then None else lookup t q.
Proof.
  intros t p D N. destruct (lookup t p) as [n|] eqn:El.
  - rewrite (remove_nondir t p n D El); [|intros ->; contradiction].
    eexists. split; [reflexivity|]. intros q. apply lookup_unset.
  - rewrite (remove_missing t p D El). exists t. split; [reflexivity|].
    intros q. now apply lookup_here.
Qed.

Lemma copy_spec : forall t src dst c mk,
  dirs_above t src -> lookup t src = Some (File c) ->
  dirs_above t dst -> lookup t dst <> Some Dir ->
  exists t', copy t src dst mk = Ok t' /\ forall q, lookup t' q = if path_eqb dst q then Some (File c) else lookup t q.
Proof.
  intros t src dst c mk Ds Ls Dd Ld. unfold copy.
  assert (E1 : (if mk then mkdir_all t (parent dst) else Ok t) = Ok t).
  { destruct mk; [now apply mkdir_parent_noop | reflexivity]. }
  rewrite E1. cbn [bind]. rewrite (read_file_ok t src c Ds Ls). cbn [bind].
  rewrite (lstat_ok t dst Dd).
  pose proof (dirs_above_upd t _ dst None dst (lookup_unset t dst) Ld Dd) as Dd'.
  destruct (lookup t dst) as [[c'| |d']|] eqn:El; cbn [bind].
  - rewrite (create_trunc_ok t dst c Dd); [|right; now exists c'].
    eexists. split; [reflexivity|]. intros q. apply lookup_set.
  - contradiction.
  - (* a symlink at the destination is unlinked first *)
    rewrite (remove_nondir t dst (Link d') Dd El); [|discriminate]. cbn [bind].
    rewrite (create_trunc_ok _ dst c Dd'); [|left; now rewrite lookup_unset, path_eqb_refl].
    eexists. split; [reflexivity|]. intros q. rewrite lookup_set, lookup_unset. destruct (path_eqb dst q); reflexivity.
  - rewrite (create_trunc_ok t dst c Dd); [|now left].
    eexists. split; [reflexivity|]. intros q. apply lookup_set.
Qed.

Lemma move_spec : forall t src dst c,
  dirs_above t src -> lookup t src = Some (File c) ->
  dirs_above t dst -> lookup t dst <> Some Dir -> src <> dst ->
  exists t', move t src dst = Ok t' /\
    forall q, lookup t' q = if path_eqb dst q then Some (File c) else if path_eqb src q then None else lookup t q.
Proof.
  intros t src dst c Ds Ls Dd Ld Hne. unfold move.
  destruct (remove_quiet t dst Dd Ld) as [t1 [-> L1]]. cbn [bind].
  pose proof (dirs_above_upd t t1 dst None src L1 Ld Ds) as Ds1.
  pose proof (dirs_above_upd t t1 dst None dst L1 Ld Dd) as Dd1.
  rewrite (mkdir_parent_noop t1 dst Dd1). cbn [bind].
  assert (Ls1 : lookup t1 src = Some (File c)).
  { rewrite L1. apply not_eq_sym, path_eqb_neq in Hne. now rewrite Hne. }
  rewrite (rename_file t1 src dst c Ds1 Dd1 Ls1); [| rewrite L1, path_eqb_refl; discriminate | assumption].
  eexists. split; [reflexivity|]. intros q. rewrite lookup_set, lookup_unset, L1.
  destruct (path_eqb dst q); [reflexivity|]. destruct (path_eqb src q); reflexivity.
Qed.

(** A list of renames between pairwise distinct names, each of a regular file onto something that
    is not a directory, all below directories: the renames do not see each other. *)
Lemma moves_spec : forall cl t,
  NoDup (map fst cl ++ map snd cl) ->
  (forall T P, In (T, P) cl ->
     dirs_above t T /\ dirs_above t P /\ (exists c, lookup t T = Some (File c)) /\ lookup t P <> Some Dir) ->
  exists t', fold_res (fun t e => move t (fst e) (snd e)) cl t = Ok t' /\
    (forall T P, In (T, P) cl -> lookup t' P = lookup t T) /\
    (forall T, In T (map fst cl) -> lookup t' T = None) /\
    (forall q, ~ In q (map fst cl) -> ~ In q (map snd cl) -> lookup t' q = lookup t q).
Proof.
  induction cl as [|[T P] cl IH]; intros t Hnd Hok; cbn [fold_res fst snd].
  - exists t. split; [reflexivity|]. split; [intros T P []|]. split; [intros T [] | reflexivity].
  - destruct (Hok T P (or_introl eq_refl)) as [DT [DP [[c LT] LP]]].
    cbn [map fst snd app] in Hnd. inversion Hnd as [|? ? HT Hnd1]; subst.
    apply NoDup_remove in Hnd1 as [Hnd' HP]. rewrite in_app_iff in HT, HP. cbn [In] in HT.
    destruct (move_spec t T P c DT LT DP LP) as [t1 [-> L1]]; [intros ->; tauto|]. cbn [bind].
    assert (Same : forall x, x <> T -> x <> P -> lookup t1 x = lookup t x).
    { intros x H1 H2. rewrite L1. apply not_eq_sym, path_eqb_neq in H1, H2. now rewrite H1, H2. }
    assert (Keep : forall x, dirs_above t x -> dirs_above t1 x).
    { intros x. apply dirs_above_ext. intros a Ha. rewrite Same; [assumption | |]; intros ->; congruence. }
    destruct (IH t1 Hnd') as [t' [-> [Li [Lii Liii]]]].
    + intros T' P' H. destruct (Hok T' P' (or_intror H)) as [D1 [D2 [[c' L3] L4]]].
      pose proof (in_map fst _ _ H) as H1. pose proof (in_map snd _ _ H) as H2. cbn [fst snd] in H1, H2.
      split; [now apply Keep|]. split; [now apply Keep|].
      rewrite !Same; [eauto | | | |]; intros ->; tauto.
    + exists t'. split; [reflexivity|]. cbn [map fst snd In]. split; [|split].
      * intros T' P' [E|H].
        -- injection E as <- <-. rewrite Liii by tauto. now rewrite L1, path_eqb_refl.
        -- rewrite (Li T' P' H). pose proof (in_map fst _ _ H) as H1. cbn [fst] in H1. apply Same; intros ->; tauto.
      * intros T' [<-|H]; [|now apply Lii].
        assert (E : path_eqb P T = false) by (apply path_eqb_neq; intros ->; tauto).
        rewrite Liii by tauto. now rewrite L1, E, path_eqb_refl.
      * intros q H1 H2. rewrite Liii by tauto. apply Same; intros ->; tauto.
Qed.

Definition dests_ok (t : fs) (k : path) (ds : list path) : Prop :=
  forall d, In d ds -> d <> k -> dirs_above t d /\ lookup t d <> Some Dir.

Lemma copy_all_spec : forall ds t k c,
  dirs_above t k -> lookup t k = Some (File c) ->
  ~ In k ds -> dests_ok t k ds ->
  exists t', copy_all t k ds = Ok t' /\ forall q, lookup t' q = if mem q ds then Some (File c) else lookup t q.
Proof.
  induction ds as [|d ds IH]; intros t k c Dk Lk Hk Hok; cbn [copy_all].
  - exists t. now split.
  - assert (Hdk : d <> k) by (intros ->; apply Hk; now left).
    destruct (Hok d (or_introl eq_refl) Hdk) as [Dd Ld].
    destruct (copy_spec t k d c true Dk Lk Dd Ld) as [t1 [-> L1]]. cbn [bind].
    destruct (IH t1 k c) as [t' [-> L']].
    + apply (dirs_above_upd t t1 d _ k L1 Ld Dk).
    + rewrite L1. apply path_eqb_neq in Hdk. now rewrite Hdk.
    + intros H. apply Hk. now right.
    + intros d2 Hin Hne. destruct (Hok d2 (or_intror Hin) Hne) as [D2 L2]. split.
      * apply (dirs_above_upd t t1 d _ d2 L1 Ld D2).
      * rewrite L1. destruct (path_eqb d d2); [discriminate | assumption].
    + eexists. split; [reflexivity|]. intros q. rewrite L', mem_cons, L1, (path_eqb_sym q d).
      destruct (mem q ds); [now rewrite orb_true_r | now rewrite orb_false_r].
Qed.

Lemma mem_remove_first : forall k ds q, NoDup ds -> mem q (remove_first k ds) = mem q ds && negb (path_eqb q k).
Proof.
  intros k. induction ds as [|d ds IH]; intros q Hnd; cbn [remove_first]; [reflexivity|].
  inversion Hnd as [|? ? Hn Hd]; subst.
  destruct (path_eqb k d) eqn:E.
  - apply path_eqb_eq in E. subst d. rewrite mem_cons.
    destruct (path_eqb q k) eqn:E2.
    + apply path_eqb_eq in E2. subst q. cbn. apply mem_false in Hn. now rewrite Hn.
    + cbn. now rewrite andb_true_r.
  - rewrite !mem_cons. rewrite (IH q Hd).
    destruct (path_eqb q d) eqn:E2; [|reflexivity]. apply path_eqb_eq in E2. subst q.
    rewrite (path_eqb_sym d k), E. cbn. reflexivity.
Qed.

Lemma copy_or_move_spec : forall bc t k d c,
  dirs_above t k -> lookup t k = Some (File c) -> d <> k -> dirs_above t d -> lookup t d <> Some Dir ->
  exists t', copy_or_move bc t k d = Ok t' /\
    forall q, lookup t' q = if path_eqb d q then Some (File c) else if path_eqb k q && negb bc then None else lookup t q.
Proof.
  intros bc t k d c Dk Lk Hdk Dd Ld. unfold copy_or_move. destruct bc.
  - destruct (copy_spec t k d c false Dk Lk Dd Ld) as [t' [-> L']]. exists t'. split; [reflexivity|].
    intros q. rewrite L'. now rewrite andb_false_r.
  - destruct (move_spec t k d c Dk Lk Dd Ld (not_eq_sym Hdk)) as [t' [-> L']]. exists t'. split; [reflexivity|].
    intros q. rewrite L'. now rewrite andb_true_r.
Qed.

(** one group: every destination other than the source receives the source's content; the
    source disappears exactly when it is not among the destinations and has no pending overlay *)
Definition group_result (over : list path) (t : fs) (k : path) (ds : list path) (c : list N) (q : path) : option node :=
  if mem q ds && negb (path_eqb q k) then Some (File c)
  else if path_eqb q k && negb (mem k ds) && negb (mem k over) then None
  else lookup t q.

Lemma apply_multiple_spec : forall over t k ds c,
  dirs_above t k -> lookup t k = Some (File c) ->
  ds <> [] -> NoDup ds -> dests_ok t k ds ->
  exists t', apply_multiple (mem k over) t k ds = Ok t' /\ forall q, lookup t' q = group_result over t k ds c q.
Proof.
  intros over t k ds c Dk Lk Hne Hnd Hok. unfold apply_multiple, group_result. destruct (mem k ds) eqn:Ek.
  - destruct (copy_all_spec (remove_first k ds) t k c Dk Lk) as [t' [-> L']].
    + intros H. apply mem_In in H. rewrite (mem_remove_first k ds k Hnd), path_eqb_refl, andb_false_r in H. discriminate.
    + intros d Hin Hdk. apply Hok; [|assumption].
      apply mem_In in Hin. rewrite (mem_remove_first k ds d Hnd) in Hin. apply andb_true_iff in Hin as [Hin _]. now apply mem_In.
    + exists t'. split; [reflexivity|]. intros q. rewrite L', (mem_remove_first k ds q Hnd).
      cbn [negb]. now rewrite andb_false_r.
  - destruct ds as [|first others]; [contradiction|].
    inversion Hnd as [|? ? Hn Hd]; subst.
    assert (Hk : ~ In k (first :: others)) by (now apply mem_false).
    assert (Hko : ~ In k others) by (intros H; apply Hk; now right).
    assert (Hoko : dests_ok t k others) by (intros d Hin Hdk; apply Hok; [now right | assumption]).
    destruct (copy_all_spec others t k c Dk Lk Hko Hoko) as [t1 [-> L1]]. cbn [bind].
    assert (Hfk : first <> k) by (intros ->; apply Hk; now left).
    destruct (Hok first (or_introl eq_refl) Hfk) as [Df Lf].
    assert (Hmf : mem first others = false) by (now apply mem_false).
    assert (Hmk : mem k others = false) by (now apply mem_false).
    assert (Keep : forall p, dirs_above t p -> dirs_above t1 p).
    { intros p. apply (dirs_above_upd_all t t1 others _ p L1). intros d Hd'. apply Hoko; [assumption|].
      intros ->. contradiction. }
    destruct (copy_or_move_spec (mem k over) t1 k first c) as [t' [-> L']]; auto.
    + now rewrite L1, Hmk.
    + now rewrite L1, Hmf.
    + exists t'. split; [reflexivity|]. intros q. rewrite L', L1.
      rewrite mem_cons, (path_eqb_sym first q), (path_eqb_sym k q).
      cbn [negb]. rewrite andb_true_r.
      destruct (path_eqb q first) eqn:E1.
      { apply path_eqb_eq in E1. subst q. apply path_eqb_neq in Hfk. now rewrite Hfk. }
      cbn [orb]. destruct (path_eqb q k) eqn:E2.
      { apply path_eqb_eq in E2. subst q. rewrite Hmk. reflexivity. }
      cbn. destruct (mem q others); reflexivity.
Qed.

(** the single-destination shortcut is the general case *)
Lemma apply_group_multiple : forall over t k ds, apply_group over t (k, ds) = apply_multiple (mem k over) t k ds.
Proof.
  intros over t k ds. destruct ds as [|d [|d2 ds]]; [reflexivity | | reflexivity].
  cbn [apply_group]. unfold apply_multiple. rewrite mem_cons, mem_nil, orb_false_r. cbn [remove_first copy_all bind].
  destruct (path_eqb k d); reflexivity.
Qed.

Lemma node_eq_dir : forall n : node, {n = Dir} + {n <> Dir}.
Proof. intros n. destruct n; [right; discriminate | now left | right; discriminate]. Qed.

(** a list of paths visited children first: what the second conjunct of [ghost_order_ok]
    (Bowl/CommitSpec.v) unfolds to *)
Definition children_first (go : list ghost) : Prop :=
  forall l1 g1 l2 g2 l3, go = l1 ++ g1 :: l2 ++ g2 :: l3 -> is_proper_prefix (snd g1) (snd g2) = false.

Lemma children_first_split : forall go gd k p rest, children_first go -> go = gd ++ (k, p) :: rest ->
  (forall a, above a p -> ~ In a (map snd gd)) /\
  (forall q, In q (map snd go) -> above p q -> In q (map snd gd)).
Proof.
  intros go gd k p rest Hord E. split.
  - intros a A Hin. apply in_map_snd in Hin as [ka Hin]. apply in_split in Hin as [l1 [l2 ->]].
    assert (Ego : go = l1 ++ (ka, a) :: l2 ++ (k, p) :: rest) by (rewrite E, <- app_assoc; reflexivity).
    pose proof (Hord l1 (ka, a) l2 (k, p) rest Ego) as Hf. cbn [snd] in Hf.
    rewrite (above_proper_prefix a p A) in Hf. discriminate.
  - intros q Hgq A. apply in_map_snd in Hgq as [kq Hgq]. rewrite E in Hgq. apply in_app_or in Hgq as [Hgq|[Hgq|Hgq]].
    + apply in_map_snd. now exists kq.
    + injection Hgq as _ Epq. subst q. now apply above_neq in A.
    + apply in_split in Hgq as [l2 [l3 ->]].
      pose proof (Hord gd (k, p) l2 (kq, q) l3 E) as Hf. cbn [snd] in Hf.
      rewrite (above_proper_prefix p q A) in Hf. discriminate.
Qed.

Lemma delete_ghost_spec : forall nc t k p,
  (if under_new_link nc p then lookup t p = None else dirs_above t p) ->
  (forall q, is_proper_prefix p q = true -> lookup t q = None) ->
  exists t', delete_ghost nc t (k, p) = Ok t' /\ forall q, lookup t' q = if path_eqb p q then None else lookup t q.
Proof.
  intros nc t k p Hp Hempty.
  unfold delete_ghost. destruct (under_new_link nc p); [exists t; split; [reflexivity | intros q; now apply lookup_here]|].
  rewrite (lstat_ok t p Hp). destruct (lookup t p) as [m|] eqn:Lp; [|exists t; split; [reflexivity | intros q; now apply lookup_here]].
  assert (Hrm : remove t p = Ok (unset t p)).
  { destruct (node_eq_dir m) as [->|Hnd]; [apply (remove_empty_dir t p Hp Lp Hempty) | apply (remove_nondir t p m Hp Lp Hnd)]. }
  rewrite Hrm. eexists. split; [reflexivity|]. intros q. apply lookup_unset.
Qed.

Lemma delete_ghosts_spec : forall nc go t,
  children_first go ->
  (forall p, In p (map snd go) -> p <> [] /\ if under_new_link nc p then lookup t p = None else dirs_above t p) ->
  (forall p q, In p (map snd go) -> above p q -> lookup t q <> None -> In q (map snd go)) ->
  exists t', delete_ghosts nc go t = Ok t' /\ forall q, lookup t' q = if mem q (map snd go) then None else lookup t q.
Proof.
  intros nc go t Hord Hpre Hclosed.
  apply (fold_res_inv _ (delete_ghost nc) (fun gd q => if mem q (map snd gd) then None else lookup t q) go); [|reflexivity].
  intros gd [k p] rest t1 E Inv.
  destruct (children_first_split go gd k p rest Hord E) as [Hup Hdown].
  assert (Hg : In p (map snd go)) by (rewrite E, map_app; apply in_elt). destruct (Hpre p Hg) as [Hpne Hp].
  destruct (delete_ghost_spec nc t1 k p) as [t' [-> L']].
  - (* what is above [p] comes later in the list and is still there *)
    destruct (under_new_link nc p); [rewrite Inv, Hp; now destruct (mem p _)|].
    apply dirs_above_iff. intros a A. rewrite Inv. pose proof (Hup a A) as Hna. apply mem_false in Hna. rewrite Hna.
    now apply (proj1 (dirs_above_iff t p) Hp).
  - (* what was below [p] is listed, came earlier and is gone *)
    intros q Hq. rewrite Inv. destruct (mem q (map snd gd)) eqn:Emq; [reflexivity|].
    destruct (lookup t q) eqn:Lq; [exfalso | reflexivity]. apply mem_false in Emq. apply Emq.
    pose proof (proper_prefix_above p q Hpne Hq) as A. apply Hdown; [|assumption]. apply (Hclosed p q Hg A). congruence.
  - exists t'. split; [reflexivity|]. intros q. rewrite L', Inv, map_app. cbn [map snd]. symmetry. apply if_mem_snoc.
Qed.
