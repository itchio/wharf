(** Commit phase 1, ensureDirsAndSymlinks: started on the old build's tree it succeeds and
    leaves exactly: the new build's directories and symlinks, nothing below a new symlink, and
    the old build everywhere else ([phase1_ok], [state1]).  Then, under the hypotheses of the commit
    theorem, what [state1] reads at the names the later phases touch: sources and destinations of
    transpositions, new files, names in neither build. *)
From Wharf Require Import Base.Prelude Bowl.FSmini Bowl.FSminiProofs Bowl.OverlayCommit Bowl.OverlayCommitProofs
  Bowl.CommitSpec Bowl.CommitBuildProofs Bowl.CommitOpsProofs Bowl.CommitRenameProofs.
Local Open Scope N_scope.

Lemma remove_all_clears : forall t p n, dirs_above t p -> lookup t p = Some n ->
  remove_all t p = Ok (unset_tree t p) /\ dirs_above (unset_tree t p) p /\ lookup (unset_tree t p) p = None.
Proof.
  intros t p n D L. split; [now apply (remove_all_present t p n)|]. split.
  - apply dirs_above_iff. intros q A. rewrite lookup_unset_tree, (above_not_prefix_back q p A).
    now apply (proj1 (dirs_above_iff t p) D).
  - now rewrite lookup_unset_tree, is_prefix_refl.
Qed.

(** where nothing lies below [p], clearing the subtree at [p] touches [p] only *)
Lemma nothing_below : forall t p q, p <> [] -> (forall q, above p q -> lookup t q = None) ->
  path_eqb p q = false -> (if is_prefix p q then None else lookup t q) = lookup t q.
Proof.
  intros t p q Hp H E. destruct (is_prefix p q) eqn:Epre; [|reflexivity].
  apply prefix_cases in Epre as [->|Epre]; [rewrite path_eqb_refl in E; discriminate|].
  symmetry. apply H. now apply proper_prefix_above.
Qed.

(** on a tree in which nothing lies below [d] unless [d] is a directory (every tree the phase sees) *)
Lemma process_dir_spec : forall t (d : path), d <> [] -> dirs_above t d ->
  (lookup t d <> Some Dir -> forall q, above d q -> lookup t q = None) ->
  exists t', process_dir t d = Ok t' /\ forall q, lookup t' q = if path_eqb d q then Some Dir else lookup t q.
Proof.
  intros t d Hne D Hcl. unfold process_dir. rewrite (lstat_ok t d D).
  assert (Hreplace : forall n, lookup t d = Some n -> n <> Dir ->
            exists t', (do t1 <- remove_all t d ;; mkdir_all t1 d) = Ok t' /\
                       forall q, lookup t' q = if path_eqb d q then Some Dir else lookup t q).
  { intros n Hn Hnd. destruct (remove_all_clears t d n D Hn) as [-> [D' L']]. cbn [bind].
    rewrite (mkdir_all_last _ d D' Hne L'). eexists. split; [reflexivity|]. intros q.
    rewrite lookup_set, lookup_unset_tree. destruct (path_eqb d q) eqn:E; [reflexivity|].
    apply (nothing_below t d q Hne); [|assumption]. apply Hcl. rewrite Hn. intros H. injection H as ->. contradiction. }
  destruct (lookup t d) as [[c| |dst]|] eqn:El.
  - apply (Hreplace (File c)); [reflexivity | discriminate].
  - exists t. split; [reflexivity|]. intros q. now apply lookup_here.
  - apply (Hreplace (Link dst)); [reflexivity | discriminate].
  - rewrite (mkdir_all_last t d D Hne El). eexists. split; [reflexivity|]. intros q. apply lookup_set.
Qed.

Lemma process_symlink_spec : forall t (l : path) d, l <> [] -> dirs_above t l ->
  (lookup t l <> Some Dir -> forall q, above l q -> lookup t q = None) ->
  exists t', process_symlink t (l, d) = Ok t' /\
    forall q, lookup t' q = if path_eqb l q then Some (Link d) else if is_prefix l q then None else lookup t q.
Proof.
  intros t l d Hne D Hcl. unfold process_symlink. rewrite (lstat_ok t l D).
  (* a link written over something that is not a directory *)
  assert (Hflat : lookup t l <> Some Dir ->
            forall t', (forall q, lookup t' q = if path_eqb l q then Some (Link d) else lookup t q) ->
            forall q, lookup t' q = if path_eqb l q then Some (Link d) else if is_prefix l q then None else lookup t q).
  { intros Hnd t' L q. rewrite L. destruct (path_eqb l q) eqn:E; [reflexivity|].
    symmetry. apply (nothing_below t l q Hne (Hcl Hnd) E). }
  destruct (lookup t l) as [[c| |d']|] eqn:El; cbn [bind].
  1,2: (* a file or a directory is removed with everything below it *)
    destruct (remove_all_clears t l _ D El) as [-> [D' L']]; cbn [bind];
    rewrite (readlink_ok _ l D'), L', (symlink_ok _ d l D' L'); eexists; (split; [reflexivity|]); intros q;
    now rewrite lookup_set, lookup_unset_tree.
  - rewrite (readlink_ok t l D), El. destruct (N.eqb d' d) eqn:Edd.
    + apply N.eqb_eq in Edd. subst d'. exists t. split; [reflexivity|]. apply Hflat; [discriminate|].
      intros q. now apply lookup_here.
    + rewrite (remove_nondir t l (Link d') D El); [|discriminate]. cbn [bind].
      rewrite (symlink_ok _ d l); [| | now rewrite lookup_unset, path_eqb_refl].
      * eexists. split; [reflexivity|]. apply Hflat; [discriminate|].
        intros q. rewrite lookup_set, lookup_unset. destruct (path_eqb l q); reflexivity.
      * apply (dirs_above_upd t _ l None l (lookup_unset t l)); [rewrite El; discriminate | assumption].
  - rewrite (readlink_ok t l D), El, (symlink_ok t d l D El).
    eexists. split; [reflexivity|]. apply Hflat; [discriminate|]. intros q. apply lookup_set.
Qed.

Definition link_nodes (ls : list (path * N)) : fs := map (fun l => (fst l, Link (snd l))) ls.

Lemma link_nodes_none : forall ls p, ~ In p (map fst ls) -> lookup (link_nodes ls) p = None.
Proof. intros ls p H. apply lookup_none. unfold link_nodes. now rewrite map_map. Qed.

Lemma link_nodes_in : forall ls p d, NoDup (map fst ls) -> In (p, d) ls -> lookup (link_nodes ls) p = Some (Link d).
Proof.
  intros ls p d Hn H. apply lookup_nodup; [unfold link_nodes; now rewrite map_map|].
  apply in_map_iff. now exists (p, d).
Qed.

(** [under_new_link nc p] (Bowl/OverlayCommit.v) unfolds to [under_links (c_links nc) p] *)
Definition under_links (ls : list (path * N)) (p : path) : bool :=
  existsb (fun l => is_proper_prefix (fst l) p) ls.

Lemma under_links_app : forall a b p, under_links (a ++ b) p = under_links a p || under_links b p.
Proof. intros. unfold under_links. apply existsb_app. Qed.

Section Phase1.
  Variables ob nb : build.
  Hypothesis Wo : wf_build ob.
  Hypothesis Wn : wf_build nb.

  Definition after_dirs (ds : list path) (p : path) : option node :=
    if mem p ds then Some Dir else lookup (tree_of ob) p.

  Lemma dirs_split_facts : forall ds1 d ds2, b_dirs nb = ds1 ++ d :: ds2 ->
    ~ In d ds1 /\ d <> [] /\ (forall q, above q d -> In q ds1) /\ (forall p, above d p -> ~ In p ds1).
  Proof.
    intros ds1 d ds2 E. pose proof (split_notin _ _ ds1 ds2 d (nodup_dirs nb Wn) E) as Hnot.
    split; [assumption|]. split.
    { apply (wf_nonempty nb Wn), in_bpaths. left. rewrite E. apply in_elt. }
    split.
    { intros q A. apply (wf_parent_first nb Wn ds1 d ds2 q E A). }
    intros p A Hin. apply in_split in Hin as [a [b' Es]]. subst ds1.
    rewrite <- app_assoc in E. cbn [app] in E.
    pose proof (wf_parent_first nb Wn a p (b' ++ d :: ds2) d E A) as Hd.
    apply Hnot. apply in_or_app. now left.
  Qed.

  Lemma process_dir_step : forall ds1 d ds2 t,
    b_dirs nb = ds1 ++ d :: ds2 ->
    (forall p, lookup t p = after_dirs ds1 p) ->
    exists t', process_dir t d = Ok t' /\ forall p, lookup t' p = after_dirs (ds1 ++ [d]) p.
  Proof.
    intros ds1 d ds2 t E Inv.
    destruct (dirs_split_facts ds1 d ds2 E) as [Hnot [Hne [Habove Hbelow]]].
    destruct (process_dir_spec t d Hne) as [t' [-> L']].
    - apply dirs_above_iff. intros q A. rewrite Inv. unfold after_dirs. apply Habove, mem_In in A. now rewrite A.
    - rewrite Inv. unfold after_dirs at 1. apply mem_false in Hnot. rewrite Hnot. intros Ho q A. rewrite Inv. unfold after_dirs.
      pose proof (Hbelow q A) as Hq. apply mem_false in Hq. rewrite Hq. apply (tree_below_nondir ob q d Wo Ho A).
    - exists t'. split; [reflexivity|]. intros p. rewrite L', Inv. unfold after_dirs. symmetry. apply if_mem_snoc.
  Qed.

  Definition after_links (ls : list (path * N)) (p : path) : option node :=
    if mem p (b_dirs nb) then Some Dir
    else match lookup (link_nodes ls) p with
         | Some n => Some n
         | None => if under_links ls p then None else lookup (tree_of ob) p
         end.

  Lemma link_in_bpaths : forall l d, In (l, d) (b_links nb) -> In l (bpaths nb).
  Proof. intros l d H. apply in_bpaths. right. right. apply in_map_fst. now exists d. Qed.

  Lemma not_dir_below_link : forall l d p, In (l, d) (b_links nb) -> above l p -> ~ In p (bpaths nb).
  Proof.
    intros l d p Hl A Hp. apply (dir_not_link nb Wn l).
    - apply (wf_closed nb Wn p l Hp A).
    - apply in_map_fst. now exists d.
  Qed.

  Lemma link_not_dir : forall l d, In (l, d) (b_links nb) -> mem l (b_dirs nb) = false.
  Proof. intros l d H. apply mem_false. intros Hd. apply (dir_not_link nb Wn l Hd). apply in_map_fst. now exists d. Qed.

  Lemma under_links_above : forall ls p, (forall x, In x ls -> In x (b_links nb)) -> under_links ls p = true ->
    exists l d, In (l, d) (b_links nb) /\ above l p.
  Proof.
    intros ls p Hsub H. apply existsb_exists in H as [[l d] [Hl Hp]]. cbn [fst] in Hp. apply Hsub in Hl.
    exists l, d. split; [assumption|]. apply proper_prefix_above; [|assumption].
    apply (wf_nonempty nb Wn). now apply (link_in_bpaths l d).
  Qed.

  Lemma process_symlink_step : forall ls1 e ls2 t,
    b_links nb = ls1 ++ e :: ls2 ->
    (forall p, lookup t p = after_links ls1 p) ->
    exists t', process_symlink t e = Ok t' /\ forall p, lookup t' p = after_links (ls1 ++ [e]) p.
  Proof.
    intros ls1 [l d] ls2 t E Inv.
    assert (Hin : In (l, d) (b_links nb)) by (rewrite E; apply in_elt).
    assert (Hsub : forall x, In x ls1 -> In x (b_links nb)) by (intros x Hx; rewrite E; apply in_or_app; now left).
    assert (Hlp : In l (bpaths nb)) by (now apply (link_in_bpaths l d)).
    assert (Hne : l <> []) by (now apply (wf_nonempty nb Wn)).
    pose proof (link_not_dir l d Hin) as Hnd.
    assert (Hassoc : lookup (link_nodes ls1) l = None).
    { apply link_nodes_none, (split_notin _ _ _ (map fst ls2) l (nodup_links nb Wn)). now rewrite E, map_app. }
    assert (Hunder : under_links ls1 l = false).
    { destruct (under_links ls1 l) eqn:Ex; [|reflexivity].
      apply (under_links_above ls1 l Hsub) in Ex as [l' [d' [Hl' A]]]. exfalso. now apply (not_dir_below_link l' d' l Hl' A). }
    (* the new build has nothing below l *)
    assert (Hbelow : forall q, above l q -> mem q (b_dirs nb) = false /\ lookup (link_nodes ls1) q = None).
    { intros q A. pose proof (not_dir_below_link l d q Hin A) as Hq. split.
      - apply mem_false. intros H. apply Hq, in_bpaths. now left.
      - apply link_nodes_none. intros H. apply in_map_fst in H as [d' H].
        apply Hq. apply (link_in_bpaths q d'). now apply Hsub. }
    destruct (process_symlink_spec t l d Hne) as [t' [-> L']].
    - apply dirs_above_iff. intros q A. rewrite Inv. unfold after_links.
      assert (Hq : In q (b_dirs nb)) by (now apply (wf_closed nb Wn l q)).
      apply mem_In in Hq. now rewrite Hq.
    - rewrite Inv. unfold after_links at 1. rewrite Hnd, Hassoc, Hunder. intros Ho q A.
      rewrite Inv. unfold after_links. destruct (Hbelow q A) as [-> ->].
      destruct (under_links ls1 q); [reflexivity|]. apply (tree_below_nondir ob q l Wo Ho A).
    - exists t'. split; [reflexivity|]. intros p. rewrite L'. unfold after_links at 1.
      unfold link_nodes at 1. rewrite map_app, lookup_app, under_links_app. fold (link_nodes ls1).
      cbn [map lookup under_links existsb fst snd]. rewrite orb_false_r.
      destruct (path_eqb l p) eqn:Elp.
      + apply path_eqb_eq in Elp. subst p. now rewrite Hnd, Hassoc.
      + destruct (is_prefix l p) eqn:Epre.
        * apply prefix_cases in Epre as [->|Epre]; [rewrite path_eqb_refl in Elp; discriminate|].
          destruct (Hbelow p (proper_prefix_above l p Hne Epre)) as [-> ->]. now rewrite Epre, orb_true_r.
        * assert (Epp : is_proper_prefix l p = false) by (unfold is_proper_prefix; now rewrite Epre).
          rewrite Epp, orb_false_r, Inv. unfold after_links. destruct (lookup (link_nodes ls1) p); reflexivity.
  Qed.

  Definition state1 (p : path) : option node := after_links (b_links nb) p.

  Theorem phase1_ok :
    exists t1, ensure_dirs_and_symlinks (cont nb) (tree_of ob) = Ok t1 /\ forall p, lookup t1 p = state1 p.
  Proof.
    unfold ensure_dirs_and_symlinks. cbn [cont c_dirs c_links].
    destruct (fold_res_inv _ process_dir after_dirs (b_dirs nb) process_dir_step (tree_of ob)) as [ta [-> Inva]];
      [reflexivity|]. cbn [bind].
    apply (fold_res_inv _ process_symlink after_links (b_links nb) process_symlink_step ta).
    intros p. now rewrite Inva.
  Qed.

  Lemma state1_dir : forall p, In p (b_dirs nb) -> state1 p = Some Dir.
  Proof. intros p H. unfold state1, after_links. apply mem_In in H. now rewrite H. Qed.

  Lemma state1_link : forall p d, In (p, d) (b_links nb) -> state1 p = Some (Link d).
  Proof.
    intros p d H. unfold state1, after_links.
    rewrite (link_not_dir p d H). now rewrite (link_nodes_in (b_links nb) p d (nodup_links nb Wn) H).
  Qed.

  Lemma state1_other : forall p,
    lookup (tree_of nb) p <> Some Dir -> (forall d, lookup (tree_of nb) p <> Some (Link d)) ->
    state1 p = if under_new_link (cont nb) p then None else lookup (tree_of ob) p.
  Proof.
    intros p Hd Hl. unfold state1, after_links.
    assert (Hm : mem p (b_dirs nb) = false) by (apply mem_false; intros H; apply Hd; now apply tree_dir).
    rewrite Hm, link_nodes_none; [reflexivity|].
    intros H. apply in_map_fst in H as [d H]. apply (Hl d). now apply tree_link.
  Qed.
End Phase1.

Section AfterPhase1.
  Variables (ob nb : build) (w : work) (st : stage).
  Hypothesis Wo : wf_build ob.
  Hypothesis Wn : wf_build nb.
  Hypothesis PS : patch_sound ob nb w st.
  Hypothesis HK : H_kinds ob nb w.

  Local Notation tr := (w_trans w).
  Local Notation ks := (keys (group_by (w_trans w))).
  Local Notation taken := (c_paths (cont ob) ++ c_paths (cont nb)).
  Local Notation s1 := (state1 ob nb).
  Local Notation old := (lookup (tree_of ob)).
  Local Notation new := (lookup (tree_of nb)).

  (** the content of the old build's file at [k]: the [cur] of [patch_step]; [cur_at (tree_of ob) k]
      in Compose/CommitOverlayBytesProofs.v *)
  Definition ocont (k : path) : list N := match lookup (tree_of ob) k with Some (File c) => c | _ => [] end.

  Lemma trans_new_file : forall p k, In (p, k) tr -> In p (map fst (b_files nb)).
  Proof. intros p k H. destruct (ps_trans ob nb w st PS p k H) as [c [H1 _]]. apply in_map_fst. now exists c. Qed.

  Lemma trans_old_file : forall p k, In (p, k) tr -> old k = Some (File (ocont k)).
  Proof.
    intros p k H. destruct (ps_trans ob nb w st PS p k H) as [c [_ H2]]. unfold ocont.
    now rewrite (tree_file ob Wo k c H2).
  Qed.

  Lemma trans_content : forall p k, In (p, k) tr -> new p = Some (File (ocont k)).
  Proof.
    intros p k H. destruct (ps_trans ob nb w st PS p k H) as [c [H1 H2]]. unfold ocont.
    now rewrite (tree_file ob Wo k c H2), (tree_file nb Wn p c H1).
  Qed.

  Lemma key_has_trans : forall k, In k ks -> exists p, In (p, k) tr.
  Proof. intros k H. now apply group_by_keys. Qed.

  Lemma newfile_taken : forall p, In p (map fst (b_files nb)) -> In p taken.
  Proof. intros p H. apply in_or_app. right. apply in_bpaths. right. now left. Qed.

  Lemma oldfile_taken : forall p, In p (map fst (b_files ob)) -> In p taken.
  Proof. intros p H. apply in_or_app. left. apply in_bpaths. right. now left. Qed.

  Lemma not_taken_none : forall p, ~ In p taken -> old p = None /\ new p = None /\ s1 p = None.
  Proof.
    intros p H.
    assert (Ho : ~ In p (bpaths ob)) by (intros Hin; apply H; apply in_or_app; now left).
    assert (Hn : ~ In p (bpaths nb)) by (intros Hin; apply H; apply in_or_app; now right).
    split; [now apply tree_none|]. split; [now apply tree_none|].
    rewrite state1_other; rewrite ?(tree_none nb p Hn); try easy.
    destruct (under_new_link (cont nb) p); [reflexivity | now apply tree_none].
  Qed.

  Lemma key_old : forall k, In k ks -> old k = Some (File (ocont k)).
  Proof. intros k H. destruct (key_has_trans k H) as [p Hp]. now apply (trans_old_file p k). Qed.

  Lemma key_taken : forall k, In k ks -> In k taken.
  Proof.
    intros k H. apply oldfile_taken. pose proof (key_old k H) as Ho. apply tree_file_inv in Ho.
    apply in_map_fst. now exists (ocont k).
  Qed.

  Lemma key_kind : forall k, In k ks -> new_kind_ok_for_source nb k.
  Proof. intros k H. destruct (key_has_trans k H) as [p Hp]. now apply (hk_source ob nb w HK p k). Qed.

  Lemma not_under_link_if_dirs : forall p, (forall a, above a p -> new a = None \/ new a = Some Dir) -> under_new_link (cont nb) p = false.
  Proof.
    intros p H. change (under_new_link (cont nb) p) with (under_links (b_links nb) p).
    destruct (under_links (b_links nb) p) eqn:E; [|reflexivity].
    apply (under_links_above nb Wn _ p (fun x Hx => Hx)) in E as [l [d [Hin A]]].
    destruct (H l A) as [E|E]; rewrite (tree_link nb Wn l d Hin) in E; discriminate.
  Qed.

  Lemma key_state1 : forall k, In k ks -> s1 k = Some (File (ocont k)).
  Proof.
    intros k H. destruct (key_kind k H) as [Hk Ha].
    assert (Hd : new k <> Some Dir) by (destruct Hk as [E|[c E]]; rewrite E; discriminate).
    assert (Hl : forall d, new k <> Some (Link d)) by (intros d; destruct Hk as [E|[c E]]; rewrite E; discriminate).
    rewrite (state1_other ob nb Wn k Hd Hl), (not_under_link_if_dirs k Ha). now apply key_old.
  Qed.

  Lemma key_above : forall k a, In k ks -> above a k -> s1 a = Some Dir.
  Proof.
    intros k a Hk A. destruct (key_kind k Hk) as [_ Ha]. destruct (Ha a A) as [En|En].
    - rewrite state1_other; rewrite ?En; try easy.
      rewrite not_under_link_if_dirs; [apply (tree_above_dir ob k a (File (ocont k)) Wo (key_old k Hk) A)|]. intros a' A'. apply Ha.
      destruct A as [r [-> [Ha1 Hr]]]. destruct A' as [r' [-> [Ha' Hr']]]. exists (r' ++ r). rewrite app_assoc.
      split; [reflexivity|]. split; [assumption | destruct r'; [contradiction | discriminate]].
    - apply state1_dir. now apply tree_dir_inv.
  Qed.

  Lemma newfile_above : forall p a, In p (map fst (b_files nb)) -> above a p -> In a (b_dirs nb) /\ s1 a = Some Dir.
  Proof.
    intros p a Hp A.
    assert (Hd : In a (b_dirs nb)).
    { apply (wf_closed nb Wn p a); [|assumption]. apply in_bpaths. right. now left. }
    split; [assumption | now apply state1_dir].
  Qed.

  Lemma newdir_not_key : forall a, In a (b_dirs nb) -> ~ In a ks.
  Proof.
    intros a Hd Hk. destruct (key_kind a Hk) as [[E|[c E]] _]; rewrite (tree_dir nb Wn a Hd) in E; discriminate.
  Qed.

  Lemma newfile_state1 : forall p, In p (map fst (b_files nb)) -> s1 p = old p.
  Proof.
    intros p H. pose proof H as Hf. apply in_map_fst in Hf as [c Hf].
    rewrite state1_other; rewrite ?(tree_file nb Wn p c Hf); try easy.
    rewrite (not_under_link_if_dirs p); [reflexivity|].
    intros a A. right. apply (tree_dir nb Wn). apply (wf_closed nb Wn p a); [|assumption]. apply in_bpaths. right. now left.
  Qed.

  Lemma newfile_state1_not_dir : forall p, In p (map fst (b_files nb)) -> s1 p <> Some Dir.
  Proof. intros p Hp. rewrite (newfile_state1 p Hp). now apply (hk_dir_to_file ob nb w HK). Qed.

  Lemma trans_taken : forall p k, In (p, k) tr -> In p taken /\ p <> [].
  Proof.
    intros p k H. pose proof (trans_new_file p k H) as Hf. split; [now apply newfile_taken|].
    apply (wf_nonempty nb Wn), in_bpaths. right. now left.
  Qed.
End AfterPhase1.
