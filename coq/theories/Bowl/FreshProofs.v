(** Lemmas about the output-tree model: lookups after [tset] / [tremove_all] / [mkdir_all],
    and the specification of [prepare] on a well-formed container. *)
From Wharf Require Import Base.Prelude Base.ListLemmas Bowl.Fresh.

(** [path_eqb], [is_prefix] and [tlookup] are, up to conversion, [list_eqb], [prefixb] and [assoc]
    of Base/ListLemmas.v at [N.eqb]; their basic facts are instances of the lemmas there. *)
Lemma path_eqb_eq a b : path_eqb a b = true <-> a = b.
Proof. apply (list_eqb_eq N.eqb N.eqb_eq). Qed.
Lemma path_eqb_refl a : path_eqb a a = true.
Proof. apply (list_eqb_refl N.eqb N.eqb_eq). Qed.
Lemma path_eqb_neq a b : a <> b -> path_eqb a b = false.
Proof. apply (list_eqb_neq N.eqb N.eqb_eq). Qed.
Lemma path_eqb_sym a b : path_eqb a b = path_eqb b a.
Proof. apply (list_eqb_sym N.eqb N.eqb_eq). Qed.
Lemma path_eq_dec (a b : path) : {a = b} + {a <> b}.
Proof. apply (list_eqb_dec N.eqb N.eqb_eq). Qed.

Lemma nlist_eqb_eq (a b : list N) : nlist_eqb a b = true <-> a = b.
Proof. exact (ListLemmas.nlist_eqb_eq a b). Qed.

Lemma bind_ok {A B} (r : res A) (f : A -> res B) y : bind r f = Ok y -> exists x, r = Ok x /\ f x = Ok y.
Proof. destruct r as [x| |]; cbn [bind]; [intros H; exists x; split; [reflexivity|exact H]|discriminate|discriminate]. Qed.

Lemma tlookup_tset t p n q : tlookup (tset t p n) q = if path_eqb p q then Some n else tlookup t q.
Proof. reflexivity. Qed.
Lemma tlookup_tset_same t p n : tlookup (tset t p n) p = Some n.
Proof. rewrite tlookup_tset, path_eqb_refl. reflexivity. Qed.
Lemma tlookup_tset_other t p n q : p <> q -> tlookup (tset t p n) q = tlookup t q.
Proof. intros H. rewrite tlookup_tset, path_eqb_neq by assumption. reflexivity. Qed.

Lemma tlookup_app a b q :
  tlookup (a ++ b) q = match tlookup a q with Some x => Some x | None => tlookup b q end.
Proof. apply (assoc_app N.eqb). Qed.

Lemma tlookup_none t q : tlookup t q = None <-> ~ In q (map fst t).
Proof. apply (assoc_None N.eqb N.eqb_eq). Qed.

Lemma tlookup_in t q n : tlookup t q = Some n -> In (q, n) t.
Proof. apply (assoc_In N.eqb N.eqb_eq). Qed.

Lemma tlookup_nodup t q n : NoDup (map fst t) -> In (q, n) t -> tlookup t q = Some n.
Proof. apply (assoc_NoDup N.eqb N.eqb_eq). Qed.

Lemma is_prefix_app p r : is_prefix p (p ++ r) = true.
Proof. apply (prefixb_app N.eqb N.eqb_eq). Qed.

Lemma is_prefix_spec p q : is_prefix p q = true <-> exists r, q = p ++ r.
Proof. apply (prefixb_spec N.eqb N.eqb_eq). Qed.

Lemma tlookup_tremove_all t p q :
  tlookup (tremove_all t p) q = if is_prefix p q then None else tlookup t q.
Proof. exact (assoc_filter_negb N.eqb N.eqb_eq (is_prefix p) t q). Qed.

Lemma prefixes_from_in done rest q :
  In q (prefixes_from done rest) <-> exists a b, rest = a ++ b /\ a <> [] /\ q = done ++ a.
Proof.
  revert done. induction rest as [|s rest IH]; intros done; cbn [prefixes_from In].
  - split; [tauto|]. intros (a & b & H & Hne & _). destruct a; [contradiction|discriminate].
  - rewrite IH. split.
    + intros [<-|(a & b & -> & Hne & ->)].
      * exists [s], rest. split; [reflexivity|split; [discriminate|reflexivity]].
      * exists (s :: a), b. split; [reflexivity|split; [discriminate|]]. rewrite <- app_assoc. reflexivity.
    + intros (a & b & H & Hne & ->). destruct a as [|x a]; [contradiction|].
      injection H as -> ->. destruct a as [|y a].
      * left. reflexivity.
      * right. exists (y :: a), b. split; [reflexivity|split; [discriminate|]]. rewrite <- app_assoc. reflexivity.
Qed.

Lemma ne_prefixes_in p q : In q (ne_prefixes p) <-> exists b, p = q ++ b /\ q <> [].
Proof.
  unfold ne_prefixes. rewrite prefixes_from_in. cbn [app]. split.
  - intros (a & b & -> & Hne & ->). exists b. split; [reflexivity|assumption].
  - intros (b & -> & Hne). exists q, b. split; [reflexivity|split; [assumption|reflexivity]].
Qed.

Lemma parent_snoc p s : parent (p ++ [s]) = p.
Proof. unfold parent. apply removelast_last. Qed.

Lemma path_snoc (p : path) : p <> [] -> exists s, p = parent p ++ [s].
Proof.
  intros H. destruct (exists_last H) as (l & s & ->). exists s. rewrite parent_snoc. reflexivity.
Qed.

Lemma proper_prefixes_in p q : In q (proper_prefixes p) <-> exists b, p = q ++ b /\ q <> [] /\ b <> [].
Proof.
  unfold proper_prefixes. rewrite ne_prefixes_in. destruct (snoc_cases p) as [->|(p' & s & ->)].
  - cbn. split; intros (b & H & Hne); symmetry in H; apply app_eq_nil in H; tauto.
  - rewrite parent_snoc. split.
    + intros (b & -> & Hne). exists (b ++ [s]). rewrite app_assoc. split; [reflexivity|]. split; [assumption|destruct b; discriminate].
    + intros (b & H & Hne & Hb). destruct (snoc_cases b) as [->|(b' & s' & ->)]; [contradiction|].
      rewrite app_assoc in H. apply app_inj_tail in H as [-> _]. exists b'. split; [reflexivity|assumption].
Qed.

Lemma parent_in_proper p : p <> [] -> parent p <> [] -> In (parent p) (proper_prefixes p).
Proof.
  intros Hp Hq. apply proper_prefixes_in. destruct (path_snoc p Hp) as [s Hs].
  exists [s]. split; [assumption|split; [assumption|discriminate]].
Qed.

Lemma ne_prefixes_split p : p <> [] -> forall q, In q (ne_prefixes p) <-> In q (proper_prefixes p) \/ q = p.
Proof.
  intros Hp q. rewrite ne_prefixes_in, proper_prefixes_in. split.
  - intros (b & H & Hne). destruct b as [|x b].
    + right. rewrite app_nil_r in H. symmetry. assumption.
    + left. exists (x :: b). split; [assumption|split; [assumption|discriminate]].
  - intros [(b & H & Hne & _)| ->]; [exists b; split; assumption|exists []; split; [rewrite app_nil_r; reflexivity|assumption]].
Qed.

Lemma prefixes_from_longer done rest q : In q (prefixes_from done rest) -> length done < length q.
Proof.
  rewrite prefixes_from_in. intros (a & b & _ & Hne & ->). rewrite app_length.
  destruct a; [contradiction|cbn; lia].
Qed.

Lemma mkdir_all_from_noop rest : forall t done,
  (forall q, In q (prefixes_from done rest) -> tlookup t q = Some Dir) ->
  mkdir_all_from t done rest = Ok t.
Proof.
  induction rest as [|s rest IH]; intros t done H; cbn [mkdir_all_from]; [reflexivity|].
  rewrite (H (done ++ [s])) by (left; reflexivity).
  apply IH. intros q Hq. apply H. right. assumption.
Qed.

Lemma mkdir_all_noop t p :
  (forall q, In q (ne_prefixes p) -> tlookup t q = Some Dir) -> mkdir_all t p = Ok t.
Proof. apply mkdir_all_from_noop. Qed.

Lemma mkdir_all_from_spec rest : forall t done,
  (forall q, In q (prefixes_from done rest) -> tlookup t q = Some Dir \/ tlookup t q = None) ->
  exists t', mkdir_all_from t done rest = Ok t' /\
    (forall q, In q (prefixes_from done rest) -> tlookup t' q = Some Dir) /\
    (forall q, ~ In q (prefixes_from done rest) -> tlookup t' q = tlookup t q).
Proof.
  induction rest as [|s rest IH]; intros t done H.
  - exists t. split; [reflexivity|]. split; [intros q []|reflexivity].
  - cbn [prefixes_from] in *. set (cur := done ++ [s]) in *.
    assert (Hcur : ~ In cur (prefixes_from cur rest)) by (intros HI; apply prefixes_from_longer in HI; lia).
    (* MkdirAll goes on in [t1]: [t], or [t] with [cur] made *)
    assert (exists t1, mkdir_all_from t done (s :: rest) = mkdir_all_from t1 cur rest /\
              tlookup t1 cur = Some Dir /\ forall q, q <> cur -> tlookup t1 q = tlookup t q) as (t1 & -> & Hc & Ho).
    { cbn [mkdir_all_from]. fold cur. destruct (H cur (or_introl eq_refl)) as [E|E]; rewrite E;
        [exists t|exists (tset t cur Dir)]; auto using tlookup_tset_same, tlookup_tset_other. }
    destruct (IH t1 cur) as (t' & Ht' & Hin & Hout).
    { intros q Hq. rewrite Ho; [apply H; right; assumption|]. intros ->. contradiction. }
    exists t'. split; [assumption|]. split.
    + intros q [<-|Hq]; [rewrite Hout by assumption; exact Hc|apply Hin; assumption].
    + intros q Hq. rewrite Hout by (intros HI; apply Hq; right; assumption).
      apply Ho. intros ->. apply Hq. left. reflexivity.
Qed.

Lemma mkdir_all_spec t p :
  (forall q, In q (ne_prefixes p) -> tlookup t q = Some Dir \/ tlookup t q = None) ->
  exists t', mkdir_all t p = Ok t' /\
    (forall q, In q (ne_prefixes p) -> tlookup t' q = Some Dir) /\
    (forall q, ~ In q (ne_prefixes p) -> tlookup t' q = tlookup t q).
Proof. apply mkdir_all_from_spec. Qed.

Lemma is_dir_parent t p :
  p <> [] -> (forall q, In q (proper_prefixes p) -> tlookup t q = Some Dir) -> is_dir t (parent p) = true.
Proof.
  intros Hp H. unfold is_dir. destruct (parent p) as [|x r] eqn:E; [reflexivity|].
  rewrite H; [reflexivity|]. rewrite <- E. apply parent_in_proper; [assumption|rewrite E; discriminate].
Qed.

Lemma fold_res_app {A B} (f : A -> B -> res A) a l1 l2 :
  fold_res f a (l1 ++ l2) = bind (fold_res f a l1) (fun a' => fold_res f a' l2).
Proof.
  revert a. induction l1 as [|x l1 IH]; intros a; cbn [fold_res app bind]; [reflexivity|].
  destruct (f a x); cbn [bind]; [apply IH|reflexivity|reflexivity].
Qed.

Definition dtree (ds : list path) : tree := map (fun d => (d, Dir)) ds.
Definition file_entry (f : path * Z) : path * node := (fst f, File (zeros (Z.to_nat (snd f)))).
Definition link_entry (l : path * list byte) : path * node := (fst l, Link (snd l)).

Lemma ctree_eq c : ctree c = dtree (c_dirs c) ++ map file_entry (c_files c) ++ map link_entry (c_links c).
Proof. reflexivity. Qed.

Lemma dtree_keys ds : map fst (dtree ds) = ds.
Proof. unfold dtree. rewrite map_map. cbn [fst]. apply map_id. Qed.
Lemma ctree_keys c : map fst (ctree c) = c_paths c.
Proof. rewrite ctree_eq. unfold c_paths. rewrite !map_app, dtree_keys, !map_map. reflexivity. Qed.

Lemma tlookup_dtree ds q : In q ds -> tlookup (dtree ds) q = Some Dir.
Proof.
  induction ds as [|d ds IH]; cbn [dtree map tlookup In]; [tauto|].
  intros [->|H]; [rewrite path_eqb_refl; reflexivity|].
  destruct (path_eqb d q); [reflexivity|apply IH; assumption].
Qed.
Lemma tlookup_dtree_cases ds q : tlookup (dtree ds) q = Some Dir \/ tlookup (dtree ds) q = None.
Proof.
  induction ds as [|d ds IH]; cbn [dtree map tlookup]; [right; reflexivity|].
  destruct (path_eqb d q); [left; reflexivity|exact IH].
Qed.

(** Prepare builds its tree by [tset] (new bindings in front), the reference [ctree] lists the
    entries in container order; the two answer lookups alike because every path is bound once *)
Definition same_tree (t R : tree) : Prop := forall q, tlookup t q = tlookup R q.

Lemma same_tree_tset_fresh t R p n :
  same_tree t R -> ~ In p (map fst R) -> same_tree (tset t p n) (R ++ [(p, n)]).
Proof.
  intros Ht Hf q. rewrite tlookup_tset, tlookup_app, <- Ht. cbn [tlookup]. destruct (path_eqb p q) eqn:E.
  - apply path_eqb_eq in E. subst q. rewrite Ht, (proj2 (tlookup_none R p) Hf). reflexivity.
  - destruct (tlookup t q); reflexivity.
Qed.

Lemma mkdir_all_dtree t d D :
  same_tree t (dtree D) -> exists t', mkdir_all t d = Ok t' /\ same_tree t' (dtree (D ++ ne_prefixes d)).
Proof.
  intros Ht. destruct (mkdir_all_spec t d) as (t' & E & Hin & Hout); [intros q _; rewrite Ht; apply tlookup_dtree_cases|].
  exists t'. split; [exact E|]. intros q. unfold dtree. rewrite map_app, tlookup_app. fold (dtree D) (dtree (ne_prefixes d)).
  destruct (in_dec path_eq_dec q (ne_prefixes d)) as [HI|HI].
  - rewrite (Hin q HI), (tlookup_dtree _ q HI). destruct (tlookup_dtree_cases D q) as [->| ->]; reflexivity.
  - rewrite (Hout q HI), Ht, (proj2 (tlookup_none (dtree (ne_prefixes d)) q)) by (rewrite dtree_keys; exact HI).
    destruct (tlookup (dtree D) q); reflexivity.
Qed.

Lemma fold_res_snoc {B} (step : tree -> B -> res tree) (ent : B -> path * node) (pre : tree -> B -> Prop) :
  (forall R t x, same_tree t R -> pre R x -> exists t', step t x = Ok t' /\ same_tree t' (R ++ [ent x])) ->
  forall xs R t, same_tree t R ->
    (forall done x todo, xs = done ++ x :: todo -> pre (R ++ map ent done) x) ->
    exists t', fold_res step t xs = Ok t' /\ same_tree t' (R ++ map ent xs).
Proof.
  intros Hstep. induction xs as [|a xs IH]; intros R t Ht Hpre; cbn [fold_res map].
  - exists t. rewrite app_nil_r. split; [reflexivity|exact Ht].
  - destruct (Hstep R t a Ht) as (t1 & E1 & H1); [rewrite <- (app_nil_r R); exact (Hpre [] a xs eq_refl)|].
    rewrite E1. cbn [bind]. destruct (IH (R ++ [ent a]) t1 H1) as (t' & E & H').
    + intros done x todo ->. rewrite <- app_assoc. exact (Hpre (a :: done) x todo eq_refl).
    + exists t'. rewrite <- app_assoc in H'. split; assumption.
Qed.

(** when Prepare comes to the entry at [p], it is not there yet and its directories are *)
Definition entry_pre (R : tree) (p : path) : Prop :=
  p <> [] /\ ~ In p (map fst R) /\ (forall q, In q (proper_prefixes p) -> tlookup R q = Some Dir).

Definition file_pre (R : tree) (f : path * Z) : Prop := entry_pre R (fst f) /\ (0 <= snd f)%Z.

(** ... nor is anything below a link (RemoveAll removes nothing) *)
Definition link_pre (R : tree) (l : path * list byte) : Prop :=
  entry_pre R (fst l) /\ (forall k, In k (map fst R) -> is_prefix (fst l) k = false).

Lemma prepare_file_fresh R t f :
  same_tree t R -> file_pre R f -> exists t', prepare_file t f = Ok t' /\ same_tree t' (R ++ [file_entry f]).
Proof.
  destruct f as [p sz]. intros Ht [(Hp & Hf & Hd) Hsz]. cbn [fst snd] in *. unfold prepare_file.
  rewrite (is_dir_parent t p Hp) by (intros q Hq; rewrite Ht; apply Hd, Hq). cbn [negb].
  rewrite (proj2 (Z.ltb_ge sz 0) Hsz). destruct p as [|x p']; [contradiction|].
  rewrite Ht, (proj2 (tlookup_none R _) Hf). eexists. split; [reflexivity|].
  apply same_tree_tset_fresh; assumption.
Qed.

Lemma prepare_link_fresh R t l :
  same_tree t R -> link_pre R l -> exists t', prepare_link t l = Ok t' /\ same_tree t' (R ++ [link_entry l]).
Proof.
  destruct l as [p dest]. intros Ht [(Hp & Hf & Hd) Hbelow]. cbn [fst snd] in *.
  assert (Hrm : same_tree (tremove_all t p) R).
  { intros q. rewrite tlookup_tremove_all, Ht. destruct (is_prefix p q) eqn:E; [|reflexivity].
    symmetry. apply tlookup_none. intros Hk. rewrite (Hbelow q Hk) in E. discriminate. }
  unfold prepare_link. destruct p as [|x p']; [contradiction|].
  rewrite (is_dir_parent _ _ Hp) by (intros q Hq; rewrite Hrm; apply Hd, Hq). cbn [negb].
  eexists. split; [reflexivity|]. apply same_tree_tset_fresh; assumption.
Qed.

Section Prepare.
  Variable c : container.
  Hypothesis WF : wf_container c.

  Let ND : NoDup (c_paths c) := proj1 WF.
  Let NR : ~ In [] (c_paths c) := proj1 (proj2 WF).
  Let PC : forall p q, In p (c_paths c) -> In q (proper_prefixes p) -> In q (c_dirs c) := proj1 (proj2 (proj2 WF)).
  Let SZ : forall f, In f (c_files c) -> (0 <= snd f)%Z := proj2 (proj2 (proj2 WF)).

  Lemma dir_in_paths d : In d (c_dirs c) -> In d (c_paths c).
  Proof. intros H. unfold c_paths. apply in_or_app. left. assumption. Qed.
  Lemma file_in_paths f : In f (c_files c) -> In (fst f) (c_paths c).
  Proof. intros H. unfold c_paths. apply in_or_app. right. apply in_or_app. left. apply in_map. assumption. Qed.

  Lemma ne_prefixes_of_dir d q : In d (c_dirs c) -> In q (ne_prefixes d) -> In q (c_dirs c).
  Proof.
    intros Hd Hq. assert (d <> []) by (intros ->; apply NR, dir_in_paths; assumption).
    apply ne_prefixes_split in Hq; [|assumption]. destruct Hq as [Hq| ->]; [|assumption].
    apply (PC d); [apply dir_in_paths|]; assumption.
  Qed.

  Lemma dirs_phase ds : forall t D,
    same_tree t (dtree D) ->
    exists t', fold_res prepare_dir t ds = Ok t' /\ same_tree t' (dtree (D ++ flat_map ne_prefixes ds)).
  Proof.
    induction ds as [|d ds IH]; intros t D Ht; cbn [fold_res flat_map].
    - exists t. rewrite app_nil_r. split; [reflexivity|exact Ht].
    - unfold prepare_dir at 1. destruct (mkdir_all_dtree t d D Ht) as (t1 & -> & Ht1). cbn [bind].
      rewrite app_assoc. apply IH, Ht1.
  Qed.

  Lemma dirs_done :
    exists t1, fold_res prepare_dir [] (c_dirs c) = Ok t1 /\ same_tree t1 (dtree (c_dirs c)).
  Proof.
    destruct (dirs_phase (c_dirs c) [] [] (fun q => eq_refl)) as (t1 & E & Ht1).
    exists t1. split; [exact E|]. intros q. rewrite Ht1. cbn [app].
    (* what MkdirAll makes on the way is listed too *)
    destruct (in_dec path_eq_dec q (c_dirs c)) as [HI|HI].
    - rewrite !tlookup_dtree; [reflexivity|exact HI|]. apply in_flat_map. exists q. split; [exact HI|].
      apply ne_prefixes_in. exists []. split; [rewrite app_nil_r; reflexivity|].
      intros ->. apply NR, dir_in_paths, HI.
    - rewrite !(proj2 (tlookup_none (dtree _) q)); rewrite ?dtree_keys; [reflexivity|exact HI|].
      intros HI'. apply in_flat_map in HI' as (d & Hd & Hq). apply HI, (ne_prefixes_of_dir d); assumption.
  Qed.

  Lemma entry_pre_ok R p rest :
    c_paths c = map fst (dtree (c_dirs c) ++ R) ++ p :: rest -> entry_pre (dtree (c_dirs c) ++ R) p.
  Proof.
    intros Hc. assert (Hp : In p (c_paths c)) by (rewrite Hc; apply in_elt).
    split; [intros ->; contradiction|]. split.
    { pose proof ND as N. rewrite Hc in N. apply NoDup_remove_2 in N. intros HI. apply N, in_or_app. left. exact HI. }
    intros q Hq. rewrite tlookup_app, tlookup_dtree; [reflexivity|]. apply (PC p); assumption.
  Qed.

  Lemma file_pre_ok done f todo :
    c_files c = done ++ f :: todo -> file_pre (dtree (c_dirs c) ++ map file_entry done) f.
  Proof.
    intros Hsplit. split; [|apply SZ; rewrite Hsplit; apply in_elt].
    apply (entry_pre_ok _ _ (map fst todo ++ map fst (c_links c))).
    unfold c_paths. rewrite Hsplit, !map_app, dtree_keys, !map_map, <- !app_assoc. reflexivity.
  Qed.

  Lemma link_pre_ok done l todo :
    c_links c = done ++ l :: todo ->
    link_pre ((dtree (c_dirs c) ++ map file_entry (c_files c)) ++ map link_entry done) l.
  Proof.
    intros Hsplit. rewrite <- app_assoc.
    assert (Hc : c_paths c = map fst (dtree (c_dirs c) ++ map file_entry (c_files c) ++ map link_entry done)
                             ++ fst l :: map fst todo)
      by (unfold c_paths; rewrite Hsplit, !map_app, dtree_keys, !map_map, <- !app_assoc; reflexivity).
    pose proof (entry_pre_ok _ _ _ Hc) as Hpre. split; [exact Hpre|]. destruct Hpre as (Hne & Hnew & _).
    intros k Hk. destruct (is_prefix (fst l) k) eqn:E; [|reflexivity]. exfalso. apply Hnew.
    (* a path below that of the link would make it a directory *)
    apply is_prefix_spec in E. destruct E as [[|y r] ->]; [rewrite app_nil_r in Hk; exact Hk|].
    rewrite map_app, dtree_keys. apply in_or_app. left. apply (PC (fst l ++ y :: r)).
    - rewrite Hc. apply in_or_app. left. exact Hk.
    - apply proper_prefixes_in. exists (y :: r). split; [reflexivity|]. split; [exact Hne|discriminate].
  Qed.

  Theorem prepare_spec :
    exists t0, prepare c [] = Ok t0 /\ same_tree t0 (ctree c).
  Proof.
    unfold prepare. destruct dirs_done as (t1 & E1 & H1). rewrite E1. cbn [bind].
    destruct (fold_res_snoc _ _ _ prepare_file_fresh (c_files c) _ t1 H1 file_pre_ok) as (t2 & E2 & H2).
    rewrite E2. cbn [bind].
    destruct (fold_res_snoc _ _ _ prepare_link_fresh (c_links c) _ t2 H2 link_pre_ok) as (t3 & E3 & H3).
    exists t3. split; [exact E3|]. intros q. rewrite H3. unfold ctree. rewrite <- app_assoc. reflexivity.
  Qed.
End Prepare.

Section Ctree.
  Variable c : container.
  Hypothesis WF : wf_container c.

  Lemma ctree_nodup : NoDup (map fst (ctree c)).
  Proof. rewrite ctree_keys. apply WF. Qed.

  Lemma ctree_dir q : In q (c_dirs c) -> tlookup (ctree c) q = Some Dir.
  Proof. intros H. rewrite ctree_eq, tlookup_app, tlookup_dtree by assumption. reflexivity. Qed.

  Lemma ctree_file p sz : In (p, sz) (c_files c) -> tlookup (ctree c) p = Some (File (zeros (Z.to_nat sz))).
  Proof.
    intros H. apply tlookup_nodup; [apply ctree_nodup|]. rewrite ctree_eq.
    apply in_or_app. right. apply in_or_app. left. exact (in_map file_entry _ _ H).
  Qed.

  Lemma ctree_link p d : In (p, d) (c_links c) -> tlookup (ctree c) p = Some (Link d).
  Proof.
    intros H. apply tlookup_nodup; [apply ctree_nodup|]. rewrite ctree_eq.
    apply in_or_app. right. apply in_or_app. right. exact (in_map link_entry _ _ H).
  Qed.

  Lemma ctree_none q : ~ In q (c_paths c) -> tlookup (ctree c) q = None.
  Proof. intros H. apply tlookup_none. rewrite ctree_keys. assumption. Qed.

  Lemma files_nodup : NoDup (map fst (c_files c)).
  Proof. destruct WF as (ND & _). unfold c_paths in ND. apply NoDup_app_iff in ND as (_ & ND & _). apply NoDup_app_iff in ND as (ND & _). exact ND. Qed.
End Ctree.

Lemma existsb_path_eqb p l : existsb (path_eqb p) l = true <-> In p l.
Proof. apply (existsb_list_eqb N.eqb N.eqb_eq). Qed.

Lemma negb_existsb_path_eqb p l : negb (existsb (path_eqb p) l) = true -> ~ In p l.
Proof. rewrite <- existsb_path_eqb. intros H E. rewrite E in H. discriminate. Qed.

Lemma nodup_paths_sound l : nodup_paths l = true -> NoDup l.
Proof. exact (ListLemmas.nodupb_NoDup N.eqb N.eqb_eq l). Qed.

Lemma wf_containerb_sound c : wf_containerb c = true -> wf_container c.
Proof.
  unfold wf_containerb. intros H. apply andb_prop in H. destruct H as [H H4]. apply andb_prop in H. destruct H as [H H3].
  apply andb_prop in H. destruct H as [H1 H2].
  split; [apply nodup_paths_sound, H1|]. split; [apply negb_existsb_path_eqb, H2|]. split.
  - intros p q Hp Hq. rewrite forallb_forall in H3. specialize (H3 p Hp).
    rewrite forallb_forall in H3. apply existsb_path_eqb, H3, Hq.
  - intros f Hf. rewrite forallb_forall in H4. apply Z.leb_le, H4, Hf.
Qed.
