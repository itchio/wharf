(** Commit phase 2, applyTranspositions, for arbitrary orders of its two map iterations.  First on any
    tree and for any [renaming] of the destinations (Bowl/CommitRenameProofs.v), [transpositions_ok]:
    where every source is a regular file, every destination is not a directory, both lie below
    directories and no name outside [taken] is in use, the execution loop and the cleanup succeed and
    leave [state2]: every destination holds the content of its source, every source that is neither
    kept nor patched in place is gone, no temporary name survives, everything else is untouched.
    Then ([phase2_ok]) the clash loop gives such a renaming and phase 1 leaves such a tree (by the
    facts about [state1] at the end of Bowl/CommitPhase1Proofs.v).
    The source of a transposition is the old file it copies (in the Go code the old build is the
    target and the new build the source of the patch). *)
From Coq Require Import Permutation.
From Wharf Require Import Base.Prelude Base.ListLemmas Bowl.FSmini Bowl.FSminiProofs Bowl.OverlayCommit Bowl.OverlayCommitProofs Bowl.CommitSpec
  Bowl.CommitBuildProofs Bowl.CommitPhase1Proofs Bowl.CommitOpsProofs Bowl.CommitRenameProofs.
Local Open Scope N_scope.

(** the source of the transposition whose destination goes by the name [q] under the renaming [f]
    (none for a transposition of a file onto itself) *)
Fixpoint tsrc (f : path -> path) (l : list (path * path)) (q : path) : option path :=
  match l with
  | [] => None
  | (p, k) :: r => if path_eqb (f p) q && negb (path_eqb q k) then Some k else tsrc f r q
  end.

Lemma tsrc_some : forall f l q k, tsrc f l q = Some k -> exists p, In (p, k) l /\ f p = q /\ q <> k.
Proof.
  intros f. induction l as [|[p k0] l IH]; intros q k H; cbn [tsrc] in H; [discriminate|].
  destruct (path_eqb (f p) q && negb (path_eqb q k0)) eqn:E.
  - injection H as <-. apply andb_true_iff in E as [E1 E2]. apply path_eqb_eq in E1.
    apply negb_true_iff, path_eqb_neq in E2. exists p. split; [now left | now split].
  - destruct (IH q k H) as [p' [H1 H2]]. exists p'. split; [now right | assumption].
Qed.

Lemma tsrc_none : forall f l q, tsrc f l q = None -> forall p k, In (p, k) l -> f p = q -> q = k.
Proof.
  intros f. induction l as [|[p0 k0] l IH]; intros q H p k Hin E; [destruct Hin|]. cbn [tsrc] in H.
  destruct (path_eqb (f p0) q && negb (path_eqb q k0)) eqn:E0; [discriminate|].
  destruct Hin as [E1|Hin]; [|now apply (IH q H p k)].
  injection E1 as -> ->. rewrite E, path_eqb_refl in E0. cbn in E0. apply negb_false_iff in E0. now apply path_eqb_eq.
Qed.

Lemma mem_perm : forall q l l', Permutation l l' -> mem q l = mem q l'.
Proof.
  intros q l l' H. destruct (mem q l') eqn:E.
  - apply mem_In. apply mem_In in E. apply (Permutation_in q (Permutation_sym H) E).
  - apply mem_false. apply mem_false in E. intros Hin. apply E. apply (Permutation_in q H Hin).
Qed.

Section State2.
  Variables (tr : list (path * path)) (over : list path) (c : path -> list N).
  Hypothesis Htr : NoDup (map fst tr).

  Local Notation ks := (keys (group_by tr)).

  (** the old file [k] does not stay: it is not among its own destinations and has no pending overlay
      (one destination is then served by a rename; otherwise every destination is a copy) *)
  Definition movedb (k : path) : bool := negb (mem k (dests_of tr k)) && negb (mem k over).

  (** the tree after phase 2, started on a tree that reads [s0] (independent of the iteration orders) *)
  Definition state2 (s0 : path -> option node) (q : path) : option node :=
    match assoc comp_eqb tr q with
    | Some k => Some (File (c k))
    | None => if mem q ks && movedb q then None else s0 q
    end.

  Lemma trans_unique : forall p k k', In (p, k) tr -> In (p, k') tr -> k = k'.
  Proof. intros p k k'. now apply NoDup_fst_functional. Qed.

  Lemma state2_dest : forall s0 q k, In (q, k) tr -> state2 s0 q = Some (File (c k)).
  Proof. intros s0 q k H. unfold state2. now rewrite (assoc_NoDup comp_eqb comp_eqb_eq tr q k Htr H). Qed.

  Lemma state2_nondest : forall s0 q, ~ In q (map fst tr) ->
    state2 s0 q = if mem q ks && movedb q then None else s0 q.
  Proof. intros s0 q H. unfold state2. now rewrite (proj2 (assoc_None comp_eqb comp_eqb_eq tr q) H). Qed.

  Lemma state2_ext : forall s s' q, (forall x, s x = s' x) -> state2 s q = state2 s' q.
  Proof. intros s s' q H. unfold state2. now rewrite H. Qed.
End State2.

Section Transpositions.
  Variables (taken : list path) (tr : list (path * path)) (over : list path) (c : path -> list N) (t0 : fs).
  Variables (g' : groups) (clf : list (path * path)).
  Hypothesis RN : renaming taken tr g' clf.
  Hypothesis Hdest : forall p k, In (p, k) tr -> dirs_above t0 p /\ lookup t0 p <> Some Dir.
  Hypothesis Hsrc : forall p k, In (p, k) tr -> dirs_above t0 k /\ lookup t0 k = Some (File (c k)).
  Hypothesis Hfree : forall x, ~ In x taken -> lookup t0 x = None.
  Variable order2 : list path.
  Hypothesis P2 : Permutation order2 (keys (group_by tr)).

  Local Notation ks := (keys (group_by tr)).
  Local Notation rn := (rn_of clf).
  Local Notation Htr := (rn_tr RN).
  Local Notation movedb := (movedb tr over).
  Local Notation state2 := (state2 tr over c).

  Lemma order2_nodup : NoDup order2.
  Proof. apply (Permutation_NoDup (Permutation_sym P2) (group_by_keys_nodup tr)). Qed.

  Lemma order2_ks : forall k, In k order2 <-> In k ks.
  Proof. intros k. split; apply Permutation_in; [assumption | now apply Permutation_sym]. Qed.

  Lemma dest_pre : forall p k, In (p, k) tr -> rn p <> k -> dirs_above t0 (rn p) /\ lookup t0 (rn p) <> Some Dir.
  Proof.
    intros p k Hp Hne. destruct (Hdest p k Hp) as [D L]. destruct (rn_taken RN p k Hp) as [Hpne _].
    destruct (dest_cases RN p k Hp Hne) as [_ [[-> _]|[n [E [F _]]]]]; [now split|]. split.
    - rewrite E. apply dirs_above_iff. intros a A. apply (proj1 (dirs_above_iff t0 p) D), (above_tmp_path a p n Hpne), A.
    - rewrite (Hfree _ F). discriminate.
  Qed.

  Lemma key_pre : forall k, In k ks -> dirs_above t0 k /\ lookup t0 k = Some (File (c k)).
  Proof. intros k Hk. apply group_by_keys in Hk as [p Hp]. apply (Hsrc p k Hp). Qed.

  (** the tree after the groups in [done] were executed *)
  Definition stateB (done : list path) (q : path) : option node :=
    match tsrc rn tr q with
    | Some k => if mem k done then Some (File (c k)) else lookup t0 q
    | None => if mem q done && movedb q then None else lookup t0 q
    end.

  Lemma stateB_key : forall done k, In k ks ->
    stateB done k = if mem k done && movedb k then None else Some (File (c k)).
  Proof.
    intros done k Hk. unfold stateB. destruct (tsrc rn tr k) as [k0|] eqn:E; [|now rewrite (proj2 (key_pre k Hk))].
    apply tsrc_some in E as [p [H [E Hne]]]. subst k. exfalso. now apply (dest_not_key RN p k0 H Hne).
  Qed.

  Lemma stateB_dest : forall done p k, In (p, k) tr -> rn p <> k ->
    stateB done (rn p) = if mem k done then Some (File (c k)) else lookup t0 (rn p).
  Proof.
    intros done p k H Hne. unfold stateB. destruct (tsrc rn tr (rn p)) as [k0|] eqn:E.
    - apply tsrc_some in E as [p0 [H0 [E0 _]]]. apply (rn_inj RN p0 k0 p k H0 H) in E0. subst p0.
      now rewrite (trans_unique tr Htr p k0 k H0 H).
    - destruct Hne. apply (tsrc_none rn tr (rn p) E p k H eq_refl).
  Qed.

  Lemma stateB_other : forall done k q, q <> k -> ~ In q (map rn (dests_of tr k)) ->
    stateB (done ++ [k]) q = stateB done q.
  Proof.
    intros done k q H1 H2. unfold stateB.
    destruct (tsrc rn tr q) as [k0|] eqn:Es; rewrite mem_app, mem_cons, mem_nil, orb_false_r.
    - destruct (path_eqb k0 k) eqn:E0; [|now rewrite orb_false_r].
      apply path_eqb_eq in E0. subst k0. apply tsrc_some in Es as [p [Hp [<- _]]].
      destruct H2. apply in_map, dests_of_In, Hp.
    - apply path_eqb_neq in H1. now rewrite H1, orb_false_r.
  Qed.

  Lemma stateB_dir : forall done a, (forall k, In k done -> In k ks) -> lookup t0 a = Some Dir -> stateB done a = Some Dir.
  Proof.
    intros done a Hdone Ha. unfold stateB. destruct (tsrc rn tr a) as [k0|] eqn:E.
    - apply tsrc_some in E as [p [H [E Hne]]]. subst a. destruct (dest_pre p k0 H Hne) as [_ N]. contradiction.
    - destruct (mem a done) eqn:Em; [|assumption]. apply mem_In, Hdone in Em. rewrite (proj2 (key_pre a Em)) in Ha. discriminate.
  Qed.

  (** the groups loop keeps the directories, so what lay below directories at the start still does *)
  Lemma stateB_above : forall done t x, (forall k, In k done -> In k ks) -> (forall q, lookup t q = stateB done q) ->
    dirs_above t0 x -> dirs_above t x.
  Proof.
    intros done t x Hdone Inv D. apply dirs_above_iff. intros a A. rewrite Inv.
    apply stateB_dir; [assumption|]. apply (proj1 (dirs_above_iff t0 x) D a A).
  Qed.

  Lemma phaseB_step : forall done k rest t,
    order2 = done ++ k :: rest ->
    (forall q, lookup t q = stateB done q) ->
    exists t', match group_get g' k with Some ds => apply_group over t (k, ds) | None => Ok t end = Ok t' /\
               forall q, lookup t' q = stateB (done ++ [k]) q.
  Proof.
    intros done k rest t E Inv.
    assert (Hk : In k ks) by (apply order2_ks; rewrite E; apply in_elt).
    assert (Hdone : forall k, In k done -> In k ks) by (intros x Hx; apply order2_ks; rewrite E; apply in_or_app; now left).
    assert (Hnk : mem k done = false) by apply mem_false, (split_notin _ _ done rest k order2_nodup E).
    rewrite (rn_groups RN k Hk). set (ds' := map rn (dests_of tr k)).
    assert (Hds' : forall d, In d ds' -> exists p, In (p, k) tr /\ d = rn p).
    { intros d Hd. apply in_map_iff in Hd as [p [<- Hp]]. exists p. split; [now apply dests_of_In | reflexivity]. }
    pose proof (stateB_above done t k Hdone Inv (proj1 (key_pre k Hk))) as Dk.
    assert (Lk : lookup t k = Some (File (c k))).
    { now rewrite Inv, (stateB_key done k Hk), Hnk. }
    assert (Hok : dests_ok t k ds').
    { intros d Hd Hne. destruct (Hds' d Hd) as [p [Hp ->]]. split.
      - apply (stateB_above done t _ Hdone Inv), (dest_pre p k Hp Hne).
      - rewrite Inv, (stateB_dest done p k Hp Hne), Hnk. apply (dest_pre p k Hp Hne). }
    rewrite apply_group_multiple. destruct (apply_multiple_spec over t k ds' (c k) Dk Lk) as [t' [-> L']]; [|apply (g'_nodup RN) | assumption|].
    { unfold ds'. destruct (proj1 (group_by_keys tr k) Hk) as [p Hp]. apply dests_of_In in Hp.
      destruct (dests_of tr k); [destruct Hp | discriminate]. }
    exists t'. split; [reflexivity|].
    intros q. rewrite L'. unfold group_result.
    destruct (mem q ds' && negb (path_eqb q k)) eqn:E1.
    - apply andb_true_iff in E1 as [E1 E2]. apply mem_In, Hds' in E1 as [p [Hp ->]]. apply negb_true_iff, path_eqb_neq in E2.
      rewrite (stateB_dest _ p k Hp E2), mem_app, mem_cons, path_eqb_refl. cbn [orb]. now rewrite orb_true_r.
    - destruct (path_eqb q k) eqn:Eqk.
      + apply path_eqb_eq in Eqk. subst q.
        rewrite Lk, (stateB_key _ k Hk), mem_app, mem_cons, path_eqb_refl, orb_true_r. cbn [andb].
        unfold movedb, ds'. now rewrite (g'_noop RN k Hk).
      + rewrite andb_true_r in E1. apply mem_false in E1. apply path_eqb_neq in Eqk.
        cbn [andb]. now rewrite Inv, (stateB_other done k q Eqk E1).
  Qed.

  Lemma stateB_renamed : forall p k, In (p, k) tr -> p <> k -> stateB order2 (rn p) = Some (File (c k)).
  Proof.
    intros p k H Hne. assert (Hk : In k ks) by (apply group_by_keys; now exists p).
    rewrite (stateB_dest order2 p k H).
    - apply order2_ks, mem_In in Hk. now rewrite Hk.
    - pose proof (rn_spec RN p k H) as R. destruct (clash ks k p); [|congruence].
      destruct R as [_ [F _]]. intros E. rewrite E in F. apply F. now apply (rn_key_taken RN).
  Qed.

  (** away from the names the cleanup touches, the loop already left the result *)
  Lemma stateB_final : forall q, ~ In q (map fst clf) -> ~ In q (map snd clf) -> stateB order2 q = state2 (lookup t0) q.
  Proof.
    intros q Hf Hs. destruct (in_dec path_eq_dec q (map fst tr)) as [Hq|Hq].
    - apply in_map_fst in Hq as [k Hq]. rewrite (state2_dest tr over c Htr _ q k Hq).
      assert (Hk : In k ks) by (apply group_by_keys; now exists q). pose proof (rn_of_notin clf q Hs) as Eq.
      destruct (path_eq_dec q k) as [->|Hne].
      + rewrite (stateB_key order2 k Hk). unfold movedb. apply dests_of_In, mem_In in Hq. now rewrite Hq, andb_false_r.
      + rewrite <- Eq at 1. rewrite (stateB_dest order2 q k Hq) by congruence. apply order2_ks, mem_In in Hk. now rewrite Hk.
    - rewrite state2_nondest by assumption. unfold stateB. destruct (tsrc rn tr q) as [k|] eqn:E; [exfalso | now rewrite (mem_perm q order2 ks P2)].
      apply tsrc_some in E as [p [Hp [Ep Hne]]]. rewrite <- Ep in Hne.
      destruct (dest_cases RN p k Hp Hne) as [_ [[E _]|[n [_ [_ [_ R]]]]]].
      + apply Hq. rewrite <- Ep, E. exact (in_map fst tr (p, k) Hp).
      + apply Hf. rewrite <- Ep. exact (in_map fst clf _ R).
  Qed.

  Lemma cleanup_ok : forall t, (forall q, lookup t q = stateB order2 q) ->
    exists t', cleanup_renames clf t = Ok t' /\ forall q, lookup t' q = state2 (lookup t0) q.
  Proof.
    intros t Inv. destruct (moves_spec clf t (clf_names_nodup RN)) as [t' [E [Li [Lii Liii]]]].
    - intros T P Hin. destruct (cl_entry RN T P Hin) as [ET [_ [F [k [Hp [Hpk HPks]]]]]].
      assert (HTk : rn P <> k) by (rewrite <- ET; intros ->; exact (F (proj2 (proj2 (rn_taken RN P k Hp))))).
      pose proof (fun x => stateB_above order2 t x (fun k => proj1 (order2_ks k)) Inv) as Keep.
      split; [rewrite ET; apply Keep, (dest_pre P k Hp HTk)|].
      split; [apply Keep, (Hdest P k Hp)|]. split.
      + exists (c k). rewrite Inv, ET. now apply stateB_renamed.
      + rewrite Inv, (stateB_key order2 P HPks). destruct (mem P order2 && movedb P); discriminate.
    - exists t'. split; [exact E|]. intros q.
      destruct (in_dec path_eq_dec q (map snd clf)) as [Hs|Hs]; [|destruct (in_dec path_eq_dec q (map fst clf)) as [Hf|Hf]].
      + (* parked: back under its own name *)
        apply in_map_snd in Hs as [T Hs]. destruct (cl_entry RN T q Hs) as [-> [_ [_ [k [Hk [Hne _]]]]]].
        now rewrite (Li _ q Hs), Inv, (stateB_renamed q k Hk Hne), (state2_dest tr over c Htr _ q k Hk).
      + (* a temporary name: not in use *)
        rewrite (Lii q Hf). apply in_map_fst in Hf as [P Hf]. destruct (cl_entry RN q P Hf) as [_ [_ [F _]]].
        rewrite state2_nondest by (intros H; apply in_map_fst in H as [k H]; exact (F (proj1 (proj2 (rn_taken RN q k H))))).
        assert (Hnk : mem q ks = false) by (apply mem_false; intros Hk; apply F; now apply (rn_key_taken RN)).
        rewrite Hnk. cbn [andb]. symmetry. now apply Hfree.
      + now rewrite (Liii q Hf Hs), Inv, (stateB_final q Hf Hs).
  Qed.

  Theorem transpositions_ok :
    exists t2, (do t <- apply_groups over g' order2 t0 ;; cleanup_renames clf t) = Ok t2 /\ forall q, lookup t2 q = state2 (lookup t0) q.
  Proof.
    rewrite apply_groups_fold. destruct (fold_res_inv _ _ stateB order2 phaseB_step t0) as [tb [-> Invb]].
    { intros q. unfold stateB. destruct (tsrc rn tr q); reflexivity. }
    cbn [bind]. apply (cleanup_ok tb Invb).
  Qed.
End Transpositions.

Section Trans.
  Variables (ob nb : build) (w : work) (st : stage).
  Hypothesis Wo : wf_build ob.
  Hypothesis Wn : wf_build nb.
  Hypothesis PS : patch_sound ob nb w st.
  Hypothesis HK : H_kinds ob nb w.

  Local Notation tr := (w_trans w).
  Local Notation ks := (keys (group_by (w_trans w))).
  Local Notation taken := (c_paths (cont ob) ++ c_paths (cont nb)).
  Local Notation s1 := (state1 ob nb).

  Lemma taken_cases : forall p, In p taken -> In p (bpaths ob) \/ In p (bpaths nb).
  Proof. intros p H. apply in_app_or in H. exact H. Qed.

  Local Notation s2 := (state2 tr (w_over w) (ocont ob) (state1 ob nb)).

  Theorem phase2_ok : forall order1 order2 t1,
    Permutation order1 ks -> Permutation order2 ks ->
    (forall q, lookup t1 q = s1 q) ->
    exists t2, apply_transpositions (cont ob) (cont nb) w order1 order2 t1 = Ok t2 /\ forall q, lookup t2 q = s2 q.
  Proof.
    intros order1 order2 t1 P1 P2 Inv. unfold apply_transpositions.
    destruct (rename_clashes taken (group_by tr) order1 0 []) as [g' clf] eqn:RC.
    assert (RN : renaming taken tr g' clf).
    { apply (rename_clashes_renaming taken tr (ps_trans_nodup ob nb w st PS)) with (order1 := order1); [|assumption|assumption].
      intros p k H. destruct (trans_taken ob nb w st Wn PS p k H) as [Ht Hne]. split; [assumption|]. split; [assumption|].
      apply (key_taken ob nb w st Wo PS), group_by_keys. now exists p. }
    destruct (transpositions_ok taken tr (w_over w) (ocont ob) t1 g' clf RN) with (order2 := order2) as [t2 [E L]]; try assumption.
    - intros p k H. pose proof (trans_new_file ob nb w st PS p k H) as Hf. split.
      + apply dirs_above_iff. intros a A. rewrite Inv. apply (newfile_above ob nb Wn p a Hf A).
      + rewrite Inv. now apply (newfile_state1_not_dir ob nb w Wn HK).
    - intros p k H. assert (Hk : In k ks) by (apply group_by_keys; now exists p). split.
      + apply dirs_above_iff. intros a A. rewrite Inv. apply (key_above ob nb w st Wo Wn PS HK k a Hk A).
      + rewrite Inv. now apply (key_state1 ob nb w st Wo Wn PS HK).
    - intros x H. rewrite Inv. apply (not_taken_none ob nb Wn x H).
    - exists t2. split; [exact E|]. intros q. rewrite L. now apply state2_ext.
  Qed.
End Trans.
