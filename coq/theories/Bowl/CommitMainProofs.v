(** Commit phases 3-5 (applyMoves, applyOverlays, deleteGhosts) and the main theorem: for a sound
    patch-phase result, well-formed builds and the kind hypothesis, [commit] succeeds for every
    order of its map iterations and every admissible ghost order, and the resulting tree is the
    new build's tree. *)
From Coq Require Import Permutation.
From Wharf Require Import Base.Prelude Base.ListLemmas Bowl.FSmini Bowl.FSminiProofs Bowl.OverlayCommit Bowl.OverlayCommitProofs Bowl.CommitSpec
  Bowl.CommitBuildProofs Bowl.CommitPhase1Proofs Bowl.CommitOpsProofs Bowl.CommitTransProofs.
Local Open Scope N_scope.

Section Main.
  Variables (ob nb : build) (w : work) (st : stage).
  Hypothesis Wo : wf_build ob.
  Hypothesis Wn : wf_build nb.
  Hypothesis PS : patch_sound ob nb w st.
  Hypothesis HK : H_kinds ob nb w.

  Local Notation tr := (w_trans w).
  Local Notation ks := (keys (group_by (w_trans w))).
  Local Notation old := (lookup (tree_of ob)).
  Local Notation new := (lookup (tree_of nb)).
  Local Notation s2 := (state2 (w_trans w) (w_over w) (ocont ob) (state1 ob nb)).
  Local Notation movedb := (movedb (w_trans w) (w_over w)).

  Lemma over_newfile : forall q, In q (w_over w) -> In q (map fst (b_files nb)).
  Proof. intros q H. apply (proj2 (ps_cover ob nb w st PS q)). right. now left. Qed.

  Lemma moves_newfile : forall q, In q (w_moves w) -> In q (map fst (b_files nb)).
  Proof. intros q H. apply (proj2 (ps_cover ob nb w st PS q)). right. now right. Qed.

  Lemma dest_newfile : forall q, In q (map fst tr) -> In q (map fst (b_files nb)).
  Proof. intros q H. apply (proj2 (ps_cover ob nb w st PS q)). now left. Qed.

  Lemma s2_nonfile : forall q, ~ In q (map fst (b_files nb)) ->
    s2 q = if mem q ks && movedb q then None else state1 ob nb q.
  Proof. intros q H. apply state2_nondest. intros Ht. now apply H, dest_newfile. Qed.

  Lemma s2_newdir : forall a, In a (b_dirs nb) -> s2 a = Some Dir.
  Proof.
    intros a Ha. rewrite s2_nonfile by (intros H; exact (dir_not_file nb Wn a Ha H)).
    assert (Hk : mem a ks = false) by (apply mem_false; now apply (newdir_not_key ob nb w Wn HK)).
    rewrite Hk. now apply state1_dir.
  Qed.

  Lemma newfile_dirs_above : forall t p, (forall a, In a (b_dirs nb) -> lookup t a = Some Dir) ->
    In p (map fst (b_files nb)) -> dirs_above t p.
  Proof.
    intros t p H Hp. apply dirs_above_iff. intros a A. apply H. apply (wf_closed nb Wn p a); [|assumption].
    apply in_bpaths. right. now left.
  Qed.

  Definition state3 (done : list path) (q : path) : option node := if mem q done then new q else s2 q.
  Definition state4 (done : list path) (q : path) : option node := if mem q done then new q else state3 (w_moves w) q.

  Lemma state3_newdir : forall done a, In a (b_dirs nb) -> state3 done a = Some Dir.
  Proof. intros done a Ha. unfold state3. rewrite (tree_dir nb Wn a Ha), (s2_newdir a Ha). now destruct (mem a done). Qed.

  Lemma state4_newdir : forall done a, In a (b_dirs nb) -> state4 done a = Some Dir.
  Proof. intros done a Ha. unfold state4. rewrite (tree_dir nb Wn a Ha), (state3_newdir _ a Ha). now destruct (mem a done). Qed.

  Lemma move_facts : forall p, In p (w_moves w) ->
    exists c, stage_get st p = Some (SWhole c) /\ new p = Some (File c) /\ s2 p <> Some Dir.
  Proof.
    intros p H. destruct (ps_moves ob nb w st PS p H) as [Hno [c [Hs Hc]]]. exists c.
    split; [assumption|]. split; [now apply (tree_file nb Wn)|].
    rewrite state2_nondest by (intros Ht; exact (proj2 (ps_disj_to ob nb w st PS p Ht) H)).
    destruct (mem p ks && movedb p); [discriminate|].
    apply (newfile_state1_not_dir ob nb w Wn HK), moves_newfile, H.
  Qed.

  Lemma phase3_step : forall done p rest t,
    w_moves w = done ++ p :: rest ->
    (forall q, lookup t q = state3 done q) ->
    exists t', move_from_stage st t p = Ok t' /\ forall q, lookup t' q = state3 (done ++ [p]) q.
  Proof.
    intros done p rest t E Inv.
    assert (Hp : In p (w_moves w)) by (rewrite E; apply in_elt).
    destruct (move_facts p Hp) as [c [Hs [Hn Hs2]]].
    assert (Dp : dirs_above t p).
    { apply newfile_dirs_above; [|now apply moves_newfile]. intros a Ha. rewrite Inv. now apply state3_newdir. }
    assert (Lp : lookup t p <> Some Dir).
    { rewrite Inv. unfold state3. destruct (mem p done); [rewrite Hn; discriminate | assumption]. }
    unfold move_from_stage. destruct (remove_quiet t p Dp Lp) as [t1 [-> L1]]. cbn [bind].
    pose proof (dirs_above_upd t t1 p None p L1 Lp Dp) as Dp1.
    rewrite (mkdir_parent_noop t1 p Dp1). cbn [bind]. rewrite Hs, (parent_ok_ok t1 p Dp1). cbn [bind].
    rewrite L1, path_eqb_refl. eexists. split; [reflexivity|].
    intros q. rewrite lookup_set, L1. unfold state3. rewrite if_mem_snoc.
    destruct (path_eqb p q) eqn:Eq; [|apply Inv]. apply path_eqb_eq in Eq. now subst q.
  Qed.

  Lemma phase4_step : forall done p rest t,
    w_over w = done ++ p :: rest ->
    (forall q, lookup t q = state4 done q) ->
    exists t', apply_overlay st t p = Ok t' /\ forall q, lookup t' q = state4 (done ++ [p]) q.
  Proof.
    intros done p rest t E Inv.
    assert (Hp : In p (w_over w)) by (rewrite E; apply in_elt).
    assert (Hnin : mem p done = false) by apply mem_false, (split_notin _ _ done rest p (ps_over_nodup ob nb w st PS) E).
    destruct (ps_over ob nb w st PS p Hp) as [ops [c [cn [Hs [Ho [Hn Ha]]]]]].
    pose proof (over_newfile p Hp) as Hf.
    assert (Dp : dirs_above t p).
    { apply newfile_dirs_above; [|assumption]. intros a Ha'. rewrite Inv. now apply state4_newdir. }
    assert (Lp : lookup t p = Some (File c)).
    { rewrite Inv. unfold state4, state3. rewrite Hnin.
      assert (Hm : mem p (w_moves w) = false) by (apply mem_false; now apply (ps_disj_om ob nb w st PS p Hp)).
      rewrite Hm, state2_nondest by (intros Ht; exact (proj1 (ps_disj_to ob nb w st PS p Ht) Hp)).
      unfold movedb. apply mem_In in Hp. rewrite Hp. cbn [negb]. rewrite !andb_false_r.
      rewrite (newfile_state1 ob nb Wn p Hf). now apply (tree_file ob Wo). }
    unfold apply_overlay. rewrite Hs. unfold open_existing.
    rewrite (read_file_ok t p c Dp Lp). cbn [bind]. eexists. split; [reflexivity|].
    intros q. rewrite lookup_set. unfold state4. rewrite if_mem_snoc.
    destruct (path_eqb p q) eqn:Eq; [|apply Inv].
    apply path_eqb_eq in Eq. subst q. rewrite Ha. symmetry. now apply (tree_file nb Wn).
  Qed.

  Definition state4f : path -> option node := state4 (w_over w).

  Lemma state4f_new : forall q n, new q = Some n -> state4f q = Some n.
  Proof.
    intros q n Hq. unfold state4f, state4, state3.
    destruct (mem q (w_over w)) eqn:Eo; [assumption|].
    destruct (mem q (w_moves w)) eqn:Em; [assumption|].
    apply mem_false in Eo, Em.
    destruct (tree_some_inv nb q n Hq) as [[-> Hd] | [[d [-> Hl]] | [c [-> Hc]]]].
    - now apply s2_newdir.
    - rewrite s2_nonfile by (intros Hf; apply (file_not_link nb Wn q Hf), in_map_fst; now exists d).
      assert (Hk : mem q ks = false).
      { apply mem_false. intros Hk. destruct (key_kind ob nb w HK q Hk) as [[E1|[c E1]] _]; rewrite Hq in E1; discriminate. }
      rewrite Hk. now apply (state1_link ob nb Wn).
    - (* regular file: it is a transposition *)
      assert (Hf : In q (map fst (b_files nb))) by (apply in_map_fst; now exists c).
      destruct (proj1 (ps_cover ob nb w st PS q) Hf) as [Ht|[Ht|Ht]]; [|contradiction|contradiction].
      apply in_map_fst in Ht as [k Ht].
      now rewrite (state2_dest _ _ _ (ps_trans_nodup ob nb w st PS) _ q k Ht), <- (trans_content ob nb w st Wo Wn PS q k Ht).
  Qed.

  Lemma state4f_nonew : forall q, new q = None ->
    state4f q = if under_new_link (cont nb) q || (mem q ks && movedb q) then None else old q.
  Proof.
    intros q Hq. pose proof Hq as Hn. apply (tree_none_inv nb Wn) in Hq. rewrite in_bpaths in Hq. unfold state4f, state4, state3.
    assert (Eo : mem q (w_over w) = false) by (apply mem_false; intros H; apply over_newfile in H; tauto).
    assert (Em : mem q (w_moves w) = false) by (apply mem_false; intros H; apply moves_newfile in H; tauto).
    rewrite Eo, Em, s2_nonfile by tauto.
    rewrite state1_other; rewrite ?Hn; try easy.
    destruct (mem q ks && movedb q); [now rewrite orb_true_r | now rewrite orb_false_r].
  Qed.

  Local Notation ghosts := (detect_ghosts (cont nb) (cont ob)).

  Lemma ghost_paths : forall p, In p (map snd ghosts) <-> In p (bpaths ob) /\ ~ In p (bpaths nb).
  Proof.
    intros p. unfold detect_ghosts. cbn [cont c_dirs c_files c_links]. change (c_paths (cont nb)) with (bpaths nb).
    rewrite !map_app, !map_map, !in_app_iff, in_bpaths. cbn [snd]. split.
    - intros [H|[H|H]]; apply in_map_iff in H as [x [<- H]]; apply filter_In in H as [H1 H2]; apply negb_true_iff, mem_false in H2;
        (split; [|assumption]); [right; left | right; right; now apply in_map | left]; assumption.
    - intros [[H|[H|H]] Hn]; apply mem_false in Hn.
      + right. right. apply in_map_iff. exists p. split; [reflexivity|]. apply filter_In. now rewrite Hn.
      + left. apply in_map_iff. exists p. split; [reflexivity|]. apply filter_In. now rewrite Hn.
      + right. left. apply in_map_iff in H as [x [<- H]]. apply in_map_iff. exists x. split; [reflexivity|]. apply filter_In. now rewrite Hn.
  Qed.

  Lemma state4f_ghost : forall q m, new q = None -> state4f q = Some m -> old q = Some m.
  Proof.
    intros q m Hn H. rewrite (state4f_nonew q Hn) in H.
    now destruct (under_new_link (cont nb) q || (mem q ks && movedb q)).
  Qed.

  Lemma under_link_down : forall a p, above a p -> under_new_link (cont nb) a = true -> under_new_link (cont nb) p = true.
  Proof.
    intros a p [r [-> [Ha Hr]]] H. unfold under_new_link in *. apply existsb_exists in H as [l [Hl Hp]].
    apply existsb_exists. exists l. split; [assumption|]. apply is_proper_prefix_spec in Hp as [r' [-> Hr']].
    apply is_proper_prefix_spec. exists (r' ++ r). split; [now rewrite app_assoc | destruct r'; [contradiction | discriminate]].
  Qed.

  Lemma ghost_ancestor : forall p a, In p (bpaths ob) -> under_new_link (cont nb) p = false -> above a p -> state4f a = Some Dir.
  Proof.
    intros p a Hpo Eu A. destruct (tree_in_some ob Wo p Hpo) as [n Hn].
    assert (Hoa : old a = Some Dir) by (apply (tree_above_dir ob p a n Wo Hn A)).
    destruct (new a) as [[c| |d]|] eqn:Ena.
    - exfalso. apply (hk_dir_to_file ob nb w HK a); [|assumption]. apply tree_file_inv in Ena. apply in_map_fst. now exists c.
    - now apply state4f_new.
    - exfalso. assert (Hu : under_new_link (cont nb) p = true); [|congruence].
      unfold under_new_link. apply existsb_exists. exists (a, d). split; [now apply tree_link_inv | now apply above_proper_prefix].
    - rewrite (state4f_nonew a Ena).
      assert (Hua : under_new_link (cont nb) a = false).
      { destruct (under_new_link (cont nb) a) eqn:Eua; [|reflexivity]. rewrite (under_link_down a p A Eua) in Eu. discriminate. }
      assert (Hka : mem a ks = false).
      { apply mem_false. intros Hk. rewrite (key_old ob nb w st Wo PS a Hk) in Hoa. discriminate. }
      now rewrite Hua, Hka.
  Qed.

  Lemma phase5_ok : forall go t, ghost_order_ok nb ob go -> (forall q, lookup t q = state4f q) ->
    exists t', delete_ghosts (cont nb) go t = Ok t' /\ forall q, lookup t' q = new q.
  Proof.
    intros go t [Hperm Hord] Inv.
    assert (Hgo : forall p, In p (map snd go) <-> In p (bpaths ob) /\ ~ In p (bpaths nb)).
    { intros p. rewrite <- ghost_paths. split; apply Permutation_in, Permutation_map; [assumption | now apply Permutation_sym]. }
    assert (Hgh : forall q m, new q = None -> state4f q = Some m -> In q (map snd go)).
    { intros q m Hnq Es. apply Hgo. split; [|now apply (tree_none_inv nb Wn)].
      apply (tree_some_in ob q m), (state4f_ghost q m Hnq Es). }
    destruct (delete_ghosts_spec (cont nb) go t Hord) as [t' [E L]].
    - intros p Hg. apply Hgo in Hg as [Hpo Hpn]. split; [now apply (wf_nonempty ob Wo)|].
      destruct (under_new_link (cont nb) p) eqn:Eu.
      + now rewrite Inv, (state4f_nonew p (tree_none nb p Hpn)), Eu.
      + apply dirs_above_iff. intros a A. rewrite Inv. now apply (ghost_ancestor p a).
    - intros p q Hg A Hq. apply Hgo in Hg as [Hpo Hpn]. rewrite Inv in Hq.
      destruct (state4f q) as [m|] eqn:Es; [|congruence]. apply (Hgh q m); [|assumption].
      destruct (new q) as [m'|] eqn:Enq; [|reflexivity]. pose proof (tree_above_dir nb q p m' Wn Enq A) as Hd.
      apply tree_some_in in Hd. contradiction.
    - exists t'. split; [exact E|]. intros q. rewrite L, Inv.
      destruct (mem q (map snd go)) eqn:Em.
      + apply mem_In, Hgo in Em as [_ Hn]. symmetry. now apply tree_none.
      + destruct (new q) as [n|] eqn:Enq; [now apply state4f_new|].
        destruct (state4f q) as [m|] eqn:Es; [|reflexivity]. exfalso. apply mem_false in Em. apply Em. now apply (Hgh q m).
  Qed.

  Theorem commit_equals_new_lemma : forall order1 order2 go,
    Permutation order1 (trans_keys w) -> Permutation order2 (trans_keys w) -> ghost_order_ok nb ob go ->
    exists t', commit (cont ob) (cont nb) w st order1 order2 go (tree_of ob) = Ok t' /\
               forall p, lookup t' p = lookup (tree_of nb) p.
  Proof.
    intros order1 order2 go P1 P2 Hgo. unfold commit.
    destruct (phase1_ok ob nb Wo Wn) as [t1 [-> Inv1]]. cbn [bind].
    destruct (phase2_ok ob nb w st Wo Wn PS HK order1 order2 t1 P1 P2 Inv1) as [t2 [-> Inv2]]. cbn [bind].
    (* phases 3 and 4 are folds over their work lists: [fold_res_inv] with what the tree reads as
       after a part of the list, [state3], [state4] *)
    destruct (fold_res_inv _ _ state3 _ phase3_step t2 Inv2) as [t3 [E3 Inv3]].
    unfold apply_moves. rewrite E3. cbn [bind].
    destruct (fold_res_inv _ _ state4 _ phase4_step t3 Inv3) as [t4 [E4 Inv4]].
    unfold apply_overlays. rewrite E4. cbn [bind].
    exact (phase5_ok go t4 Hgo Inv4).
  Qed.
End Main.
