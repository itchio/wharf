(** Sorted ghost lists, a concrete instance of the hypotheses of the commit
    theorem (non-vacuity), and the three kind-swap witnesses on which the faithful model does
    not produce the new build (DESIGN section 7, #27 and #28; the two C02-kindswap
    entries of known_findings.json), packaged as [commit_fails] / [commit_fails_intro], with which
    Properties/C02.v states them. *)
From Coq Require Import Permutation Sorting.Sorted.
From Wharf Require Import Base.Prelude Base.ListLemmas Bowl.FSmini Bowl.OverlayCommit Bowl.CommitSpec
  Bowl.CommitBuildProofs.
Local Open Scope N_scope.

Lemma sorted_later {A} (R : A -> A -> Prop) : forall l1 a l2 b l3,
  StronglySorted R (l1 ++ a :: l2 ++ b :: l3) -> R a b.
Proof.
  induction l1 as [|x l1 IH]; intros a l2 b l3 Hs; cbn [app] in Hs.
  - apply StronglySorted_inv in Hs as [_ Hall].
    apply (proj1 (Forall_forall _ _) Hall). apply in_or_app. right. now left.
  - apply StronglySorted_inv in Hs as [Hs _]. now apply (IH a l2 b l3).
Qed.

Lemma above_1 : forall q (a : comp), above q [a] -> False.
Proof. intros q a [r [E [Hq Hr]]]. destruct q as [|x [|y q]]; [contradiction | destruct r; [contradiction | discriminate] | discriminate]. Qed.

Lemma above_2 : forall q (a b : comp), above q [a; b] -> q = [a].
Proof.
  intros q a b [r [E [Hq Hr]]]. destruct q as [|x [|y [|z q]]]; [contradiction | now injection E as -> _ | | discriminate].
  destruct r; [contradiction | discriminate].
Qed.

Lemma short_ghost_order : forall (nb ob : build) (go : list ghost),
  (length go < 2)%nat -> Permutation go (detect_ghosts (cont nb) (cont ob)) -> ghost_order_ok nb ob go.
Proof.
  intros nb ob go Hlen Hp. split; [assumption|].
  intros l1 g1 l2 g2 l3 E. exfalso. subst go. rewrite app_length in Hlen. cbn [length] in Hlen.
  rewrite app_length in Hlen. cbn [length] in Hlen. lia.
Qed.

(** builds of depth at most two whose directories are all at the top: the shape of every example *)
Lemma wf_shallow : forall b,
  nodupb comp_eqb (bpaths b) = true ->
  forallb (fun d => match d with [_] => true | _ => false end) (b_dirs b) = true ->
  forallb (fun p => match p with [_] => true | [a; _] => mem [a] (b_dirs b) | _ => false end) (bpaths b) = true ->
  wf_build b.
Proof.
  intros b Hn Hd Hb.
  assert (Hp : forall p, In p (bpaths b) -> (exists a, p = [a]) \/ exists a c, p = [a; c] /\ In [a] (b_dirs b)).
  { intros p H. apply (proj1 (forallb_forall _ _) Hb) in H. destruct p as [|a [|c [|]]]; try discriminate.
    - left. now exists a.
    - right. exists a, c. split; [reflexivity | now apply mem_In]. }
  constructor.
  - exact (nodupb_NoDup comp_eqb FSminiProofs.comp_eqb_eq _ Hn).
  - intros p H. destruct (Hp p H) as [[a ->] | [a [c [-> _]]]]; discriminate.
  - intros p q H A. destruct (Hp p H) as [[a ->] | [a [c [-> Ha]]]]; [now apply above_1 in A | now apply above_2 in A as ->].
  - intros ds1 d ds2 q E A. assert (H : In d (b_dirs b)) by (rewrite E; apply in_elt).
    apply (proj1 (forallb_forall _ _) Hd) in H. destruct d as [|a [|]]; try discriminate. now apply above_1 in A.
Qed.

(** the chain a -> b -> c: b is a destination and a source, so it is parked under a temporary
    name; a is a ghost *)
Module Chain.
  Definition ob := mkB [] [] [([P 1], [1; 2]); ([P 2], [3])].
  Definition nb := mkB [] [] [([P 2], [1; 2]); ([P 3], [3])].
  Definition w := mkW [([P 2], [P 1]); ([P 3], [P 2])] [] [].
  Definition st : stage := [].
  Definition order := [[P 1]; [P 2]].
  Definition go : list ghost := [(GFile, [P 1])].

  Lemma wf_ob : wf_build ob.
  Proof. now apply wf_shallow. Qed.

  Lemma wf_nb : wf_build nb.
  Proof. now apply wf_shallow. Qed.

  Lemma sound : patch_sound ob nb w st.
  Proof.
    constructor; cbn.
    - repeat constructor; cbn; intuition congruence.
    - constructor.
    - constructor.
    - intros p. intuition.
    - intros p _. intuition.
    - intros p [].
    - intros p k [E|[E|[]]]; injection E as <- <-; eexists; split; [| |  | ]; cbn; eauto.
    - intros p [].
    - intros p [].
  Qed.

  Lemma kinds : H_kinds ob nb w.
  Proof.
    constructor.
    - intros p k H. cbn in H. destruct H as [E|[E|[]]]; injection E as <- <-; split.
      + left. reflexivity.
      + intros q A. now apply above_1 in A.
      + right. eexists. reflexivity.
      + intros q A. now apply above_1 in A.
    - intros p H. cbn in H. destruct H as [<-|[<-|[]]]; vm_compute; discriminate.
  Qed.

  Lemma orders : Permutation order (trans_keys w) /\ ghost_order_ok nb ob go.
  Proof.
    split; [apply Permutation_refl|]. apply short_ghost_order; [cbn; lia | apply Permutation_refl].
  Qed.

  Lemma result :
    commit (cont ob) (cont nb) w st order (rev order) go (tree_of ob) = Ok [([P 2], File [1; 2]); ([P 3], File [3])].
  Proof. vm_compute. reflexivity. Qed.
End Chain.

(** old file x becomes a symlink while its content is renamed to y: Commit succeeds, y is the
    symlink, x is gone *)
Module FileToLink.
  Definition ob := mkB [[P 3]] [] [([P 1], [7; 7])].
  Definition nb := mkB [[P 3]] [([P 1], 9)] [([P 2], [7; 7])].
  Definition w := mkW [([P 2], [P 1])] [] [].
  Definition st : stage := [].
  Definition order := [[P 1]].
  Definition go : list ghost := [].

  Lemma wf_ob : wf_build ob.
  Proof. now apply wf_shallow. Qed.

  Lemma wf_nb : wf_build nb.
  Proof. now apply wf_shallow. Qed.

  Lemma sound : patch_sound ob nb w st.
  Proof.
    constructor; cbn.
    - repeat constructor; cbn; intuition congruence.
    - constructor.
    - constructor.
    - intros p. intuition.
    - intros p _. intuition.
    - intros p [].
    - intros p k [E|[]]; injection E as <- <-; eexists; split; cbn; eauto.
    - intros p [].
    - intros p [].
  Qed.

  Lemma orders : Permutation order (trans_keys w) /\ ghost_order_ok nb ob go.
  Proof.
    split; [apply Permutation_refl|]. apply short_ghost_order; [cbn; lia | apply Permutation_refl].
  Qed.

  Lemma result :
    commit (cont ob) (cont nb) w st order order go (tree_of ob) = Ok [([P 2], Link 9); ([P 3], Dir)].
  Proof. vm_compute. reflexivity. Qed.

  Lemma wrong : lookup [([P 2], Link 9); ([P 3], Dir)] [P 2] <> lookup (tree_of nb) [P 2].
  Proof. vm_compute. discriminate. Qed.
End FileToLink.

(** a non-empty directory of the old build where the new build has a regular file: error *)
Module DirToFile.
  Definition ob := mkB [[P 1]] [] [([P 1; P 2], [5]); ([P 3], [6])].
  Definition nb := mkB [] [] [([P 1], [8]); ([P 3], [6])].
  Definition w := mkW [([P 3], [P 3])] [] [[P 1]].
  Definition st : stage := [([P 1], SWhole [8])].
  Definition order := [[P 3]].
  Definition go : list ghost := [(GFile, [P 1; P 2])].

  Lemma wf_ob : wf_build ob.
  Proof. now apply wf_shallow. Qed.

  Lemma wf_nb : wf_build nb.
  Proof. now apply wf_shallow. Qed.

  Lemma sound : patch_sound ob nb w st.
  Proof.
    constructor; cbn.
    - repeat constructor; cbn; intuition congruence.
    - constructor.
    - repeat constructor; cbn; intuition congruence.
    - intros p. intuition.
    - intros p [<-|[]]. split; [intros [] | intros [E|[]]; discriminate].
    - intros p [].
    - intros p k [E|[]]; injection E as <- <-; eexists; split; cbn; eauto.
    - intros p [].
    - intros p [<-|[]]. split; [intros [E|[E|[]]]; discriminate | eexists; split; [reflexivity | cbn; eauto]].
  Qed.

  Lemma orders : Permutation order (trans_keys w) /\ ghost_order_ok nb ob go.
  Proof.
    split; [apply Permutation_refl|]. apply short_ghost_order; [cbn; lia | apply Permutation_refl].
  Qed.

  Lemma result : commit (cont ob) (cont nb) w st order order go (tree_of ob) = Err ENOTEMPTY.
  Proof. vm_compute. reflexivity. Qed.
End DirToFile.

(** a file of the old build becomes a directory and its content moves inside: error *)
Module FileToDir.
  Definition ob := mkB [] [] [([P 1], [5; 5]); ([P 3], [6])].
  Definition nb := mkB [[P 1]] [] [([P 1; P 2], [5; 5]); ([P 3], [6])].
  Definition w := mkW [([P 1; P 2], [P 1]); ([P 3], [P 3])] [] [].
  Definition st : stage := [].
  Definition order := [[P 1]; [P 3]].
  Definition go : list ghost := [].

  Lemma wf_ob : wf_build ob.
  Proof. now apply wf_shallow. Qed.

  Lemma wf_nb : wf_build nb.
  Proof. now apply wf_shallow. Qed.

  Lemma sound : patch_sound ob nb w st.
  Proof.
    constructor; cbn.
    - repeat constructor; cbn; intuition congruence.
    - constructor.
    - constructor.
    - intros p. intuition.
    - intros p _. intuition.
    - intros p [].
    - intros p k [E|[E|[]]]; injection E as <- <-; eexists; split; cbn; eauto.
    - intros p [].
    - intros p [].
  Qed.

  Lemma orders : Permutation order (trans_keys w) /\ ghost_order_ok nb ob go.
  Proof.
    split; [apply Permutation_refl|]. apply short_ghost_order; [cbn; lia | apply Permutation_refl].
  Qed.

  Lemma result : commit (cont ob) (cont nb) w st order order go (tree_of ob) = Err EISDIR.
  Proof. vm_compute. reflexivity. Qed.
End FileToDir.

(** packaged: inputs satisfying every hypothesis of the commit theorem except H_kinds on which
    Commit does not produce the new build *)
Definition commit_fails (ob nb : build) (w : work) (st : stage) (o1 o2 : list path) (go : list ghost) : Prop :=
  wf_build ob /\ wf_build nb /\ patch_sound ob nb w st /\
  Permutation o1 (trans_keys w) /\ Permutation o2 (trans_keys w) /\ ghost_order_ok nb ob go /\
  ~ exists t', commit (cont ob) (cont nb) w st o1 o2 go (tree_of ob) = Ok t' /\ forall p, lookup t' p = lookup (tree_of nb) p.

Lemma commit_fails_intro : forall ob nb w st o go r,
  wf_build ob -> wf_build nb -> patch_sound ob nb w st ->
  Permutation o (trans_keys w) /\ ghost_order_ok nb ob go ->
  commit (cont ob) (cont nb) w st o o go (tree_of ob) = r ->
  (forall t', r = Ok t' -> exists p, lookup t' p <> lookup (tree_of nb) p) ->
  commit_fails ob nb w st o o go.
Proof.
  intros ob nb w st o go r Wo Wn PS [Ho Hg] <- Hr. repeat (split; [assumption|]).
  intros [t' [E Hx]]. destruct (Hr t' E) as [p Hp]. now apply Hp.
Qed.
