(** Vocabulary of the C02 theorems: builds, their trees, what a sound patch-phase result is,
    the kind hypothesis, admissible iteration orders.  Definitions only. *)
From Coq Require Import Permutation.
From Wharf Require Import Base.Prelude Bowl.FSmini Bowl.OverlayCommit.
Local Open Scope N_scope.

(** a build = a container plus the file contents *)
Record build := mkB { b_dirs : list path; b_links : list (path * N); b_files : list (path * list N) }.

Definition cont (b : build) : container := mkC (b_dirs b) (b_links b) (map fst (b_files b)).

Definition tree_of (b : build) : fs :=
  map (fun d => (d, Dir)) (b_dirs b) ++
  map (fun l => (fst l, Link (snd l))) (b_links b) ++
  map (fun f => (fst f, File (snd f))) (b_files b).

Definition bpaths (b : build) : list path := c_paths (cont b).

(** [q] is a proper, non-empty prefix of [p] *)
Definition above (q p : path) : Prop := exists r, p = q ++ r /\ q <> [] /\ r <> [].

(** well-formed build: paths are non-empty and pairwise distinct across kinds, everything
    above an entry is a directory of the build, and the directory list has parents first
    (the order of a tlc walk, which is what ensureDirsAndSymlinks iterates over) *)
Record wf_build (b : build) : Prop := {
  wf_nodup : NoDup (bpaths b);
  wf_nonempty : forall p, In p (bpaths b) -> p <> [];
  wf_closed : forall p q, In p (bpaths b) -> above q p -> In q (b_dirs b);
  wf_parent_first : forall ds1 d ds2 q, b_dirs b = ds1 ++ d :: ds2 -> above q d -> In q ds1
}.

(** the patch phase result describes the new build in terms of the old one: every new file is
    exactly one of: a whole old file (transposition, possibly of itself), an old file at the same
    path plus a correct overlay, a staged whole file at a path where the old build has no file *)
Record patch_sound (ob nb : build) (w : work) (st : stage) : Prop := {
  ps_trans_nodup : NoDup (map fst (w_trans w));
  ps_over_nodup : NoDup (w_over w);
  ps_moves_nodup : NoDup (w_moves w);
  ps_cover : forall p, In p (map fst (b_files nb)) <-> In p (map fst (w_trans w)) \/ In p (w_over w) \/ In p (w_moves w);
  ps_disj_to : forall p, In p (map fst (w_trans w)) -> ~ In p (w_over w) /\ ~ In p (w_moves w);
  ps_disj_om : forall p, In p (w_over w) -> ~ In p (w_moves w);
  ps_trans : forall p k, In (p, k) (w_trans w) -> exists c, In (p, c) (b_files nb) /\ In (k, c) (b_files ob);
  ps_over : forall p, In p (w_over w) -> exists ops c cn,
      stage_get st p = Some (SOverlay ops) /\ In (p, c) (b_files ob) /\ In (p, cn) (b_files nb) /\ apply_ops ops c = cn;
  ps_moves : forall p, In p (w_moves w) ->
      ~ In p (map fst (b_files ob)) /\ exists c, stage_get st p = Some (SWhole c) /\ In (p, c) (b_files nb)
}.

Definition new_kind_ok_for_source (nb : build) (k : path) : Prop :=
  (lookup (tree_of nb) k = None \/ exists c, lookup (tree_of nb) k = Some (File c)) /\
  (forall q, above q k -> lookup (tree_of nb) q = None \/ lookup (tree_of nb) q = Some Dir).

(** H_kinds: (1) an old file that is the source of a transposition is not a directory or a
    symlink in the new build and does not lie below a path that is a symlink or a regular file
    there; (2) where the new build has a regular file the old build has no directory.
    (Every other change of kind is allowed.) *)
Record H_kinds (ob nb : build) (w : work) : Prop := {
  hk_source : forall p k, In (p, k) (w_trans w) -> new_kind_ok_for_source nb k;
  hk_dir_to_file : forall p, In p (map fst (b_files nb)) -> lookup (tree_of ob) p <> Some Dir
}.

(** admissible ghost orders: all ghosts, each once; a ghost is never visited before a ghost whose
    path properly extends it (what [sort] by decreasing length guarantees) *)
Definition ghost_order_ok (nb ob : build) (go : list ghost) : Prop :=
  Permutation go (detect_ghosts (cont nb) (cont ob)) /\
  forall l1 g1 l2 g2 l3, go = l1 ++ g1 :: l2 ++ g2 :: l3 -> is_proper_prefix (snd g1) (snd g2) = false.

Definition trans_keys (w : work) : list path := keys (group_by (w_trans w)).
