(** The fold-invariant rule [fold_res_inv], with which every commit phase of
    [Bowl/OverlayCommit.v] is proved, and [apply_groups] as such a fold. *)
From Wharf Require Import Base.Prelude Bowl.FSmini Bowl.OverlayCommit.
Local Open Scope N_scope.

(** The pattern of every commit phase: [S done] is what the tree reads as once [done] is processed.
    The position [l = done ++ a :: rest] tells a step all it may use about [a] and [done]. *)
Lemma fold_res_inv : forall (A : Type) (f : fs -> A -> res fs) (S : list A -> path -> option node) (l : list A),
  (forall done a rest t, l = done ++ a :: rest -> (forall q, lookup t q = S done q) ->
     exists t', f t a = Ok t' /\ forall q, lookup t' q = S (done ++ [a]) q) ->
  forall t, (forall q, lookup t q = S [] q) ->
  exists t', fold_res f l t = Ok t' /\ forall q, lookup t' q = S l q.
Proof.
  intros A f S l Hstep.
  assert (G : forall rest done t, l = done ++ rest -> (forall q, lookup t q = S done q) ->
            exists t', fold_res f rest t = Ok t' /\ forall q, lookup t' q = S l q).
  { induction rest as [|a rest IH]; intros done t E Inv; cbn [fold_res].
    - exists t. rewrite E, app_nil_r. now split.
    - destruct (Hstep done a rest t E Inv) as [t1 [-> Inv1]]. cbn [bind].
      apply (IH (done ++ [a])); [now rewrite <- app_assoc | assumption]. }
  intros t. now apply (G l []).
Qed.

Lemma apply_groups_fold : forall over g' order t,
  apply_groups over g' order t =
  fold_res (fun t k => match group_get g' k with Some ds => apply_group over t (k, ds) | None => Ok t end) order t.
Proof.
  intros over g'. induction order as [|k order IH]; intros t; cbn [apply_groups fold_res]; [reflexivity|].
  destruct (group_get g' k) as [ds|]; cbn [bind]; [|apply IH].
  destruct (apply_group over t (k, ds)); cbn [bind]; auto.
Qed.
