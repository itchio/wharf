(** Model of pwr/bowl/bowl_overlay.go (overlay bowl): the patch phase (bookkeeping + writes
    into the stage only) and [Commit] = ensureDirsAndSymlinks, applyTranspositions, applyMoves,
    applyOverlays, deleteGhosts as operations of the private filesystem model [FSmini].

    Terminology follows the Go code: *target* = old build (the directory being patched),
    *source* = new build.  A transposition (P, K) says: new file P is old file K, whole.

    Go map iterations are explicit arguments: [order1] (clash detection loop) and [order2]
    (execution loop) enumerate the keys of the transposition map; [gorder] is the order in
    which ghosts are visited ([sort.Sort] by decreasing string length: only "a path is visited
    before its proper prefixes" is guaranteed, see [ghost_order_ok], Bowl/CommitSpec.v).

    The model follows the repaired code (fix: commits of the repo worktree):
      - [copy] replaces a symlink found at its destination instead of writing through it,
      - ghosts below a symlink of the new build are skipped,
      - temporary names skip numbers whose name is taken by an entry of either build.
    Not modelled: case-insensitive fixing, permissions, the [debugBrokenRename] switch, the dead
    [alreadyDone] test (a map iteration never repeats a key).
    Definitions only; the lemmas are in, in import order, Bowl/OverlayCommitProofs.v (the fold
    rule), CommitBuildProofs.v, CommitOpsProofs.v, CommitRenameProofs.v, CommitPhase1Proofs.v,
    CommitTransProofs.v, CommitMainProofs.v, and PatchPhaseProofs.v (the patch phase). *)
From Wharf Require Import Base.Prelude Bowl.FSmini.
Local Open Scope N_scope.

(** a container as the patch carries it (tlc): directories, symlinks, files, in index order *)
Record container := mkC { c_dirs : list path; c_links : list (path * N); c_files : list path }.

Definition c_paths (c : container) : list path := c_dirs c ++ c_files c ++ map fst (c_links c).

Definition mem (p : path) (l : list path) : bool := existsb (path_eqb p) l.

(** what the patch phase leaves behind *)
Inductive ovop := Skip (n : N) | Fresh (d : list N).
Inductive stagefile := SOverlay (ops : list ovop) | SWhole (c : list N).

Record work := mkW {
  w_trans : list (path * path);   (* (new path, old path), in the order Transpose recorded them *)
  w_over  : list path;            (* new paths with a pending overlay *)
  w_moves : list path             (* new paths staged as whole files *)
}.

Definition stage := list (path * stagefile).

Fixpoint stage_get (s : stage) (p : path) : option stagefile :=
  match s with
  | [] => None
  | (q, f) :: r => if path_eqb q p then Some f else stage_get r p
  end.

(* ------------------------------------------------------------------ ensureDirsAndSymlinks *)

Definition process_dir (t : fs) (d : path) : res fs :=
  match lstat t d with
  | Ok Dir => Ok t
  | Ok _ => do t1 <- remove_all t d ;; mkdir_all t1 d
  | Err _ => mkdir_all t d
  | Unmodelled => Unmodelled
  end.

Definition process_symlink (t : fs) (l : path * N) : res fs :=
  let '(p, d) := l in
  do t1 <- match lstat t p with
        | Ok (Link _) => Ok t
        | Ok _ => remove_all t p
        | Err _ => Ok t
        | Unmodelled => Unmodelled
        end ;;
  match readlink t1 p with
  | Err ENOENT => symlink t1 d p
  | Err e => Err e
  | Unmodelled => Unmodelled
  | Ok d' => if N.eqb d' d then Ok t1 else do t2 <- remove t1 p ;; symlink t2 d p
  end.

Fixpoint fold_res {A} (f : fs -> A -> res fs) (l : list A) (t : fs) : res fs :=
  match l with
  | [] => Ok t
  | a :: r => do t1 <- f t a ;; fold_res f r t1
  end.

Definition ensure_dirs_and_symlinks (nc : container) (t : fs) : res fs :=
  do t1 <- fold_res process_dir (c_dirs nc) t ;;
  fold_res process_symlink (c_links nc) t1.

(* ------------------------------------------------------------------ copy / move *)

(** [overlayBowl.copy]: optional MkdirAll of the parent, read the source, (fix) unlink a symlink
    at the destination, create/truncate the destination and write.  (Reading a directory fails
    in Go only after the destination was created; Commit aborts either way.) *)
Definition copy (t : fs) (src dst : path) (mkdir : bool) : res fs :=
  do t1 <- (if mkdir then mkdir_all t (parent dst) else Ok t) ;;
  do c <- read_file t1 src ;;
  do t2 <- match lstat t1 dst with
        | Ok (Link _) => remove t1 dst
        | Unmodelled => Unmodelled
        | _ => Ok t1
        end ;;
  create_trunc t2 dst c.

(** [overlayBowl.move]: Remove(dst) (a missing dst is fine), MkdirAll(parent), Rename, and on
    any rename error copy + Remove(src) *)
Definition move (t : fs) (src dst : path) : res fs :=
  do t1 <- match remove t dst with
        | Ok t1 => Ok t1
        | Err ENOENT => Ok t
        | Err e => Err e
        | Unmodelled => Unmodelled
        end ;;
  do t2 <- mkdir_all t1 (parent dst) ;;
  match rename t2 src dst with
  | Ok t3 => Ok t3
  | Unmodelled => Unmodelled
  | Err _ => do t3 <- copy t2 src dst false ;; remove t3 src
  end.

(* ------------------------------------------------------------------ applyTranspositions *)

(** groups: old path -> new paths, keys in first-occurrence order, members in list order *)
Definition groups := list (path * list path).

Fixpoint group_add (g : groups) (k p : path) : groups :=
  match g with
  | [] => [(k, [p])]
  | (k', ps) :: r => if path_eqb k' k then (k', ps ++ [p]) :: r else (k', ps) :: group_add r k p
  end.

Definition group_by (tr : list (path * path)) : groups :=
  fold_left (fun g e => group_add g (snd e) (fst e)) tr [].

Fixpoint group_get (g : groups) (k : path) : option (list path) :=
  match g with
  | [] => None
  | (k', ps) :: r => if path_eqb k' k then Some ps else group_get r k
  end.

Definition keys (g : groups) : list path := map fst g.

(** the path with ".butler-rename-<n>" appended to its last component *)
Fixpoint tmp_path (p : path) (n : N) : path :=
  match p with
  | [] => []
  | [c] => [R c n]
  | c :: r => c :: tmp_path r n
  end.

(** (fix) first number above [seed] whose temporary name is not taken by either build *)
Fixpoint pick_seed (taken : list path) (p : path) (seed : N) (fuel : nat) : N :=
  match fuel with
  | O => seed + 1
  | S f => if mem (tmp_path p (seed + 1)) taken then pick_seed taken p (seed + 1) f else seed + 1
  end.

(** clash detection for one group: destinations that are keys themselves get a temporary name
    and a cleanup rename.  State: (seed, cleanups so far). *)
Fixpoint rename_group (taken ks : list path) (k : path) (dests : list path) (seed : N) (cl : list (path * path))
  : list path * N * list (path * path) :=
  match dests with
  | [] => ([], seed, cl)
  | p :: r =>
      if path_eqb k p then
        let '(r', s', cl') := rename_group taken ks k r seed cl in (p :: r', s', cl')
      else if mem p ks then
        let n := pick_seed taken p seed (S (length taken)) in
        let safe := tmp_path p n in
        let '(r', s', cl') := rename_group taken ks k r n (cl ++ [(safe, p)]) in (safe :: r', s', cl')
      else
        let '(r', s', cl') := rename_group taken ks k r seed cl in (p :: r', s', cl')
  end.

(** first map iteration, in [order1] *)
Fixpoint rename_clashes (taken : list path) (g : groups) (order1 : list path) (seed : N) (cl : list (path * path))
  : groups * list (path * path) :=
  match order1 with
  | [] => ([], cl)
  | k :: r =>
      match group_get g k with
      | None => rename_clashes taken g r seed cl
      | Some dests =>
          let '(dests', s', cl') := rename_group taken (keys g) k dests seed cl in
          let '(g', cl'') := rename_clashes taken g r s' cl' in
          ((k, dests') :: g', cl'')
      end
  end.

Definition copy_or_move (behavior_copy : bool) (t : fs) (src dst : path) : res fs :=
  if behavior_copy then copy t src dst false else move t src dst.

Fixpoint copy_all (t : fs) (k : path) (ds : list path) : res fs :=
  match ds with
  | [] => Ok t
  | d :: r => do t1 <- copy t k d true ;; copy_all t1 k r
  end.

Fixpoint remove_first (k : path) (ds : list path) : list path :=
  match ds with
  | [] => []
  | d :: r => if path_eqb k d then r else d :: remove_first k r
  end.

(** applyMultipleTranspositions *)
Definition apply_multiple (behavior_copy : bool) (t : fs) (k : path) (ds : list path) : res fs :=
  if mem k ds then copy_all t k (remove_first k ds)
  else match ds with
       | [] => Ok t
       | first :: others => do t1 <- copy_all t k others ;; copy_or_move behavior_copy t1 k first
       end.

Definition apply_group (over : list path) (t : fs) (e : path * list path) : res fs :=
  let '(k, ds) := e in
  let behavior_copy := mem k over in
  match ds with
  | [d] => if path_eqb k d then Ok t else copy_or_move behavior_copy t k d
  | _ => apply_multiple behavior_copy t k ds
  end.

(** second map iteration, in [order2], over the renamed groups *)
Fixpoint apply_groups (over : list path) (g' : groups) (order2 : list path) (t : fs) : res fs :=
  match order2 with
  | [] => Ok t
  | k :: r =>
      match group_get g' k with
      | None => apply_groups over g' r t
      | Some ds => do t1 <- apply_group over t (k, ds) ;; apply_groups over g' r t1
      end
  end.

Definition cleanup_renames (cl : list (path * path)) (t : fs) : res fs :=
  fold_res (fun t e => move t (fst e) (snd e)) cl t.

Definition apply_transpositions (oc nc : container) (w : work) (order1 order2 : list path) (t : fs) : res fs :=
  let g := group_by (w_trans w) in
  let taken := c_paths oc ++ c_paths nc in
  let '(g', cl) := rename_clashes taken g order1 0 [] in
  do t1 <- apply_groups (w_over w) g' order2 t ;;
  cleanup_renames cl t1.

(* ------------------------------------------------------------------ applyMoves *)

(** move(stage/p, output/p): the staged file is renamed across the two folders *)
Definition move_from_stage (st : stage) (t : fs) (p : path) : res fs :=
  do t1 <- match remove t p with
        | Ok t1 => Ok t1
        | Err ENOENT => Ok t
        | Err e => Err e
        | Unmodelled => Unmodelled
        end ;;
  do t2 <- mkdir_all t1 (parent p) ;;
  match stage_get st p with
  | Some (SWhole c) =>
      do _ <- parent_ok t2 p ;;
      match lookup t2 p with
      | Some Dir => Err EISDIR
      | _ => Ok (set t2 p (File c))
      end
  | Some (SOverlay _) => Err EINVAL      (* never produced by the patch phase for a move file *)
  | None => Err ENOENT
  end.

Definition apply_moves (w : work) (st : stage) (t : fs) : res fs :=
  fold_res (move_from_stage st) (w_moves w) t.

(* ------------------------------------------------------------------ applyOverlays *)

(** [OverlayPatchContext.Patch] on a write-seeker positioned at 0, then Truncate(position): the
    writes are sequential, so the result is assembled front to back; skipping past the end of
    the existing content leaves a hole of zeros. *)
Fixpoint take_pad (n : nat) (l : list N) : list N :=
  match n with
  | O => []
  | S n' => match l with [] => 0 :: take_pad n' [] | x :: r => x :: take_pad n' r end
  end.

Fixpoint apply_ops (ops : list ovop) (cur : list N) : list N :=
  match ops with
  | [] => []
  | Skip n :: r => take_pad (N.to_nat n) cur ++ apply_ops r (skipn (N.to_nat n) cur)
  | Fresh d :: r => d ++ apply_ops r (skipn (length d) cur)
  end.

Definition apply_overlay (st : stage) (t : fs) (p : path) : res fs :=
  match stage_get st p with
  | Some (SOverlay ops) =>
      do cur <- open_existing t p ;;
      Ok (set t p (File (apply_ops ops cur)))
  | Some (SWhole _) => Err EINVAL        (* not an overlay file: ExpectMagic fails *)
  | None => Err ENOENT
  end.

Definition apply_overlays (w : work) (st : stage) (t : fs) : res fs :=
  fold_res (apply_overlay st) (w_over w) t.

(* ------------------------------------------------------------------ deleteGhosts *)

Inductive gkind := GFile | GLink | GDir.
Definition ghost := (gkind * path)%type.

Definition detect_ghosts (nc oc : container) : list ghost :=
  let present := c_paths nc in
  map (fun p => (GFile, p)) (filter (fun p => negb (mem p present)) (c_files oc)) ++
  map (fun l => (GLink, fst l)) (filter (fun l => negb (mem (fst l) present)) (c_links oc)) ++
  map (fun p => (GDir, p)) (filter (fun p => negb (mem p present)) (c_dirs oc)).

(** (fix) a proper ancestor of [p] is a symlink of the new build *)
Definition under_new_link (nc : container) (p : path) : bool :=
  existsb (fun l => is_proper_prefix (fst l) p) (c_links nc).

Definition delete_ghost (nc : container) (t : fs) (g : ghost) : res fs :=
  let '(k, p) := g in
  if under_new_link nc p then Ok t
  else match lstat t p with
       | Unmodelled => Unmodelled
       | Err _ => Ok t
       | Ok _ =>
           match remove t p with
           | Ok t1 => Ok t1
           | Err ENOENT => Ok t
           | Unmodelled => Unmodelled
           | Err e => match k with GDir => Ok t | _ => Err e end
           end
       end.

Definition delete_ghosts (nc : container) (gorder : list ghost) (t : fs) : res fs :=
  fold_res (delete_ghost nc) gorder t.

(* ------------------------------------------------------------------ Commit *)

Definition commit (oc nc : container) (w : work) (st : stage) (order1 order2 : list path) (gorder : list ghost) (t : fs) : res fs :=
  do t1 <- ensure_dirs_and_symlinks nc t ;;
  do t2 <- apply_transpositions oc nc w order1 order2 t1 ;;
  do t3 <- apply_moves w st t2 ;;
  do t4 <- apply_overlays w st t3 ;;
  delete_ghosts nc gorder t4.

(* ------------------------------------------------------------------ patch phase *)

(** The patcher visits the new files in index order and, for each, either calls
    [Transpose] (the first op is a whole-file block range of equal size) or [GetWriter] and
    writes the new content; what it writes is computed from the old build, which it only
    reads.  [mk_overlay old new] stands for the overlay writer (property C14). *)
Inductive pstep :=
  | PTranspose (p k : path)                    (* new path, old path *)
  | PWrite (p : path) (content : fs -> list N) (* new path, content as a function of the old tree *).

Record world := mkWorld { out : fs; stg : stage; wk : work }.

Definition transpose (tr : list (path * path)) (p k : path) : list (path * path) :=
  if mem p (map fst tr)
  then map (fun e => if path_eqb (fst e) p then (p, k) else e) tr
  else tr ++ [(p, k)].

Definition mark (l : list path) (p : path) : list path := if mem p l then l else l ++ [p].

Definition stage_put (s : stage) (p : path) (f : stagefile) : stage :=
  (p, f) :: filter (fun e => negb (path_eqb (fst e) p)) s.

Section Patch.
  Variable mk_overlay : list N -> list N -> list ovop.

  Definition patch_step (oc : container) (wd : world) (s : pstep) : world :=
    match s with
    | PTranspose p k =>
        mkWorld (out wd) (stg wd) (mkW (transpose (w_trans (wk wd)) p k) (w_over (wk wd)) (w_moves (wk wd)))
    | PWrite p content =>
        let data := content (out wd) in
        if mem p (c_files oc)
        then (* targetFilesByPath has it: overlay writer against the old file at the same path *)
          let cur := match lookup (out wd) p with Some (File c) => c | _ => [] end in
          mkWorld (out wd) (stage_put (stg wd) p (SOverlay (mk_overlay cur data)))
                  (mkW (w_trans (wk wd)) (mark (w_over (wk wd)) p) (w_moves (wk wd)))
        else
          mkWorld (out wd) (stage_put (stg wd) p (SWhole data))
                  (mkW (w_trans (wk wd)) (w_over (wk wd)) (mark (w_moves (wk wd)) p))
    end.

  Definition patch_phase (oc : container) (steps : list pstep) (wd : world) : world :=
    fold_left (patch_step oc) steps wd.
End Patch.
