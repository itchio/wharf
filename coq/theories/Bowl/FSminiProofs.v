(** Lemmas about the private filesystem model [Bowl/FSmini.v]: decidable equality of paths,
    prefixes, [lookup] after each primitive, the predicate [dirs_above], the success cases of the
    operations that the commit proof needs; and, for Compose/FSAgreeMiniProofs.v, where the path
    check stops ([parent_ok_stop]) and how [rename] fails or declines. *)
From Wharf Require Import Base.Prelude Base.ListLemmas Bowl.FSmini.
From Wharf Require Base.PathMap.
Local Open Scope N_scope.

Lemma comp_eqb_eq : forall a b, comp_eqb a b = true <-> a = b.
Proof.
  induction a as [x | c IH k]; destruct b as [y | d l]; cbn [comp_eqb]; split; intros H; try discriminate.
  - apply N.eqb_eq in H. now subst.
  - injection H as ->. apply N.eqb_refl.
  - apply andb_true_iff in H as [H1 H2]. apply IH in H1. apply N.eqb_eq in H2. now subst.
  - injection H as -> ->. apply andb_true_iff. split; [now apply IH | apply N.eqb_refl].
Qed.

(** [path_eqb], [is_prefix] and [lookup] are, up to conversion, [list_eqb], [prefixb] and [assoc]
    of Base/ListLemmas.v at [comp_eqb]; their basic facts are instances of the lemmas there. *)
Lemma path_eqb_eq : forall a b, path_eqb a b = true <-> a = b.
Proof. exact (list_eqb_eq comp_eqb comp_eqb_eq). Qed.

Lemma path_eqb_refl : forall a, path_eqb a a = true.
Proof. exact (list_eqb_refl comp_eqb comp_eqb_eq). Qed.

Lemma path_eqb_neq : forall a b, path_eqb a b = false <-> a <> b.
Proof. exact (list_eqb_neq comp_eqb comp_eqb_eq). Qed.

Lemma path_eqb_sym : forall a b, path_eqb a b = path_eqb b a.
Proof. exact (list_eqb_sym comp_eqb comp_eqb_eq). Qed.

Lemma path_eq_dec : forall a b : path, {a = b} + {a <> b}.
Proof. exact (list_eqb_dec comp_eqb comp_eqb_eq). Qed.

Lemma is_prefix_spec : forall p q, is_prefix p q = true <-> exists r, q = p ++ r.
Proof. exact (prefixb_spec comp_eqb comp_eqb_eq). Qed.

Lemma is_prefix_refl : forall p, is_prefix p p = true.
Proof. exact (prefixb_refl comp_eqb comp_eqb_eq). Qed.

Lemma is_prefix_app : forall p r, is_prefix p (p ++ r) = true.
Proof. exact (prefixb_app comp_eqb comp_eqb_eq). Qed.

Lemma path_eqb_app_head : forall p a b, path_eqb (p ++ a) (p ++ b) = path_eqb a b.
Proof. exact (list_eqb_app_head comp_eqb comp_eqb_eq). Qed.

Lemma not_prefix_app : forall p k r, is_prefix p k = false -> path_eqb k (p ++ r) = false.
Proof. intros p k r H. apply path_eqb_neq. intros ->. rewrite is_prefix_app in H. discriminate. Qed.

Lemma is_prefix_app_false : forall p q r, is_prefix p (q ++ r) = false -> is_prefix p q = false.
Proof.
  intros p q r H. destruct (is_prefix p q) eqn:E; [|reflexivity].
  apply is_prefix_spec in E as [s ->]. rewrite <- app_assoc, is_prefix_app in H. discriminate.
Qed.

Lemma is_proper_prefix_spec : forall p q, is_proper_prefix p q = true <-> exists r, q = p ++ r /\ r <> [].
Proof.
  intros p q. unfold is_proper_prefix. rewrite andb_true_iff, negb_true_iff, is_prefix_spec, path_eqb_neq. split.
  - intros [[r ->] H]. exists r. split; [reflexivity|]. intros ->. rewrite app_nil_r in H. congruence.
  - intros [r [-> H]]. split; [now exists r|]. intros E. apply H.
    rewrite <- (app_nil_r p) in E at 1. now apply app_inv_head in E.
Qed.

Lemma is_proper_prefix_false : forall p q, is_proper_prefix p q = false <-> ~ exists r, q = p ++ r /\ r <> [].
Proof.
  intros p q. rewrite <- is_proper_prefix_spec. destruct (is_proper_prefix p q); split; intros H; try congruence.
Qed.

Lemma lookup_filter : forall (P : path -> bool) t q,
  lookup (filter (fun e => P (fst e)) t) q = if P q then lookup t q else None.
Proof. exact (assoc_filter comp_eqb comp_eqb_eq). Qed.

Lemma lookup_unset : forall t p q, lookup (unset t p) q = if path_eqb p q then None else lookup t q.
Proof.
  intros t p q. rewrite (path_eqb_sym p q).
  exact (assoc_filter_negb comp_eqb comp_eqb_eq (fun k => path_eqb k p) t q).
Qed.

Lemma lookup_set : forall t p n q, lookup (set t p n) q = if path_eqb p q then Some n else lookup t q.
Proof. exact (assoc_put comp_eqb comp_eqb_eq). Qed.

Lemma lookup_unset_tree : forall t p q, lookup (unset_tree t p) q = if is_prefix p q then None else lookup t q.
Proof. intros t p. exact (assoc_filter_negb comp_eqb comp_eqb_eq (is_prefix p) t). Qed.

Lemma lookup_app : forall a b q, lookup (a ++ b) q = match lookup a q with Some n => Some n | None => lookup b q end.
Proof. exact (assoc_app comp_eqb). Qed.

Lemma lookup_moved_part : forall t s d x,
  lookup (map (fun e => (d ++ skipn (length s) (fst e), snd e)) (filter (fun e => is_prefix s (fst e)) t)) x =
  if is_prefix d x then lookup t (s ++ skipn (length d) x) else None.
Proof.
  intros t s d x. induction t as [|[k n] t IH]; cbn [filter map lookup fst snd].
  - destruct (is_prefix d x); reflexivity.
  - destruct (is_prefix s k) eqn:Esk; cbn [map lookup fst snd]; rewrite IH; clear IH.
    + apply is_prefix_spec in Esk as [rk ->]. rewrite skipn_app_exact. destruct (is_prefix d x) eqn:Edx.
      * apply is_prefix_spec in Edx as [rx ->]. rewrite skipn_app_exact, !path_eqb_app_head. reflexivity.
      * rewrite (path_eqb_sym _ x), (not_prefix_app d x rk Edx). reflexivity.
    + destruct (is_prefix d x); [|reflexivity]. rewrite (not_prefix_app s k _ Esk). reflexivity.
Qed.

Lemma lookup_move_subtree : forall t s d x,
  lookup (move_subtree t s d) x =
  if is_prefix d x then lookup t (s ++ skipn (length d) x)
  else if is_prefix s x then None else lookup t x.
Proof.
  intros t s d x. unfold move_subtree. rewrite lookup_app, lookup_moved_part.
  rewrite (lookup_filter (fun k => negb (is_prefix s k) && negb (is_prefix d k))).
  destruct (is_prefix d x); cbn [negb].
  - rewrite andb_false_r. destruct (lookup t (s ++ skipn (length d) x)); reflexivity.
  - rewrite andb_true_r. destruct (is_prefix s x); reflexivity.
Qed.

Lemma lookup_In : forall t p n, lookup t p = Some n -> In (p, n) t.
Proof. exact (assoc_In comp_eqb comp_eqb_eq). Qed.

Lemma In_lookup : forall t p n, In (p, n) t -> exists m, lookup t p = Some m.
Proof.
  intros t p n H. destruct (lookup t p) as [m|] eqn:E; [now exists m|].
  apply (assoc_None comp_eqb comp_eqb_eq) in E. destruct E. exact (in_map fst t (p, n) H).
Qed.

Lemma has_child_iff : forall t p,
  has_child t p = true <-> exists k, lookup t k <> None /\ is_proper_prefix p k = true.
Proof.
  intros t p. unfold has_child. rewrite existsb_exists. split.
  - intros [[k n] [Hin H]]. exists k. split; [|exact H]. apply In_lookup in Hin as [m Hm]. congruence.
  - intros [k [Hk H]]. destruct (lookup t k) as [n|] eqn:E; [|congruence]. exists (k, n).
    split; [now apply lookup_In | exact H].
Qed.

Lemma has_child_false : forall t p, (forall q, is_proper_prefix p q = true -> lookup t q = None) -> has_child t p = false.
Proof.
  intros t p H. destruct (has_child t p) eqn:E; [|reflexivity].
  apply has_child_iff in E as [k [Hk Hp]]. now rewrite (H k Hp) in Hk.
Qed.

Lemma no_child_of_has_child : forall t p, has_child t p = false -> forall r, r <> [] -> lookup t (p ++ r) = None.
Proof.
  intros t p H r Hr. destruct (lookup t (p ++ r)) eqn:E; [|reflexivity].
  assert (X : has_child t p = true); [|congruence]. apply has_child_iff. exists (p ++ r). split; [congruence|].
  apply is_proper_prefix_spec. exists r. split; [reflexivity | exact Hr].
Qed.

(** [PathMap.dirs_above Dir (lookup t) p] written out (convertible; proofs pass from one to the other silently) *)
Definition dirs_above (t : fs) (p : path) : Prop :=
  forall q r, p = q ++ r -> q <> [] -> r <> [] -> lookup t q = Some Dir.

Lemma resolve_dirs_cons2 : forall t pre c c2 rest,
  resolve_dirs t pre (c :: c2 :: rest) =
  match lookup t (pre ++ [c]) with
  | None => Err ENOENT
  | Some (File _) => Err ENOTDIR
  | Some (Link _) => Unmodelled
  | Some Dir => resolve_dirs t (pre ++ [c]) (c2 :: rest)
  end.
Proof. reflexivity. Qed.

Lemma resolve_dirs_ok_iff : forall t rest pre,
  resolve_dirs t pre rest = Ok tt <->
  forall q r, rest = q ++ r -> q <> [] -> r <> [] -> lookup t (pre ++ q) = Some Dir.
Proof.
  intros t. induction rest as [|c rest IH]; intros pre.
  - split; [intros _ [|x q] r E Hq Hr; [contradiction | discriminate] | reflexivity].
  - destruct rest as [|c2 rest].
    + split; [intros _ [|x [|y q]] [|z r] E Hq Hr; try contradiction; discriminate | reflexivity].
    + rewrite resolve_dirs_cons2. split.
      * intros H q r E Hq Hr. destruct (lookup t (pre ++ [c])) as [[| |]|] eqn:El; try discriminate.
        destruct q as [|x q]; [contradiction|]. injection E as <- E. destruct q as [|y q]; [exact El|].
        change (pre ++ c :: y :: q) with (pre ++ [c] ++ y :: q). rewrite app_assoc.
        apply (proj1 (IH (pre ++ [c])) H (y :: q) r E); [discriminate | exact Hr].
      * intros H. rewrite (H [c] (c2 :: rest)); [|reflexivity|discriminate|discriminate].
        apply IH. intros q r E Hq Hr. rewrite <- app_assoc. apply (H (c :: q) r); [cbn; now rewrite E | discriminate | assumption].
Qed.

Lemma resolve_dirs_app : forall t a pre b, b <> [] ->
  (forall q r, a = q ++ r -> q <> [] -> lookup t (pre ++ q) = Some Dir) ->
  resolve_dirs t pre (a ++ b) = resolve_dirs t (pre ++ a) b.
Proof.
  intros t. induction a as [|c a IH]; intros pre b Hb H; [rewrite app_nil_r; reflexivity|].
  cbn [app]. destruct (a ++ b) as [|c2 rest] eqn:E; [apply app_eq_nil in E as [_ E]; contradiction|].
  rewrite resolve_dirs_cons2, (H [c] a eq_refl), <- E by discriminate.
  rewrite IH; [rewrite <- app_assoc; reflexivity | exact Hb|].
  intros q r -> Hq. rewrite <- app_assoc. apply (H (c :: q) r eq_refl). discriminate.
Qed.

Lemma parent_ok_stop : forall t q r, dirs_above t q -> q <> [] -> r <> [] -> lookup t q <> Some Dir ->
  parent_ok t (q ++ r) = match lookup t q with None => Err ENOENT | Some (File _) => Err ENOTDIR | _ => Unmodelled end.
Proof.
  intros t q r D Hq Hr Hn. destruct (snoc_cases q) as [-> | [a [n ->]]]; [congruence|].
  unfold parent_ok. rewrite <- app_assoc, resolve_dirs_app; [|discriminate|].
  - destruct r as [|c2 r]; [congruence|]. cbn [app]. rewrite resolve_dirs_cons2.
    destruct (lookup t (a ++ [n])) as [[| |]|]; congruence.
  - intros x y -> Hx. apply (D x (y ++ [n])); [rewrite app_assoc; reflexivity | exact Hx | destruct y; discriminate].
Qed.

Lemma parent_ok_ok : forall t p, dirs_above t p -> parent_ok t p = Ok tt.
Proof. intros t p H. apply resolve_dirs_ok_iff. exact H. Qed.

Lemma bind_ext {A B} (r : res A) (f g : A -> res B) : (forall x, f x = g x) -> bind r f = bind r g.
Proof. intros H. destruct r; cbn [bind]; [apply H|reflexivity|reflexivity]. Qed.

Lemma parent_ok_inv : forall t p u, parent_ok t p = Ok u -> dirs_above t p.
Proof. intros t p [] H. exact (proj1 (resolve_dirs_ok_iff t p []) H). Qed.

Lemma lstat_ok : forall t p, dirs_above t p -> lstat t p = match lookup t p with Some n => Ok n | None => Err ENOENT end.
Proof. intros t p H. unfold lstat. rewrite (parent_ok_ok t p H). cbn [bind]. reflexivity. Qed.

Lemma dirs_above_ext : forall t t' p, (forall q, lookup t q = Some Dir -> lookup t' q = Some Dir) -> dirs_above t p -> dirs_above t' p.
Proof. intros t t' p H D q r E Hq Hr. apply H. now apply (D q r). Qed.

Lemma dirs_above_nil : forall t, dirs_above t [].
Proof. intros t. exact (PathMap.dirs_above_nil (lookup t)). Qed.

Lemma dirs_above_snoc : forall t p c, dirs_above t p -> (p <> [] -> lookup t p = Some Dir) -> dirs_above t (p ++ [c]).
Proof. intros t. exact (PathMap.dirs_above_snoc (lookup t)). Qed.

Lemma nondir_not_prefix : forall t x y, dirs_above t y -> x <> [] -> x <> y ->
  lookup t x <> Some Dir -> is_prefix x y = false.
Proof.
  intros t x y D Hx Hne Hn. destruct (is_prefix x y) eqn:E; [exfalso | reflexivity].
  apply is_prefix_spec in E as [r ->]. apply Hn. apply (D x r eq_refl Hx).
  intros ->. apply Hne. rewrite app_nil_r. reflexivity.
Qed.

Lemma path_snoc : forall p : path, p <> [] -> exists q c, p = q ++ [c].
Proof. intros p H. destruct (exists_last H) as [q [c E]]. now exists q, c. Qed.

Lemma parent_snoc : forall p c, parent (p ++ [c]) = p.
Proof. intros p c. apply removelast_last. Qed.

Lemma dirs_above_parent : forall t p, dirs_above t p -> dirs_above t (parent p).
Proof.
  intros t p H q r E Hq Hr. destruct (path_eq_dec p []) as [->|Hp]; [cbn in E; destruct q; [contradiction|discriminate]|].
  destruct (path_snoc p Hp) as [p' [c ->]]. rewrite parent_snoc in E. subst p'.
  apply (H q (r ++ [c])); [now rewrite app_assoc | assumption | destruct r; discriminate].
Qed.

Lemma parent_is_dir : forall t p, dirs_above t p -> parent p <> [] -> lookup t (parent p) = Some Dir.
Proof.
  intros t p H Hn. destruct (path_eq_dec p []) as [->|Hp]; [contradiction|].
  destruct (path_snoc p Hp) as [p' [c ->]]. rewrite parent_snoc in *. apply (H p' [c]); [reflexivity | assumption | discriminate].
Qed.

Lemma mkdir_from_noop : forall t rest pre,
  (forall q r, rest = q ++ r -> q <> [] -> lookup t (pre ++ q) = Some Dir) ->
  mkdir_from t pre rest = Ok t.
Proof.
  intros t. induction rest as [|c rest IH]; intros pre H; cbn [mkdir_from]; [reflexivity|].
  rewrite (H [c] rest); [|reflexivity|discriminate].
  apply IH. intros q r E Hq. rewrite <- app_assoc. apply (H (c :: q) r); [cbn; now rewrite E | discriminate].
Qed.

Lemma mkdir_all_noop : forall t p, dirs_above t p -> (p <> [] -> lookup t p = Some Dir) -> mkdir_all t p = Ok t.
Proof.
  intros t p H Hp. unfold mkdir_all. apply mkdir_from_noop. intros q r E Hq. cbn.
  destruct r as [|x r]; [rewrite app_nil_r in E; subst q; now apply Hp | apply (H q (x :: r)); [assumption|assumption|discriminate]].
Qed.

Lemma mkdir_from_app : forall a t pre b,
  mkdir_from t pre (a ++ b) = do t1 <- mkdir_from t pre a ;; mkdir_from t1 (pre ++ a) b.
Proof.
  induction a as [|c a IH]; intros t pre b; cbn [app mkdir_from bind]; [now rewrite app_nil_r|].
  destruct (lookup t (pre ++ [c])) as [[| |]|]; try reflexivity; rewrite IH, <- app_assoc; reflexivity.
Qed.

Lemma mkdir_all_last : forall t p, dirs_above t p -> p <> [] -> lookup t p = None -> mkdir_all t p = Ok (set t p Dir).
Proof.
  intros t p H Hp Hn. destruct (path_snoc p Hp) as [q [c ->]]. unfold mkdir_all.
  rewrite mkdir_from_app, mkdir_from_noop; cbn [bind mkdir_from app]; [now rewrite Hn|].
  intros q' r E Hq. apply (H q' (r ++ [c])); [subst q; now rewrite app_assoc | assumption | destruct r; discriminate].
Qed.

Lemma remove_nondir : forall t p n, dirs_above t p -> lookup t p = Some n -> n <> Dir -> remove t p = Ok (unset t p).
Proof.
  intros t p n H Hl Hn. unfold remove. rewrite (lstat_ok t p H), Hl. cbn [bind]. destruct n; [reflexivity | contradiction | reflexivity].
Qed.

Lemma remove_missing : forall t p, dirs_above t p -> lookup t p = None -> remove t p = Err ENOENT.
Proof. intros t p H Hl. unfold remove. rewrite (lstat_ok t p H), Hl. reflexivity. Qed.

Lemma remove_empty_dir : forall t p, dirs_above t p -> lookup t p = Some Dir ->
  (forall q, is_proper_prefix p q = true -> lookup t q = None) -> remove t p = Ok (unset t p).
Proof.
  intros t p H Hl Hc. unfold remove. rewrite (lstat_ok t p H), Hl. cbn [bind]. now rewrite (has_child_false t p Hc).
Qed.

Lemma remove_all_present : forall t p n, dirs_above t p -> lookup t p = Some n -> remove_all t p = Ok (unset_tree t p).
Proof. intros t p n H Hl. unfold remove_all. now rewrite (lstat_ok t p H), Hl. Qed.

Lemma symlink_ok : forall t d p, dirs_above t p -> lookup t p = None -> symlink t d p = Ok (set t p (Link d)).
Proof. intros t d p H Hl. unfold symlink. rewrite (parent_ok_ok t p H). cbn [bind]. now rewrite Hl. Qed.

Lemma readlink_ok : forall t p, dirs_above t p ->
  readlink t p = match lookup t p with Some (Link d) => Ok d | Some _ => Err EINVAL | None => Err ENOENT end.
Proof. intros t p H. unfold readlink. rewrite (lstat_ok t p H). destruct (lookup t p) as [[c| |d]|]; reflexivity. Qed.

Lemma rename_file : forall t src dst c, dirs_above t src -> dirs_above t dst -> lookup t src = Some (File c) ->
  lookup t dst <> Some Dir -> src <> dst ->
  rename t src dst = Ok (set (unset t src) dst (File c)).
Proof.
  intros t src dst c Hs Hd Hl Hnd Hne. apply path_eqb_neq in Hne. unfold rename.
  rewrite (lstat_ok t dst Hd), (lstat_ok t src Hs), Hl, (parent_ok_ok t dst Hd). cbn [bind]. rewrite Hne.
  destruct (lookup t dst) as [[x| |x]|]; try reflexivity. contradiction.
Qed.

Lemma rename_declines : forall t src dst, parent_ok t src = Unmodelled \/ parent_ok t dst = Unmodelled ->
  rename t src dst = Unmodelled.
Proof.
  intros t src dst H. unfold rename, lstat. destruct H as [-> | ->]; [|reflexivity].
  destruct (parent_ok t dst) as [[]|e|]; cbn [bind]; [destruct (lookup t dst) as [[]|]| |]; reflexivity.
Qed.

Lemma rename_src_err : forall t src dst e, parent_ok t src = Err e ->
  rename t src dst = Err e \/ rename t src dst = Unmodelled.
Proof.
  intros t src dst e H. unfold rename, lstat. rewrite H.
  destruct (parent_ok t dst) as [[]|e'|]; cbn [bind]; [destruct (lookup t dst) as [[]|]| |]; auto.
Qed.

Lemma rename_dst_err : forall t src dst e, dirs_above t src -> parent_ok t dst = Err e ->
  rename t src dst = match lookup t src with Some _ => Err e | None => Err ENOENT end.
Proof.
  intros t src dst e Hs E. unfold rename. rewrite (lstat_ok t src Hs). unfold lstat. rewrite E. cbn [bind].
  destruct (lookup t src); reflexivity.
Qed.

Lemma read_file_ok : forall t p c, dirs_above t p -> lookup t p = Some (File c) -> read_file t p = Ok c.
Proof. intros t p c H Hl. unfold read_file. now rewrite (lstat_ok t p H), Hl. Qed.

Lemma create_trunc_ok : forall t p c, dirs_above t p -> (lookup t p = None \/ exists c', lookup t p = Some (File c')) ->
  create_trunc t p c = Ok (set t p (File c)).
Proof.
  intros t p c H Hl. unfold create_trunc. rewrite (parent_ok_ok t p H). cbn [bind].
  destruct Hl as [-> | [c' ->]]; reflexivity.
Qed.

Lemma lookup_here : forall t p o q, lookup t p = o -> lookup t q = if path_eqb p q then o else lookup t q.
Proof. intros t p o q <-. destruct (path_eqb p q) eqn:E; [apply path_eqb_eq in E; now subst | reflexivity]. Qed.
