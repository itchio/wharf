(** The patch phase produces a sound result: if the bowl calls describe the new build (every new
    file exactly once: either a transposition of an equal old file or a write of its content),
    and the overlay writer is correct (property C14, here a hypothesis on [mk_overlay]), then the
    work lists and the stage satisfy [patch_sound], and the output tree is untouched.
    [steps_describe] and [world0], in which Properties/C02.v states this, are defined here. *)
From Coq Require Import Permutation.
From Wharf Require Import Base.Prelude Base.ListLemmas Base.StepSystem Bowl.FSmini Bowl.FSminiProofs Bowl.OverlayCommit
  Bowl.CommitSpec Bowl.CommitBuildProofs.
Local Open Scope N_scope.

Definition step_path (s : pstep) : path := match s with PTranspose p _ => p | PWrite p _ => p end.

Record steps_describe (ob nb : build) (steps : list pstep) : Prop := {
  sd_nodup : NoDup (map step_path steps);
  sd_cover : forall p, In p (map fst (b_files nb)) <-> In p (map step_path steps);
  sd_trans : forall p k, In (PTranspose p k) steps -> exists c, In (p, c) (b_files nb) /\ In (k, c) (b_files ob);
  sd_write : forall p f, In (PWrite p f) steps -> In (p, f (tree_of ob)) (b_files nb)
}.

Lemma stage_get_put : forall s p f q, stage_get (stage_put s p f) q = if path_eqb p q then Some f else stage_get s q.
Proof. exact (assoc_put comp_eqb comp_eqb_eq). Qed.

(** every write of the patch phase goes to the stage *)
Lemma patch_phase_out : forall mk oc steps wd, out (patch_phase mk oc steps wd) = out wd.
Proof.
  intros mk oc steps wd. apply (run_keeps (patch_step mk oc) (fun s => out s = out wd)); [|reflexivity].
  intros s [p k | p content] H; cbn [patch_step]; [exact H|]. now destruct (mem p (c_files oc)).
Qed.

Section PatchPhase.
  Variable mk : list N -> list N -> list ovop.
  Hypothesis mk_ok : forall cur new, apply_ops (mk cur new) cur = new.
  Variables ob nb : build.
  Hypothesis Wo : wf_build ob.

  Local Notation told := (tree_of ob).
  Local Notation ofiles := (map fst (b_files ob)).

  Definition staged (p : path) (f : fs -> list N) : stagefile :=
    if mem p ofiles
    then SOverlay (mk (match lookup told p with Some (File c) => c | _ => [] end) (f told))
    else SWhole (f told).

  Local Notation parts wd := (map fst (w_trans (wk wd)) ++ w_over (wk wd) ++ w_moves (wk wd)).

  (** the three work lists partition the paths of the steps done, every entry comes from a step of
      its kind, and what a writer wrote is in the stage *)
  Record pinv (done : list pstep) (wd : world) : Prop := {
    pi_out : out wd = told;
    pi_parts : Permutation (map step_path done) (parts wd);
    pi_trans : forall p k, In (p, k) (w_trans (wk wd)) -> In (PTranspose p k) done;
    pi_over : forall p, In p (w_over (wk wd)) -> In p ofiles /\ exists f, In (PWrite p f) done;
    pi_moves : forall p, In p (w_moves (wk wd)) -> ~ In p ofiles /\ exists f, In (PWrite p f) done;
    pi_stage : forall p f, In (PWrite p f) done -> stage_get (stg wd) p = Some (staged p f)
  }.

  Lemma parts_snoc : forall (x : path) l a b c, Permutation l (a ++ b ++ c) ->
    Permutation (l ++ [x]) ((a ++ [x]) ++ b ++ c) /\ Permutation (l ++ [x]) (a ++ (b ++ [x]) ++ c) /\
    Permutation (l ++ [x]) (a ++ b ++ c ++ [x]).
  Proof.
    intros x l a b c H.
    assert (E : Permutation (l ++ [x]) (x :: a ++ b ++ c)) by (rewrite <- H; apply Permutation_sym, Permutation_cons_append).
    rewrite E. split; [|split].
    - rewrite <- app_assoc. apply Permutation_middle.
    - rewrite <- (app_assoc b). cbn [app]. rewrite !app_assoc. apply Permutation_middle.
    - rewrite !app_assoc. apply Permutation_cons_append.
  Qed.

  Lemma pinv_step : forall done s wd,
    pinv done wd -> ~ In (step_path s) (map step_path done) -> pinv (done ++ [s]) (patch_step mk (cont ob) wd s).
  Proof.
    intros done s wd [Io Ip It Iov Imv Ist] Hfresh.
    assert (Hnew : ~ In (step_path s) (parts wd)) by (intros H; apply Hfresh, (Permutation_in _ (Permutation_sym Ip) H)).
    assert (Hold : forall s', In s' done -> In s' (done ++ [s])) by (intros s' H; apply in_or_app; now left).
    assert (Hkept : forall q, (exists f, In (PWrite q f) done) -> exists f, In (PWrite q f) (done ++ [s])).
    { intros q [f H]. exists f. now apply Hold. }
    rewrite !in_app_iff in Hnew.
    destruct s as [p k | p content]; cbn [patch_step step_path] in *.
    - (* Transpose: the path is new, so the pair is appended *)
      assert (Hm : mem p (map fst (w_trans (wk wd))) = false) by (apply mem_false; tauto).
      unfold transpose. rewrite Hm. constructor; cbn [out stg wk w_trans w_over w_moves]; auto.
      + rewrite !map_app. now apply parts_snoc.
      + intros p' k' H. apply in_app_or in H as [H|[H|[]]]; [now apply Hold, It|]. injection H as <- <-. apply in_elt.
      + intros q H. destruct (Iov q H). auto.
      + intros q H. destruct (Imv q H). auto.
      + intros p' f H. apply in_app_or in H as [H|[H|[]]]; [now apply Ist | discriminate].
    - (* GetWriter + writes: the path is appended to one of the two lists, by what the old build has there *)
      assert (Hst : forall x, staged p content = x ->
                forall p' f, In (PWrite p' f) (done ++ [PWrite p content]) ->
                stage_get (stage_put (stg wd) p x) p' = Some (staged p' f)).
      { intros x Ex p' f H. rewrite stage_get_put. apply in_app_or in H as [H|[H|[]]].
        - assert (Hne : path_eqb p p' = false).
          { apply path_eqb_neq. intros <-. apply Hfresh. exact (in_map step_path _ _ H). }
          rewrite Hne. now apply Ist.
        - injection H as -> ->. now rewrite path_eqb_refl, Ex. }
      assert (Hhere : exists f, In (PWrite p f) (done ++ [PWrite p content])) by (exists content; apply in_elt).
      assert (Hmo : mem p (w_over (wk wd)) = false) by (apply mem_false; tauto).
      assert (Hmm : mem p (w_moves (wk wd)) = false) by (apply mem_false; tauto).
      change (c_files (cont ob)) with ofiles. rewrite Io. unfold mark. rewrite Hmo, Hmm.
      destruct (mem p ofiles) eqn:Em; pose proof Em as Hp.
      + apply mem_In in Hp.
        constructor; cbn [out stg wk w_trans w_over w_moves]; auto.
        * rewrite map_app. now apply parts_snoc.
        * intros q H. apply in_app_or in H as [H|[<-|[]]]; [destruct (Iov q H)|]; auto.
        * intros q H. destruct (Imv q H). auto.
        * apply Hst. unfold staged. now rewrite Em.
      + apply mem_false in Hp.
        constructor; cbn [out stg wk w_trans w_over w_moves]; auto.
        * rewrite map_app. now apply parts_snoc.
        * intros q H. destruct (Iov q H). auto.
        * intros q H. apply in_app_or in H as [H|[<-|[]]]; [destruct (Imv q H)|]; auto.
        * apply Hst. unfold staged. now rewrite Em.
  Qed.

  Definition world0 : world := mkWorld told [] (mkW [] [] []).

  Lemma pinv0 : pinv [] world0.
  Proof. constructor; cbn; try (intros; contradiction); [reflexivity | constructor]. Qed.

  Lemma pinv_all : forall steps,
    NoDup (map step_path steps) -> pinv steps (patch_phase mk (cont ob) steps world0).
  Proof.
    induction steps as [|s steps IH] using rev_ind; intros Hn; [exact pinv0|].
    unfold patch_phase. rewrite fold_left_app. rewrite map_app in Hn. cbn [map] in Hn.
    apply NoDup_remove in Hn as [Hn Hs]. rewrite app_nil_r in Hn, Hs. apply pinv_step; [exact (IH Hn) | exact Hs].
  Qed.

  Theorem patch_phase_sound_lemma : forall steps,
    steps_describe ob nb steps ->
    let wd := patch_phase mk (cont ob) steps world0 in
    out wd = told /\ patch_sound ob nb (wk wd) (stg wd).
  Proof.
    intros steps SD wd. pose proof (sd_nodup ob nb steps SD) as Hn.
    destruct (pinv_all steps Hn) as [Io Ip It Iov Imv Ist]. fold wd in Io, Ip, It, Iov, Imv, Ist.
    split; [assumption|].
    apply (Permutation_NoDup Ip), NoDup_app_iff in Hn as [Nt [Nom Hto]]. apply NoDup_app_iff in Nom as [No [Nm Hom]].
    constructor; try assumption.
    - intros p. rewrite (sd_cover ob nb steps SD p), <- !in_app_iff.
      split; [apply (Permutation_in p Ip) | apply (Permutation_in p (Permutation_sym Ip))].
    - intros p H. split; intros H2; apply (Hto p H), in_or_app; auto.
    - intros p k H. now apply (sd_trans ob nb steps SD), It.
    - intros p H. destruct (Iov p H) as [Hof [f Hf]]. apply in_map_fst in Hof as [c Hof].
      assert (Hm : mem p ofiles = true) by (apply mem_In, in_map_fst; now exists c).
      exists (mk c (f told)), c, (f told). split.
      + rewrite (Ist p f Hf). unfold staged. now rewrite Hm, (tree_file ob Wo p c Hof).
      + split; [assumption|]. split; [now apply (sd_write ob nb steps SD) | apply mk_ok].
    - intros p H. destruct (Imv p H) as [Hof [f Hf]]. split; [assumption|].
      exists (f told). split; [|now apply (sd_write ob nb steps SD)].
      rewrite (Ist p f Hf). unfold staged. apply mem_false in Hof. now rewrite Hof.
  Qed.
End PatchPhase.
