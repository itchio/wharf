(** Lemmas about builds and their trees ([Bowl/CommitSpec.v]); before them [mem] and [lookup] on
    any association list, after them [above] / [is_proper_prefix] ([dirs_above_iff],
    [prefix_cases]). *)
From Coq Require Import Permutation.
From Wharf Require Import Base.Prelude Base.ListLemmas Bowl.FSmini Bowl.FSminiProofs Bowl.OverlayCommit Bowl.CommitSpec.
Local Open Scope N_scope.

Lemma mem_In : forall p l, mem p l = true <-> In p l.
Proof. exact (existsb_list_eqb comp_eqb comp_eqb_eq). Qed.

Lemma mem_false : forall p l, mem p l = false <-> ~ In p l.
Proof. intros p l. rewrite <- mem_In. destruct (mem p l); split; congruence. Qed.

Lemma mem_cons : forall p d l, mem p (d :: l) = path_eqb p d || mem p l.
Proof. reflexivity. Qed.

Lemma mem_nil : forall p, mem p [] = false.
Proof. reflexivity. Qed.

Lemma mem_app : forall p a b, mem p (a ++ b) = mem p a || mem p b.
Proof. intros. unfold mem. apply existsb_app. Qed.

(** a state that reads [a] on the processed paths, after one more path *)
Lemma if_mem_snoc : forall (X : Type) q done p (a b : X),
  (if mem q (done ++ [p]) then a else b) = if path_eqb p q then a else if mem q done then a else b.
Proof.
  intros X q done p a b. rewrite mem_app, mem_cons, mem_nil, orb_false_r, (path_eqb_sym q p).
  destruct (mem q done), (path_eqb p q); reflexivity.
Qed.

Lemma in_map_fst : forall (A B : Type) (l : list (A * B)) a, In a (map fst l) <-> exists b, In (a, b) l.
Proof.
  intros A B l a. rewrite in_map_iff. split.
  - intros [[a' b] [E H]]. cbn in E. subst a'. now exists b.
  - intros [b H]. now exists (a, b).
Qed.

Lemma in_map_snd : forall (A B : Type) (l : list (A * B)) b, In b (map snd l) <-> exists a, In (a, b) l.
Proof.
  intros A B l b. rewrite in_map_iff. split.
  - intros [[a b'] [E H]]. cbn in E. subst b'. now exists a.
  - intros [a H]. now exists (a, b).
Qed.

Lemma split_notin : forall (A : Type) (l done rest : list A) a, NoDup l -> l = done ++ a :: rest -> ~ In a done.
Proof. intros A l done rest a Hn -> H. apply NoDup_remove_2 in Hn. apply Hn, in_or_app. now left. Qed.

Lemma lookup_none : forall t p, ~ In p (map fst t) -> lookup t p = None.
Proof. intros t p. apply (assoc_None comp_eqb comp_eqb_eq). Qed.

Lemma lookup_nodup : forall t p n, NoDup (map fst t) -> In (p, n) t -> lookup t p = Some n.
Proof. exact (assoc_NoDup comp_eqb comp_eqb_eq). Qed.

Lemma in_bpaths : forall b p,
  In p (bpaths b) <-> In p (b_dirs b) \/ In p (map fst (b_files b)) \/ In p (map fst (b_links b)).
Proof. intros b p. unfold bpaths, c_paths. cbn [cont c_dirs c_files c_links]. now rewrite !in_app_iff. Qed.

Lemma in_tree : forall b p n, In (p, n) (tree_of b) <->
  match n with Dir => In p (b_dirs b) | Link d => In (p, d) (b_links b) | File c => In (p, c) (b_files b) end.
Proof.
  intros b p n. unfold tree_of. rewrite !in_app_iff, !in_map_iff. split.
  - intros [[x [E H]] | [[[q d] [E H]] | [[q c] [E H]]]]; injection E as <- <-; assumption.
  - destruct n as [c | | d]; intros H; [right; right; now exists (p, c) | left; now exists p | right; left; now exists (p, d)].
Qed.

Lemma tree_keys : forall b, map fst (tree_of b) = b_dirs b ++ map fst (b_links b) ++ map fst (b_files b).
Proof. intros b. unfold tree_of. rewrite !map_app, !map_map. cbn [fst]. now rewrite map_id. Qed.

Lemma tree_dir_inv : forall b p, lookup (tree_of b) p = Some Dir -> In p (b_dirs b).
Proof. intros b p H. now apply lookup_In, in_tree in H. Qed.

Lemma tree_file_inv : forall b p c, lookup (tree_of b) p = Some (File c) -> In (p, c) (b_files b).
Proof. intros b p c H. now apply lookup_In, in_tree in H. Qed.

Lemma tree_link_inv : forall b p d, lookup (tree_of b) p = Some (Link d) -> In (p, d) (b_links b).
Proof. intros b p d H. now apply lookup_In, in_tree in H. Qed.

Lemma tree_some_inv : forall b p n, lookup (tree_of b) p = Some n ->
  (n = Dir /\ In p (b_dirs b)) \/ (exists d, n = Link d /\ In (p, d) (b_links b)) \/ (exists c, n = File c /\ In (p, c) (b_files b)).
Proof. intros b p n H. apply lookup_In, in_tree in H. destruct n; eauto. Qed.

Lemma tree_some_in : forall b p n, lookup (tree_of b) p = Some n -> In p (bpaths b).
Proof.
  intros b p n H. apply lookup_In, (in_map fst) in H. rewrite tree_keys, !in_app_iff in H.
  apply in_bpaths. tauto.
Qed.

Section Build.
  Variable b : build.
  Hypothesis W : wf_build b.

  Lemma tree_nodup : NoDup (map fst (tree_of b)).
  Proof.
    rewrite tree_keys. apply (Permutation_NoDup (l := bpaths b)); [|apply (wf_nodup b W)].
    apply Permutation_app_head, Permutation_app_comm.
  Qed.

  Lemma tree_in : forall p n, In (p, n) (tree_of b) -> lookup (tree_of b) p = Some n.
  Proof. intros p n. apply lookup_nodup, tree_nodup. Qed.

  Lemma tree_dir : forall p, In p (b_dirs b) -> lookup (tree_of b) p = Some Dir.
  Proof. intros p H. now apply tree_in, in_tree. Qed.

  Lemma tree_link : forall p d, In (p, d) (b_links b) -> lookup (tree_of b) p = Some (Link d).
  Proof. intros p d H. now apply tree_in, in_tree. Qed.

  Lemma tree_file : forall p c, In (p, c) (b_files b) -> lookup (tree_of b) p = Some (File c).
  Proof. intros p c H. now apply tree_in, in_tree. Qed.

  Lemma tree_none : forall p, ~ In p (bpaths b) -> lookup (tree_of b) p = None.
  Proof. intros p H. apply lookup_none. rewrite tree_keys, !in_app_iff. rewrite in_bpaths in H. tauto. Qed.

  Lemma tree_in_some : forall p, In p (bpaths b) -> exists n, lookup (tree_of b) p = Some n.
  Proof.
    intros p H. apply in_bpaths in H as [H|[H|H]]; [exists Dir; now apply tree_dir | |];
      apply in_map_fst in H as [x H].
    - exists (File x). now apply tree_file.
    - exists (Link x). now apply tree_link.
  Qed.

  Lemma tree_none_inv : forall p, lookup (tree_of b) p = None -> ~ In p (bpaths b).
  Proof. intros p H Hin. apply tree_in_some in Hin as [n Hn]. congruence. Qed.

  Lemma nodup_parts :
    NoDup (b_dirs b) /\ NoDup (map fst (b_links b)) /\
    (forall p, In p (b_dirs b) -> In p (map fst (b_files b)) -> False) /\
    (forall p, In p (b_dirs b) -> In p (map fst (b_links b)) -> False) /\
    (forall p, In p (map fst (b_files b)) -> In p (map fst (b_links b)) -> False).
  Proof.
    destruct (proj1 (NoDup_app_iff _ _) (wf_nodup b W)) as [Hd [H Hdo]].
    apply NoDup_app_iff in H as [Hf [Hl Hfl]]. repeat split; try assumption;
      intros p H1 H2; apply (Hdo p H1), in_or_app; auto.
  Qed.

  Lemma nodup_dirs : NoDup (b_dirs b).
  Proof. apply nodup_parts. Qed.

  Lemma nodup_links : NoDup (map fst (b_links b)).
  Proof. apply nodup_parts. Qed.

  Lemma dir_not_file : forall p, In p (b_dirs b) -> In p (map fst (b_files b)) -> False.
  Proof. apply nodup_parts. Qed.

  Lemma dir_not_link : forall p, In p (b_dirs b) -> In p (map fst (b_links b)) -> False.
  Proof. apply nodup_parts. Qed.

  Lemma file_not_link : forall p, In p (map fst (b_files b)) -> In p (map fst (b_links b)) -> False.
  Proof. apply nodup_parts. Qed.
End Build.

Lemma tree_above_dir : forall b p q n, wf_build b -> lookup (tree_of b) p = Some n -> above q p -> lookup (tree_of b) q = Some Dir.
Proof.
  intros b p q n W H A. apply tree_dir; [assumption|]. apply (wf_closed b W p q); [now apply tree_some_in in H | assumption].
Qed.

Lemma tree_below_nondir : forall b p q, wf_build b -> lookup (tree_of b) q <> Some Dir -> above q p -> lookup (tree_of b) p = None.
Proof.
  intros b p q W H A. destruct (lookup (tree_of b) p) eqn:E; [|reflexivity].
  exfalso. apply H. now apply (tree_above_dir b p q n).
Qed.

Lemma tree_nonempty : forall b n, wf_build b -> lookup (tree_of b) [] = Some n -> False.
Proof. intros b n W H. apply tree_some_in in H. now apply (wf_nonempty b W [] H). Qed.

Lemma above_proper_prefix : forall q p, above q p -> is_proper_prefix q p = true.
Proof. intros q p [r [-> [_ Hr]]]. apply is_proper_prefix_spec. now exists r. Qed.

Lemma proper_prefix_above : forall q p, q <> [] -> is_proper_prefix q p = true -> above q p.
Proof. intros q p Hq H. apply is_proper_prefix_spec in H as [r [-> Hr]]. now exists r. Qed.

Lemma dirs_above_iff : forall t p, dirs_above t p <-> (forall q, above q p -> lookup t q = Some Dir).
Proof.
  intros t p. split.
  - intros H q [r [-> [Hq Hr]]]. now apply (H q r).
  - intros H q r -> Hq Hr. apply H. now exists r.
Qed.

Lemma above_not_prefix_back : forall q d, above q d -> is_prefix d q = false.
Proof.
  intros q d [r [-> [Hq Hr]]]. destruct (is_prefix (q ++ r) q) eqn:E; [|reflexivity].
  apply is_prefix_spec in E as [r' E]. rewrite <- app_assoc in E. rewrite <- (app_nil_r q) in E at 1.
  apply app_inv_head in E. destruct r; [contradiction | discriminate].
Qed.

Lemma above_neq : forall q d, above q d -> q <> d.
Proof.
  intros q d A E. subst. apply above_not_prefix_back in A. now rewrite is_prefix_refl in A.
Qed.

Lemma prefix_cases : forall l p, is_prefix l p = true -> l = p \/ is_proper_prefix l p = true.
Proof.
  intros l p H. unfold is_proper_prefix. rewrite H. destruct (path_eqb l p) eqn:E; [left; now apply path_eqb_eq | now right].
Qed.
