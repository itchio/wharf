(** Segments of a list in [firstn]/[skipn] normal form.  The slicing functions of the models
    ([Bsdiff.Scan.slicez], [Patch.Stream.slice], [Val.Safekeeper.slice], [Wsync.Spec.sub]) unfold to
    [seg] at [to_nat] of their arguments; their lemmas are these at those arguments, and what is
    left to each is the arithmetic of its index type.  ([Overlay.Writer.slice] is over the
    tail-recursive functions of Overlay/Fast.v: [slice_spec] in Overlay/WindowProofs.v brings it to
    this form, and the overlay proofs go on with [firstn]/[skipn].) *)
From Wharf Require Import Base.Prelude Base.ListLemmas.

Section Seg.
  Context {A : Type}.
  Implicit Types l r p : list A.

  Definition seg l (a n : nat) : list A := firstn n (skipn a l).

  Lemma seg_length l a n : length (seg l a n) = Nat.min n (length l - a).
  Proof. unfold seg. rewrite firstn_length, skipn_length. reflexivity. Qed.

  Lemma seg_min l a n : seg l a n = seg l a (Nat.min n (length l - a)).
  Proof.
    unfold seg. destruct (Nat.le_ge_cases n (length l - a)); [rewrite Nat.min_l by lia; reflexivity|].
    rewrite !firstn_all2 by (rewrite skipn_length; lia). reflexivity.
  Qed.

  Lemma seg_tail l a n : length l <= a + n -> seg l a n = skipn a l.
  Proof. intros H. apply firstn_all2. rewrite skipn_length. lia. Qed.

  Lemma seg_clip l a n m : length l <= a + n -> n <= m -> seg l a n = seg l a m.
  Proof. intros H1 H2. rewrite !seg_tail by lia. reflexivity. Qed.

  Lemma seg_all l n : length l <= n -> seg l 0 n = l.
  Proof. intros H. apply seg_tail. exact H. Qed.

  Lemma seg_beyond l a n : length l <= a -> seg l a n = [].
  Proof. intros H. unfold seg. rewrite skipn_all2 by exact H. apply firstn_nil. Qed.

  Lemma seg_app l a n m : seg l a (n + m) = seg l a n ++ seg l (a + n) m.
  Proof. unfold seg. rewrite <- skipn_skipn_add. symmetry. apply firstn_add. Qed.

  Lemma seg_seg l a n d m : d + m <= n -> seg (seg l a n) d m = seg l (a + d) m.
  Proof.
    intros H. unfold seg. rewrite skipn_firstn_comm, firstn_firstn, skipn_skipn_add, Nat.min_l by lia. reflexivity.
  Qed.

  Lemma seg_app_l l r a n : n <= length l - a -> seg (l ++ r) a n = seg l a n.
  Proof.
    intros H. unfold seg. rewrite skipn_app, firstn_app, skipn_length.
    replace (n - (length l - a)) with 0 by lia. apply app_nil_r.
  Qed.

  Lemma seg_app_r p l a n : seg (p ++ l) (length p + a) n = seg l a n.
  Proof. unfold seg. rewrite <- skipn_skipn_add, skipn_app_exact. reflexivity. Qed.

  Lemma seg_cons l a n x : nth_error l a = Some x -> seg l a (S n) = x :: seg l (S a) n.
  Proof. intros H. unfold seg. rewrite (skipn_nth_error l a x H). reflexivity. Qed.
End Seg.
