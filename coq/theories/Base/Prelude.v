(** Shared definitions: bytes are [N], run-length expansion for compact case files ([expand]),
    block splitting ([blocks]), list comparison ([list_eqb], [nlist_eqb]), [outcome].  Model code
    only; lemmas live in [Base/ListLemmas.v] ([list_eqb]) and [Base/BlocksLemmas.v] ([blocks]). *)
From Coq Require Export List NArith ZArith Arith Bool Lia.
Export ListNotations.

Definition byte := N.

(** [expand] : run-length encoded contents, used by generated case files so that
    64 KiB blocks do not have to be spelled out. *)
Fixpoint expand (rle : list (N * N)) : list N :=
  match rle with
  | [] => []
  | (v, c) :: r => repeat v (N.to_nat c) ++ expand r
  end.

(** [blocks bs l] : [l] cut into consecutive pieces of [bs] elements, the last one
    possibly shorter; nothing for the empty list. *)
Fixpoint blocks_aux {A} (fuel bs : nat) (l : list A) : list (list A) :=
  match fuel with
  | O => []
  | S f => match l with
           | [] => []
           | _ => firstn bs l :: blocks_aux f bs (skipn bs l)
           end
  end.
Definition blocks {A} (bs : nat) (l : list A) : list (list A) := blocks_aux (length l) bs l.

Fixpoint list_eqb {A} (eqb : A -> A -> bool) (a b : list A) : bool :=
  match a, b with
  | [], [] => true
  | x :: a', y :: b' => eqb x y && list_eqb eqb a' b'
  | _, _ => false
  end.

Definition nlist_eqb := list_eqb N.eqb.

(** three-valued outcome of the fuelled loops of Val/Drip.v (and Val/VPool.v over it) and
    Val/Safekeeper.v *)
Inductive outcome := Done | Failed | OutOfFuel.
Definition outcome_eqb (a b : outcome) : bool :=
  match a, b with Done, Done | Failed, Failed | OutOfFuel, OutOfFuel => true | _, _ => false end.
