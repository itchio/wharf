(** Facts about lists that mention no model: [app], [firstn]/[skipn]/[nth_error], [NoDup], [forallb],
    [Forall2]; then lists compared by [list_eqb] of [Base/Prelude.v], their prefixes, and association
    lists keyed by them. *)
From Wharf Require Import Base.Prelude.

Lemma app_cut {A} (x1 y1 x2 y2 : list A) :
  x1 ++ y1 = x2 ++ y2 ->
  (exists l, x2 = x1 ++ l /\ y1 = l ++ y2) \/ (exists a l, x1 = x2 ++ a :: l /\ y2 = (a :: l) ++ y1).
Proof.
  intros E. apply app_eq_app in E. destruct E as (l & [[E1 E2]|E]); [|left; exists l; exact E].
  destruct l as [|a l]; [left; exists []|right; exists a, l; split; assumption].
  rewrite app_nil_r in *. subst. split; reflexivity.
Qed.

Lemma app_neq_self {A} (p r : list A) : r <> [] -> p <> p ++ r.
Proof. intros Hr E. rewrite <- (app_nil_r p) in E at 1. apply app_inv_head in E. congruence. Qed.

Lemma snoc_cases {A} (p : list A) : p = [] \/ exists q x, p = q ++ [x].
Proof.
  destruct p as [|a p]; [left; reflexivity|]. right.
  destruct (@exists_last _ (a :: p)) as [q [x E]]; [discriminate|]. exists q, x. exact E.
Qed.

Lemma skipn_app_exact {A} (p r : list A) : skipn (length p) (p ++ r) = r.
Proof. rewrite skipn_app, skipn_all, Nat.sub_diag. reflexivity. Qed.

Lemma firstn_app_exact {A} (p r : list A) : firstn (length p) (p ++ r) = p.
Proof. rewrite firstn_app, Nat.sub_diag, firstn_all. apply app_nil_r. Qed.

Lemma firstn_add {A} (l : list A) : forall a b, firstn a l ++ firstn b (skipn a l) = firstn (a + b) l.
Proof.
  induction l as [|x l IH]; intros [|a] b; cbn [firstn skipn app plus]; rewrite ?firstn_nil; try reflexivity.
  f_equal. apply IH.
Qed.

Lemma skipn_skipn_add {A} (n m : nat) (l : list A) : skipn n (skipn m l) = skipn (m + n) l.
Proof.
  revert l. induction m as [|m IH]; intros l; cbn [plus]; [reflexivity|].
  destruct l as [|x l']; [destruct n; reflexivity|]. cbn [skipn]. apply IH.
Qed.

Lemma skipn_nth_error {A} (l : list A) n x : nth_error l n = Some x -> skipn n l = x :: skipn (S n) l.
Proof.
  revert n. induction l as [|a l IH]; intros n H; [destruct n; discriminate|].
  destruct n; cbn [nth_error skipn] in *; [congruence|]. apply IH. assumption.
Qed.

Lemma nth_error_firstn_lt {A} (k : nat) : forall (l : list A) n, n < k -> nth_error (firstn k l) n = nth_error l n.
Proof.
  induction k as [|k IH]; intros l n Hn; [lia|].
  destruct l as [|x l']; [destruct n; reflexivity|].
  destruct n as [|n]; [reflexivity|]. cbn [firstn nth_error]. apply IH. lia.
Qed.

Lemma nth_error_skipn_add {A} (k : nat) : forall (l : list A) n, nth_error (skipn k l) n = nth_error l (k + n).
Proof.
  induction k as [|k IH]; intros l n; [reflexivity|].
  destruct l as [|x l']; [destruct n; reflexivity|]. cbn [skipn plus nth_error]. apply IH.
Qed.

Lemma nth_error_ext_eq {A} : forall (l1 l2 : list A), (forall n, nth_error l1 n = nth_error l2 n) -> l1 = l2.
Proof.
  induction l1 as [|x l1 IH]; intros l2 Hn.
  - destruct l2 as [|y l2]; [reflexivity|]. specialize (Hn 0). discriminate.
  - destruct l2 as [|y l2]; [specialize (Hn 0); discriminate|].
    pose proof (Hn 0) as H0. cbn in H0. inversion H0. subst y. f_equal.
    apply IH. intros n. exact (Hn (S n)).
Qed.

Lemma NoDup_app_iff {A} (l1 l2 : list A) :
  NoDup (l1 ++ l2) <-> NoDup l1 /\ NoDup l2 /\ forall x, In x l1 -> ~ In x l2.
Proof.
  induction l1 as [|a l1 IH]; cbn [app].
  - split; [intros H; repeat split; [constructor | exact H | intros x []] | now intros [_ [H _]]].
  - rewrite !NoDup_cons_iff, IH, in_app_iff. split.
    + intros [Hn [H1 [H2 Hd]]]. repeat split; auto. intros x [<-|Hx] Hx2; [auto | exact (Hd x Hx Hx2)].
    + intros [[Hn H1] [H2 Hd]]. split; [intros [H|H]; [auto | apply (Hd a); [now left | assumption]]|].
      repeat split; auto. intros x Hx. apply Hd. now right.
Qed.

Lemma NoDup_snoc {A} (l : list A) x : NoDup l -> ~ In x l -> NoDup (l ++ [x]).
Proof.
  intros Hn Hx. apply NoDup_app_iff. split; [assumption|]. split; [repeat constructor; intros []|].
  intros y Hy [<-|[]]. contradiction.
Qed.

Lemma forallb_false_exists {A} (f : A -> bool) l : forallb f l = false -> exists x, In x l /\ f x = false.
Proof.
  induction l as [|a l IH]; cbn [forallb]; intro H; [discriminate|].
  destruct (f a) eqn:E; cbn [andb] in H.
  - destruct (IH H) as [x [Hx Hf]]. exists x. split; [right; exact Hx|exact Hf].
  - exists a. split; [left; reflexivity|exact E].
Qed.

Lemma Forall2_map_self {A B} (R : A -> B -> Prop) g l : Forall (fun x => R x (g x)) l -> Forall2 R l (map g l).
Proof. induction 1; constructor; assumption. Qed.

Lemma NoDup_fst_functional {A B} (l : list (A * B)) k v1 v2 :
  NoDup (map fst l) -> In (k, v1) l -> In (k, v2) l -> v1 = v2.
Proof.
  induction l as [|[k' v] l IH]; cbn; intros H H1 H2; [destruct H1|].
  inversion H as [|? ? Hk Hn]; subst.
  destruct H1 as [E1 | H1], H2 as [E2 | H2].
  - congruence.
  - inversion E1; subst. destruct Hk. exact (in_map fst _ _ H2).
  - inversion E2; subst. destruct Hk. exact (in_map fst _ _ H1).
  - exact (IH Hn H1 H2).
Qed.

(** Lists compared element by element with a test [eqb] that decides equality; the paths of the
    filesystem models are such lists, and their [path_eqb], [is_prefix] and [lookup] are
    [list_eqb eqb], [prefixb] and [assoc] below, written out at their own element type. *)
Section Eqb.
  Context {A : Type} (eqb : A -> A -> bool).
  Hypothesis eqb_eq : forall x y, eqb x y = true <-> x = y.
  Implicit Types a b p q r : list A.

  Lemma list_eqb_eq a b : list_eqb eqb a b = true <-> a = b.
  Proof.
    revert b. induction a as [|x a IH]; destruct b as [|y b]; cbn; try (split; congruence).
    rewrite andb_true_iff, eqb_eq, IH. split; [intros [-> ->]; reflexivity | intro H; inversion H; auto].
  Qed.

  Lemma list_eqb_refl a : list_eqb eqb a a = true.
  Proof. apply list_eqb_eq. reflexivity. Qed.

  Lemma list_eqb_neq a b : list_eqb eqb a b = false <-> a <> b.
  Proof. rewrite <- not_true_iff_false, list_eqb_eq. reflexivity. Qed.

  Lemma list_eqb_sym a b : list_eqb eqb a b = list_eqb eqb b a.
  Proof. apply eq_iff_eq_true. rewrite !list_eqb_eq. split; congruence. Qed.

  Lemma list_eqb_dec a b : {a = b} + {a <> b}.
  Proof. destruct (list_eqb eqb a b) eqn:E; [left; apply list_eqb_eq | right; apply list_eqb_neq]; exact E. Qed.

  Lemma list_eqb_app_head p a b : list_eqb eqb (p ++ a) (p ++ b) = list_eqb eqb a b.
  Proof. apply eq_iff_eq_true. rewrite !list_eqb_eq. split; [apply app_inv_head | congruence]. Qed.

  Lemma existsb_list_eqb a l : existsb (list_eqb eqb a) l = true <-> In a l.
  Proof.
    rewrite existsb_exists. split; [intros [b [Hb E]]; apply list_eqb_eq in E; subst b; exact Hb|].
    intros H. exists a. split; [exact H | apply list_eqb_refl].
  Qed.

  Fixpoint nodupb (l : list (list A)) : bool :=
    match l with
    | [] => true
    | p :: r => negb (existsb (list_eqb eqb p) r) && nodupb r
    end.

  Lemma nodupb_NoDup l : nodupb l = true -> NoDup l.
  Proof.
    induction l as [|p l IH]; cbn [nodupb]; intro H; [constructor|].
    apply andb_true_iff in H as [H1 H2]. constructor; [|apply IH, H2].
    intro Hin. apply existsb_list_eqb in Hin. rewrite Hin in H1. discriminate.
  Qed.

  Fixpoint prefixb p q : bool :=
    match p, q with
    | [], _ => true
    | x :: p', y :: q' => eqb x y && prefixb p' q'
    | _ :: _, [] => false
    end.

  Lemma prefixb_spec p q : prefixb p q = true <-> exists r, q = p ++ r.
  Proof.
    revert q. induction p as [|x p IH]; intros q; cbn [prefixb app].
    - split; [intros _; exists q; reflexivity | reflexivity].
    - destruct q as [|y q]; [split; [discriminate | intros [r H]; discriminate]|].
      rewrite andb_true_iff, eqb_eq, IH. split.
      + intros [-> [r ->]]. exists r. reflexivity.
      + intros [r H]. injection H as -> ->. split; [reflexivity | exists r; reflexivity].
  Qed.

  Lemma prefixb_app p r : prefixb p (p ++ r) = true.
  Proof. apply prefixb_spec. exists r. reflexivity. Qed.

  Lemma prefixb_refl p : prefixb p p = true.
  Proof. apply prefixb_spec. exists []. symmetry. apply app_nil_r. Qed.

  Context {B : Type}.
  Implicit Types t : list (list A * B).

  Fixpoint assoc t p : option B :=
    match t with
    | [] => None
    | (q, n) :: t' => if list_eqb eqb q p then Some n else assoc t' p
    end.

  Lemma assoc_filter (P : list A -> bool) t q :
    assoc (filter (fun e => P (fst e)) t) q = if P q then assoc t q else None.
  Proof.
    induction t as [|[k n] t IH]; cbn [filter assoc fst]; [destruct (P q); reflexivity|].
    destruct (P k) eqn:K; cbn [assoc]; rewrite IH; destruct (list_eqb eqb k q) eqn:E; try reflexivity;
      apply list_eqb_eq in E; subst k; rewrite K; reflexivity.
  Qed.

  Lemma assoc_filter_negb (P : list A -> bool) t q :
    assoc (filter (fun e => negb (P (fst e))) t) q = if P q then None else assoc t q.
  Proof. rewrite (assoc_filter (fun k => negb (P k))). destruct (P q); reflexivity. Qed.

  Lemma assoc_put t p n q :
    assoc ((p, n) :: filter (fun e => negb (list_eqb eqb (fst e) p)) t) q =
    if list_eqb eqb p q then Some n else assoc t q.
  Proof.
    cbn [assoc]. destruct (list_eqb eqb p q) eqn:E; [reflexivity|].
    rewrite (assoc_filter_negb (fun k => list_eqb eqb k p)), list_eqb_sym, E. reflexivity.
  Qed.

  Lemma assoc_app t t' p :
    assoc (t ++ t') p = match assoc t p with Some n => Some n | None => assoc t' p end.
  Proof.
    induction t as [|[k n] t IH]; cbn [app assoc]; [reflexivity|].
    destruct (list_eqb eqb k p); [reflexivity | apply IH].
  Qed.

  Lemma assoc_In t p n : assoc t p = Some n -> In (p, n) t.
  Proof.
    induction t as [|[k m] t IH]; cbn [assoc]; [discriminate|].
    destruct (list_eqb eqb k p) eqn:E; [|right; apply IH; assumption].
    apply list_eqb_eq in E. subst k. intros [= ->]. left. reflexivity.
  Qed.

  Lemma assoc_None t p : assoc t p = None <-> ~ In p (map fst t).
  Proof.
    induction t as [|[k n] t IH]; cbn [assoc map fst In]; [tauto|].
    destruct (list_eqb eqb k p) eqn:E.
    - apply list_eqb_eq in E. subst k. split; [discriminate | intros H; destruct H; left; reflexivity].
    - apply list_eqb_neq in E. rewrite IH. tauto.
  Qed.

  Lemma assoc_NoDup t p n : NoDup (map fst t) -> In (p, n) t -> assoc t p = Some n.
  Proof.
    intros ND HI. destruct (assoc t p) as [m|] eqn:E.
    - f_equal. exact (NoDup_fst_functional t p m n ND (assoc_In t p m E) HI).
    - apply assoc_None in E. destruct E. exact (in_map fst t (p, n) HI).
  Qed.
End Eqb.

Lemma nlist_eqb_eq (a b : list N) : nlist_eqb a b = true <-> a = b.
Proof. exact (list_eqb_eq N.eqb N.eqb_eq a b). Qed.

Lemma nlist_eqb_refl (a : list N) : nlist_eqb a a = true.
Proof. exact (list_eqb_refl N.eqb N.eqb_eq a). Qed.
