(** Finite maps from paths to nodes, read through their lookup function [m] alone: what it means
    for a path to lie below directories only and for a map to be a tree, and which pointwise
    changes keep it one.  The filesystem models (FS/Tree, Bowl/FSmini, Arch/Zip) are association
    lists; their predicates of that kind are these at the model's own [lookup]. *)
From Wharf Require Import Base.Prelude Base.ListLemmas.

Section Maps.
  Context {K Nd : Type} {eqb : K -> K -> bool} {dir : Nd}.
  Hypothesis eqb_eq : forall x y, eqb x y = true <-> x = y.
  Implicit Type m : list K -> option Nd.

  Definition dirs_above m (p : list K) : Prop :=
    forall q r, p = q ++ r -> q <> [] -> r <> [] -> m q = Some dir.

  Definition wf m : Prop :=
    m [] = None /\ forall p q r, m p <> None -> p = q ++ r -> q <> [] -> r <> [] -> m q = Some dir.

  Lemma wf_dirs_above : forall m p, wf m -> m p <> None -> dirs_above m p.
  Proof. intros m p [_ W] H q r. apply (W p q r H). Qed.

  Lemma wf_below_nondir : forall m p r, wf m -> p <> [] -> r <> [] -> m p <> Some dir -> m (p ++ r) = None.
  Proof.
    intros m p r [_ W] Hp Hr Hn. destruct (m (p ++ r)) eqn:E; [|reflexivity].
    exfalso. apply Hn. apply (W (p ++ r) p r); [congruence | reflexivity | exact Hp | exact Hr].
  Qed.

  Lemma dirs_above_nil : forall m, dirs_above m [].
  Proof. intros m q r E Hq Hr. destruct q; [contradiction | discriminate]. Qed.

  Lemma dirs_above_snoc : forall m p c, dirs_above m p -> (p <> [] -> m p = Some dir) -> dirs_above m (p ++ [c]).
  Proof.
    intros m p c D Hd q r E Hq Hr. destruct (snoc_cases r) as [-> | [r' [z ->]]]; [congruence|].
    rewrite app_assoc in E. apply app_inj_tail in E as [-> _].
    destruct r' as [|y r']; [rewrite app_nil_r in *; apply Hd; exact Hq | apply (D q (y :: r') eq_refl Hq); discriminate].
  Qed.

  Lemma first_nondir : forall m, (forall q, m q = Some dir \/ m q <> Some dir) -> forall p,
    dirs_above m p \/ exists q r, p = q ++ r /\ q <> [] /\ r <> [] /\ dirs_above m q /\ m q <> Some dir.
  Proof.
    intros m dec p. induction p as [|x p IH] using rev_ind; [left; apply dirs_above_nil|].
    destruct IH as [D | [q [r [-> [Hq [Hr [D Hn]]]]]]].
    - destruct (snoc_cases p) as [-> | [a [n E]]]; [left; apply dirs_above_snoc; [exact D | congruence]|].
      destruct (dec p) as [Ed | Ed]; [left; apply dirs_above_snoc; [exact D | intros _; exact Ed]|].
      right. exists p, [x]. repeat split; try assumption; [subst p; destruct a| ]; discriminate.
    - right. exists q, (r ++ [x]). rewrite <- app_assoc. repeat split; try assumption. destruct r; discriminate.
  Qed.

  (** the shapes of the models' [lookup_set] / [lookup_del] and [lookup_del_tree] lemmas *)
  Definition set_at m m' (p : list K) (v : option Nd) : Prop :=
    forall q, m' q = if list_eqb eqb p q then v else m q.

  Definition cut_at m m' (p : list K) : Prop :=
    forall q, m' q = if prefixb eqb p q then None else m q.

  Lemma wf_set : forall m m' p v, wf m -> p <> [] -> set_at m m' p v ->
    (forall r, r <> [] -> m (p ++ r) = None) -> (v <> None -> dirs_above m p) -> wf m'.
  Proof.
    intros m m' p v [W0 W] Hp Hm Hb Hd. split; [rewrite Hm; destruct p; [congruence | exact W0]|].
    intros x q r Hx E Hq Hr. rewrite Hm in *. destruct (list_eqb eqb p q) eqn:E2.
    - apply (list_eqb_eq eqb eqb_eq) in E2. subst q x. exfalso.
      rewrite (proj2 (list_eqb_neq eqb eqb_eq p (p ++ r)) (app_neq_self p r Hr)), (Hb r Hr) in Hx. congruence.
    - destruct (list_eqb eqb p x) eqn:E1; [|apply (W x q r Hx E Hq Hr)].
      apply (list_eqb_eq eqb eqb_eq) in E1. subst x. apply (Hd Hx q r E Hq Hr).
  Qed.

  (** ... as the operations meet it: what is at [p] is not a directory, so nothing lies below *)
  Lemma wf_set_nondir : forall m m' p v, wf m -> p <> [] -> set_at m m' p v -> m p <> Some dir ->
    (v <> None -> dirs_above m p) -> wf m'.
  Proof.
    intros m m' p v W Hp Hm Hn. apply (wf_set m m' p v W Hp Hm). intros r Hr. exact (wf_below_nondir m p r W Hp Hr Hn).
  Qed.

  Lemma wf_cut : forall m m' p, wf m -> cut_at m m' p -> wf m'.
  Proof.
    intros m m' p [W0 W] Hm. split; [rewrite Hm; destruct (prefixb eqb p []); [reflexivity | exact W0]|].
    intros x q r Hx -> Hq Hr. rewrite Hm in *. destruct (prefixb eqb p (q ++ r)) eqn:E1; [congruence|].
    destruct (prefixb eqb p q) eqn:E; [|apply (W (q ++ r) q r Hx eq_refl Hq Hr)].
    apply (prefixb_spec eqb eqb_eq) in E as [s ->]. rewrite <- app_assoc, (prefixb_app eqb eqb_eq) in E1. discriminate.
  Qed.
End Maps.

Arguments dirs_above {K Nd} dir m p.
Arguments wf {K Nd} dir m.
Arguments set_at {K Nd} eqb m m' p v.
Arguments cut_at {K Nd} eqb m m' p.

