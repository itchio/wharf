(** Transition systems run under an explicit schedule (a list of thread names): what a run keeps,
    when some schedule finishes, where the completion by priorities stops, and that a run whose
    steps are invisible through an abstraction or steps of a second system maps to a run of that
    system ([stay_run_refines]).  The models' own
    [run]s are [fold_left] of their step functions, their [finish]es the [finish] below by conversion:
    [Healer.step_or_stay] / [first_step] / [finish] and [Granular.gstep_or_stay] / [gfirst_step] /
    [gfinish] repeat [stay] / [first_step] / [finish], so that the case files load no proof library. *)
From Coq Require Import List Arith Lia.
Import ListNotations.

Section Total.
Context {St T : Type} (step : St -> T -> St).

Lemma run_keeps (P : St -> Prop) :
  (forall s t, P s -> P (step s t)) -> forall sched s, P s -> P (fold_left step sched s).
Proof. intros H sched. induction sched as [|t sched IH]; intros s Hs; [exact Hs | apply IH, H, Hs]. Qed.

Lemma progress_terminates (inv : St -> Prop) (fin : St -> bool) (m : St -> nat) :
  (forall s t, inv s -> inv (step s t)) ->
  (forall s, inv s -> fin s = false -> exists t, m (step s t) < m s) ->
  forall s, inv s -> exists sched, fin (fold_left step sched s) = true.
Proof.
  intros Hstep Hprog s. remember (m s) as n eqn:Hn. revert s Hn.
  induction n as [n IH] using lt_wf_ind. intros s -> HI.
  destruct (fin s) eqn:Hf; [exists []; exact Hf|].
  destruct (Hprog s HI Hf) as [t Hlt].
  destruct (IH _ Hlt (step s t) eq_refl (Hstep s t HI)) as [sched Hs].
  exists (t :: sched). exact Hs.
Qed.
End Total.

Section Partial.
Context {St T : Type} (step : St -> T -> option St).

Definition stay (s : St) (t : T) : St := match step s t with Some s' => s' | None => s end.

Fixpoint first_step (s : St) (prio : list T) : option St :=
  match prio with
  | [] => None
  | t :: r => match step s t with Some s' => Some s' | None => first_step s r end
  end.

Fixpoint finish (fuel : nat) (prio : list T) (s : St) : St :=
  match fuel with
  | O => s
  | S f => match first_step s prio with Some s' => finish f prio s' | None => s end
  end.

Definition kept (P : St -> Prop) : Prop := forall s t s', P s -> step s t = Some s' -> P s'.

Lemma stay_some s t s' : step s t = Some s' -> stay s t = s'.
Proof. unfold stay. intros ->. reflexivity. Qed.

Lemma stay_none s t : step s t = None -> stay s t = s.
Proof. unfold stay. intros ->. reflexivity. Qed.

Lemma stay_keeps (P : St -> Prop) : kept P -> forall s t, P s -> P (stay s t).
Proof.
  intros H s t Hs. destruct (step s t) eqn:E; [rewrite (stay_some _ _ _ E); exact (H s t _ Hs E) | rewrite (stay_none _ _ E); exact Hs].
Qed.

Lemma stay_run_keeps (P : St -> Prop) : kept P -> forall sched s, P s -> P (fold_left stay sched s).
Proof. intro H. apply run_keeps, stay_keeps, H. Qed.

Lemma stay_run_lowers (inv : St -> Prop) (m : St -> nat) :
  kept inv -> (forall s t s', inv s -> step s t = Some s' -> m s' < m s) ->
  forall sched s, inv s -> m (fold_left stay sched s) <= m s.
Proof.
  intros Hk Hm sched s HI.
  refine (proj2 (stay_run_keeps (fun s' => inv s' /\ m s' <= m s) _ sched s (conj HI (le_n _)))).
  intros s1 t s2 [H1 Hle] E. split; [exact (Hk s1 t s2 H1 E) | pose proof (Hm s1 t s2 H1 E); lia].
Qed.

Lemma first_step_spec s prio :
  match first_step s prio with
  | Some s' => exists t, step s t = Some s'
  | None => forall t, In t prio -> step s t = None
  end.
Proof.
  induction prio as [|j prio IH]; cbn; [intros t []|].
  destruct (step s j) as [s1|] eqn:E; [exists j; exact E|].
  destruct (first_step s prio); [exact IH | intros t [<- | Hin]; [exact E | apply IH, Hin]].
Qed.

Lemma finish_stuck (inv : St -> Prop) (m : St -> nat) :
  kept inv -> (forall s t s', inv s -> step s t = Some s' -> m s' < m s) ->
  forall prio fuel s, inv s -> m s <= fuel ->
  inv (finish fuel prio s) /\ forall t, In t prio -> step (finish fuel prio s) t = None.
Proof.
  intros Hk Hm prio. induction fuel as [|fuel IH]; intros s HI Hle; cbn.
  - split; [exact HI|]. intros t _. destruct (step s t) as [s1|] eqn:E; [|reflexivity].
    pose proof (Hm s t s1 HI E). lia.
  - pose proof (first_step_spec s prio) as Hf. destruct (first_step s prio) as [s1|].
    + destruct Hf as [t Et]. apply IH; [exact (Hk s t s1 HI Et) | pose proof (Hm s t s1 HI Et); lia].
    + split; [exact HI | exact Hf].
Qed.
End Partial.

Lemma stay_run_refines {St1 St2 T : Type} (step1 : St1 -> T -> option St1) (step2 : St2 -> T -> option St2)
    (abs : St1 -> St2) (inv : St1 -> Prop) :
  (forall s t s', inv s -> step1 s t = Some s' -> inv s' /\ (abs s' = abs s \/ step2 (abs s) t = Some (abs s'))) ->
  forall sched s, inv s ->
  exists asched, length asched <= length sched /\
    abs (fold_left (stay step1) sched s) = fold_left (stay step2) asched (abs s).
Proof.
  intros H. induction sched as [|t sched IH]; intros s HI; [exists []; split; [apply le_n | reflexivity]|].
  cbn [fold_left]. destruct (step1 s t) as [s'|] eqn:E.
  - rewrite (stay_some _ _ _ _ E). destruct (H s t s' HI E) as [HI' [Ea | Ea]]; destruct (IH s' HI') as (asched & Hl & Hr).
    + exists asched. split; [cbn; lia | rewrite Hr, Ea; reflexivity].
    + exists (t :: asched). split; [cbn; lia|]. cbn [fold_left]. rewrite (stay_some _ _ _ _ Ea). exact Hr.
  - rewrite (stay_none _ _ _ E). destruct (IH s HI) as (asched & Hl & Hr). exists asched. split; [cbn; lia | exact Hr].
Qed.
