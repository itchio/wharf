(** [full]: the complete blocks of a list and the remainder, with the induction principle
    [block_ind] (a list shorter than a block / a block then the rest); [blocks] as complete
    blocks + remainder ([blocks_full]); the j-th block and the number of blocks ([blocks_nth],
    [blocks_length_bounds]); the first block of [w ++ r], for loops that cut a stream into blocks
    ([full_app_long] and its corollaries).  Re-exports Base/ListLemmas.v. *)
From Wharf Require Import Base.Prelude Base.BlockArith.
From Wharf Require Export Base.ListLemmas.

Section Blocks.
  Context {A : Type}.
  Variable bs : nat.
  Hypothesis bs_pos : 0 < bs.

  Fixpoint full_aux (fuel : nat) (l : list A) : list (list A) * list A :=
    match fuel with
    | O => ([], l)
    | S f => if bs <=? length l
             then let '(bl, r) := full_aux f (skipn bs l) in (firstn bs l :: bl, r)
             else ([], l)
    end.
  Definition full (l : list A) := full_aux (length l) l.

  Lemma full_aux_fuel f1 : forall f2 l, length l <= f1 -> length l <= f2 -> full_aux f1 l = full_aux f2 l.
  Proof.
    induction f1 as [|f1 IH]; intros f2 l H1 H2.
    - destruct l; [|simpl in H1; lia]. destruct f2; cbn [full_aux length]; [reflexivity|].
      destruct (bs <=? 0) eqn:E; [apply Nat.leb_le in E; lia|reflexivity].
    - destruct f2 as [|f2].
      + destruct l; [|simpl in H2; lia]. cbn [full_aux length].
        destruct (bs <=? 0) eqn:E; [apply Nat.leb_le in E; lia|reflexivity].
      + cbn [full_aux]. destruct (bs <=? length l) eqn:E; [|reflexivity].
        apply Nat.leb_le in E.
        rewrite (IH f2 (skipn bs l)); [reflexivity|rewrite skipn_length; lia|rewrite skipn_length; lia].
  Qed.

  Lemma full_aux_enough fuel l : length l <= fuel -> full_aux fuel l = full l.
  Proof. intros H. unfold full. apply full_aux_fuel; lia. Qed.

  Lemma full_short l : length l < bs -> full l = ([], l).
  Proof.
    intros H. unfold full. destruct (length l) eqn:E; [reflexivity|].
    cbn [full_aux]. rewrite E. destruct (bs <=? S n) eqn:E'; [apply Nat.leb_le in E'; lia|reflexivity].
  Qed.

  Lemma full_long l : bs <= length l ->
    full l = (firstn bs l :: fst (full (skipn bs l)), snd (full (skipn bs l))).
  Proof.
    intros H. unfold full at 1. destruct (length l) eqn:E; [lia|].
    cbn [full_aux]. rewrite E. destruct (bs <=? S n) eqn:E'; [|apply Nat.leb_gt in E'; lia].
    rewrite full_aux_enough by (rewrite skipn_length; lia).
    destruct (full (skipn bs l)); reflexivity.
  Qed.

  Lemma block_ind (P : list A -> Prop) :
    (forall l, length l < bs -> P l) -> (forall l, bs <= length l -> P (skipn bs l) -> P l) -> forall l, P l.
  Proof.
    intros Hshort Hlong l. remember (length l) as n eqn:En. revert l En.
    induction n as [n IH] using lt_wf_ind. intros l En.
    destruct (Nat.lt_ge_cases (length l) bs) as [H|H]; [apply Hshort, H|].
    apply Hlong; [exact H|]. apply (IH (length (skipn bs l))); [rewrite skipn_length; lia|reflexivity].
  Qed.

  Lemma full_rem_short l : length (snd (full l)) < bs.
  Proof.
    induction l as [l H|l H IH] using block_ind.
    - rewrite full_short by assumption. assumption.
    - rewrite full_long by assumption. exact IH.
  Qed.

  Lemma full_concat l : concat (fst (full l)) ++ snd (full l) = l.
  Proof.
    induction l as [l H|l H IH] using block_ind.
    - rewrite full_short by assumption. reflexivity.
    - rewrite full_long by assumption. cbn [fst snd concat].
      rewrite <- app_assoc, IH. apply firstn_skipn.
  Qed.

  Lemma full_blocks_len l : Forall (fun b => length b = bs) (fst (full l)).
  Proof.
    induction l as [l H|l H IH] using block_ind.
    - rewrite full_short by assumption. constructor.
    - rewrite full_long by assumption. constructor; [|exact IH]. rewrite firstn_length. lia.
  Qed.

  Lemma full_app l1 l2 :
    full (l1 ++ l2) = (fst (full l1) ++ fst (full (snd (full l1) ++ l2)), snd (full (snd (full l1) ++ l2))).
  Proof.
    induction l1 as [l1 H|l1 H IH] using block_ind.
    - rewrite (full_short l1) by assumption. cbn [fst snd app]. destruct (full (l1 ++ l2)); reflexivity.
    - rewrite (full_long l1) by assumption. cbn [fst snd].
      rewrite (full_long (l1 ++ l2)) by (rewrite app_length; lia).
      rewrite firstn_app, skipn_app. replace (bs - length l1) with 0 by lia.
      rewrite firstn_O, app_nil_r. cbn [skipn]. rewrite IH. reflexivity.
  Qed.

  Lemma blocks_aux_fuel f1 : forall f2 (l : list A), length l <= f1 -> length l <= f2 -> blocks_aux f1 bs l = blocks_aux f2 bs l.
  Proof.
    induction f1 as [|f1 IH]; intros f2 l H1 H2.
    - destruct l; [|simpl in H1; lia]. destruct f2; reflexivity.
    - destruct f2 as [|f2].
      + destruct l; [|simpl in H2; lia]. reflexivity.
      + destruct l as [|x l']; [reflexivity|]. cbn [blocks_aux]. f_equal.
        apply IH; rewrite skipn_length; cbn [length] in *; lia.
  Qed.

  Lemma blocks_aux_enough fuel (l : list A) : length l <= fuel -> blocks_aux fuel bs l = blocks bs l.
  Proof. intros H. unfold blocks. apply blocks_aux_fuel; lia. Qed.

  Lemma blocks_nil : @blocks A bs [] = [].
  Proof. reflexivity. Qed.

  Lemma blocks_cons (l : list A) : l <> [] -> blocks bs l = firstn bs l :: blocks bs (skipn bs l).
  Proof.
    intros Hl. unfold blocks at 1. destruct l as [|x l']; [congruence|].
    cbn [length blocks_aux]. f_equal.
    apply blocks_aux_enough. rewrite skipn_length. cbn [length]. lia.
  Qed.

  Lemma blocks_full (l : list A) :
    blocks bs l = fst (full l) ++ match snd (full l) with [] => [] | r => [r] end.
  Proof.
    induction l as [l H|l H IH] using block_ind.
    - rewrite full_short by assumption. cbn [fst snd app].
      destruct l as [|x l']; [reflexivity|].
      rewrite blocks_cons by congruence.
      rewrite firstn_all2 by lia. rewrite skipn_all2 by lia. reflexivity.
    - rewrite full_long by assumption. cbn [fst snd].
      assert (l <> []) by (destruct l; [simpl in H; lia|congruence]).
      rewrite blocks_cons by assumption. cbn [app]. f_equal. exact IH.
  Qed.

  Lemma concat_blocks (l : list A) : concat (blocks bs l) = l.
  Proof.
    rewrite <- (full_concat l) at 2. rewrite blocks_full, concat_app. f_equal.
    destruct (snd (full l)); [reflexivity|apply app_nil_r].
  Qed.

  Lemma blocks_nth j : forall (l : list A), j * bs < length l ->
    nth_error (blocks bs l) j = Some (firstn bs (skipn (j * bs) l)).
  Proof.
    induction j as [|j IH]; intros l Hl.
    - assert (l <> []) by (destruct l; [cbn in Hl; lia|congruence]).
      rewrite blocks_cons by assumption. reflexivity.
    - assert (l <> []) by (destruct l; [cbn in Hl; lia|congruence]).
      rewrite blocks_cons by assumption. cbn [nth_error].
      rewrite IH by (rewrite skipn_length; lia).
      rewrite skipn_skipn_add. replace (bs + j * bs) with (S j * bs) by lia. reflexivity.
  Qed.

  Lemma blocks_nth_none j : forall (l : list A), length l <= j * bs -> nth_error (blocks bs l) j = None.
  Proof.
    induction j as [|j IH]; intros l Hl.
    - destruct l; [reflexivity|cbn in Hl; lia].
    - destruct l as [|x l'] eqn:E; [reflexivity|]. rewrite <- E in *.
      rewrite blocks_cons by (subst; congruence). cbn [nth_error].
      apply IH. rewrite skipn_length. lia.
  Qed.

  Lemma blocks_length_iff j (l : list A) : j < length (blocks bs l) <-> j * bs < length l.
  Proof.
    split; intros Hj.
    - destruct (Nat.lt_ge_cases (j * bs) (length l)) as [|Hge]; [assumption|].
      apply blocks_nth_none in Hge. apply nth_error_None in Hge. lia.
    - apply nth_error_Some. rewrite blocks_nth by assumption. discriminate.
  Qed.

  (** pwr's ComputeNumBlocks *)
  Lemma blocks_count (l : list A) : length (blocks bs l) = (length l + bs - 1) / bs.
  Proof. apply lt_ext. intros k. rewrite blocks_length_iff, (count_lt_nat bs _ k bs_pos). lia. Qed.

  Lemma blocks_length_bounds (l : list A) : l <> [] ->
    (length (blocks bs l) - 1) * bs < length l <= length (blocks bs l) * bs.
  Proof.
    intros Hl. set (n := length (blocks bs l)).
    assert (Hn : 0 < n).
    { unfold n. rewrite blocks_cons by assumption. cbn. lia. }
    split.
    - apply blocks_length_iff. lia.
    - destruct (Nat.lt_ge_cases (length l) (n * bs)) as [|Hge]; [lia|].
      destruct (Nat.eq_dec (length l) (n * bs)) as [|Hne]; [lia|].
      assert (n < length (blocks bs l)) by (apply blocks_length_iff; lia). unfold n in *. lia.
  Qed.

  Lemma blocks_nth_inv j (l : list A) b : nth_error (blocks bs l) j = Some b ->
    b = firstn bs (skipn (j * bs) l) /\ j * bs < length l.
  Proof.
    intros Hn. assert (Hj : j * bs < length l) by (apply blocks_length_iff, nth_error_Some; congruence).
    rewrite blocks_nth in Hn by assumption. injection Hn as <-. auto.
  Qed.

  Lemma blocks_nth_length j (l : list A) b : nth_error (blocks bs l) j = Some b ->
    length b = Nat.min bs (length l - j * bs) /\ j * bs < length l.
  Proof.
    intros Hn. destruct (blocks_nth_inv _ _ _ Hn) as [-> Hj].
    rewrite firstn_length, skipn_length. split; lia.
  Qed.

  (** The carry of a re-blocker: it holds [w] while [r] is still to come, and what it emits from
      there on is a function of [w ++ r] alone.  One step cuts a block off the front of [w]
      ([full_carry], [blocks_app_full]) or tops [w] up from [r] to a block ([full_top_up]); at the
      end of the stream what is held is the last block ([blocks_one]). *)
  Lemma full_app_long (w r : list A) : bs <= length w + length r ->
    full (w ++ r) =
    let rest := skipn bs w ++ skipn (bs - length w) r in
    ((firstn bs w ++ firstn (bs - length w) r) :: fst (full rest), snd (full rest)).
  Proof.
    intros H. rewrite full_long by (rewrite app_length; exact H).
    rewrite firstn_app, skipn_app. reflexivity.
  Qed.

  Lemma full_carry (w r : list A) : bs <= length w ->
    full (w ++ r) = (firstn bs w :: fst (full (skipn bs w ++ r)), snd (full (skipn bs w ++ r))).
  Proof.
    intros H. rewrite full_app_long by lia. replace (bs - length w) with 0 by lia.
    cbn [firstn skipn]. rewrite app_nil_r. reflexivity.
  Qed.

  Lemma full_top_up (w r : list A) : length w <= bs <= length w + length r ->
    full (w ++ r) =
    ((w ++ firstn (bs - length w) r) :: fst (full (skipn (bs - length w) r)), snd (full (skipn (bs - length w) r))).
  Proof.
    intros H. rewrite full_app_long by lia. rewrite firstn_all2, skipn_all2 by lia. reflexivity.
  Qed.

  Lemma blocks_app_full (w r : list A) : bs <= length w ->
    blocks bs (w ++ r) = firstn bs w :: blocks bs (skipn bs w ++ r).
  Proof.
    intros H. rewrite !blocks_full, full_carry by exact H. reflexivity.
  Qed.

  Lemma blocks_one (w : list A) : w <> [] -> length w <= bs -> blocks bs w = [w].
  Proof.
    intros Hn Hl. rewrite blocks_cons by exact Hn.
    rewrite firstn_all2, skipn_all2 by exact Hl. reflexivity.
  Qed.

  (** a read that is a whole block, or the last one *)
  Lemma blocks_app_first (d r : list A) : d <> [] -> length d = bs \/ length d <= bs /\ r = [] ->
    blocks bs (d ++ r) = d :: blocks bs r.
  Proof.
    intros Hd [E|[Hl ->]].
    - rewrite blocks_app_full, <- E, firstn_all, skipn_all by lia. reflexivity.
    - rewrite app_nil_r. apply blocks_one; assumption.
  Qed.

End Blocks.
