(** The two sums behind wsync's weak hash, without any wrap-around: [sum1 l] adds the bytes, [sum2 l]
    weighs the byte at index [j] with [length l - j].  A loop that wraps at every step computes
    them up to the wrap ([accumulate]); moving the window by one byte changes them by
    [sum1_roll], [sum2_roll].  Go's [uint32] arithmetic is [mod two32], [% _M] is [mod two16],
    and the masks of Sig/Weak.v and Wsync/Weak.v are these ([mask32_mod], [mask16_mod]). *)
From Wharf Require Import Base.Prelude.
From Coq Require Import ZifyBool ZifyNat ZifyN.
Local Open Scope N_scope.

Definition two32 : N := 4294967296.
Definition two16 : N := 65536.

Lemma mask32_mod x : N.land x 4294967295 = x mod two32.
Proof. change 4294967295 with (N.ones 32). apply N.land_ones. Qed.

Lemma mask16_mod x : N.land x 65535 = x mod two16.
Proof. change 65535 with (N.ones 16). apply N.land_ones. Qed.

Lemma mod_two32_two16 x : (x mod two32) mod two16 = x mod two16.
Proof.
  change two32 with (two16 * two16). rewrite N.mod_mul_r by discriminate.
  rewrite N.mul_comm, N.mod_add by discriminate. apply N.mod_mod. discriminate.
Qed.

Lemma add_mod_cancel_r n a b c : n <> 0 -> (a + c) mod n = (b + c) mod n -> a mod n = b mod n.
Proof.
  intros Hn H. apply N2Z.inj. rewrite !N2Z.inj_mod.
  replace (Z.of_N a) with (Z.of_N (a + c) - Z.of_N c)%Z by lia.
  replace (Z.of_N b) with (Z.of_N (b + c) - Z.of_N c)%Z by lia.
  rewrite Zminus_mod, (Zminus_mod (Z.of_N (b + c))), <- !N2Z.inj_mod, H. reflexivity.
Qed.

(** Go's unsigned subtraction, [x + n - y] wrapped at [n], undoes the addition of [y] modulo [n] *)
Lemma sub_wrap_add n x y : n <> 0 -> ((x + n - y mod n) mod n + y) mod n = x mod n.
Proof.
  intros Hn. rewrite N.add_mod_idemp_l, <- N.add_mod_idemp_r by exact Hn.
  pose proof (N.mod_lt y n Hn) as Hy. revert Hy. generalize (y mod n). intros u Hu.
  replace (x + n - u + u) with (x + 1 * n) by lia. apply N.mod_add, Hn.
Qed.

Lemma sub_two32 x y : y <= x -> (x mod two32 + two32 - y mod two32) mod two32 = (x - y) mod two32.
Proof.
  intros Hle. apply (add_mod_cancel_r _ _ _ y); [discriminate|].
  rewrite <- N.add_mod_idemp_l, sub_wrap_add, N.mod_mod, N.sub_add by (assumption || discriminate). reflexivity.
Qed.

(** [uint32] subtraction of [t], then addition of [z], seen modulo 2^16, the minuend being known
    modulo 2^16 only: 2^16 divides 2^32, so neither wrap shows *)
Lemma sub_add_mod16 s s' t z :
  (s' + t) mod two16 = (s + z) mod two16 ->
  (((s mod two16 + two32 - t mod two32) mod two32 + z) mod two32) mod two16 = s' mod two16.
Proof.
  intros H. rewrite mod_two32_two16. apply (add_mod_cancel_r _ _ _ t); [discriminate|]. rewrite H.
  rewrite N.add_shuffle0, <- N.add_mod_idemp_l, <- (mod_two32_two16 (_ + t)), sub_wrap_add by discriminate.
  rewrite mod_two32_two16, N.mod_mod, N.add_mod_idemp_l by discriminate. reflexivity.
Qed.

Fixpoint sum1 (l : list N) : N := match l with [] => 0 | v :: r => v + sum1 r end.
Fixpoint sum2 (l : list N) : N := match l with [] => 0 | v :: r => N.of_nat (length l) * v + sum2 r end.

Definition weak (l : list N) : N := sum1 l mod two16 + two16 * (sum2 l mod two16).

Lemma sum1_snoc l y : sum1 (l ++ [y]) = sum1 l + y.
Proof. induction l as [|v r IH]; cbn [app sum1]; [|rewrite IH]; lia. Qed.

Lemma sum2_snoc l y : sum2 (l ++ [y]) = sum2 l + sum1 l + y.
Proof.
  induction l as [|v r IH]; cbn [app sum1 sum2 length]; [lia|].
  rewrite IH, app_length. cbn [length]. lia.
Qed.

Lemma sum1_roll x y m : sum1 (m ++ [y]) + x = sum1 (x :: m) + y.
Proof. rewrite sum1_snoc. cbn [sum1]. lia. Qed.

Lemma sum2_roll x y m : sum2 (m ++ [y]) + N.of_nat (length (x :: m)) * x = sum2 (x :: m) + sum1 (m ++ [y]).
Proof. rewrite sum2_snoc, sum1_snoc. cbn [sum2]. lia. Qed.

(** A loop [F len i a b l] over the bytes [l] of a block of [len] bytes, from index [i] on, that adds
    each byte to [a] and [len - i] times the byte to [b], wrapping both by [t] - or not at all,
    [t] the identity. *)
Section Accumulate.
  Variables (F : N -> N -> N -> N -> list N -> N * N) (t : N -> N).
  Hypothesis F_nil : forall len i a b, F len i a b [] = (a, b).
  Hypothesis F_cons : forall len i a b v r, i < len ->
    F len i (t a) (t b) (v :: r) = F len (i + 1) (t (a + v)) (t (b + (len - i) * v)) r.

  Theorem accumulate l : forall len i a b, i + N.of_nat (length l) = len ->
    F len i (t a) (t b) l = (t (a + sum1 l), t (b + sum2 l)).
  Proof.
    induction l as [|v r IH]; intros len i a b Hi; cbn [sum1 sum2].
    - rewrite F_nil, !N.add_0_r. reflexivity.
    - cbn [length] in Hi. rewrite F_cons, IH, !N.add_assoc by lia.
      replace (len - i) with (N.of_nat (length (v :: r))) by (cbn [length]; lia). reflexivity.
  Qed.
End Accumulate.
