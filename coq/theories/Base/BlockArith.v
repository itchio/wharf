(** A file of [n] bytes cut into blocks of [bs]: block [k] is bytes [bs * k] up to
    [min (bs * (k + 1)) n].  How many blocks there are and how long the last one is, as pwr's
    ComputeNumBlocks and ComputeBlockSize compute them, for the models that transcribe the two
    (in [Z] with [/] or [Z.quot], [mod] or [Z.rem]; in [N]). *)
From Coq Require Import ZArith NArith Lia.
Local Open Scope Z_scope.

(** the count is the least [c] with [n <= bs * c] *)
Lemma count_lt bs n k : 0 < bs -> k < (n + bs - 1) / bs <-> bs * k < n.
Proof.
  intros Hb. split; intros H.
  - apply Z.nle_gt. intros Hle. assert ((n + bs - 1) / bs < k + 1) by (apply Z.div_lt_upper_bound; lia). lia.
  - assert (k + 1 <= (n + bs - 1) / bs) by (apply Z.div_le_lower_bound; lia). lia.
Qed.

Lemma count_le bs n c : 0 < bs -> (n + bs - 1) / bs <= c <-> n <= bs * c.
Proof. intros Hb. pose proof (count_lt bs n c Hb). lia. Qed.

Lemma count_covers bs n : 0 < bs -> n <= bs * ((n + bs - 1) / bs).
Proof. intros Hb. apply count_le; [exact Hb | apply Z.le_refl]. Qed.

Lemma count_quot bs n : 0 < bs -> 0 <= n -> Z.quot (n + bs - 1) bs = (n + bs - 1) / bs.
Proof. intros Hb Hn. apply Z.quot_div_nonneg; lia. Qed.

Lemma block_size bs n k : 0 < bs -> bs * k < n -> (if bs * (k + 1) >? n then n mod bs else bs) = Z.min bs (n - bs * k).
Proof.
  intros Hb Hk. destruct (Z.gtb_spec (bs * (k + 1)) n) as [G|G]; [|lia].
  rewrite <- (Z.mod_unique_pos n bs k (n - bs * k)); lia.
Qed.

Lemma block_size_rem bs n k : 0 < bs -> 0 <= n -> bs * k < n ->
  (if bs * (k + 1) >? n then Z.rem n bs else bs) = Z.min bs (n - bs * k).
Proof. intros Hb Hn Hk. rewrite Z.rem_mod_nonneg by lia. apply block_size; assumption. Qed.

Lemma count_N bs n : (0 < bs)%N -> Z.of_N ((n + bs - 1) / bs) = (Z.of_N n + Z.of_N bs - 1) / Z.of_N bs.
Proof. intros Hb. rewrite N2Z.inj_div, N2Z.inj_sub, N2Z.inj_add by lia. reflexivity. Qed.

Lemma count_lt_N bs n k : (0 < bs)%N -> (k < (n + bs - 1) / bs <-> bs * k < n)%N.
Proof. intros Hb. rewrite N2Z.inj_lt, count_N, count_lt by lia. lia. Qed.

Lemma count_lt_nat bs n k : (0 < bs)%nat -> (k < (n + bs - 1) / bs <-> bs * k < n)%nat.
Proof. intros Hb. rewrite Nat2Z.inj_lt, Nat2Z.inj_div, Nat2Z.inj_sub, Nat2Z.inj_add, count_lt by lia. lia. Qed.

Lemma lt_ext (a b : nat) : (forall k, k < a <-> k < b)%nat -> a = b.
Proof. intros H. pose proof (H a). pose proof (H b). lia. Qed.
